(* CallX/Denote.v — the source semantics of Src/Denote.v with ONE extension: the environment carries a
   call oracle [e_call] (what a [callsub] of routine f does to the operand stack and the machine state),
   and [do_op] consults it for the instruction [callsub <ASub f>]; [denote] evaluates [ECall f _ args] as
   "arguments left to right, then that instruction".  Everything that does not depend on the
   environment is re-exported from Src/Denote.v unchanged (same [dout], [bind], [branch], [den_list],
   [den_while], ...), so the two semantics share their result types.

   The other files of CallX/ prove the C01 chain
   (lowering -> NormalizeBlocks -> sortBlocks -> flattenBlocks -> slot assignment) for this
   semantics, whatever the oracle; they serve property C02 (Proofs/CallCompose*.v).  With the oracle
   that knows nothing the semantics is the original one ([do_op_old] for every instruction but the
   call, Proofs/OracleTransfer.v for the rest), which is how the C01 files of the same names under
   Proofs/ obtain their statements. *)
From Coq Require Import List Arith NArith Ascii String Bool.
From PV Require Import Base.Bytes AVM.Syntax AVM.Ops AVM.Machine AVM.Parse Src.Expr Comp.WideRatio.
From PV Require Export Src.Denote.
Import ListNotations.

(* what a call does, as far as the caller is concerned *)
Inductive callres : Type :=
| CRet (stk : list value) (st : mstate)     (* retsub: the callee hands this operand stack back *)
| CExit (v : value) (st : mstate)           (* the callee ended the program *)
| CFail
| CNone.                                    (* no information (fuel, unknown routine, unsupported op) *)

Definition of_callres (r : callres) : dout :=
  match r with
  | CRet s st => DNorm s st
  | CExit v st => DExit v st
  | CFail => DFail
  | CNone => DUnsup O_callsub
  end.

Record denv : Type := mkEnv {
  e_ctx : ctx;
  e_asg : N -> N;
  e_msel : list (string * bytes);
  e_subs : list routine;
  e_in_sub : bool;
  e_param : N -> instr;
  e_call : N -> list value -> mstate -> callres
}.

(* the environment of the original semantics *)
Definition old_env (env : denv) : Src.Denote.denv :=
  Src.Denote.mkEnv (e_ctx env) (e_asg env) (e_msel env) (e_subs env) (e_in_sub env) (e_param env).

Definition arg_to_imm (env : denv) (o : opc) (a : arg) : option imm :=
  match a with
  | AInt n => Some (IInt n)
  | ASlot u => Some (IInt (e_asg env u))
  | ALbl l => Some (IName l)
  | ASub _ => None
  | AStr s =>
      match o with
      | O_byte | O_pushbytes =>
          match parse_bytes_arg (tokens_of_line s) with Some (b, []) => Some (IBytes b) | _ => None end
      | O_int | O_pushint => option_map IInt (parse_int_arg s)
      | O_addr => match decode_base32 s with Some b => Some (IBytes (firstn 32 b)) | None => None end
      | O_method_signature =>
          match parse_string_literal s with
          | Some sig => option_map IBytes (alookup String.eqb (string_of_bytes sig) (e_msel env))
          | None => None
          end
      | _ => Some (IName s)
      end
  end.

Fixpoint args_to_imms (env : denv) (o : opc) (l : list arg) : option (list imm) :=
  match l with
  | [] => Some []
  | a :: t => match arg_to_imm env o a, args_to_imms env o t with Some x, Some r => Some (x :: r) | _, _ => None end
  end.

(* the call instruction as the lowering emits it: [callsub] carrying exactly one routine reference *)
Definition call_target (o : opc) (imms : list arg) : option N :=
  match o, imms with
  | O_callsub, [ASub f] => Some f
  | _, _ => None
  end.

(* one non-control operation; shared by the source semantics and the graph/linear semantics *)
Definition do_op (env : denv) (o : opc) (imms : list arg) (stk : list value) (st : mstate) : dout :=
  match call_target o imms with
  | Some f => of_callres (e_call env f stk st)
  | None =>
  match slot_access o imms with
  (* a variable is a cell of its own: no range check on the (model-assigned) number *)
  | Some (true, u) => DNorm (scratch_get (s_scratch st) (e_asg env u) :: stk) st
  | Some (false, u) =>
      match stk with
      | v :: r => DNorm r (set_scratch st (e_asg env u) v)
      | [] => DFail
      end
  | None =>
      match args_to_imms env o imms with
      | None => DUnsup o
      | Some im =>
          match exec_op (e_ctx env) o im stk st with
          | OOk s st' => DNorm s st'
          | OFail => DFail
          | ONot => if is_err o then DFail else DUnsup o
          | OUnsup => DUnsup o
          end
      end
  end
  end.

Section Helpers.
  Variable env : denv.
  Variable den : expr -> list value -> mstate -> dout.

  Fixpoint den_nary_rest (o : opc) (l : list expr) (stk : list value) (st : mstate) : dout :=
    match l with
    | [] => DNorm stk st
    | x :: t =>
        bind (den x stk st) (fun s2 st2 =>
        bind (do_op env o [] s2 st2) (fun s3 st3 => den_nary_rest o t s3 st3))
    end.

  Fixpoint den_stores (l : list N) (stk : list value) (st : mstate) : dout :=
    match l with
    | [] => DNorm stk st
    | s :: t => bind (do_op env O_store [ASlot s] stk st) (fun s' st' => den_stores t s' st')
    end.

  (* a fixed list of plain operations *)
  Fixpoint den_ops (ops : list instr) (stk : list value) (st : mstate) : dout :=
    match ops with
    | [] => DNorm stk st
    | i :: t => bind (do_op env (i_op i) (i_args i) stk st) (fun s' st' => den_ops t s' st')
    end.

  Fixpoint den_wide_rest (l : list expr) (stk : list value) (st : mstate) : dout :=
    match l with
    | [] => DNorm stk st
    | f :: t =>
        bind (den f stk st) (fun s1 st1 =>
        bind (den_ops mul_step_ops s1 st1) (fun s2 st2 => den_wide_rest t s2 st2))
    end.

  Definition den_factors (fs : list expr) (stk : list value) (st : mstate) : dout :=
    match fs with
    | [] => DNorm stk st
    | [f0] => bind (den_ops [I1 O_int 0] stk st) (fun s1 st1 => den f0 s1 st1)
    | f0 :: f1 :: rest =>
        bind (den f0 stk st) (fun s1 st1 =>
        bind (den f1 s1 st1) (fun s2 st2 =>
        bind (den_ops [I0 O_mulw] s2 st2) (fun s3 st3 => den_wide_rest rest s3 st3)))
    end.
End Helpers.

Section Denote.
  Variable env : denv.

  Fixpoint denote (fuel : nat) (e : expr) (stk : list value) (st : mstate) {struct fuel} : dout :=
    match fuel with
    | O => DFuel
    | S f =>
        let den := denote f in
        match e with
        | EOp o imms _ args =>
            bind (den_list den args stk st) (fun s1 st1 => do_op env o imms s1 st1)
        | ENary o _ args =>
            match args with
            | [] => DNorm stk st
            | a1 :: rest => bind (den a1 stk st) (fun s1 st1 => den_nary_rest env den o rest s1 st1)
            end
        | ESeq es => den_list den es stk st
        | EIf c th el =>
            branch (den c stk st)
                   (fun s1 st1 => den th s1 st1)
                   (fun s1 st1 => match el with Some x => den x s1 st1 | None => DNorm s1 st1 end)
        | ECond arms => den_cond den arms stk st
        | EWhile c body => den_while den f c body stk st
        | EFor ini c stp body =>
            hdr (den ini stk st) (fun s0 st0 => den_for den f c stp body s0 st0)
        | EBreak => DBrk stk st
        | EContinue => DCont stk st
        | EAssert conds _ => den_asserts den conds stk st
        | EReturn v =>
            match v with
            | None =>
                if e_in_sub env then DRet stk st else match stk with r :: _ => DExit r st | [] => DFail end
            | Some x =>
                bind (den x stk st) (fun s1 st1 =>
                  if e_in_sub env then DRet s1 st1
                  else match s1 with r :: _ => DExit r st1 | [] => DFail end)
            end
        | EExit v =>
            bind (den v stk st) (fun s1 st1 => match s1 with r :: _ => DExit r st1 | [] => DFail end)
        | EMulti o imms args outs =>
            bind (den_list den args stk st) (fun s1 st1 =>
            bind (do_op env o imms s1 st1) (fun s2 st2 => den_stores env (rev outs) s2 st2))
        (* a subroutine call: the arguments left to right, then the call instruction (the oracle) *)
        | ECall sub _ args =>
            bind (den_list den args stk st) (fun s1 st1 => do_op env O_callsub [ASub sub] s1 st1)
        | EWide ns ds =>
            bind (den_factors env den ns stk st) (fun s1 st1 =>
            bind (den_factors env den ds s1 st1) (fun s2 st2 => den_ops env combine_ops s2 st2))
        | EParam i => do_op env (i_op (e_param env i)) (i_args (e_param env i)) stk st
        end
    end.
End Denote.

(* ---- relation to the original semantics ---- *)
Lemma arg_to_imm_old env o a : arg_to_imm env o a = Src.Denote.arg_to_imm (old_env env) o a.
Proof. destruct a; reflexivity. Qed.

Lemma args_to_imms_old env o l : args_to_imms env o l = Src.Denote.args_to_imms (old_env env) o l.
Proof.
  induction l as [|a t IH]; [reflexivity|].
  cbn [args_to_imms Src.Denote.args_to_imms]. rewrite arg_to_imm_old, IH. reflexivity.
Qed.

(* every instruction except the call instruction has its original meaning *)
Lemma do_op_old env o imms stk st : call_target o imms = None ->
  do_op env o imms stk st = Src.Denote.do_op (old_env env) o imms stk st.
Proof.
  intros H. unfold do_op, Src.Denote.do_op. rewrite H, args_to_imms_old. reflexivity.
Qed.

Lemma do_op_call env f stk st :
  do_op env O_callsub [ASub f] stk st = of_callres (e_call env f stk st).
Proof. reflexivity. Qed.
