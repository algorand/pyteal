(* CallX/DoOp.v — [do_op] (CallX/Denote.v) by cases: the call instruction ([do_op_call], in
   Denote.v), a variable access ([do_op_load], [do_op_store]), anything else ([do_op_plain]: the
   immediates are resolved and the AVM's [exec_op] runs), and what follows for the opcodes that the
   graph and the linear semantics treat themselves (return, retsub, the branches, err).
   The predicates on opcodes are inverted by a [match] whose default branch is absurd: one small
   term, where [destruct] on the opcode leaves a goal for each. *)
From Coq Require Import List Arith NArith String Bool.
From PV Require Import Base.Bytes AVM.Syntax AVM.Ops AVM.Machine Src.Expr CallX.Denote Comp.Blocks Comp.LinearSem.
Import ListNotations.

Lemma is_return_eq o : is_return o = true -> o = O_return_.
Proof. exact (match o with O_return_ => fun _ => eq_refl | _ => fun H => False_ind _ (diff_false_true H) end). Qed.

Lemma is_retsub_eq o : is_retsub o = true -> o = O_retsub.
Proof. exact (match o with O_retsub => fun _ => eq_refl | _ => fun H => False_ind _ (diff_false_true H) end). Qed.

Lemma is_err_eq o : is_err o = true -> o = O_err.
Proof. exact (match o with O_err => fun _ => eq_refl | _ => fun H => False_ind _ (diff_false_true H) end). Qed.

Lemma is_load_eq o : is_load o = true -> o = O_load.
Proof. exact (match o with O_load => fun _ => eq_refl | _ => fun H => False_ind _ (diff_false_true H) end). Qed.

Lemma is_store_eq o : is_store o = true -> o = O_store.
Proof. exact (match o with O_store => fun _ => eq_refl | _ => fun H => False_ind _ (diff_false_true H) end). Qed.

Lemma is_branch_inv o : is_branch o = true -> o = O_b \/ o = O_bz \/ o = O_bnz.
Proof.
  exact (match o with
         | O_b => fun _ => or_introl eq_refl
         | O_bz => fun _ => or_intror (or_introl eq_refl)
         | O_bnz => fun _ => or_intror (or_intror eq_refl)
         | _ => fun H => False_ind _ (diff_false_true H)
         end).
Qed.

Lemma is_term_op_eq i : is_term_op i = is_return (i_op i) || is_retsub (i_op i) || is_err (i_op i).
Proof. unfold is_term_op. exact (match i_op i with O_err => eq_refl | _ => eq_refl end). Qed.

Lemma none_some {A} (x : A) : None = Some x -> False.
Proof. discriminate. Qed.

Lemma call_target_inv o imms f : call_target o imms = Some f -> o = O_callsub /\ imms = [ASub f].
Proof.
  refine (match o as o0 return call_target o0 imms = Some f -> o0 = O_callsub /\ imms = [ASub f] with
          | O_callsub => _
          | _ => fun H => False_ind _ (none_some f H)
          end).
  destruct imms as [|[] [|]]; intros H; try discriminate H. injection H as <-. split; reflexivity.
Qed.

Lemma slot_access_none o imms : is_load o = false -> is_store o = false -> slot_access o imms = None.
Proof.
  intros H1 H2. unfold slot_access. destruct imms as [|[] [|]]; try reflexivity. rewrite H1, H2. reflexivity.
Qed.

Lemma slot_access_inv o imms b u : slot_access o imms = Some (b, u) ->
  imms = [ASlot u] /\ o = if b then O_load else O_store.
Proof.
  unfold slot_access. destruct imms as [|a [|a2 t]]; try discriminate; destruct a; try discriminate.
  destruct (is_load o) eqn:L.
  - intros E. injection E as <- <-. split; [reflexivity|apply is_load_eq, L].
  - destruct (is_store o) eqn:S; [|discriminate]. intros E. injection E as <- <-.
    split; [reflexivity|apply is_store_eq, S].
Qed.

Lemma do_op_load env u stk st :
  do_op env O_load [ASlot u] stk st = DNorm (scratch_get (s_scratch st) (e_asg env u) :: stk) st.
Proof. reflexivity. Qed.

Lemma do_op_store env u stk st :
  do_op env O_store [ASlot u] stk st =
  match stk with v :: r => DNorm r (set_scratch st (e_asg env u) v) | [] => DFail end.
Proof. reflexivity. Qed.

Lemma do_op_plain env o imms stk st : call_target o imms = None -> slot_access o imms = None ->
  do_op env o imms stk st =
  match args_to_imms env o imms with
  | None => DUnsup o
  | Some im =>
      match exec_op (e_ctx env) o im stk st with
      | OOk s st' => DNorm s st'
      | OFail => DFail
      | ONot => if is_err o then DFail else DUnsup o
      | OUnsup => DUnsup o
      end
  end.
Proof. intros C S. unfold do_op. rewrite C, S. reflexivity. Qed.

(* an operation continues, ends the program (only a call can), fails or is unsupported: it never
   breaks, continues a loop or returns *)
Lemma do_op_shape env o imms stk st :
  match do_op env o imms stk st with DNorm _ _ | DExit _ _ | DFail | DUnsup _ => True | _ => False end.
Proof.
  unfold do_op.
  destruct (call_target o imms) as [cf|]; [destruct (e_call env cf stk st); exact Logic.I|].
  destruct (slot_access o imms) as [[[|] u]|].
  - exact Logic.I.
  - destruct stk; exact Logic.I.
  - destruct (args_to_imms env o imms); [|exact Logic.I].
    destruct (exec_op (e_ctx env) o l stk st); try exact Logic.I.
    destruct (is_err o); exact Logic.I.
Qed.

(* an opcode the AVM's [exec_op] does not execute is unsupported as an operation of a block *)
Lemma do_op_unsup env o imms stk st :
  call_target o imms = None -> is_load o = false -> is_store o = false -> is_err o = false ->
  (forall im, exec_op (e_ctx env) o im stk st = ONot) ->
  do_op env o imms stk st = DUnsup o.
Proof.
  intros C L S E X. rewrite (do_op_plain env o imms stk st C (slot_access_none o imms L S)).
  destruct (args_to_imms env o imms); [|reflexivity]. rewrite X, E. reflexivity.
Qed.

(* return and retsub are the block semantics' business ([exec_ops]), not [do_op]'s *)
Lemma do_op_ctrl env o imms stk st : is_return o = true \/ is_retsub o = true ->
  do_op env o imms stk st = DUnsup o.
Proof.
  intros [H|H]; [apply is_return_eq in H|apply is_retsub_eq in H]; subst o;
    apply do_op_unsup; intros; reflexivity.
Qed.

(* a branch opcode inside a block body is outside the graph semantics: [do_op] reports it *)
Lemma do_op_branch env o imms stk st : is_branch o = true -> do_op env o imms stk st = DUnsup o.
Proof.
  intros H. destruct (is_branch_inv o H) as [->|[->| ->]]; apply do_op_unsup; intros; reflexivity.
Qed.

Lemma jump_of_not_branch i : is_branch (i_op i) = false -> jump_of i = None.
Proof.
  destruct i as [o args].
  exact (match o as o0 return is_branch o0 = false -> jump_of (mkI o0 args) = None with
         | O_b | O_bz | O_bnz => fun H => False_ind _ (diff_true_false H)
         | _ => fun _ => eq_refl
         end).
Qed.

Lemma jump_of_branch i x : jump_of i = Some x -> is_branch (i_op i) = true.
Proof.
  intros H. destruct (is_branch (i_op i)) eqn:B; [reflexivity|].
  rewrite (jump_of_not_branch i B) in H. discriminate H.
Qed.

(* [err] never continues *)
Lemma do_op_err_stops env imms stk st :
  match do_op env O_err imms stk st with DNorm _ _ => False | _ => True end.
Proof.
  rewrite do_op_plain by (reflexivity || (apply slot_access_none; reflexivity)).
  destruct (args_to_imms env O_err imms); [|exact Logic.I]. unfold exec_op. cbn. exact Logic.I.
Qed.

Lemma do_op_err env stk st : do_op env O_err [] stk st = DFail.
Proof. unfold do_op. cbn. destruct stk; reflexivity. Qed.

Lemma do_op_comment env l stk st : do_op env O_comment [AStr l] stk st = DNorm stk st.
Proof. unfold do_op. cbn. destruct stk; reflexivity. Qed.

(* the assert op: pops the condition, fails unless it is a non-zero integer *)
Lemma do_op_assert env stk st :
  do_op env O_assert_ [] stk st =
  match stk with
  | v :: r => match truthy v with Some true => DNorm r st | _ => DFail end
  | [] => DFail
  end.
Proof.
  unfold do_op. destruct stk as [|[n|b] r]; cbn -[N.eqb]; try reflexivity.
  unfold exec_op. cbn -[N.eqb]. destruct (N.eqb n 0); reflexivity.
Qed.
