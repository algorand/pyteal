(* Props/C02_compose.v — Subroutine calls behave as function calls: the COMPOSED theorems.
   Property theorems only (Proof. exact lemma. Qed. + Print Assumptions); proofs in
   Proofs/CallCompose{Link,Main,Layout,Program,Spill,SpillPass,Protect,Bind,Acyclic,Final,Machine,Examples}.v,
   the linked-program semantics in Comp/LinkedSem.v, the semantics with a call oracle in CallX/Denote.v.
   CallX/ holds the proofs of the C01 chain for that semantics, for every oracle; Proofs/OracleTransfer.v
   instantiates them at the oracle that knows nothing, which gives the C01 statements.

   What is proved (scratch-slot calling convention, optimiser off; design_notes/C02_compose.md):
     the linked program (main code, then every subroutine behind its entry label; callsub/retsub with a call
     stack; NO oracle) computes the source semantics [denote_k] of the main routine, in which a call of f
     means: evaluate f's declaration body (store the arguments into the parameters' slots, then the user's
     body, arbitrary control flow, nested calls) on the caller's operand stack; Return hands the stack
     back, Exit ends the program — for every call graph.  For routines the spill pass rewrites, a
     re-entrant call means the outcome of its spill segment, which (C02_wrapped_call_protects) gives the
     callee's result on top of the caller's untouched operands with the caller's local slots restored.
   Section 7 relates [denote_k] to the by-value semantics [denote_c] of Src/DenoteCall.v (acyclic call graph,
   by-value parameters, non-failing runs): C02_by_value_sim, C02_call_correct_nonrecursive_by_value_partial.
   Not proved: the frame-pointer convention; by-reference parameters against [denote_c]; see the comments. *)
From Coq Require Import String.
From Coq Require Import List Arith NArith Bool Lia.
From PV Require Import Base.Bytes Base.Sexp AVM.Syntax AVM.Ops AVM.Machine Src.Expr Src.Denote Src.DenoteCall
  Comp.Blocks Comp.Lower Comp.Passes Comp.GraphSem Comp.LinearSem Comp.LinkedSem Comp.Compile Comp.SpillSem
  Proofs.LowerFrame Proofs.LowerShape Proofs.NormalizeLowered Proofs.SlotComposeAssign Proofs.SpillProof
  CallX.Denote CallX.GraphSem CallX.LinearSem CallX.LowerLemmas CallX.LowerCorrect CallX.FlattenCorrect CallX.EndToEndGlue CallX.EndToEnd
  CallX.SlotCompose CallX.SlotComposeFinal
  Proofs.CallComposeLink Proofs.CallComposeMain Proofs.CallComposeLayout Proofs.CallComposeSpill
  Proofs.CallComposeSpillPass Proofs.CallComposeProtect Proofs.CallComposeBind Proofs.CallComposeAcyclic
  Proofs.CallComposeProgram Proofs.CallComposeFinal Proofs.CallComposeMachine Proofs.CallComposeExamples
  Proofs.CallComposeFrame Proofs.CallComposeByValue Proofs.CallComposeByValueFinal Proofs.CallComposeByValueExample.
Import ListNotations.
Local Open Scope list_scope.

(* ================================================================================================ *)
(* 1. one routine whose body contains calls (the C01 chain, proved in CallX/ for every call oracle)  *)
(* ================================================================================================ *)

(* the oracle-free instructions keep their meaning: the extended semantics is conservative *)
Theorem C02_oracle_conservative : forall env o imms stk st,
  call_target o imms = None ->
  do_op env o imms stk st = Src.Denote.do_op (old_env env) o imms stk st.
Proof. exact do_op_old. Qed.
Print Assumptions C02_oracle_conservative.

(* lowering: [lower_correct] with the ECall case — arguments left to right exactly once, then the block
   holding [callsub], whose step is the oracle's answer (return / program exit / failure) *)
Theorem C02_lower_correct_calls : forall env o fuel c e,
  consistent env c -> lw_ok env (lower o c) (denote env fuel) c e.
Proof. exact lower_correct. Qed.
Print Assumptions C02_lower_correct_calls.

(* the one-routine end-to-end statement (lowering, NormalizeBlocks, slot assignment, sortBlocks,
   flattenBlocks) for bodies with calls: for EVERY oracle the emitted code, with [callsub <routine>] as an
   oracle step, reaches exactly the outcome of the source semantics with that oracle *)
Theorem C02_routine_end_to_end_calls : forall o sub ast0 cr p crs crs' locals asg,
  (match sub with Some r => r_deferred r | None => None end) = None ->
  compile_one o sub ast0 = COk cr ->
  head_loop (root_ast ast0) = false ->
  In cr crs ->
  assign_slots p crs = COk (crs', locals, asg) ->
  requested_valid p (all_slots crs) ->
  let cr' := rw_routine (look_of asg) cr in
  In cr' crs' /\
  forall order code,
  sort_blocks (cr_graph cr') (cr_start cr') (cr_end cr') = Some order ->
  flatten_blocks (cr_graph cr') order = Some code ->
  pos_of (cr_graph cr') order (cr_start cr') = 0 /\
  code_slots code = [] /\
  forall env, consistent env (routine_ctx o sub) ->
  forall fuel stk st h,
    halt_of (denote (with_asg env (look_of asg)) fuel (root_ast ast0) stk st) = Some h ->
    CallX.LinearSem.lstar env code (LAt 0 stk st) h /\
    forall c2, CallX.LinearSem.lstar env code (LAt 0 stk st) c2 -> lfinal c2 = true -> c2 = h.
Proof. exact routine_end_to_end_assigned. Qed.
Print Assumptions C02_routine_end_to_end_calls.

(* ================================================================================================ *)
(* 2. linking                                                                                        *)
(* ================================================================================================ *)

(* the two rules of Comp/LinkedSem.v are the reference machine's *)
Theorem C02_machine_callsub : forall cx p m l t fr,
  nth_error (pr_code p) (m_pc m) = Some (mkP O_callsub [IName l]) ->
  label_pc p l = Some t -> (height m <= STACK_MAX)%nat -> m_calls m = frames_of fr ->
  step cx p m = Running (mkM t (m_stack m) (frames_of (S (m_pc m) :: fr)) true (m_intc m) (m_bytec m) (m_st m)).
Proof. exact machine_callsub. Qed.
Print Assumptions C02_machine_callsub.

Theorem C02_machine_retsub : forall cx p m imms ret fr,
  nth_error (pr_code p) (m_pc m) = Some (mkP O_retsub imms) ->
  (height m <= STACK_MAX)%nat -> m_calls m = frames_of (ret :: fr) ->
  step cx p m = Running (mkM ret (m_stack m) (frames_of fr) false (m_intc m) (m_bytec m) (m_st m)).
Proof. exact machine_retsub. Qed.
Print Assumptions C02_machine_retsub.

(* a run of a routine with an oracle is a run of the linked program, when the oracle's answers are
   realized by the linked program: [callsub <label>] pushes the return address, the callee's code runs from
   its entry label, [retsub] pops the address.  [claimed]: every outcome except "ran off the end of the
   routine's own code" and "unsupported". *)
Theorem C02_link_star : forall xe L base res pre code,
  placed L base res pre code -> linkable code = true -> NoDup (labels_of L) ->
  realizes (old_env xe) L res (e_call xe) ->
  forall fr c c', CallX.LinearSem.lstar xe code c c' -> claimed c' ->
    pstar (old_env xe) L (emb base fr c) (emb base fr c').
Proof. exact link_star. Qed.
Print Assumptions C02_link_star.

(* flatten_subroutines lays the routines out as the link step assumes *)
Theorem C02_flatten_layout_sub : forall frs f r,
  find_routine (fs_subs frs) f = Some r ->
  r_id r = f /\
  exists fr e,
    In fr frs /\ fr_sub fr = Some r /\
    fs_res frs f = Some (fs_label frs r) /\
    nth_error (flatten_subroutines frs) e = Some (CLabel (fs_label frs r) (Some (r_name r))) /\
    placed (flatten_subroutines frs) (S e) (fs_res frs) (fs_label frs r ++ "_")%string (fr_ops fr).
Proof. exact flatten_layout_sub. Qed.
Print Assumptions C02_flatten_layout_sub.

Theorem C02_flatten_layout_main : forall frs mainfr rest,
  frs = mainfr :: rest -> fr_sub mainfr = None -> Forall (fun fr => fr_sub fr <> None) rest ->
  placed (flatten_subroutines frs) 0 (fs_res frs) "main_" (fr_ops mainfr).
Proof. exact flatten_layout_main. Qed.
Print Assumptions C02_flatten_layout_main.

(* ================================================================================================ *)
(* 3. composition over the call graph                                                                *)
(* ================================================================================================ *)

(* every answer of the call semantics, to every depth, is realized by the linked program (induction on the
   depth; any call graph) *)
Theorem C02_linked_calls_realized : forall o cx look msel subs W L res,
  NoDup (labels_of L) ->
  (forall f r, find_routine subs f = Some r -> r_id r = f /\ unit_placed o cx look msel subs W L res r) ->
  forall n, realizes (lenv cx look msel subs) L res (call_k o cx look msel subs W n).
Proof. exact linked_calls_realized. Qed.
Print Assumptions C02_linked_calls_realized.

(* ---- (P) the program-level statement, acyclic call graph --------------------------------------
   For every program the pipeline compiles (optimiser off, no ABI-returning subroutine, main routine not
   loop-headed, requested slot ids < 256): the intermediate results exist and, when the call graph is
   acyclic (a rank function decreasing along calls; then the spill pass changes nothing:
   C02_spill_acyclic_identity), the emitted component list is the pragma followed by L, and — labels of L
   pairwise distinct (property C04), every instruction a call / a branch / free of label and routine
   references (decidable, [linkable]) — for every context:
     (a) every call [call_k n f stk st] that returns/exits/fails is realized by L from f's entry label with one
         more return address on the call stack, up to the matching retsub: the stack the callee hands back
         and its state are those of [call_k];
     (b) the main routine: L run from pc 0 with an empty call stack reaches the outcome of [denote_k].
   [call_k]/[denote_k]: Proofs/CallComposeMain.v — arguments evaluated left to right exactly once, the
   callee's declaration body (C02_decl_body_binds: stores argument i into parameter i's slot) and body
   (arbitrary control flow, nested calls to any depth) evaluated on the caller's stack; [DRet] continues
   after the call with the stack handed back; [DExit] inside a callee ends the program.

   PARTIAL with respect to the aim "agreement with Src/DenoteCall.v [denote_c]".  Missing:
   (1) [denote_k] vs [denote_c]: [denote_c] binds parameters BY VALUE, runs the callee on an EMPTY stack and
       pushes the returned value on the caller's stack, and restores the callee's local slots on exit;
       [denote_k] (= the code) passes the arguments in the parameters' slots, runs the callee on the
       caller's stack and leaves the callee's slots as they are.  Section 7 proves the agreement for
       non-failing runs under explicit hypotheses (C02_call_correct_nonrecursive_by_value_partial); this theorem
       itself needs none of them and also covers by-reference parameters and dynamic scratch access.
       The example C02_compose_denote_c_example shows both semantics on one program: same result and trace,
       different scratch contents.
   (2) the hypotheses [NoDup (labels_of L)] and [linkable] are not derived from the pipeline (C04 proves
       label distinctness for the naming scheme; [linkable] fails only for user operators carrying label
       or routine immediates);
   (3) the [#pragma] line in front of L, and assembling/parsing (stage E);
   (4) the scratch-slot optimiser (known finding: orphan stores) and ABI-returning subroutines (deferred
       expression) are excluded by hypothesis. *)
Theorem C02_call_correct_nonrecursive_partial : forall o modes p comps (rank : N -> nat),
  compile_components o modes p = COk comps -> o_opt_slots o = false ->
  head_loop (root_ast (p_main p)) = false ->
  (forall r, In r (p_subs p) -> r_deferred r = None) ->
  (forall u i, In (u, (i, true)) (p_slots p) -> (i < 256)%N) ->
  exists crs crs' locals asg frs,
    compile_rec (S (List.length (p_subs p))) o p None (p_main p) [] = COk crs /\
    assign_slots p crs = COk (crs', locals, asg) /\
    fold_right flat_step (COk []) crs' = COk frs /\
    (acyclic rank frs ->
     let L := flatten_subroutines frs in
     comps = CPragma (o_version o) :: L /\
     (NoDup (labels_of L) ->
      forallb (fun fr => linkable (fr_ops fr)) frs = true ->
      forall cx msel,
        (forall n, realizes (lenv cx (look_of asg) msel (fs_subs frs)) L (fs_res frs)
                            (call_k o cx (look_of asg) msel (fs_subs frs) idW n)) /\
        (forall n fuel stk st h,
           halt_of (denote_k o cx (look_of asg) msel (fs_subs frs) idW n None fuel (root_ast (p_main p)) stk st) = Some h ->
           claimed h ->
           pstar (lenv cx (look_of asg) msel (fs_subs frs)) L (PAt [] 0 stk st) (emb 0 [] h)))).
Proof. exact call_correct_nonrecursive. Qed.
Print Assumptions C02_call_correct_nonrecursive_partial.

Theorem C02_spill_acyclic_identity : forall rank version p frs locals frs2,
  acyclic rank frs -> spill version p frs locals = COk frs2 -> frs2 = frs.
Proof. exact spill_acyclic_identity. Qed.
Print Assumptions C02_spill_acyclic_identity.

(* ================================================================================================ *)
(* 4. recursion: the spill pass                                                                      *)
(* ================================================================================================ *)

(* code in which some calls are wrapped in straight-line code, run with the raw oracle, against the
   unwrapped code run with the oracle "a wrapped call = the outcome of its segment" *)
Theorem C02_spill_sim : forall wrapper env0 orc,
  wrapper_ok wrapper ->
  forall code c c', CallX.LinearSem.lstar (envW wrapper env0 orc) code c c' -> not_unsup c' ->
    CallX.LinearSem.lstar (envR env0 orc) (flat_map (expand wrapper) code) (mapc wrapper code c) (mapc wrapper code c').
Proof. exact spill_sim. Qed.
Print Assumptions C02_spill_sim.

(* what [spill] does to a routine is such a wrapping *)
Theorem C02_spill_is_wrapping : forall version p frs locals frs2,
  spill version p frs locals = COk frs2 -> frs2 = map (sp_fr version p frs locals) frs.
Proof. exact spill_inv. Qed.
Print Assumptions C02_spill_is_wrapping.

(* ---- the wrapped (re-entrant) call protects the caller's frame -------------------------------
   If the callee, called with [args] in state [st], returns [results] and state [st'] whatever lies below its
   arguments, the call wrapped in the spill code of [slots] returns [results] on top of the caller's
   untouched operands X0; the caller's local slots hold what they held before the call, every other slot
   and every other component of the state is as the callee left it.  (Composition of
   C02_spill_frame_same_type's two halves with the semantics with oracles.) *)
Theorem C02_wrapped_call_protects : forall (version : N) (ret : bool) (slots : list N) (na : nat)
    (wr : N -> option (list comp * list comp)) (env0 : denv) (orc : N -> list value -> mstate -> callres)
    (f : N) (args X0 results : list value) (st st' : mstate),
  wr f = Some (sp_pre version slots na, sp_post version ret slots na) ->
  slots <> [] -> NoDup slots -> Forall slot_ok slots ->
  List.length args = na ->
  (List.length slots + na - 1 <= 255)%nat -> (List.length slots <= 255)%nat ->
  List.length results = (if ret then 1 else 0)%nat ->
  (forall Y, orc f (rev args ++ Y) st = CRet (rev results ++ Y) st') ->
  exists st'',
    wrap wr env0 orc f (rev args ++ X0) st = CRet (rev results ++ X0) st'' /\
    (forall n, scratch_get (s_scratch st'') n =
               if mem_N n slots then scratch_get (s_scratch st) n else scratch_get (s_scratch st') n) /\
    same_rest st' st''.
Proof. exact wrapped_call_protects. Qed.
Print Assumptions C02_wrapped_call_protects.

(* ---- (P) the program-level statement, any call graph ----------------------------------------
   As C02_call_correct_nonrecursive_partial without the acyclicity hypothesis: L is the linked program WITH the
   spill code; the source semantics evaluates a routine's body with the oracle [W_spill]: a call the spill
   pass wrapped (a re-entrant call of a routine with local slots) answers with the outcome of its spill
   segment (characterised by C02_wrapped_call_protects), every other call with the callee's own answer.
   PARTIAL for the same reasons (1)-(4); in addition the hypothesis of C02_wrapped_call_protects (the callee
   is a function of its arguments and the state) is not derived for compiled callees. *)
Theorem C02_call_correct_recursive_partial : forall o modes p comps,
  compile_components o modes p = COk comps -> o_opt_slots o = false ->
  head_loop (root_ast (p_main p)) = false ->
  (forall r, In r (p_subs p) -> r_deferred r = None) ->
  (forall u i, In (u, (i, true)) (p_slots p) -> (i < 256)%N) ->
  exists crs crs' locals asg frs frs2,
    compile_rec (S (List.length (p_subs p))) o p None (p_main p) [] = COk crs /\
    assign_slots p crs = COk (crs', locals, asg) /\
    fold_right flat_step (COk []) crs' = COk frs /\
    spill (o_version o) p frs locals = COk frs2 /\
    let L := flatten_subroutines frs2 in
    comps = CPragma (o_version o) :: L /\
    (NoDup (labels_of L) ->
     forallb (fun fr => linkable (fr_ops fr)) frs2 = true ->
     forall cx msel,
       let W := W_spill o cx (look_of asg) msel (fs_subs frs2) (o_version o) p frs locals in
       (forall n, realizes (lenv cx (look_of asg) msel (fs_subs frs2)) L (fs_res frs2)
                           (call_k o cx (look_of asg) msel (fs_subs frs2) W n)) /\
       (forall n fuel stk st h,
          halt_of (denote_k o cx (look_of asg) msel (fs_subs frs2) W n None fuel (root_ast (p_main p)) stk st) = Some h ->
          claimed h ->
          pstar (lenv cx (look_of asg) msel (fs_subs frs2)) L (PAt [] 0 stk st) (emb 0 [] h))).
Proof. exact call_correct_recursive. Qed.
Print Assumptions C02_call_correct_recursive_partial.

(* ================================================================================================ *)
(* 5. parameters                                                                                     *)
(* ================================================================================================ *)

(* the declaration body pops exactly the arguments, stores argument i into parameter i's slot, and runs the
   user's body on the rest of the stack *)
Theorem C02_decl_body_binds : forall o env, o_use_fp o = false ->
  forall r f (args rest : list value) st,
  List.length args = List.length (r_params r) ->
  denote env (S (S f)) (decl_body o r) (rev args ++ rest) st =
  denote env (S f) (r_body r) rest (bind_rev env (map snd (rev (r_params r))) (rev args) st).
Proof. exact decl_body_binds. Qed.
Print Assumptions C02_decl_body_binds.

(* in that state a by-value parameter reads its argument, and no other slot has changed *)
Theorem C02_param_reads_arg : forall o env, o_use_fp o = false ->
  forall r (args : list value) st i b slot v stk f,
  List.length args = List.length (r_params r) ->
  NoDup (map (e_asg env) (map snd (r_params r))) ->
  nth_error (r_params r) (N.to_nat i) = Some (b, slot) -> nth_error args (N.to_nat i) = Some v ->
  e_param env = param_instr o r ->
  let st1 := bind_rev env (map snd (rev (r_params r))) (rev args) st in
  (b = false -> denote env (S f) (EParam i) stk st1 = DNorm (v :: stk) st1) /\
  (forall n, ~ In n (map (e_asg env) (map snd (r_params r))) ->
             scratch_get (s_scratch st1) n = scratch_get (s_scratch st) n).
Proof. exact param_reads_arg. Qed.
Print Assumptions C02_param_reads_arg.

(* ================================================================================================ *)
(* 6. non-vacuity                                                                                    *)
(* ================================================================================================ *)

(* main: a loop calling f; f: two calls of g, the second while the first result is on the stack (nesting
   depth 2); g: an If with an early Return.  All hypotheses of the acyclic statement hold; its conclusion is
   the run of the linked program to [return] with 24. *)
Example C02_compose_example :
  compile_components ex_opts ex_modes ex_prog = COk ex_comps /\
  ex_comps = CPragma 6 :: ex_L /\
  denote_k ex_opts ex_ctx (look_of ex_asg) [] [ex_f; ex_g] idW 100 None 100 (root_ast ex_main) [] ex_st0 = DExit (VI 24) ex_final /\
  pstar ex_lenv ex_L (PAt [] 0 [] ex_st0) (PExit (VI 24) ex_final) /\
  prun 400 ex_lenv ex_L (PAt [] 0 [] ex_st0) = PExit (VI 24) ex_final.
Proof. exact program_linked_example. Qed.
Print Assumptions C02_compose_example.

(* the by-value semantics of Src/DenoteCall.v on the same program: same result and trace, other scratch *)
Example C02_compose_denote_c_example :
  let ce := mkCEnv (Src.Denote.mkEnv ex_ctx (look_of ex_asg) [] [ex_f; ex_g] false main_param) (fun _ => []) in
  exists st', denote_c ce 100 None [] (with_implicit_return ex_main) [] ex_st0 = DExit (VI 24) st' /\
              s_trace st' = s_trace ex_final /\
              scratch_get (s_scratch st') 0 = scratch_get (s_scratch ex_final) 0 /\
              scratch_get (s_scratch st') 3 = VI 0 /\ scratch_get (s_scratch ex_final) 3 = VI 12.
Proof. exact program_denote_c_example. Qed.
Print Assumptions C02_compose_denote_c_example.

(* factorial with a live local across the recursive call: the linked program contains the spill code
   (load 0; load 1; uncover 2; callsub fact_0; cover 2; store 1; store 0) and returns 4! + 1 *)
Example C02_compose_recursion_example :
  compile_components ex_opts ex_modes rec_prog = COk rec_comps /\
  rec_comps = CPragma 6 :: rec_L /\
  denote_k ex_opts ex_ctx (look_of rec_asg) [] [ex_fact] rec_W 100 None 100 (root_ast rec_main) [] ex_st0
    = DExit (VI 25) rec_final /\
  pstar rec_lenv rec_L (PAt [] 0 [] ex_st0) (PExit (VI 25) rec_final) /\
  prun 600 rec_lenv rec_L (PAt [] 0 [] ex_st0) = PExit (VI 25) rec_final.
Proof. exact program_linked_recursion_example. Qed.
Print Assumptions C02_compose_recursion_example.

(* ================================================================================================ *)
(* 7. the by-value reading: [denote_c] of Src/DenoteCall.v                                           *)
(* ================================================================================================ *)

(* the frame property of the AVM operations: every operation except the four scratch opcodes, when it
   succeeds on a stack, succeeds on every extension of it with the extension untouched, leaves the scratch
   space alone and does not depend on it *)
Theorem C02_exec_op_frame : forall cx o imms stk st s' st',
  scratch_op o = false ->
  exec_op cx o imms stk st = OOk s' st' ->
  s_scratch st' = s_scratch st /\
  forall sc rest, exec_op cx o imms (stk ++ rest) (with_sc sc st) = OOk (s' ++ rest) (with_sc sc st').
Proof. exact exec_op_frame. Qed.
Print Assumptions C02_exec_op_frame.

(* ---- [denote_c] -> [denote_k] ------------------------------------------------------------------
   Program conditions: [params_ok] (parameters by value; their slot objects are the list PL; parameter slot
   numbers of one routine pairwise distinct; equal numbers only between routines of equal rank),
   [bodies_ok]/[okb k e] (every operator of e is a variable access to a slot object whose number is not a
   parameter slot's, or is none of load/store/loads/stores and carries no such slot object; MultiValue output
   slots likewise; every call goes to a routine of rank < k), [disciplined] (a routine that returns leaves
   exactly its result on its own stack — the property whose failure is the known finding ctrl-in-operand).
   Then, by induction on the fuel of [denote_c] (no restoring of callee slots: [ce_locals = []]): for the
   routine [cur] (rank >= k) with argument values [args], whenever the two states agree outside the parameter
   slots ([Rel]) and the parameter slots of [cur] hold [args] ([Bound]), every NON-FAILING outcome of
   [denote_c] on stack [stk] is the outcome of [denote_k] on [stk ++ rest] for every depth n >= fuel + 3 and
   every fuel f' >= fuel: same kind, stack [s ++ rest] — the callee runs on the caller's stack and does not
   touch [rest] —, states related again, parameter slots of every routine of rank >= k unchanged ([Keeps]). *)
Theorem C02_by_value_sim : forall o, o_use_fp o = false ->
  forall cx look msel subs rank PL,
  params_ok look subs rank PL -> bodies_ok look subs rank PL -> disciplined cx look msel subs ->
  forall f k cur args, cur_ok subs rank k cur ->
  forall n f', (f + 3 <= n)%nat -> (f <= f')%nat ->
  SimDen look subs rank PL k cur args (denote_c (ceC cx look msel subs) f cur args)
         (denote (envK o cx look msel subs cur n) f').
Proof. exact by_value_sim. Qed.
Print Assumptions C02_by_value_sim.

(* ---- (P) the linked program against [denote_c] ------------------------------------------------
   C02_call_correct_nonrecursive_partial composed with C02_by_value_sim: if the by-value semantics of the main
   routine ends the program with value v in state stC, the linked program run from pc 0 reaches [return] with v
   in a state that differs from stC at most in the scratch cells of parameter slots (same trace, same
   application state, same remaining scratch).
   PARTIAL with respect to "agreement between denote_c and the linked code".  Missing:
   (a) FAILING runs: when [denote_c] fails nothing is claimed (a callee that underflows its own empty stack
       fails in [denote_c] but would pop the caller's operands in the code);
   (b) by-reference (ScratchVar) parameters and dynamic scratch access ([loads]/[stores], raw load/store):
       excluded by [params_ok]/[okb] (covered by the [denote_k] statement only);
   (c) [disciplined] is a hypothesis, not derived from well-typedness (ctrl-in-operand is its failure);
   (d) [ce_locals = fun _ => []]: [denote_c] as run by the harness restores the callee's local slots on exit
       (the table of [model_assignment_locals]); that the restore is unobservable needs validateSlots;
   (e) as in C02_call_correct_nonrecursive_partial: [NoDup (labels_of L)], [linkable], the pragma, stage E,
       optimiser off, no ABI-returning subroutine, scratch-slot convention ([o_use_fp = false]). *)
Theorem C02_call_correct_nonrecursive_by_value_partial : forall o modes p comps (rank : N -> nat) (PL : list N),
  compile_components o modes p = COk comps -> o_opt_slots o = false -> o_use_fp o = false ->
  head_loop (root_ast (p_main p)) = false ->
  (forall r, In r (p_subs p) -> r_deferred r = None) ->
  (forall u i, In (u, (i, true)) (p_slots p) -> (i < 256)%N) ->
  exists crs crs' locals asg frs,
    compile_rec (S (List.length (p_subs p))) o p None (p_main p) [] = COk crs /\
    assign_slots p crs = COk (crs', locals, asg) /\
    fold_right flat_step (COk []) crs' = COk frs /\
    (acyclic rank frs ->
     let L := flatten_subroutines frs in
     let subs := fs_subs frs in
     let look := look_of asg in
     comps = CPragma (o_version o) :: L /\
     (NoDup (labels_of L) ->
      forallb (fun fr => linkable (fr_ops fr)) frs = true ->
      forall cx msel,
        params_ok look subs rank PL -> bodies_ok look subs rank PL -> disciplined cx look msel subs ->
        forall k, okb look subs rank PL k (root_ast (p_main p)) = true ->
        forall f st v stC,
          denote_c (ceC cx look msel subs) f None [] (root_ast (p_main p)) [] st = DExit v stC ->
          exists stK, pstar (lenv cx look msel subs) L (PAt [] 0 [] st) (PExit v stK) /\ Rel look PL stK stC)).
Proof. exact call_correct_nonrecursive_by_value. Qed.
Print Assumptions C02_call_correct_nonrecursive_by_value_partial.

(* non-vacuity: a loop in main calling g (If with an early Return) eight times; every hypothesis holds —
   [disciplined] for g is proved for all fuels, arguments and states —; both semantics give 24 *)
Example C02_by_value_example :
  compile_components ex_opts ex_modes bv_prog = COk bv_comps /\
  bv_comps = CPragma 6 :: bv_L /\
  denote_c bv_ce 100 None [] (root_ast bv_main) [] bv_st0 = DExit (VI 24) bv_stC /\
  exists stK, pstar (lenv ex_ctx bv_look [] [ex_g]) bv_L (PAt [] 0 [] bv_st0) (PExit (VI 24) stK) /\
              Rel bv_look bv_PL stK bv_stC /\
              s_trace stK = s_trace bv_stC /\
              scratch_get (s_scratch stK) 0 = scratch_get (s_scratch bv_stC) 0 /\
              scratch_get (s_scratch stK) 1 = scratch_get (s_scratch bv_stC) 1.
Proof. exact by_value_example. Qed.
Print Assumptions C02_by_value_example.
