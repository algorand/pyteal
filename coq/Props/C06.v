(* Props/C06.v — ABI values assembled in PyTeal encode exactly per ARC-4.
   Property theorems only; proofs live in Proofs/ABIEncode*.v (and Proofs/ABIDescrProof.v for __str__).
   Model: ABI/Encode.v (what the generated code computes).  Spec: ABI/Spec.v (ARC-4). *)
From Coq Require Import List NArith ZArith Ascii String Bool.
From PV Require Import Base.Bytes Base.U64 AVM.Syntax AVM.Ops ABI.Types ABI.Spec ABI.Descr ABI.Encode
  Proofs.ABIDescrProof Proofs.ABIEncodeOps Proofs.ABIEncodeDescr Proofs.ABIEncodeBool Proofs.ABIEncodeTuple
  Proofs.ABIEncodeSet Proofs.ABIEncodeCap.
Import ListNotations.
Local Open Scope N_scope.

(* descriptors: PyTeal's are the ARC-4 spec's, for every type of any depth.
   str(type_spec) is the ARC-4 type string *)
Theorem C06_type_str_agrees : forall t, py_str t = type_str t.
Proof. exact py_str_type_str. Qed.
Print Assumptions C06_type_str_agrees.

(* type_spec.is_dynamic() *)
Theorem C06_is_dynamic_agrees : forall t, py_is_dynamic t = is_dynamic t.
Proof. exact py_is_dynamic_agrees. Qed.
Print Assumptions C06_is_dynamic_agrees.

(* type_spec.byte_length_static(): raises exactly for dynamic types, otherwise the ARC-4 static length with
   runs of consecutive bools packed (the _bool_aware_static_byte_length loop); for every type without a
   transaction spec inside (every ARC-4 value type) *)
Theorem C06_static_len_agrees : forall t, has_txn t = false -> py_byte_length_static t = static_len_opt t.
Proof. exact py_byte_length_static_agrees. Qed.
Print Assumptions C06_static_len_agrees.

Theorem C06_static_len_agrees_arc4 : forall t, encodable t = true -> py_byte_length_static t = static_len_opt t.
Proof. intros t H. exact (py_byte_length_static_agrees t (encodable_no_txn t H)). Qed.
Print Assumptions C06_static_len_agrees_arc4.

(* the model's primitive operations are the AVM's opcodes *)
Theorem C06_model_ops_are_avm_ops :
  (forall n r, exec_pure O_itob [] (VI n :: r) = POk (VB (x_itob n) :: r)) /\
  (forall b s r, exec_pure O_extract [AInt s; AInt 0] (VB b :: r) =
                 match x_suffix b s with Some x => POk (VB x :: r) | None => PFail end) /\
  (forall b i v r, exec_pure O_setbit [] (VI v :: VI i :: VB b :: r) =
                   match x_setbit b i v with Some x => POk (VB x :: r) | None => PFail end) /\
  (forall b i v r, exec_pure O_setbyte [] (VI v :: VI i :: VB b :: r) =
                   match x_setbyte b i v with Some x => POk (VB x :: r) | None => PFail end) /\
  (forall n r, exec_pure O_logic_not [] (VI n :: r) = POk (VI (x_not n) :: r)) /\
  (forall a b r, exec_pure O_concat [] (VB b :: VB a :: r) =
                 match x_concat (Some MAX_BYTES) a b with Some x => POk (VB x :: r) | None => PFail end).
Proof.
  exact (conj itob_is_avm (conj suffix_is_avm_extract (conj setbit_is_avm (conj setbyte_is_avm
        (conj not_is_avm concat_is_avm))))).
Qed.
Print Assumptions C06_model_ops_are_avm_ops.

(* uint_encode of a value below 2^N is its N/8-byte big-endian form (N = 8, 16, 32, 64) *)
Theorem C06_uint_encode_correct : forall bits n, pyteal_uint_bits bits = true -> n < 2 ^ bits ->
    uint_encode bits n = Some (be_encode (N.to_nat (bits / 8)) n).
Proof. exact uint_encode_correct. Qed.
Print Assumptions C06_uint_encode_correct.

(* uint_set: a Python int is rejected at construction iff it is negative or >= 2^N;
   an expression (a uint64 at run time) makes the program fail iff its value is >= 2^N — for N = 64 there is
   no check and none is needed — and otherwise the value itself is stored *)
Theorem C06_uint_set_rejects_iff_overflow :
  (forall size z, uint_set_const size z = None <-> (z < 0 \/ 2 ^ Z.of_N size <= z)%Z) /\
  (forall size n, n < U64 ->
     (uint_set_expr size n = None <-> 2 ^ size <= n) /\ (forall m, uint_set_expr size n = Some m -> m = n)).
Proof. exact (conj uint_set_const_rejects_iff uint_set_expr_fails_iff). Qed.
Print Assumptions C06_uint_set_rejects_iff_overflow.

(* _encode_bool_sequence (SetBit i for i = 0.., into ceil(n/8) zero bytes) of cells holding 0/1 is the ARC-4
   packing: first bool = most significant bit of the first byte, zero padding; any number of bools *)
Theorem C06_bool_pack_correct : forall bs, encode_bool_sequence (map b2N bs) = Some (pack_bools bs).
Proof. exact bool_pack_correct. Qed.
Print Assumptions C06_bool_pack_correct.

(* For every member list (any types, any length) whose cells hold what the spec encodes for the members
   ([rep]: a bool cell holds 0/1; a static member's encode() yields the spec bytes, of the static length of its
   type; a dynamic member's cell holds the spec bytes):
   - if construction succeeds, the generated code computes EXACTLY the spec's head/tail assembly — including the
     case where the spec has none because a tail offset exceeds 65535: then the range assert on
     tail_offset_accumulator fails (the program fails), there is no silent wrap;
   - construction is rejected only when the spec has no encoding (the first tail offset = the head length does
     not fit a uint16). *)
Theorem C06_encode_tuple_correct : forall vals es, Forall2 rep vals es ->
    (encode_tuple_ok vals = true -> encode_tuple_run None vals = assemble es) /\
    (encode_tuple_ok vals = false -> assemble es = None).
Proof. exact encode_tuple_correct. Qed.
Print Assumptions C06_encode_tuple_correct.

(* Array.set([members]) = the tuple assembly of the members, for a dynamic array preceded by the uint16 element
   count (bool arrays and arrays of dynamic elements included: they are member lists like any other) *)
Theorem C06_array_set_correct : forall (dynamic : bool) vals es, Forall2 rep vals es ->
    let spec := if dynamic
                then obind (u16 (N.of_nat (List.length vals))) (fun p => obind (assemble es) (fun b => Some (p ++ b)))
                else assemble es in
    (array_set_ok dynamic vals = true -> array_set_run None dynamic vals = spec) /\
    (array_set_ok dynamic vals = false -> spec = None).
Proof. exact array_set_correct. Qed.
Print Assumptions C06_array_set_correct.

Theorem C06_string_set_correct : forall bs,
    (encoded_byte_string bs = arc4_encode TString (VBytes bs)) /\
    (blen bs <= MAX_BYTES -> store_encoded_expr_byte_string None bs = arc4_encode TString (VBytes bs)) /\
    (forall l b, store_encoded_expr_byte_string (Some l) bs = Some b -> store_encoded_expr_byte_string None bs = Some b).
Proof. exact string_set_correct. Qed.
Print Assumptions C06_string_set_correct.

(* String.set(Expr) writes the length prefix without a range check; it is correct only because AVM byte strings
   cannot reach 65536 bytes (witness on the uncapped machine: 65536 zero bytes get the prefix 0x0000) *)
Theorem C06_string_set_expr_relies_on_avm_cap :
  let bs := repeat zero (N.to_nat 65536) in
  store_encoded_expr_byte_string None bs = Some (be_encode 2 0 ++ bs) /\ arc4_encode TString (VBytes bs) = None.
Proof. exact string_set_expr_wraps_without_cap. Qed.
Print Assumptions C06_string_set_expr_relies_on_avm_cap.

(* For every type PyTeal can build (nested arbitrarily), every way of handing the parts to set(...) (Python
   constants, run-time expressions, copies, member instances — recursively), and the value v these parts denote:
   x.set(...); Log(x.encode()) logs exactly arc4_encode t v when the spec has an encoding, and otherwise is rejected
   at construction or fails at run time.  Hypotheses: run-time inputs are AVM stack values (uint64 < 2^64, byte
   strings <= 4096 bytes). *)
Theorem C06_set_encodes_per_arc4 : forall t s v,
    pyteal_ty t = true -> src_wf s = true -> denote t s = Some v ->
    set_outcome None t s =
    match arc4_encode t v with
    | Some bs => OBytes bs
    | None => if set_ok t s then OFail else OReject
    end.
Proof. exact set_encodes_per_arc4. Qed.
Print Assumptions C06_set_encodes_per_arc4.

(* The same on a machine whose concat caps byte strings at l bytes (l = 4096: the AVM): the ARC-4 encoding is
   logged whenever it fits the cap (every intermediate string is a piece of the final encoding); an encoding
   beyond the cap makes the program fail (or, when no concat is involved, still comes out right) — never wrong
   bytes; a value without encoding is rejected / fails exactly as on the uncapped machine. *)
Theorem C06_set_encodes_per_arc4_on_avm : forall l t s v,
    pyteal_ty t = true -> src_wf s = true -> denote t s = Some v ->
    match arc4_encode t v with
    | Some bs =>
        if blen bs <=? l then set_outcome (Some l) t s = OBytes bs
        else set_outcome (Some l) t s = OBytes bs \/ set_outcome (Some l) t s = OFail
    | None => set_outcome (Some l) t s = if set_ok t s then OFail else OReject
    end.
Proof. exact set_encodes_per_arc4_capped. Qed.
Print Assumptions C06_set_encodes_per_arc4_on_avm.

(* capped vs uncapped machine, for every type and source (no well-formedness hypothesis) *)
Theorem C06_capped_outcome : forall l t s,
    set_outcome (Some l) t s =
    match set_outcome None t s with
    | OBytes bs => if blen bs <=? l then OBytes bs else set_outcome (Some l) t s
    | OReject => OReject
    | OFail => OFail
    end.
Proof. exact capped_outcome. Qed.
Print Assumptions C06_capped_outcome.

Theorem C06_capped_outcome_sound : forall l t s,
    (forall bs, set_outcome (Some l) t s = OBytes bs -> set_outcome None t s = OBytes bs) /\
    (set_outcome (Some l) t s = OReject <-> set_outcome None t s = OReject).
Proof. exact capped_outcome_sound. Qed.
Print Assumptions C06_capped_outcome_sound.
