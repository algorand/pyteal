(* Props/C07.v — ABI decoding and element access return the encoded components.
   Property theorems only (statements about the model coq/ABI/Index.v against the ARC-4 spec
   coq/ABI/Spec.v and the AVM opcode semantics coq/AVM/Ops.v); proofs live in Proofs/ABIIndex*.v.

   Reading guide:  [index_tuple ts i] / [array_elem_plan arr] / [get_plan t] / [decode_plan t ...] are the
   expression trees PyTeal builds (tuple.py _index_tuple, array_base.py ArrayElement.store_into, get(), decode());
   [exec_plan ver p enc idx] runs such a tree on the encoded bytes [enc] with index value [idx] using
   [exec_pure] (None = the program fails);  [stored t v] is what the output value must hold for component
   v : t  (uint64 for bool/byte/uintN, the ARC-4 encoding otherwise).
   (F) marks a part of the property proved in full, (R) a part refuted by the theorem that follows. *)
From Coq Require Import List NArith.
From PV Require Import Base.Bytes Base.U64 AVM.Syntax AVM.Ops ABI.Types ABI.Spec ABI.Index
  Proofs.ABIIndexAsm Proofs.ABIIndexSel Proofs.ABIIndexTuple Proofs.ABIIndexArray
  Proofs.ABIIndexDecode Proofs.ABIIndexOob.
Import ListNotations.
Local Open Scope N_scope.

(* (F) tuple[i] / named-tuple field i: for EVERY member-type list, every encodable value, every position *)
Theorem C07_index_tuple_correct : forall ver nm ts vs enc i t v idx,
    EXTRACT_MIN_VERSION <= ver ->
    arc4_encode (TTuple nm ts) (VList vs) = Some enc -> blen enc <= MAX_BYTES ->
    nth_error ts i = Some t -> nth_error vs i = Some v -> pyteal_elem t = true ->
    exists p sv, index_tuple ts i = Some p /\ stored t v = Some sv /\ exec_plan ver p enc idx = Some sv.
Proof. exact index_tuple_correct. Qed.
Print Assumptions C07_index_tuple_correct.

(* (F) array[i], static and dynamic arrays (incl. address/string/byte strings), every element kind, every
   in-range index; the plan only sees the VALUE of the index expression, so this covers constant and
   run-time indices alike *)
Theorem C07_array_elem_correct : forall ver arr e slen v enc vs i x,
    EXTRACT_MIN_VERSION <= ver ->
    array_info arr = Some (e, slen) -> arc4_encode arr v = Some enc -> blen enc <= MAX_BYTES ->
    elems_of v = Some vs -> nth_error vs i = Some x -> pyteal_elem e = true -> nlen vs < U64 ->
    exists p sv, array_elem_plan arr = Some p /\ stored e x = Some sv /\
                 exec_plan ver p enc (N.of_nat i) = Some sv.
Proof. exact array_elem_correct. Qed.
Print Assumptions C07_array_elem_correct.

(* (F) length() *)
Theorem C07_length_correct : forall arr e slen v enc vs idx,
    array_info arr = Some (e, slen) -> arc4_encode arr v = Some enc -> elems_of v = Some vs ->
    nlen vs < U64 ->
    eval_iexpr enc idx (length_expr slen) = Some (nlen vs).
Proof. exact length_correct. Qed.
Print Assumptions C07_length_correct.

(* (F) get() on String / DynamicBytes strips the 2-byte prefix; on Address / StaticBytes it is the identity *)
Theorem C07_bytes_get_correct : forall ver t bs enc idx,
    EXTRACT_MIN_VERSION <= ver -> arc4_encode t (VBytes bs) = Some enc -> blen enc <= MAX_BYTES ->
    match t with TString | TDynBytes | TAddress | TStaticBytes _ => True | _ => False end ->
    exists p, get_plan t = Some p /\ exec_plan ver p enc idx = Some (VB bs).
Proof. intros ver t bs enc idx Hv He _. now apply bytes_get_correct. Qed.
Print Assumptions C07_bytes_get_correct.

(* (F) x.decode(encoded) on the encoding of x's own type: bool -> the bit, uintN -> the number (get() then
   loads it), everything else -> the bytes *)
Theorem C07_decode_whole_correct : forall ver t v enc idx,
    EXTRACT_MIN_VERSION <= ver -> arc4_encode t v = Some enc -> blen enc <= MAX_BYTES -> pyteal_elem t = true ->
    exists p sv, decode_plan t None None None = Some p /\ stored t v = Some sv /\ exec_plan ver p enc idx = Some sv.
Proof. intros ver t v enc idx Hv He _. now apply decode_whole_correct. Qed.
Print Assumptions C07_decode_whole_correct.

(* (F) uint_decode with its start / end / length variants *)
Theorem C07_uint_decode_correct : forall ver bits n enc idx a c s e l,
    (bits = 8 \/ bits = 16 \/ bits = 32 \/ bits = 64) -> n < 2 ^ bits ->
    enc = a ++ be_encode (N.to_nat (bits / 8)) n ++ c ->
    eval_iexpr enc idx (odefault s (IInt 0)) = Some (blen a) ->
    (s = None -> e = None -> l = None -> bits = 64 -> a = [] /\ c = []) ->
    exists p, uint_decode bits s e l = Some p /\ exec_plan ver p enc idx = Some (VI n).
Proof. exact uint_decode_correct. Qed.
Print Assumptions C07_uint_decode_correct.

(* (F) the opcode chosen for constant arguments means what substring3 / extract3 / "to the end" mean
   (incl. `extract s 0`, the one-byte immediates, the version gates) *)
Theorem C07_substring_choice_correct :
  (forall ver s e o enc, sel_substring ver s e = SelOk o -> s < U64 -> e < U64 ->
                         exec_sel enc o s e true = do_substring3 enc s e) /\
  (forall ver s l o enc, sel_extract ver s l = SelOk o -> s < U64 -> l < U64 ->
                         exec_sel enc o s l false = do_extract3 enc s l) /\
  (forall ver s o enc, sel_suffix ver s = SelOk o -> s < U64 ->
                       exec_sel enc o s 0 false = do_substring3 enc s (blen enc)) /\
  (forall ver a b o, (sel_substring ver a b = SelOk o \/ sel_extract ver a b = SelOk o \/ sel_suffix ver a = SelOk o) ->
                     match o with
                     | SExtractImm s l => s < 256 /\ l < 256
                     | SSubstringImm s e => s < 256 /\ e < 256
                     | _ => True
                     end).
Proof.
  split; [exact sel_substring_correct|]. split; [exact sel_extract_correct|].
  split; [exact sel_suffix_correct | exact sel_imm_range].
Qed.
Print Assumptions C07_substring_choice_correct.

Theorem C07_selector_errors :
  (forall ver s e, sel_substring ver s e = SelError <->
       (e < s \/ (ver < SUBSTRING_MIN_VERSION /\ (e = s \/ ver < EXTRACT_MIN_VERSION)))) /\
  (forall ver s l, sel_extract ver s l = SelError <-> ver < EXTRACT_MIN_VERSION) /\
  (forall ver s, sel_suffix ver s = SelError <->
       ((s < 256 /\ ver < EXTRACT_MIN_VERSION) \/ (256 <= s /\ ver < SUBSTRING_MIN_VERSION))).
Proof. split; [exact sel_substring_error|]. split; [exact sel_extract_error | exact sel_suffix_error]. Qed.
Print Assumptions C07_selector_errors.

(* (F) element static, not bool, at least one byte: EVERY index >= length fails — static arrays (idx >= N)
   and dynamic arrays, any index value up to 2^64-1 and beyond *)
Theorem C07_array_oob_fails_static_elems : forall ver arr e slen v enc vs idx p,
    array_info arr = Some (e, slen) -> arc4_encode arr v = Some enc -> elems_of v = Some vs ->
    is_bool e = false -> is_dynamic e = false -> 0 < static_len e -> pyteal_elem e = true ->
    nlen vs <= idx ->
    array_elem_plan arr = Some p -> exec_plan ver p enc idx = None.
Proof. exact array_oob_fails_static_elems. Qed.
Print Assumptions C07_array_oob_fails_static_elems.

(* (F) bool arrays fail beyond the last byte ... *)
Theorem C07_array_oob_bool_fails_beyond_padding : forall ver arr slen v enc vs,
    array_info arr = Some (TBool, slen) -> arc4_encode arr v = Some enc -> elems_of v = Some vs ->
    forall idx, 8 * bool_seq_len (nlen vs) <= idx ->
    exec_plan ver (PGetbit (if match slen with None => true | Some _ => false end then IAdd IIdx (IInt 16) else IIdx)) enc idx = None.
Proof. exact array_oob_bool_fails_beyond_padding. Qed.
Print Assumptions C07_array_oob_bool_fails_beyond_padding.

(* (R) ... but inside the last byte every out-of-range index returns 0 instead of failing *)
Theorem C07_array_oob_bool_padding_returns_zero : forall ver arr slen v enc vs,
    array_info arr = Some (TBool, slen) -> arc4_encode arr v = Some enc -> elems_of v = Some vs ->
    forall idx, nlen vs <= idx -> idx < 8 * bool_seq_len (nlen vs) ->
    exec_plan ver (PGetbit (if match slen with None => true | Some _ => false end then IAdd IIdx (IInt 16) else IIdx)) enc idx = Some (VI 0).
Proof. exact array_oob_bool_padding_returns_zero. Qed.
Print Assumptions C07_array_oob_bool_padding_returns_zero.

Theorem C07_bool_plan : forall arr slen, array_info arr = Some (TBool, slen) ->
    array_elem_plan arr = Some (PGetbit (if match slen with None => true | Some _ => false end then IAdd IIdx (IInt 16) else IIdx)).
Proof. exact bool_plan. Qed.
Print Assumptions C07_bool_plan.

(* (R) elements of byte length 0: no index fails *)
Theorem C07_array_oob_zero_length_elems_never_fail : forall ver arr e slen v enc vs idx,
    array_info arr = Some (e, slen) -> arc4_encode arr v = Some enc -> elems_of v = Some vs ->
    is_bool e = false -> is_dynamic e = false -> static_len e = 0 -> pyteal_elem e = true ->
    idx < U64 ->
    exists p, array_elem_plan arr = Some p /\ exec_plan ver p enc idx = Some (VB []).
Proof. exact array_oob_zero_length_elems_never_fail. Qed.
Print Assumptions C07_array_oob_zero_length_elems_never_fail.

(* (R) arrays of dynamic elements: tail bytes are read as a head offset; witness string[] = ["\x00\x03"], index 1 *)
Theorem C07_array_oob_dynamic_elem_witness :
  exists enc p out, arc4_encode wit_dyn_ty wit_dyn_val = Some enc /\ array_elem_plan wit_dyn_ty = Some p /\
                    exec_plan 8 p enc 1 = Some (VB out).
Proof. exact array_oob_dynamic_elem_witness. Qed.
Print Assumptions C07_array_oob_dynamic_elem_witness.

(* (R) hence the property's last sentence, stated for all arrays, is false of the faithful model *)
Theorem C07_array_oob_refuted :
  ~ (forall ver arr e slen v enc vs idx p,
        array_info arr = Some (e, slen) -> arc4_encode arr v = Some enc -> elems_of v = Some vs ->
        nlen vs <= idx -> array_elem_plan arr = Some p -> exec_plan ver p enc idx = None).
Proof. exact array_oob_refuted. Qed.
Print Assumptions C07_array_oob_refuted.

(* the byte-level facts the theorems rest on (about the ARC-4 spec only) *)
Theorem C07_encode_static_len : forall t v bs,
    arc4_encode t v = Some bs -> is_dynamic t = false -> blen bs = static_len t.
Proof. exact Proofs.ABIIndexElems.encode_static_len. Qed.
Print Assumptions C07_encode_static_len.
