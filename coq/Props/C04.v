(* Props/C04.v — Successful compilation yields complete, target-legal TEAL.

   What is proved here, and about what:

   (A) The checker AVM/LegalCheck.v [legal_check version app msel text] is SOUND for the semantic
       clauses of the property with respect to the reference machine AVM/Machine.v
       (C04_legal_check_sound, C04_legal_run_inside, C04_labels_unique, for every text, context, state
       and number of steps):  accepted  ==>  the program version is the requested one; in every
       execution the pc always points at an instruction (the fall-off-the-end case of [step] is
       unreachable), every return address does too; the instruction about to execute passed the static
       check (opcode in the langspec at that version and in that mode, immediates of the right number,
       kind and range, fields valid at the version/mode, constant-block indices inside the block); each of
       its branch targets resolves ([label_pc] never fails); a step other than callsub/retsub stays
       inside the routine region of its instruction, callsub goes to a routine entry, retsub is never
       executed in the main region; every label is defined once.
       Clauses decided by the checker WITHOUT a semantic theorem (acceptance implies the predicate by
       definition of the checker): pragma line, immediates' ranges, field validity, constant-block
       placement, forward-only branches below version 4, legality of instructions that no execution
       reaches.  The checker runs on the REAL output of the compiler in harness/c04.py.
   (B) PyTeal's own tables, regenerated from /repo on every run, are conservative w.r.t. the independent
       langspec AVM/Langspec.v (C04_optable_conservative, C04_fields_conservative, ...; finite domain:
       every row of the regenerated tables).
   (C) The labels PyTeal's naming scheme produces are pairwise distinct for distinct
       (routine, block) whatever the subroutine names (C04_label_injective, on the model functions
       Comp.Compile.sanitize / Comp.Passes.label_of).
   (R) The property itself is FALSE of the faithful compile model and of the real compiler
       (C04_compile_legal_refuted + witnesses; known findings, replayed on the real code by the check).
   Not proved: [compile_model p = Ok t -> legal_check t = LOk] for the defect-free fragment (that
   would be C04's full statement on the model; the check decides it per program on the real output). *)
From Coq Require Import List Arith NArith Ascii String Bool.
From PV Require Import Base.Bytes Base.Sexp AVM.Syntax AVM.Machine AVM.Parse AVM.Langspec AVM.LegalCheck
  Gen.Tables Gen.FieldTables Proofs.LegalCheckSound Proofs.LegalTables Proofs.LabelInjective Proofs.LegalRefuted.
Import ListNotations.
Local Open Scope string_scope.

(* ---- (A) soundness of the checker ---- *)
Theorem C04_legal_check_sound : forall version app msel text p,
  legal_check version app msel text = LOk ->
  parse_program msel text = Some p ->
  pr_version p = version /\
  forall cx st m, reaches cx p (init_mach st) m ->
    exists i, nth_error (pr_code p) (m_pc m) = Some i /\
              Forall (fun f => (f_ret f < code_len p)%nat) (m_calls m) /\
              instr_legal version app p i /\
              targets_resolve p i /\
              forall m', step cx p m = Running m' -> region_discipline p m m' i.
Proof. exact legal_check_sound_lemma. Qed.

Theorem C04_legal_run_inside : forall version app msel text p,
  legal_check version app msel text = LOk -> parse_program msel text = Some p ->
  forall fuel cx st v m', run fuel cx p (init_mach st) = (v, m') ->
    nth_error (pr_code p) (m_pc m') <> None.
Proof. exact legal_run_inside. Qed.

Theorem C04_labels_unique : forall version app msel text p,
  legal_check version app msel text = LOk -> parse_program msel text = Some p ->
  NoDup (map fst (pr_labels p)).
Proof. exact legal_labels_unique_lemma. Qed.

Theorem C04_accepted_text_parses : forall version app msel text,
  legal_check version app msel text = LOk -> exists p, parse_program msel text = Some p.
Proof. exact legal_check_parses. Qed.

(* what "passed the static check" means *)
Theorem C04_instr_legal_spec : forall version app ni nb i,
  static_instr version app ni nb i = VOk ->
  exists sp, ls_op (p_op i) = Known sp /\ (os_minv sp <= version)%N /\
             (if app then os_app sp else os_sig sp) = true /\
             imms_ok version app (os_imms sp) (p_imms i) = VOk /\
             const_index_ok ni nb i = VOk.
Proof. exact static_instr_spec. Qed.

(* ---- (B) PyTeal's tables against the langspec (re-proved against the regenerated tables) ---- *)
Theorem C04_optable_conservative : forall r, In r gen_optable -> op_row_conservative r = true.
Proof. exact optable_conservative_lemma. Qed.

Theorem C04_optable_covered : forall r, In r gen_optable -> op_row_covered r = true.
Proof. exact optable_covered_lemma. Qed.

Theorem C04_syntax_table_conservative : forall o, In o all_opcs -> syntax_row_conservative o = true.
Proof. exact syntax_table_conservative_lemma. Qed.

Theorem C04_fields_conservative : forall r, In r gen_fields -> field_row_conservative r = true.
Proof. exact fields_conservative_lemma. Qed.

(* every row except those listed in [field_exceptions] (known findings) *)
Theorem C04_fields2_conservative_except : forall r, In r gen_fields2 -> field2_row_conservative r = true.
Proof. exact fields2_conservative_lemma. Qed.

Theorem C04_txn_arrays_agree : forall r, In r gen_txn_arrays -> txn_array_row_agrees r = true.
Proof. exact txn_arrays_agree_lemma. Qed.

(* ---- (C) label naming ---- *)
Theorem C04_label_injective : forall a b, label_text a = label_text b -> lab_key a = lab_key b.
Proof. exact label_injective_lemma. Qed.

(* ---- (R) the property is false of the faithful model (and of the real compiler) ---- *)
Theorem C04_compile_legal_refuted : exists version app p, ~ compile_legal version app p.
Proof. exact compile_legal_refuted_lemma. Qed.

(* ---- non-vacuity: a program with a loop, a conditional and two subroutines is accepted;
        the known witnesses and a few malformed texts are rejected for the expected reason ---- *)
Definition accepted_example : string :=
"#pragma version 6
int 0
store 0
main_l1:
load 0
int 3
<
bz main_l3
load 0
callsub f_0
pop
load 0
int 1
+
store 0
b main_l1
main_l3:
int 1
return

// f
f_0:
store 1
load 1
bnz f_0_l2
int 2
retsub
f_0_l2:
load 1
callsub g_1
retsub

// g
g_1:
store 2
load 2
int 1
+
retsub".

Example C04_accepts_example : legal_check 6 true [] accepted_example = LOk.
Proof. vm_compute. reflexivity. Qed.

Definition kind_of (r : legal_result) : string :=
  match r with LOk => "ok" | LBad k _ _ => k | LUncovered k _ _ => "uncovered:" ++ k end.

Example C04_rejects_examples :
  kind_of (legal_check 5 true [] accepted_example) = "pragma-version" /\
  kind_of (legal_check 6 true [] "#pragma version 6
int 1") = "falls-off-end" /\
  kind_of (legal_check 6 true [] "#pragma version 6
int 1
callsub f_0
return
f_0:
int 2
pop") = "falls-off-end" /\
  kind_of (legal_check 6 true [] "#pragma version 6
int 1
callsub f_0
f_0:
retsub") = "falls-into-routine" /\
  kind_of (legal_check 6 true [] "#pragma version 6
callsub f_0
int 1
return
f_0:
int 1
bnz main_l1
retsub
g_1:
main_l1:
int 1
return") = "ok" /\
  kind_of (legal_check 6 true [] "#pragma version 6
callsub f_0
main_l1:
int 1
return
f_0:
int 1
bnz main_l1
retsub") = "branch-crosses-routine" /\
  kind_of (legal_check 6 true [] "#pragma version 6
int 1
retsub") = "retsub-in-main" /\
  kind_of (legal_check 6 true [] "#pragma version 6
b l1
int 1
return") = "label-undefined" /\
  kind_of (legal_check 6 true [] "#pragma version 6
l1:
int 1
l1:
return") = "label-duplicate" /\
  kind_of (legal_check 6 true [] "#pragma version 6
int 1
bnz l9
int 1
return
l9:") = "branch-to-end" /\
  kind_of (legal_check 6 true [] "#pragma version 6
load ScratchSlot
return") = "imm-kind" /\
  kind_of (legal_check 6 true [] "#pragma version 6
box_put
int 1
return") = "op-version" /\
  kind_of (legal_check 6 false [] "#pragma version 6
byte 0x00
log
int 1
return") = "op-mode" /\
  kind_of (legal_check 6 true [] "#pragma version 6
intcblock 1 2
intc 2
return") = "const-index" /\
  kind_of (legal_check 8 true [] "#pragma version 8
frame_dig -129
return") = "parse" /\
  kind_of (legal_check 6 true [] "#pragma version 6
int 1
frobnicate
return") = "parse".
Proof. vm_compute. repeat split. Qed.

Print Assumptions C04_legal_check_sound.
Print Assumptions C04_legal_run_inside.
Print Assumptions C04_labels_unique.
Print Assumptions C04_accepted_text_parses.
Print Assumptions C04_instr_legal_spec.
Print Assumptions C04_optable_conservative.
Print Assumptions C04_optable_covered.
Print Assumptions C04_syntax_table_conservative.
Print Assumptions C04_fields_conservative.
Print Assumptions C04_fields2_conservative_except.
Print Assumptions C04_txn_arrays_agree.
Print Assumptions C04_label_injective.
Print Assumptions C04_compile_legal_refuted.
