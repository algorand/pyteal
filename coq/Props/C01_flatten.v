(* Props/C01_flatten.v — stages "sort" and "flatten" of property C01 (compiled TEAL computes what the
   PyTeal expression denotes): sortBlocks returns exactly the reachable blocks, once each, end block
   last, start block first; the linear code of flattenBlocks simulates the block graph.
   Property theorems only; the proofs are in CallX/FlattenCorrect.v and CallX/SortCorrect.v, for the
   semantics with a call oracle, and instantiated in the files of the same names under Proofs/. *)
From Coq Require Import List NArith String.
From PV Require Import Base.Bytes Base.Sexp AVM.Syntax AVM.Machine Src.Expr Src.Denote
  Comp.Blocks Comp.Lower Comp.Passes Comp.GraphSem Comp.LinearSem
  Proofs.LowerFrame Proofs.FlattenCorrect Proofs.SortCorrect.
Import ListNotations.

(* ---- labels ---- *)

(* decimal printing (used for labels, integer immediates, pragma lines, ABI type names) never maps two
   numbers to the same text; proved through the read-back N_of_dec (N_to_dec n) = Some n, which also
   shows that the fuel of N_to_dec is enough for every n *)
Theorem C01_N_to_dec_injective : forall a b : N, N_to_dec a = N_to_dec b -> a = b.
Proof. exact N_to_dec_inj. Qed.
Print Assumptions C01_N_to_dec_injective.

Theorem C01_label_of_injective : forall i j : nat, label_of i = label_of j -> i = j.
Proof. exact label_of_inj. Qed.
Print Assumptions C01_label_of_injective.

(* ---- flattenBlocks ---- *)

(* For EVERY graph and EVERY list of block ids on which flatten_blocks succeeds (duplicates allowed;
   that the listed blocks are defined and closed under the successors of non-terminal blocks is a
   CONSEQUENCE of success, see C01_flatten_closed), under the one hypothesis [ends_last] (a listed
   block without successor and without return/retsub/err is a simple block and is last in the list):
   every run of the graph from a listed block b, of any length, to any configuration c' — still
   inside the graph, or halted by return / retsub / failure / falling off the end / an unsupported
   operation other than a branch opcode sitting inside a block body — is matched by a run of the
   linear code from the position of b to the image of c' (same stack, same machine state; "at block
   x" becomes "at the position of block x").  This covers the fall-through / b / bz / bnz / bnz;b
   choice, labels emitted only where referenced, terminal blocks with dead ops after their return,
   and label lookup by search (labels are distinct by C01_label_of_injective). *)
Theorem C01_flatten_correct :
  forall (env : denv) (g : graph) (blocks : list id) (code : list comp),
    flatten_blocks g blocks = Some code ->
    ends_last (g_blk g) blocks ->
    forall b stk st c', In b blocks ->
      star env (g_blk g) (GAt b stk st) c' -> ok_out c' ->
      lstar env code (LAt (pos_of g blocks b) stk st) (img (pos_of g blocks) c').
Proof. exact flatten_correct. Qed.
Print Assumptions C01_flatten_correct.

(* halting outcomes: the linear code halts with the same outcome and (being deterministic) no other *)
Theorem C01_flatten_correct_final :
  forall (env : denv) (g : graph) (blocks : list id) (code : list comp),
    flatten_blocks g blocks = Some code ->
    ends_last (g_blk g) blocks ->
    forall b stk st c', In b blocks ->
      star env (g_blk g) (GAt b stk st) c' -> gfinal c' = true -> ok_out c' ->
      lstar env code (LAt (pos_of g blocks b) stk st) (img (pos_of g blocks) c') /\
      forall c2, lstar env code (LAt (pos_of g blocks b) stk st) c2 -> lfinal c2 = true ->
                 c2 = img (pos_of g blocks) c'.
Proof. exact flatten_correct_final. Qed.
Print Assumptions C01_flatten_correct_final.

(* success of flatten_blocks implies: listed blocks are defined, successors of non-terminal listed
   blocks are listed *)
Theorem C01_flatten_closed :
  forall g blocks code, flatten_blocks g blocks = Some code ->
    forall b, In b blocks ->
      exists bb, g_blk g b = Some bb /\
                 (is_terminal bb = false -> forall x, In x (outgoing bb) -> In x blocks).
Proof. exact flatten_closed. Qed.
Print Assumptions C01_flatten_closed.

(* the hypotheses cannot be dropped.  Without [ends_last] the conclusion fails: the first two
   theorems state this one existential, and differ only in the witness their proofs give, which the
   statement does not show ([end_mid_runs_on]: a successor-less block without return that is not
   last; [cond_none_runs_on]: a conditional block without branches; both CallX/FlattenCorrect.v).
   Without [ok_out] it fails on a branch opcode inside a block body (third theorem). *)
Theorem C01_flatten_needs_end_last :
  exists env g blocks code b stk st c',
    flatten_blocks g blocks = Some code /\ In b blocks /\
    star env (g_blk g) (GAt b stk st) c' /\ gfinal c' = true /\ ok_out c' /\
    ~ lstar env code (LAt (pos_of g blocks b) stk st) (img (pos_of g blocks) c').
Proof. exact flatten_needs_end_last. Qed.
Print Assumptions C01_flatten_needs_end_last.

Theorem C01_flatten_needs_simple_end :
  exists env g blocks code b stk st c',
    flatten_blocks g blocks = Some code /\ In b blocks /\
    star env (g_blk g) (GAt b stk st) c' /\ gfinal c' = true /\ ok_out c' /\
    ~ lstar env code (LAt (pos_of g blocks b) stk st) (img (pos_of g blocks) c').
Proof. exact flatten_needs_simple_end. Qed.
Print Assumptions C01_flatten_needs_simple_end.

Theorem C01_flatten_needs_ok_out :
  exists env g blocks code b stk st c',
    flatten_blocks g blocks = Some code /\ ends_last (g_blk g) blocks /\ In b blocks /\
    star env (g_blk g) (GAt b stk st) c' /\ gfinal c' = true /\
    ~ lstar env code (LAt (pos_of g blocks b) stk st) (img (pos_of g blocks) c').
Proof. exact flatten_needs_ok_out. Qed.
Print Assumptions C01_flatten_needs_ok_out.

(* ---- sortBlocks ---- *)

(* For every graph whose defined ids are below its counter: the list returned by sort_blocks has no
   duplicates, contains exactly the blocks reachable from start, ends with the end block, begins
   with the start block when start <> end; when start = end the start block is MOVED to the end
   (order = rest of the traversal ++ [start]), which leaves it first only if nothing else is
   reachable. *)
Theorem C01_sort_blocks_complete :
  forall (g : graph) (start end_ : id) (order : list id),
    wf g -> sort_blocks g start end_ = Some order ->
    NoDup order /\
    (forall x, In x order <-> reach g start x) /\
    (exists pre, order = pre ++ [end_]) /\
    (start <> end_ -> exists t, order = start :: t) /\
    (start = end_ -> exists more, dfs_order g start = start :: more /\ order = more ++ [start]) /\
    (start = end_ -> out_of g start = [] -> order = [start]).
Proof. exact sort_blocks_complete. Qed.
Print Assumptions C01_sort_blocks_complete.

(* the model's fuel 3 * S (g_next g) is sufficient: any larger fuel yields the same traversal *)
Theorem C01_sort_fuel_sufficient :
  forall (g : graph) (start : id), wf g -> forall extra,
    sort_loop (3 * S (g_next g) + extra) g [start] [] [] = dfs_order g start.
Proof. exact sort_fuel_sufficient. Qed.
Print Assumptions C01_sort_fuel_sufficient.

Theorem C01_sort_start_not_first :
  exists g s order, wf g /\ sort_blocks g s s = Some order /\ hd_error order <> Some s.
Proof. exact sort_start_not_first. Qed.
Print Assumptions C01_sort_start_not_first.

(* ---- sort, then flatten ---- *)

(* The routine's code, entered at pc 0, simulates the routine's graph entered at its start block.
   [single_exit] is what the lowering has to provide (the only reachable block that neither has a
   successor nor returns is the end block, a simple block); the last hypothesis keeps the start
   block first (see C01_sort_start_not_first). *)
Theorem C01_flatten_sort :
  forall (env : denv) (g : graph) (start end_ : id) (order : list id) (code : list comp),
    wf g ->
    sort_blocks g start end_ = Some order ->
    flatten_blocks g order = Some code ->
    single_exit g start end_ ->
    start <> end_ \/ out_of g start = [] ->
    forall stk st c',
      star env (g_blk g) (GAt start stk st) c' -> ok_out c' ->
      lstar env code (LAt 0 stk st) (img (pos_of g order) c').
Proof. exact flatten_sort_correct. Qed.
Print Assumptions C01_flatten_sort.

Theorem C01_flatten_sort_final :
  forall (env : denv) (g : graph) (start end_ : id) (order : list id) (code : list comp),
    wf g ->
    sort_blocks g start end_ = Some order ->
    flatten_blocks g order = Some code ->
    single_exit g start end_ ->
    start <> end_ \/ out_of g start = [] ->
    forall stk st c',
      star env (g_blk g) (GAt start stk st) c' -> gfinal c' = true -> ok_out c' ->
      (exists n, lrun n env code (LAt 0 stk st) = img (pos_of g order) c') /\
      (forall c2, lstar env code (LAt 0 stk st) c2 -> lfinal c2 = true -> c2 = img (pos_of g order) c').
Proof. exact flatten_sort_correct_final. Qed.
Print Assumptions C01_flatten_sort_final.
