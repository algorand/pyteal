(* Props/C09.v — Routed methods receive ARC-4 arguments and log ARC-4 results.
   Property theorems only; proofs live in Proofs/RouterArgs*.v; model and ARC-4 client spec in
   Router/Args.v.  METHOD_ARG_NUM_CUTOFF and RETURN_HASH_PREFIX come from Gen/Tables.v, regenerated
   from /repo on every run: the statements below are re-checked against the current constants. *)
From Coq Require Import List Arith NArith Ascii String Bool.
From PV Require Import Base.Bytes ABI.Types ABI.Spec ABI.Descr Gen.Tables Router.Args
  Proofs.RouterArgsLists Proofs.RouterArgsProof Proofs.RouterArgsGlue Proofs.RouterArgsCells.
Import ListNotations.

(* ARG BINDING.  For EVERY method signature (any number of parameters; plain, transaction and
   reference parameters in any position) and EVERY argument list for which the ARC-4 client produces a
   call c, placed anywhere in a group (arbitrary transactions before and after): evaluating the binding
   plan that the router glue computes from the signature, on c's application arguments and that group,
   succeeds, and (args_ok, Router/Args.v)
     - every plain parameter holds exactly the ARC-4 encoding of the value passed for it,
     - every reference parameter holds an index that the AVM resolves, in c's foreign arrays (with the
       implicit entry 0), to the account / asset / application passed for it,
     - the n-th transaction parameter in declaration order denotes group position |before| + n, which
       holds the transaction passed for it, of the declared type; there are exactly as many such
       positions as transaction parameters and the call sits right after them — i.e. they are the
       immediately preceding transactions, in declaration order.
   [member] is the element access on an encoded tuple (C07's subject), used only when more than 15
   non-transaction parameters force the de-tupling of ApplicationArgs[15]; it is assumed correct
   (hypothesis), and validated for the concrete [member_bytes] by the harness on every such call. *)
Theorem C09_arg_binding_correct :
  forall (member : list ty -> nat -> bytes -> option bytes),
    (forall ts vs bs j t v,
        arc4_encode (TTuple None ts) (VList vs) = Some bs ->
        nth_error ts j = Some t -> nth_error vs j = Some v ->
        member ts j bs = arc4_encode t v) ->
  forall sel sender app_id s args c before me after,
    client_encode sel sender app_id s args = Some c ->
    exists bounds,
      eval_all member (c_args c) (group_of before c me after) (group_index_of before c)
               (binding_plan (s_params s)) = Some bounds /\
      args_ok sender app_id c (group_of before c me after) (List.length before) 0
              (combine (s_params s) args) bounds /\
      List.length (c_txns c) = List.length (filter is_txn_ty (s_params s)) /\
      List.length (s_params s) = List.length args.
Proof. exact arg_binding_main. Qed.
Print Assumptions C09_arg_binding_correct.

(* TRANSACTION TYPE ENFORCED.  Whatever the application arguments and the group are (made by a
   conforming client or not): if the glue gets through, parameter i of declared type TTxn k denotes an
   existing group transaction before the call whose type is k (any type for `txn`).  Hence a
   transaction of another type makes the call fail. *)
Theorem C09_txn_type_enforced :
  forall member args group gi tys i k bounds,
    nth_error tys i = Some (TTxn k) ->
    eval_all member args group gi (binding_plan tys) = Some bounds ->
    exists g x, nth_error bounds i = Some (RTxn g x) /\ g < gi /\ nth_error group g = Some x /\
                txn_type_ok k x = true.
Proof. exact txn_type_enforced_main. Qed.
Print Assumptions C09_txn_type_enforced.

(* CUT-OFF, glue side.  15 non-transaction parameters are read from 15 application arguments; *)
Theorem C09_cutoff_15_individual :
  forall tys, List.length tys = 15 -> forallb not_txn_ty tys = true ->
    binding_plan tys = mapi_from 0 (fun idx t => mk_binding (SArg (idx + 1)) t) tys /\ tupled_types tys = [].
Proof. exact cutoff_15_individual_main. Qed.
Print Assumptions C09_cutoff_15_individual.

(* 16 are read as 14 application arguments + the two members of a tuple in application argument 15. *)
Theorem C09_cutoff_16_tupled :
  forall tys, List.length tys = 16 -> forallb not_txn_ty tys = true ->
    exists t14 t15,
      skipn 14 tys = [t14; t15] /\ tupled_types tys = [t14; t15] /\
      binding_plan tys =
        mapi_from 0 (fun idx t => mk_binding (SArg (idx + 1)) t) (firstn 14 tys)
        ++ [mk_binding (SMember 15 [t14; t15] 0) t14; mk_binding (SMember 15 [t14; t15] 1) t15].
Proof. exact cutoff_16_tupled_main. Qed.
Print Assumptions C09_cutoff_16_tupled.

(* CUT-OFF, client side (ARC-4): at most 15 wire arguments -> one application argument each;
   more -> exactly 15 application arguments after the selector, the 15th being the tuple of the rest. *)
Theorem C09_client_cutoff :
  forall w bs, pack w = Some bs ->
    (List.length w <= 15 -> List.length bs = List.length w /\ Forall2 enc_rel w bs) /\
    (15 < List.length w ->
       List.length bs = 15 /\ Forall2 enc_rel (firstn 14 w) (firstn 14 bs) /\
       nth_error bs 14 = arc4_encode (TTuple None (map fst (skipn 14 w))) (VList (map snd (skipn 14 w)))).
Proof. exact client_cutoff_main. Qed.
Print Assumptions C09_client_cutoff.

(* the constant the router uses is the one ARC-4 fixes *)
Theorem C09_cutoff_constant : CUTOFF = 15.
Proof. exact cutoff_is_15. Qed.
Print Assumptions C09_cutoff_constant.

(* every parameter keeps its kind in the plan (a transaction parameter of kind k is bound by a group
   transaction with kind k asserted, a reference by an index, anything else by a decoded value) *)
Theorem C09_plan_shape : forall tys, Forall2 plan_shape tys (binding_plan tys).
Proof. exact binding_plan_shape. Qed.
Print Assumptions C09_plan_shape.

(* BOTH GLUE FLAVOURS.  The decoding steps of the scratch-slot glue and of the frame-pointer glue (cells
   of the `proto 0 0` caster: argument i in frame cell i (+1 when the method has an output), the tuple
   instance in the last cell, output_temp in cell 0), executed in emission order (application
   arguments incl. the tuple, transaction parameters, de-tupling) and read back in declaration order,
   give the handler exactly what the binding plan evaluates to — for ANY application arguments and group
   (cells of distinct instances never alias; the tuple is decoded before it is de-tupled). *)
Theorem C09_glue_storage_agrees_with_plan :
  forall member fl has_out tys args group gi bounds,
    eval_all member args group gi (binding_plan tys) = Some bounds ->
    exists cs, exec_gsteps member args group gi [] (decode_steps fl has_out tys) = Some cs /\
               read_args cs (map (arg_cell fl has_out) (seq 0 (List.length tys))) = Some bounds.
Proof. exact glue_equiv_main. Qed.
Print Assumptions C09_glue_storage_agrees_with_plan.

(* END TO END (model).  A call made by the ARC-4 client, placed anywhere in a group, run through the glue
   of either flavour with an arbitrary handler h: h is invoked on arguments bound as the caller passed
   them (args_ok); the outcome is Failed iff h fails (or yields no / an unencodable value for a
   non-void method), else Approved with h's own log followed — for a non-void method — by exactly one
   entry, return prefix ++ ARC-4 encoding of h's result. *)
Theorem C09_routed_call_correct :
  forall (member : list ty -> nat -> bytes -> option bytes),
    (forall ts vs bs j t v,
        arc4_encode (TTuple None ts) (VList vs) = Some bs ->
        nth_error ts j = Some t -> nth_error vs j = Some v ->
        member ts j bs = arc4_encode t v) ->
  forall fl sel sender app_id s args c before me after (h : handler),
    client_encode sel sender app_id s args = Some c ->
    exists bounds,
      args_ok sender app_id c (group_of before c me after) (List.length before) 0 (combine (s_params s) args) bounds /\
      run_glue member fl s h (c_args c) (group_of before c me after) (group_index_of before c) =
        match h bounds with
        | None => Failed
        | Some (logs, res) =>
            match s_ret s with
            | None => Approved logs
            | Some t =>
                match res with
                | Some r => match arc4_encode t r with
                            | Some e => Approved (logs ++ [return_prefix ++ e])
                            | None => Failed
                            end
                | None => Failed
                end
            end
        end.
Proof. exact routed_call_main. Qed.
Print Assumptions C09_routed_call_correct.

(* RETURN.  An approved call of a non-void method: the handler succeeded on the decoded arguments, and
   the call's log is the handler's log followed by exactly one entry, return prefix ++ encoding of the
   result; it is the last entry (nothing after it, approval follows). *)
Theorem C09_return_logged_once :
  forall member fl s h args group gi t logs,
    s_ret s = Some t ->
    run_glue member fl s h args group gi = Approved logs ->
    exists bounds hl r e,
      glue_bounds member fl s args group gi = Some bounds /\
      h bounds = Some (hl, Some r) /\
      arc4_encode t r = Some e /\
      logs = hl ++ [return_prefix ++ e].
Proof. exact return_logged_once_main. Qed.
Print Assumptions C09_return_logged_once.

Theorem C09_return_logged_complete :
  forall member fl s h args group gi t bounds hl r e,
    s_ret s = Some t ->
    glue_bounds member fl s args group gi = Some bounds ->
    h bounds = Some (hl, Some r) -> arc4_encode t r = Some e ->
    run_glue member fl s h args group gi = Approved (hl ++ [return_prefix ++ e]).
Proof. exact return_logged_complete_main. Qed.
Print Assumptions C09_return_logged_complete.

Theorem C09_void_logs_nothing :
  forall member fl s h args group gi logs,
    s_ret s = None ->
    run_glue member fl s h args group gi = Approved logs ->
    exists bounds res, glue_bounds member fl s args group gi = Some bounds /\ h bounds = Some (logs, res).
Proof. exact void_logs_nothing_main. Qed.
Print Assumptions C09_void_logs_nothing.

(* RETURN_HASH_PREFIX of this tree is 0x151f7c75 *)
Theorem C09_return_prefix_is_arc4 :
  return_prefix = [ascii_of_N 21; ascii_of_N 31; ascii_of_N 124; ascii_of_N 117].
Proof. exact return_prefix_value. Qed.
Print Assumptions C09_return_prefix_is_arc4.

(* CONTRACT.  For EVERY list of registrations (add_method_handler with or without an overriding name; the
   decorator form) and every hash function: the contract lists exactly the registered methods, in order,
   under their REGISTERED names, with their argument type strings, return type string and description
   (the given one, else the docstring's) — each entry a function of its own registration only; the selector a
   client computes from an entry (first 4 bytes of the hash of name(args)returns) is the one the approval
   program compares ApplicationArgs[0] with; and that is the ARC-4 selector.
   (Before /repo 330bd50 this was false for a different overriding name — the contract kept the
   subroutine's own name; the model follows the repaired code.) *)
Theorem C09_contract_selectors_agree :
  forall (hash : string -> bytes) registered,
    map ms_name (contract_methods registered) = map reg_name registered /\
    map ms_args (contract_methods registered) = map (fun r => map type_str (s_params (r_sig r))) registered /\
    map ms_returns (contract_methods registered) = map (fun r => ret_str type_str (s_ret (r_sig r))) registered /\
    map ms_desc (contract_methods registered) = map reg_desc registered /\
    contract_selectors hash registered = dispatched_selectors hash registered /\
    dispatched_selectors hash registered = map (fun r => firstn 4 (hash (arc4_sig_str (registered_sig r)))) registered.
Proof. exact contract_selectors_agree_main. Qed.
Print Assumptions C09_contract_selectors_agree.

(* REJECTED ATTEMPTS LEAVE NO TRACE.  add_method_handler as a state transition (Router/Args.v [accepts]: not an
   ABIReturnSubroutine / never-executed config / signature already registered / selector collision => rejected):
   a rejected attempt changes neither the method table nor the contract; an accepted one appends exactly its
   own entry; and after ANY sequence of attempts the contract lists every dispatched signature exactly once. *)
Theorem C09_rejected_attempt_leaves_contract :
  forall (hash : string -> bytes) st a,
    accepts hash st a = None ->
    attempt_step hash st a = st /\ contract_methods (attempt_step hash st a) = contract_methods st.
Proof. exact rejected_attempt_leaves_contract_main. Qed.
Print Assumptions C09_rejected_attempt_leaves_contract.

Theorem C09_accepted_attempt_appends :
  forall (hash : string -> bytes) st a r,
    accepts hash st a = Some r ->
    contract_methods (attempt_step hash st a) = contract_methods st ++ [spec_of r].
Proof. exact accepted_attempt_appends_main. Qed.
Print Assumptions C09_accepted_attempt_appends.

Theorem C09_contract_lists_each_once :
  forall (hash : string -> bytes) l st,
    NoDup (map dispatched_sig_str st) ->
    NoDup (map (fun m => spec_sig_str m) (contract_methods (run_attempts hash st l))).
Proof. exact contract_lists_each_once_main. Qed.
Print Assumptions C09_contract_lists_each_once.

(* the program always dispatches on the ARC-4 signature under the REGISTERED name *)
Theorem C09_dispatched_is_registered :
  forall r, dispatched_sig_str r = arc4_sig_str (registered_sig r).
Proof. exact dispatched_is_registered_main. Qed.
Print Assumptions C09_dispatched_is_registered.

(* non-vacuity for the overriding-name case: add_method_handler(add, overriding_name="foo") *)
Example C09_override_example :
  spec_sig_str (spec_of ex_override) = "foo(uint64)uint64"%string /\
  dispatched_sig_str ex_override = "foo(uint64)uint64"%string.
Proof. exact override_contract_follows_registered_name. Qed.

(* ---- non-vacuity: a 19-parameter call (16 non-transaction arguments -> tuple; 3 transactions; references) ---- *)
Definition ex_sig : msig :=
  mkSig "m" ([TTxn TxPay] ++ repeat (TUint 64) 13 ++ [TString; TRef RAccount; TTxn TxAny; TBool; TRef RAsset; TTxn TxAxfer]) (Some (TUint 64)).
Definition ex_args : list carg :=
  [CTxn (mkGtx 1 [])] ++ map (fun n => CVal (VUint n)) [1;2;3;4;5;6;7;8;9;10;11;12;13]%N
  ++ [CVal (VBytes (bytes_of_string "hi")); CAccount (bytes_of_string "acct"); CTxn (mkGtx 6 []); CVal (VBool true);
      CAsset 99%N; CTxn (mkGtx 4 [])].

Example ex_client_some :
  exists c, client_encode [] (bytes_of_string "sender") 77%N ex_sig ex_args = Some c /\
            List.length (c_args c) = 16 /\ c_accounts c = [bytes_of_string "acct"] /\ c_assets c = [99%N] /\
            List.length (c_txns c) = 3.
Proof. eexists. vm_compute. repeat split. Qed.

(* the concrete element access satisfies the hypothesis on this call: the de-tupled members are the encodings *)
Example ex_bind_member_bytes :
  match client_encode [] (bytes_of_string "sender") 77%N ex_sig ex_args with
  | Some c =>
      eval_all member_bytes (c_args c) (group_of [mkGtx 2 []] c (mkGtx 6 []) []) (group_index_of [mkGtx 2 []] c)
               (binding_plan (s_params ex_sig))
  | None => None
  end
  = Some ([RTxn 1 (mkGtx 1 [])] ++ map (fun n => RBytes (be_encode 8 n)) [1;2;3;4;5;6;7;8;9;10;11;12;13]%N
          ++ [RBytes (be_encode 2 2 ++ bytes_of_string "hi"); RIndex RAccount 1; RTxn 2 (mkGtx 6 []);
              RBytes [ascii_of_N 128]; RIndex RAsset 0; RTxn 3 (mkGtx 4 [])]).
Proof. vm_compute. reflexivity. Qed.

(* a wrong transaction type is rejected by the glue: position 1 must be `pay` *)
Example ex_wrong_type_fails :
  match client_encode [] (bytes_of_string "sender") 77%N ex_sig ex_args with
  | Some c =>
      eval_all member_bytes (c_args c) ([mkGtx 2 []; mkGtx 3 []; mkGtx 6 []; mkGtx 4 []; mkGtx 6 []]) 4
               (binding_plan (s_params ex_sig))
  | None => Some []
  end = None.
Proof. vm_compute. reflexivity. Qed.
