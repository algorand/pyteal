(* Props/C16_general.v — WideRatio is exact or fails, never wraps: ARBITRARY factor expressions.
   Property theorems only; proofs live in Proofs/WideRatioGeneral*.v.

   Props/C16.v proves the property for CONSTANT factors on the op list WideRatio emits.  Here the
   factors are any expressions of the recipe language (run-time reads, arithmetic, compound code,
   expressions with effects), under the source semantics [denote] (Src/Denote.v), whose reading of
   [EWide ns ds] is operational: factors left to right, interleaved with the glue ops of
   pyteal/ast/widemath.py; and, composed with [C01_lower_correct], for the block graph the lowering emits.

   Vocabulary ([C16_eval_factors_*] / [C16_ran_factors_*] below spell it out):
     eval_factors env fuel es st vs st'      the factors es, in order from state st, each terminate normally
                                             having pushed exactly one value VI v (v < 2^64) on top of ANY
                                             stack below (the running product sits there); vs = the values,
                                             st' = the state after the last one (effects threaded in order);
     ran_factors env fuel stk es st vs st'   the same for ONE run: each factor did so on some stack that
                                             extends stk;
     uint_valued env e                       e is uint64-valued: whenever it terminates normally from a
                                             stack s it leaves VI v :: s with v < 2^64 (stack and type
                                             discipline of a uint64 expression, property C05/C20). *)
From Coq Require Import List NArith Bool.
From PV Require Import Base.Bytes Base.U64 AVM.Syntax AVM.Ops AVM.Machine Src.Expr Src.Denote
  Comp.Blocks Comp.WideRatio Comp.Lower Comp.GraphSem
  Proofs.LowerFrame Proofs.LowerLemmas Proofs.LowerCorrect
  Proofs.WideRatioProof Proofs.WideRatioGeneralOps Proofs.WideRatioGeneral Proofs.WideRatioGeneralGraph
  Proofs.WideRatioGeneralExamples.
Import ListNotations.
Local Open Scope N_scope.

(* If all factors evaluate, WideRatio yields exactly wide_ratio_spec of their values — i.e.
   floor(prod nvals / prod dvals) when every left-to-right running product is below 2^128, the
   denominator product is non-zero and the quotient is below 2^64 (C16_spec_meaning) — on top of the
   stack it started with and in the state the factors left; in every other case it FAILS. *)
Theorem C16_wide_ratio_general :
  forall (env : denv) (f : nat) (ns ds : list expr) (nvals dvals : list N)
         (stk : list value) (st stm st' : mstate),
    ns <> [] -> ds <> [] ->
    eval_factors env f ns st nvals stm ->
    eval_factors env f ds stm dvals st' ->
    denote env (S f) (EWide ns ds) stk st =
    match wide_ratio_spec nvals dvals with
    | Some q => DNorm (VI q :: stk) st'
    | None => DFail
    end.
Proof. exact wide_ratio_general. Qed.
Print Assumptions C16_wide_ratio_general.

(* For uint64-valued factors, EVERY normal outcome of a WideRatio, at every fuel, from every stack and
   state, is the exact quotient of values its factors evaluated to in that run: the running products
   were below 2^128, the divisor non-zero, the quotient below 2^64.  No wrapped or truncated number. *)
Theorem C16_wide_ratio_never_wraps :
  forall (env : denv) (fuel : nat) (ns ds : list expr) (stk : list value) (st : mstate)
         (s' : list value) (st' : mstate),
    ns <> [] -> ds <> [] ->
    Forall (uint_valued env) ns -> Forall (uint_valued env) ds ->
    denote env fuel (EWide ns ds) stk st = DNorm s' st' ->
    exists f nvals dvals stm,
      fuel = S f /\
      ran_factors env f stk ns st nvals stm /\
      ran_factors env f stk ds stm dvals st' /\
      running_ok 1 nvals = true /\ running_ok 1 dvals = true /\
      prod dvals <> 0 /\ prod nvals / prod dvals < U64 /\
      s' = VI (prod nvals / prod dvals) :: stk.
Proof. exact wide_ratio_never_wraps. Qed.
Print Assumptions C16_wide_ratio_never_wraps.

(* Complement 1 (no hypothesis on the factors at all): an outcome of a WideRatio that is neither normal
   nor a failure — exit, return, break, continue, out of fuel, outside the modelled fragment — is the
   outcome of one of its factors; the glue ops only ever continue or fail. *)
Theorem C16_wide_ratio_abrupt_origin :
  forall (env : denv) (f : nat) (ns ds : list expr) (stk : list value) (st : mstate) (r : dout),
    denote env (S f) (EWide ns ds) stk st = r -> notnorm r -> r <> DFail ->
    exists e s st1, In e (ns ++ ds) /\ denote env f e s st1 = r.
Proof. exact wide_ratio_abrupt_origin. Qed.
Print Assumptions C16_wide_ratio_abrupt_origin.

(* Complement 2: a numerator factor e that does not terminate normally (fails, exits, returns, ...: its
   outcome r may mention the stack it ran on), the factors before it having evaluated to vals: the
   WideRatio has the outcome of e — or has already failed on an overflowing running product. *)
Theorem C16_wide_ratio_abrupt_num :
  forall (env : denv) (f : nat) (pre : list expr) (e : expr) (post ds : list expr)
         (stk : list value) (st : mstate) (vals : list N) (st1 : mstate) (r : list value -> dout),
    eval_factors env f pre st vals st1 ->
    (forall s, denote env f e s st1 = r s) -> (forall s, notnorm (r s)) ->
    exists acc,
      denote env (S f) (EWide (pre ++ e :: post) ds) stk st =
      if running_ok 1 vals then r (acc ++ stk) else DFail.
Proof. exact wide_ratio_abrupt_num. Qed.
Print Assumptions C16_wide_ratio_abrupt_num.

(* ... and the same for a denominator factor, all numerator factors having evaluated *)
Theorem C16_wide_ratio_abrupt_den :
  forall (env : denv) (f : nat) (ns pre : list expr) (e : expr) (post : list expr)
         (stk : list value) (st : mstate) (nvals : list N) (stm : mstate) (vals : list N) (st1 : mstate)
         (r : list value -> dout),
    ns <> [] ->
    eval_factors env f ns st nvals stm ->
    eval_factors env f pre stm vals st1 ->
    (forall s, denote env f e s st1 = r s) -> (forall s, notnorm (r s)) ->
    exists acc,
      denote env (S f) (EWide ns (pre ++ e :: post)) stk st =
      if running_ok 1 nvals && running_ok 1 vals then r (acc ++ stk) else DFail.
Proof. exact wide_ratio_abrupt_den. Qed.
Print Assumptions C16_wide_ratio_abrupt_den.

(* The emitted code.  For every compile options o, lowering context c consistent with the evaluator,
   continuation k and well-formed graph g: in every graph G containing the blocks the lowering of
   WideRatio(ns, ds) adds, from the fragment's start block with any stack, the block graph reaches the
   continuation with the exact quotient pushed, or the failure configuration. *)
Theorem C16_wide_ratio_general_graph :
  forall (env : denv) (o : copts) (c : lctx),
    consistent env c ->
    forall (ns ds : list expr) (k : option id) (g : graph) (s en : id) (g' : graph),
      wf g -> lower o c (EWide ns ds) k g = ((s, en), g') ->
      forall G : bgraph, gincl (g_blk g') G ->
      forall (f : nat) (nvals dvals : list N) (stk : list value) (st stm st' : mstate),
        ns <> [] -> ds <> [] ->
        eval_factors env f ns st nvals stm ->
        eval_factors env f ds stm dvals st' ->
        star env G (GAt s stk st)
             (match wide_ratio_spec nvals dvals with
              | Some q => cont_conf k (VI q :: stk) st'
              | None => GFail
              end).
Proof. exact wide_ratio_general_graph. Qed.
Print Assumptions C16_wide_ratio_general_graph.

(* The emitted code never wraps: the graph does what the source semantics prescribes (C01), and whenever
   that is a normal completion the graph reaches the continuation with the exact quotient of values the
   factors took in that run. *)
Theorem C16_wide_ratio_graph_never_wraps :
  forall (env : denv) (o : copts) (c : lctx),
    consistent env c ->
    forall (ns ds : list expr) (k : option id) (g : graph) (s en : id) (g' : graph),
      wf g -> lower o c (EWide ns ds) k g = ((s, en), g') ->
      forall G : bgraph, gincl (g_blk g') G ->
      forall (fuel : nat) (stk : list value) (st : mstate),
        ns <> [] -> ds <> [] ->
        Forall (uint_valued env) ns -> Forall (uint_valued env) ds ->
        tgt env G (GAt s stk st) k c (denote env fuel (EWide ns ds) stk st) /\
        forall s' st', denote env fuel (EWide ns ds) stk st = DNorm s' st' ->
          star env G (GAt s stk st) (cont_conf k s' st') /\
          exists f nvals dvals stm,
            fuel = S f /\
            ran_factors env f stk ns st nvals stm /\
            ran_factors env f stk ds stm dvals st' /\
            running_ok 1 nvals = true /\ running_ok 1 dvals = true /\
            prod dvals <> 0 /\ prod nvals / prod dvals < U64 /\
            s' = VI (prod nvals / prod dvals) :: stk.
Proof. exact wide_ratio_graph_never_wraps. Qed.
Print Assumptions C16_wide_ratio_graph_never_wraps.

(* a numerator factor that fails: the emitted code fails *)
Theorem C16_wide_ratio_graph_factor_fails :
  forall (env : denv) (o : copts) (c : lctx),
    consistent env c ->
    forall (ns ds : list expr) (k : option id) (g : graph) (s en : id) (g' : graph),
      wf g -> lower o c (EWide ns ds) k g = ((s, en), g') ->
      forall G : bgraph, gincl (g_blk g') G ->
      forall (f : nat) (pre : list expr) (e : expr) (post : list expr)
             (stk : list value) (st : mstate) (vals : list N) (st1 : mstate),
        ns = pre ++ e :: post ->
        eval_factors env f pre st vals st1 ->
        (forall s0, denote env f e s0 st1 = DFail) ->
        star env G (GAt s stk st) GFail.
Proof. exact wide_ratio_graph_factor_fails. Qed.
Print Assumptions C16_wide_ratio_graph_factor_fails.

(* the vocabulary, spelled out *)
Theorem C16_eval_factors_nil :
  forall env fuel st vs st', eval_factors env fuel [] st vs st' <-> vs = [] /\ st' = st.
Proof. exact eval_factors_nil_iff. Qed.
Print Assumptions C16_eval_factors_nil.

Theorem C16_eval_factors_cons :
  forall env fuel e es st vs st',
    eval_factors env fuel (e :: es) st vs st' <->
    exists v st1 vs', vs = v :: vs' /\ v < U64 /\
      (forall s, denote env fuel e s st = DNorm (VI v :: s) st1) /\
      eval_factors env fuel es st1 vs' st'.
Proof. exact eval_factors_cons_iff. Qed.
Print Assumptions C16_eval_factors_cons.

Theorem C16_ran_factors_nil :
  forall env fuel base st vs st', ran_factors env fuel base [] st vs st' <-> vs = [] /\ st' = st.
Proof. exact ran_factors_nil_iff. Qed.
Print Assumptions C16_ran_factors_nil.

Theorem C16_ran_factors_cons :
  forall env fuel base e es st vs st',
    ran_factors env fuel base (e :: es) st vs st' <->
    exists v st1 vs', vs = v :: vs' /\ v < U64 /\
      (exists acc, denote env fuel e (acc ++ base) st = DNorm (VI v :: acc ++ base) st1) /\
      ran_factors env fuel base es st1 vs' st'.
Proof. exact ran_factors_cons_iff. Qed.
Print Assumptions C16_ran_factors_cons.

Theorem C16_uint_valued_meaning :
  forall env e, uint_valued env e <->
    forall fuel s st s' st', denote env fuel e s st = DNorm s' st' -> exists v, v < U64 /\ s' = VI v :: s.
Proof. intros env e. split; intros H; exact H. Qed.
Print Assumptions C16_uint_valued_meaning.

(* the two readings agree: factors that evaluate on every stack ran with exactly those values *)
Theorem C16_eval_ran_agree :
  forall env fuel base es st vs st' vs2 st2,
    eval_factors env fuel es st vs st' -> ran_factors env fuel base es st vs2 st2 -> vs2 = vs /\ st2 = st'.
Proof. exact eval_ran_agree. Qed.
Print Assumptions C16_eval_ran_agree.

(* constants, sums and products are uint64-valued in every environment; constant factors satisfy the
   hypothesis of the general theorem (which is proved from the op-list theorem of Props/C16.v) *)
Theorem C16_uint_valued_class :
  forall env,
    (forall n, uint_valued env (x_int n)) /\
    (forall o t a1 rest, sum_or_product o = true ->
       uint_valued env a1 -> Forall (uint_valued env) rest -> uint_valued env (ENary o t (a1 :: rest))) /\
    (forall f vs st, Forall (fun c => c < U64) vs -> eval_factors env (S f) (map x_int vs) st vs st).
Proof.
  intros env. split; [exact (uint_valued_int env)|split].
  - exact (uint_valued_nary env).
  - exact (eval_factors_consts env).
Qed.
Print Assumptions C16_uint_valued_class.

(* non-vacuity (hypotheses satisfiable; computed) *)
(* WideRatio([Int 10, Int 20, Int 3 + Int 4], [Int 7]) = 200: compound third factor *)
Example C16_general_compound_example :
  denote wx_env 3 wx_compound [] wx_st = DNorm [VI 200] wx_st.
Proof. exact wide_ratio_general_compound. Qed.

(* WideRatio([Int 2^63, Int 4, Txn.fee], [Int 2^40, Int 1000]) = 2^25 with fee = 1000: run-time third factor,
   the numerator 2^65 * 1000 needs the high word *)
Example C16_general_runtime_example :
  denote wx_env 2 wx_runtime [VI 5] wx_st = DNorm [VI 33554432; VI 5] wx_st.
Proof. exact wide_ratio_general_runtime. Qed.

(* a factor that fails (Int 1 / Int 0), a factor that exits *)
Example C16_general_factor_fails_example :
  denote wx_env 3 (EWide [x_int 10; x_int 20; x_div0] [x_int 7]) [] wx_st = DFail.
Proof. exact wide_ratio_factor_fails. Qed.

Example C16_general_factor_exits_example :
  denote wx_env 4 (EWide [x_int 10; x_int 20] [x_int 3; x_exit]) [] wx_st = DExit (VI 1) wx_st.
Proof. exact wide_ratio_factor_exits. Qed.

(* the lowered graph of the compound example reaches the end with 200 *)
Example C16_general_graph_example :
  star wx_env (g_blk (snd wx_lowered)) (GAt (fst (fst wx_lowered)) [] wx_st) (GEnd [VI 200] wx_st).
Proof. exact wide_ratio_general_graph_compound. Qed.
