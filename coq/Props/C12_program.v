(* Props/C12_program.v — C12, the WHOLE-PROGRAM statement: the program compiled with assembleConstants and the
   pseudo-op program behave identically on every context, state and fuel (reference machine AVM/Machine.v).
   Property theorems only; proofs: Proofs/ConstantsProgramMach.v (machine: frame lemma, relocation, lock step,
   block lines), ConstantsProgramLink.v (component lists -> programs), ConstantsProgram.v (composition),
   ConstantsProgramText.v (the printed texts), ConstantsProgramCompile.v (the compiler model's two texts),
   ConstantsProgramLiterals.v (Bytes(...) spellings are single tokens),
   ConstantsProgramExamples.v.

   Reading of a component list: [clink sigma msel ver code] = AVM.Parse.build_prog (the assembler's own label
   resolution) applied to the statements the assembler reads op by op ([ConstantsSpec.parsed_of]: one token per
   TealOp argument, everything after a "//" argument is comment, comment ops are comment lines), [ver] being the
   version in force before the first statement (the `#pragma version` line PyTeal prints in front).
   TEMPLATES: every argument spelled TMPL_* is replaced by [sigma] of it, in BOTH programs, before the assembler
   reads it ([ConstantsSpec.subst_tok]); sigma is universally quantified.  The known finding `addr TMPL_X`
   (the placeholder moves from an address context to a bytes context) is excluded by [input_ok]
   (its conjunct [no_addr_template_site]); [C12_addr_template_program_unlinkable] shows what happens there.
   INDEXES: [indexes_encodable out] is the boolean negated by the witness of C12_constant_index_encodable_refuted
   ([C12_encodable_excludes_refuted], [C12_refuted_case_excluded]).  The model's assembler and machine do not
   enforce the one-byte immediate of intc/bytec, so the PROOF does not use this hypothesis: it is in the statement
   because the real assembler rejects `intc 256`, i.e. outside it the program P' of the model has no real counterpart.
   COST: AVM/Machine.v has no opcode budget (fuel counts steps), so there is nothing to state "up to": one
   pseudo-op push is matched by exactly one load.  The only difference in step count is the |pro| block lines.
   [F] marks a statement proved in full. *)
From Coq Require Import List NArith Ascii String Bool.
From PV Require Import Base.Bytes Base.Sexp AVM.Syntax AVM.Machine AVM.Parse
  Src.Expr Comp.Lower Comp.Compile
  Comp.Assemble Comp.Constants Comp.ConstantsSpec Proofs.C18Text Proofs.StageEText Proofs.ConstantsProof Proofs.ConstantsSim
  Proofs.ConstantsProgramMach Proofs.ConstantsProgramLink Proofs.ConstantsProgram
  Proofs.ConstantsProgramText Proofs.ConstantsProgramCompile Proofs.ConstantsProgramLiterals
  Proofs.ConstantsProgramExamples.
Import ListNotations.
Local Open Scope string_scope.

(* [F] FRAME LEMMA about Machine.step: on an instruction that is not one of the twelve constant-block opcodes
   (intcblock, intc, intc_0..3, bytecblock, bytec, bytec_0..3) — or past the end of the program — replacing the
   constant registers by any others changes nothing in the result but those registers, and the step leaves the
   registers as they were.  (Only those opcodes depend on or change m_intc / m_bytec.) *)
Theorem C12_step_frame :
  forall cx P m ib bb,
    (forall p, nth_error (pr_code P) (m_pc m) = Some p -> is_block_op (p_op p) = false) ->
    step cx P (set_consts m ib bb) = map_outcome (fun a => set_consts a ib bb) (step cx P m) /\
    match step cx P m with Running a | Done _ a => m_intc a = m_intc m /\ m_bytec a = m_bytec m end.
Proof. exact step_frame. Qed.
Print Assumptions C12_step_frame.

(* [F] RELOCATION + FRAME in one: the same non-block instruction at machines related by [mrel n] (pc and every
   return address moved by n, same stack / call stack / state; registers unrelated), in two programs whose label
   targets differ by n, steps to related machines with the same verdict. *)
Theorem C12_step_same_instr :
  forall cx P P' n m m' oi,
    labels_shift n P P' -> mrel n m m' ->
    nth_error (pr_code P) (m_pc m) = oi -> nth_error (pr_code P') (m_pc m') = oi ->
    (forall p, oi = Some p -> is_block_op (p_op p) = false) ->
    orel n m m' (step cx P m) (step cx P' m').
Proof. exact step_same_instr. Qed.
Print Assumptions C12_step_same_instr.

(* [F] THE WHOLE-PROGRAM THEOREM.  For all hash oracles, instantiations sigma, selector tables consistent with the
   hash, component lists ops (pseudo-op form) and out = createConstantBlocks ops, and programs P, P' linked from
   them (same initial version): if every constant site of ops assembles under sigma (input_ok), ops contains no
   constant-block opcode of its own (no_block_ops; necessary: C12_program_equiv_needs_no_block_ops) and the block
   indexes are encodable, then  out = pro ++ body  with pro the block lines establishing (ib, bb), and
   (1) from the initial machine of ANY state st and context cx, P' first executes exactly the |pro| block lines,
       reaching pc = |pro|, empty stack, registers (ib, bb), state st;
   (2) that machine is in lock-step relation with P's initial machine;
   (3) LOCK STEP: from any two machines related by [lockrel |pro| ib bb] (same stack, same state, same call
       stack and pc up to the shift |pro|, P' holding the blocks) one [step] of P and one [step] of P' either
       both continue to related machines or both stop with the SAME verdict at related machines;
   (4) hence for EVERY fuel k: run k of P and run (k + |pro|) of P' from the initial machine give the same
       verdict (approve / reject / fail / out-of-fuel / unsupported opcode) and related final machines.
   Also: same site-wise facts as C12_constants_sites_preserved, same program version. *)
Theorem C12_constants_program_equiv :
  forall (addr_hash : bytes -> bytes) (sig_hash : string -> bytes)
         (sigma : string -> string) (msel : list (string * bytes)),
    msel_consistent sig_hash msel ->
    forall ops out ver P P',
      create_constant_blocks addr_hash sig_hash ops = Some out ->
      input_ok sigma msel ops ->
      no_block_ops ops = true ->
      indexes_encodable out = true ->
      clink sigma msel ver ops = Some P ->
      clink sigma msel ver out = Some P' ->
      exists pro body ib bb,
        out = (pro ++ body)%list /\
        blocks_after sigma msel pro [] [] = Some (ib, bb) /\
        Forall2 (site_ok sigma msel ib bb) ops body /\
        pr_version P' = pr_version P /\
        (forall cx st k,
           run (k + List.length pro) cx P' (init_mach st) =
           run k cx P' (mkM (List.length pro) [] [] false ib bb st)) /\
        (forall st, lockrel (List.length pro) ib bb (init_mach st) (mkM (List.length pro) [] [] false ib bb st)) /\
        (forall cx m m', lockrel (List.length pro) ib bb m m' ->
           match step cx P m, step cx P' m' with
           | Running a, Running a' => lockrel (List.length pro) ib bb a a'
           | Done v a, Done v' a' => v' = v /\ lockrel (List.length pro) ib bb a a'
           | _, _ => False
           end) /\
        (forall cx st k,
           run_sim (List.length pro) ib bb (run k cx P (init_mach st)) (run (k + List.length pro) cx P' (init_mach st))).
Proof. exact constants_program_equiv. Qed.
Print Assumptions C12_constants_program_equiv.

(* what [run_sim] / [lockrel] / [mrel] say, spelled out: same verdict; same operand stack; same state (scratch,
   global/local/box storage, inner transactions, trace of effects); pc and return addresses shifted; P' holds the blocks *)
Theorem C12_run_sim_unfolded :
  forall n ib bb r r', run_sim n ib bb r r' ->
    fst r' = fst r /\
    m_stack (snd r') = m_stack (snd r) /\
    m_st (snd r') = m_st (snd r) /\
    m_pc (snd r') = (m_pc (snd r) + n)%nat /\
    m_calls (snd r') = map (shift_frame n) (m_calls (snd r)) /\
    m_from_callsub (snd r') = m_from_callsub (snd r) /\
    m_intc (snd r') = ib /\ m_bytec (snd r') = bb.
Proof.
  intros n ib bb r r' (Hv & [Rpc Rstk Rcalls Rfc Rst] & Hi & Hb). repeat split; assumption.
Qed.
Print Assumptions C12_run_sim_unfolded.

(* [F] the rewritten list links whenever the pseudo-op list does (labels are untouched) *)
Theorem C12_constants_link_total :
  forall addr_hash sig_hash sigma msel, msel_consistent sig_hash msel ->
  forall ops out ver P,
    create_constant_blocks addr_hash sig_hash ops = Some out ->
    input_ok sigma msel ops -> no_block_ops ops = true ->
    clink sigma msel ver ops = Some P ->
    exists P', clink sigma msel ver out = Some P'.
Proof. exact constants_link_total. Qed.
Print Assumptions C12_constants_link_total.

(* [F] the encodability hypothesis is the negation of the refuted statement's witness condition *)
Theorem C12_encodable_excludes_refuted :
  forall out i k, In (COp i) out -> long_index i = Some k -> (255 < k)%N -> indexes_encodable out = false.
Proof. exact encodable_excludes_refuted. Qed.
Print Assumptions C12_encodable_excludes_refuted.

Theorem C12_refuted_case_excluded :
  exists out, create_constant_blocks no_hash no_sig (witness_ints 257) = Some out /\ indexes_encodable out = false.
Proof. exact refuted_case_excluded. Qed.
Print Assumptions C12_refuted_case_excluded.

(* ---- non-vacuity: a loop, five repeated ints (7 stays pushint), a repeated template int (intc 4), a named
   constant, two byte strings in two spellings each, a method selector; the assembled lines are those of /repo ---- *)
Example C12_program_example_text :
  option_map assemble_all (create_constant_blocks no_hash ex_sig_hash ex_ops) = Some (assemble_all ex_out) /\
  nth_error ex_out 0 = Some (COp (mkI O_intcblock [AInt 1000; AInt 2000; AInt 3000; AInt 4000; AStr "TMPL_FEE"])) /\
  input_ok ex_sigma ex_msel ex_ops /\ msel_consistent ex_sig_hash ex_msel /\
  no_block_ops ex_ops = true /\ indexes_encodable ex_out = true /\
  clink ex_sigma ex_msel 8 ex_ops = Some ex_P /\ clink ex_sigma ex_msel 8 ex_out = Some ex_P'.
Proof.
  split; [rewrite ex_created; reflexivity|]. split; [reflexivity|]. split; [exact ex_input_ok|].
  split; [exact ex_msel_consistent|]. split; [exact ex_no_block_ops|]. split; [exact ex_indexes_encodable|].
  exact ex_links.
Qed.
Print Assumptions C12_program_example_text.

Example C12_program_example_equiv :
  forall cx st k,
    fst (run (k + 2) cx ex_P' (init_mach st)) = fst (run k cx ex_P (init_mach st)) /\
    m_stack (snd (run (k + 2) cx ex_P' (init_mach st))) = m_stack (snd (run k cx ex_P (init_mach st))) /\
    m_st (snd (run (k + 2) cx ex_P' (init_mach st))) = m_st (snd (run k cx ex_P (init_mach st))) /\
    m_pc (snd (run (k + 2) cx ex_P' (init_mach st))) = (m_pc (snd (run k cx ex_P (init_mach st))) + 2)%nat.
Proof. exact ex_program_equiv. Qed.
Print Assumptions C12_program_example_equiv.

Example C12_program_example_runs :
  fst (run 1000 ex_cx ex_P (init_mach ex_st)) = VApprove /\
  fst (run 1000 ex_cx ex_P' (init_mach ex_st)) = VApprove /\
  List.length (pr_code ex_P') = (List.length (pr_code ex_P) + 2)%nat /\
  label_pc ex_P "main_l1" = Some 2%nat /\ label_pc ex_P' "main_l1" = Some 4%nat.
Proof. exact ex_runs. Qed.
Print Assumptions C12_program_example_runs.

(* ---- necessity / excluded cases ---- *)
Example C12_program_equiv_needs_no_block_ops :
  exists out P P',
    create_constant_blocks no_hash no_sig stray_ops = Some out /\
    input_ok id_sigma [] stray_ops /\ indexes_encodable out = true /\
    no_block_ops stray_ops = false /\
    clink id_sigma [] 8 stray_ops = Some P /\ clink id_sigma [] 8 out = Some P' /\
    fst (run 100 ex_cx P (init_mach ex_st)) = VFail /\
    fst (run 100 ex_cx P' (init_mach ex_st)) = VApprove.
Proof. exact program_equiv_needs_no_block_ops. Qed.
Print Assumptions C12_program_equiv_needs_no_block_ops.

Example C12_addr_template_program_unlinkable :
  exists out P,
    create_constant_blocks no_hash no_sig (tmpl_addr_ops ++ [op O_pop []; op O_int [AInt 1]]) = Some out /\
    clink (fun _ => zero_address) [] 8 (tmpl_addr_ops ++ [op O_pop []; op O_int [AInt 1]]) = Some P /\
    fst (run 100 ex_cx P (init_mach ex_st)) = VApprove /\
    clink (fun _ => zero_address) [] 8 out = None.
Proof. exact addr_template_program_unlinkable. Qed.
Print Assumptions C12_addr_template_program_unlinkable.

(* ================================================================ the two TEXTS ================================== *)
(* [F for its class] The statement about the texts PyTeal prints.  ops in C01's class [printable] (StageEText.v:
   what C01_text_roundtrip covers), every byte literal ONE assembler token ([single_tok]; true of every Bytes(...)
   form), hence placeholder-free (a printable constant site is not a TMPL_ name — the text has to assemble as
   printed; sigma is the identity).  lines = `#pragma version v` + the lines of ops, P = what the assembler model
   (AVM.Parse.parse_program: line splitting, tokeniser, `//` comments, literal readers, label resolution) builds
   from that text.  Then the lines of `#pragma version v` + createConstantBlocks ops assemble, their text parses
   to a program P' — the `// literal` echo after each load is skipped as a comment whatever it contains, the block
   lines are read entry by entry — and P, P' satisfy the whole-program theorem above.
   Built on C01's per-component round trip (comp_lines, the core of C01_text_roundtrip) for every line the two texts
   share, plus: token-level reading = C01's reading on printable ops (agree_comp), lines `op word* // anything`
   (wordy_line), shape of createConstantBlocks' output (ConstantsProof.rewrite_comp_inv, ccb_inv). *)
Theorem C12_constants_text_equiv :
  forall (addr_hash : bytes -> bytes) (sig_hash : string -> bytes) (msel : list (string * bytes)),
    msel_consistent sig_hash msel ->
    forall v ops out lines P,
      create_constant_blocks addr_hash sig_hash ops = Some out ->
      printable msel ops = true -> single_tok ops = true ->
      input_ok id_sigma msel ops -> no_block_ops ops = true -> indexes_encodable out = true ->
      assemble_all (CPragma v :: ops) = Some lines ->
      parse_program msel (program_text lines) = Some P ->
      exists lines' P',
        assemble_all (CPragma v :: out) = Some lines' /\
        parse_program msel (program_text lines') = Some P' /\
        exists pro body ib bb,
          out = (pro ++ body)%list /\
          blocks_after id_sigma msel pro [] [] = Some (ib, bb) /\
          Forall2 (site_ok id_sigma msel ib bb) ops body /\
          pr_version P' = pr_version P /\
          (forall cx st k,
             run (k + List.length pro) cx P' (init_mach st) =
             run k cx P' (mkM (List.length pro) [] [] false ib bb st)) /\
          (forall st, lockrel (List.length pro) ib bb (init_mach st) (mkM (List.length pro) [] [] false ib bb st)) /\
          (forall cx m m', lockrel (List.length pro) ib bb m m' ->
             match step cx P m, step cx P' m' with
             | Running a, Running a' => lockrel (List.length pro) ib bb a a'
             | Done v a, Done v' a' => v' = v /\ lockrel (List.length pro) ib bb a a'
             | _, _ => False
             end) /\
          (forall cx st k,
             run_sim (List.length pro) ib bb (run k cx P (init_mach st)) (run (k + List.length pro) cx P' (init_mach st))).
Proof. exact constants_text_equiv. Qed.
Print Assumptions C12_constants_text_equiv.

(* [F for its class] ... for the texts the COMPILER MODEL prints.  Comp/Compile.v has NO assembleConstants option
   ([copts] has no such field; [compile_model] is the option-off pipeline), so the option-on path of compileTeal is
   written here over the same [compile_components] as [compile_model_constants] (Proofs/ConstantsProgramCompile.v:
   version >= 3 check, createConstantBlocks on the component list without the pragma, assembly).  comps = the
   component list behind both texts. *)
Theorem C12_constants_compiled_text_equiv :
  forall (addr_hash : bytes -> bytes) (sig_hash : string -> bytes) (msel : list (string * bytes)),
    msel_consistent sig_hash msel ->
    forall o modes p lines comps out P,
      compile_model o modes p = COk lines ->
      compile_components o modes p = COk (CPragma (o_version o) :: comps) ->
      (assemble_constants_min_version <= o_version o)%N ->
      create_constant_blocks addr_hash sig_hash comps = Some out ->
      printable msel comps = true -> single_tok comps = true ->
      input_ok id_sigma msel comps -> no_block_ops comps = true -> indexes_encodable out = true ->
      parse_program msel (program_text lines) = Some P ->
      exists lines' P',
        compile_model_constants addr_hash sig_hash o modes p = COk lines' /\
        parse_program msel (program_text lines') = Some P' /\
        exists pro body ib bb,
          out = (pro ++ body)%list /\
          blocks_after id_sigma msel pro [] [] = Some (ib, bb) /\
          Forall2 (site_ok id_sigma msel ib bb) comps body /\
          pr_version P' = pr_version P /\
          (forall cx st k,
             run (k + List.length pro) cx P' (init_mach st) =
             run k cx P' (mkM (List.length pro) [] [] false ib bb st)) /\
          (forall cx m m', lockrel (List.length pro) ib bb m m' ->
             match step cx P m, step cx P' m' with
             | Running a, Running a' => lockrel (List.length pro) ib bb a a'
             | Done v a, Done v' a' => v' = v /\ lockrel (List.length pro) ib bb a a'
             | _, _ => False
             end) /\
          (forall cx st k,
             run_sim (List.length pro) ib bb (run k cx P (init_mach st)) (run (k + List.length pro) cx P' (init_mach st))).
Proof. exact constants_compiled_text_equiv. Qed.
Print Assumptions C12_constants_compiled_text_equiv.

(* compile_components always returns the pragma in front (so the second hypothesis above only names comps) *)
Theorem C12_compile_components_pragma :
  forall o modes p cs, compile_components o modes p = COk cs -> exists comps, cs = CPragma (o_version o) :: comps.
Proof. exact compile_components_pragma. Qed.
Print Assumptions C12_compile_components_pragma.

(* [F] ingredients worth a name: the token-level reading of C12 and C01's reading agree on printable ops;
   a line `op word* // anything` is read as `op word*` *)
Theorem C12_token_reading_agrees_with_C01 :
  forall msel c, printable_comp msel c = true -> single_tok_comp c = true ->
    cstmt_of id_sigma msel c = Proofs.StageELink.stmt_of msel c.
Proof. exact agree_comp. Qed.
Print Assumptions C12_token_reading_agrees_with_C01.

Theorem C12_load_line_reads_back :
  forall msel o pre tail,
    comment_op o = false -> forallb wordy_arg pre = true ->
    (tail = [] \/ exists orig, tail = AStr "//" :: orig /\ Forall nonl_arg orig) ->
    exists line, assemble_instr (mkI o (pre ++ tail)) = Some line /\ nonl_str line /\
      forall ss, cstmt_of id_sigma msel (COp (mkI o (pre ++ tail))) = Some ss -> line_stmts msel line = Some ss.
Proof. exact wordy_line. Qed.
Print Assumptions C12_load_line_reads_back.

(* [F] the hypothesis [single_tok] holds for every spelling the Bytes(...) constructors print (C13's model
   Lit/BaseN.v: utf-8 string with escapes, raw bytes, base32, base64, base16) *)
Theorem C12_bytes_literals_single_token :
  forall a s, Lit.BaseN.bytes_payload a = Some s -> single_tok_instr (mkI O_byte [AStr s]) = true.
Proof. exact bytes_literal_single_tok. Qed.
Print Assumptions C12_bytes_literals_single_token.

(* ---- non-vacuity, text level: the example program without its placeholder; hypotheses hold by computation ---- *)
Example C12_text_example :
  (create_constant_blocks no_hash ex_sig_hash ex_ops_t = Some ex_out_t /\
   printable ex_msel ex_ops_t = true /\ single_tok ex_ops_t = true /\
   no_block_ops ex_ops_t = true /\ indexes_encodable ex_out_t = true /\
   assemble_all (CPragma 8 :: ex_ops_t) = Some ex_lines_t /\
   parse_program ex_msel (program_text ex_lines_t) = Some ex_Pt) /\
  input_ok id_sigma ex_msel ex_ops_t /\
  exists lines' P',
    assemble_all (CPragma 8 :: ex_out_t) = Some lines' /\
    parse_program ex_msel (program_text lines') = Some P' /\
    nth_error lines' 1 = Some "intcblock 1000 2000 3000 4000 5000" /\
    nth_error lines' 29 = Some "intc 4 // 5000" /\
    forall cx st k, fst (run (k + 2) cx P' (init_mach st)) = fst (run k cx ex_Pt (init_mach st)) /\
                    m_stack (snd (run (k + 2) cx P' (init_mach st))) = m_stack (snd (run k cx ex_Pt (init_mach st))) /\
                    m_st (snd (run (k + 2) cx P' (init_mach st))) = m_st (snd (run k cx ex_Pt (init_mach st))).
Proof. split; [exact ex_text_hyps|]. split; [exact ex_input_ok_t|exact ex_text_equiv]. Qed.
Print Assumptions C12_text_example.

(* ---- non-vacuity, compiler level: a source program (loop, a byte literal whose echo contains `;`, `//` and escaped
   quotes used twice, 1000 four times, 0 twice); both texts are line for line those of compileTeal on /repo ---- *)
Example C12_compiled_example_texts :
  compile_model cc_opts opc_modes cc_prog =
  COk ["#pragma version 6"; "int 0"; "store 7"; "int 0"; "store 0"; "main_l1:"; "load 0"; "int 3"; "<"; "bz main_l3";
       "load 7"; "byte ""a;b // \""q\""\n"""; "len"; "+"; "byte ""a;b // \""q\""\n"""; "len"; "+"; "int 1000"; "+";
       "store 7"; "load 0"; "int 1"; "+"; "store 0"; "b main_l1"; "main_l3:"; "load 7"; "int 1000"; "int 1000"; "+";
       "int 1000"; "+"; "int 66"; "+"; "=="; "return"] /\
  compile_model_constants no_hash no_sig cc_opts opc_modes cc_prog =
  COk ["#pragma version 6"; "intcblock 1000 0"; "bytecblock 0x613b62202f2f202271220a"; "intc_1 // 0"; "store 7";
       "intc_1 // 0"; "store 0"; "main_l1:"; "load 0"; "pushint 3 // 3"; "<"; "bz main_l3"; "load 7";
       "bytec_0 // ""a;b // \""q\""\n"""; "len"; "+"; "bytec_0 // ""a;b // \""q\""\n"""; "len"; "+";
       "intc_0 // 1000"; "+"; "store 7"; "load 0"; "pushint 1 // 1"; "+"; "store 0"; "b main_l1"; "main_l3:"; "load 7";
       "intc_0 // 1000"; "intc_0 // 1000"; "+"; "intc_0 // 1000"; "+"; "pushint 66 // 66"; "+"; "=="; "return"].
Proof. exact cc_texts. Qed.
Print Assumptions C12_compiled_example_texts.

Example C12_compiled_example_equiv :
  exists lines' P',
    compile_model_constants no_hash no_sig cc_opts opc_modes cc_prog = COk lines' /\
    parse_program [] (program_text lines') = Some P' /\
    fst (run 1000 ex_cx cc_P (init_mach ex_st)) = VApprove /\
    fst (run 1000 ex_cx P' (init_mach ex_st)) = VApprove /\
    forall cx st k, fst (run (k + 2) cx P' (init_mach st)) = fst (run k cx cc_P (init_mach st)) /\
                    m_stack (snd (run (k + 2) cx P' (init_mach st))) = m_stack (snd (run k cx cc_P (init_mach st))) /\
                    m_st (snd (run (k + 2) cx P' (init_mach st))) = m_st (snd (run k cx cc_P (init_mach st))).
Proof. exact cc_text_equiv. Qed.
Print Assumptions C12_compiled_example_equiv.
