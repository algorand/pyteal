(* Props/C19.v — ABI assignability implies identical encoding.
   Property theorems only; proofs live in Proofs/AssignableProof.v, Proofs/ABILayoutProof.v,
   Proofs/ABIDescrProof.v, Proofs/ABISpecProof.v.
   [assignable] = model of pyteal.abi type_spec_is_assignable_to (ABI/Assignable.v);
   [canon] = encoding-layout normal form (ABI/Layout.v): byte~uint8, address~byte[32]~StaticBytes 32,
   string~byte[]~DynamicBytes, tuple names and NamedTuple class dropped;
   [arc4_encode], [val_has_type], [is_dynamic], [static_len] = the ARC-4 spec (ABI/Spec.v). *)
From Coq Require Import List NArith Ascii String Bool.
From PV Require Import Base.Bytes ABI.Types ABI.Spec ABI.Layout ABI.Descr ABI.Assignable
  Proofs.ABISpecProof Proofs.ABILayoutProof Proofs.ABIDescrProof Proofs.AssignableProof.
Import ListNotations.
Local Open Scope N_scope.

(* MAIN. Whatever the relation admits — for specs nested to any depth — has the same layout: the two
   types differ at most in the spellings that [canon] erases. *)
Theorem C19_assignable_same_layout :
  forall a b : ty, assignable a b = true -> canon a = canon b.
Proof. exact assignable_same_layout. Qed.
Print Assumptions C19_assignable_same_layout.

(* The ARC-4 spec depends on the layout only: two types with the same layout have the same
   dynamic-ness and static length, the same set of values, and every value has the same encoding
   under both (including: it fails to encode under both or under neither). *)
Theorem C19_same_layout_same_encoding :
  forall a b : ty, canon a = canon b ->
    is_dynamic a = is_dynamic b /\ static_len a = static_len b /\
    forall v : val, val_has_type a v = val_has_type b v /\ arc4_encode a v = arc4_encode b v.
Proof. exact same_layout_indistinguishable. Qed.
Print Assumptions C19_same_layout_same_encoding.

(* The property as stated: when A is admitted where B is expected, the raw bytes of any value of A
   are a valid encoding of B, of a well-typed value of B with the same meaning (the same value). *)
Theorem C19_admitted_bytes_are_valid_for_target :
  forall (a b : ty) (v : val) (bs : bytes),
    assignable a b = true -> arc4_encode a v = Some bs ->
    arc4_encode b v = Some bs /\ val_has_type b v = true.
Proof. exact admitted_bytes_valid_for_target. Qed.
Print Assumptions C19_admitted_bytes_are_valid_for_target.

(* Values of differently shaped types are rejected when the call or assignment is built
   ([call_admits] = the test made by SubroutineDefinition.invoke and InnerTxnBuilder.MethodCall). *)
Theorem C19_different_shapes_rejected :
  forall a b : ty, canon a <> canon b -> call_admits a b = false.
Proof. exact different_layout_rejected. Qed.
Print Assumptions C19_different_shapes_rejected.

(* The direct-assignment gates  dst.set(<ABI value>),  member assignment in Tuple.set / Array.set and
   dst.set(<ComputedValue>)  (each class has its own test, none goes through type_spec_is_assignable_to):
   whatever they accept has the layout of the target (for Tuple.set with one value: of the single member). *)
Theorem C19_set_gates_same_layout :
  forall src dst : ty,
    (set_admits src dst = true -> canon src = canon (set_target dst)) /\
    (elem_admits src dst = true -> canon src = canon dst) /\
    (computed_admits src dst = true -> canon src = canon dst).
Proof.
  intros src dst.
  exact (conj (set_admits_same_layout src dst)
              (conj (elem_admits_same_layout src dst) (computed_admits_same_layout src dst))).
Qed.
Print Assumptions C19_set_gates_same_layout.

Theorem C19_set_gates_same_encoding :
  forall src dst : ty,
    (set_admits src dst = true -> forall v, arc4_encode src v = arc4_encode (set_target dst) v) /\
    (elem_admits src dst = true -> forall v, arc4_encode src v = arc4_encode dst v) /\
    (computed_admits src dst = true -> forall v, arc4_encode src v = arc4_encode dst v).
Proof. exact set_gates_same_encoding. Qed.
Print Assumptions C19_set_gates_same_encoding.

(* ComputedValue.store_into(dst) — ReturnedValue, ArrayElement, TupleElement: the destination must have
   the layout (hence the encodings) of the produced spec. *)
Theorem C19_store_into_same_layout :
  forall src dst : ty, store_into_admits src dst = true ->
    canon src = canon dst /\ forall v, arc4_encode src v = arc4_encode dst v.
Proof. exact store_into_admits_same_layout. Qed.
Print Assumptions C19_store_into_same_layout.

(* Method signatures: type_spec_from_algosdk reads a parameter type as the spec of the same ARC-4 type or
   refuses it (uint widths PyTeal has no class for); so an argument accepted by MethodCall for a parameter
   WRITTEN param in the signature has the layout and the encodings of that written type. *)
Theorem C19_method_signature_gate :
  forall arg param : ty, method_arg_admits arg param = true ->
    canon arg = canon param /\ forall v, arc4_encode arg v = arc4_encode param v.
Proof. exact method_arg_admits_same_layout. Qed.
Print Assumptions C19_method_signature_gate.

(* Transaction and reference specs are not ARC-4 values (no encoding); for them the relation is:
   a transaction spec goes exactly to itself or to the generic `txn`; a reference spec exactly to itself;
   nothing else is assignable to or from them. *)
Theorem C19_transaction_specs :
  forall (k1 : txn_kind) (b : ty),
    assignable (TTxn k1) b = true <-> exists k2, b = TTxn k2 /\ (k2 = k1 \/ k2 = TxAny).
Proof. exact assignable_txn_iff. Qed.
Print Assumptions C19_transaction_specs.

Theorem C19_only_transactions_to_transaction :
  forall (a : ty) (k : txn_kind), assignable a (TTxn k) = true -> exists k1, a = TTxn k1.
Proof. exact assignable_to_txn. Qed.
Print Assumptions C19_only_transactions_to_transaction.

Theorem C19_reference_specs :
  forall (k : ref_kind) (b : ty),
    (assignable (TRef k) b = true <-> b = TRef k) /\ (assignable b (TRef k) = true -> b = TRef k).
Proof. exact reference_specs. Qed.
Print Assumptions C19_reference_specs.

(* The modelled function is the literal transcription of the Python text (match order, isinstance
   tests, == on named tuples, str fallback) — one unfolding step, for all a, b. *)
Theorem C19_model_is_transcription :
  forall a b : ty,
    assignable a b =
    if isinst a C_NamedTuple && isinst b C_NamedTuple then py_eq a b
    else if isinst a C_Tuple && isinst b C_Tuple then
      if negb (N.eqb (length_static a) (length_static b)) then false
      else all2_zip assignable (tuple_elems a) (tuple_elems b)
    else if isinst a C_Array && isinst b C_Array then
      match value_spec a, value_spec b with
      | Some ea, Some eb => if negb (assignable ea eb) then false else array_case a b
      | _, _ => false
      end
    else if isinst a C_Uint && isinst b C_Uint then N.eqb (uint_size a) (uint_size b)
    else isinst a (cls_of b) || String.eqb (py_str a) (py_str b).
Proof. exact assignable_eqn. Qed.
Print Assumptions C19_model_is_transcription.

(* The relation is not empty (every spec is assignable to itself) and PyTeal's __str__ is the ARC-4 string. *)
Theorem C19_assignable_refl : forall a : ty, assignable a a = true.
Proof. exact assignable_refl. Qed.
Print Assumptions C19_assignable_refl.

Theorem C19_str_is_arc4_type_string : forall t : ty, py_str t = type_str t.
Proof. exact py_str_type_str. Qed.
Print Assumptions C19_str_is_arc4_type_string.

(* ---- non-vacuity: the hypotheses are satisfiable on a nested, differently spelled pair ---- *)
Definition ex_a : ty := TTup [TAddress; TDynArray (TTup [TByte; TString]); TBool; TBool].
Definition ex_b : ty :=
  TNamed 7 ["owner"; "notes"; "x"; "y"]%string
         [TStaticBytes 32; TDynArray (TNamed 8 ["k"; "v"]%string [TUint 8; TDynBytes]); TBool; TBool].
Definition ex_v : val :=
  VList [VBytes (repeat "A"%char 32); VList [VList [VUint 7; VBytes (bytes_of_string "hi")]]; VBool true; VBool false].

Example C19_nonvacuous_admitted : assignable ex_a ex_b = true /\ ex_a <> ex_b.
Proof. split; [vm_compute; reflexivity | discriminate]. Qed.

Example C19_nonvacuous_encoding :
  exists bs, arc4_encode ex_a ex_v = Some bs /\ arc4_encode ex_b ex_v = Some bs /\ val_has_type ex_a ex_v = true.
Proof. eexists. vm_compute. repeat split; reflexivity. Qed.

Example C19_nonvacuous_rejected :
  canon (TStaticBytes 31) <> canon TAddress /\ call_admits (TStaticBytes 31) TAddress = false /\
  call_admits (TTup [TUint 16]) (TTup [TUint 8; TUint 8]) = false.
Proof. repeat split; try discriminate; vm_compute; reflexivity. Qed.

Example C19_nonvacuous_set_gates :
  set_admits (TUint 8) TByte = true /\ set_admits (TUint 64) (TUint 16) = false /\
  set_admits (TStaticBytes 32) TAddress = true /\ set_admits TDynBytes TString = false /\
  elem_admits TAddress (TStaticBytes 32) = true /\ computed_admits (TStaticArray TByte 32) TAddress = true.
Proof. vm_compute. repeat split; reflexivity. Qed.

(* the relation is directional: same layout does not imply assignable (by design of PyTeal) *)
Example C19_directional :
  canon (TStaticBytes 32) = canon TAddress /\ assignable (TStaticBytes 32) TAddress = false /\
  assignable TAddress (TStaticBytes 32) = true.
Proof. vm_compute. repeat split; reflexivity. Qed.
