(* Props/C02.v — Subroutine calls behave as function calls, incl. recursion.
   Property theorems only; proofs live in Proofs/SpillProof.v, Proofs/PrologueProof.v,
   Proofs/CallPartial.v; the semantics in Comp/SpillSem.v (abstract callee) and AVM/Machine.v. *)
From Coq Require Import String.
From Coq Require Import Arith NArith Bool List.
From PV Require Import Base.Bytes AVM.Syntax AVM.Ops AVM.Machine Comp.Passes Comp.Compile
  Comp.SpillSem Proofs.SpillProof Proofs.PrologueProof Proofs.CallPartial Proofs.CallExamples.
Import ListNotations.
Notation length := List.length.

(* ---- the call statement is kept, exactly where it was, between the spill and the restore code ---- *)
Theorem C02_spill_keeps_call :
  forall version ret slots nargs stmt, In stmt (spill_one version ret slots nargs stmt).
Proof.
  intros. unfold spill_one. apply in_or_app. right. apply in_or_app. right. simpl. auto.
Qed.
Print Assumptions C02_spill_keeps_call.

(* ---- (F) the spill/restore code around a re-entrant call preserves the caller's frame ----
   For every version (all three code paths: cover / uncover-or-swap / dig), every non-empty duplicate-free
   list of local slots, every number of arguments, every argument list, every stack S of operands the
   caller has already computed, every scratch content m, and every callee — which may rewrite ALL slots —
   that leaves as many results as the flag r (second parameter of spill_one) says
   — [spill] passes the CALLED subroutine's flag since the fix 258948a in /repo —:
   the code emitted by spillLocalSlotsDuringRecursion leaves the callee's results on top of S,
   every local slot holds its value from before the call, every other slot holds what the callee left.
   [length slots + numArgs - 1 <= 255] and [length slots <= 255]: the emitted uncover/dig/cover
   immediates are bytes. *)
Theorem C02_spill_frame_same_type :
  forall (version : N) (r : bool) (slots : list N) (numArgs : nat) (cargs : list arg)
         (callee : callee_t) (args S : list value) (m : scratch),
    slots <> [] -> NoDup slots -> Forall slot_ok slots ->
    length args = numArgs ->
    (length slots + numArgs - 1 <= 255)%nat -> (length slots <= 255)%nat ->
    length (fst (callee args m)) = (if r then 1 else 0)%nat ->
    exists m'',
      srun callee numArgs (spill_one version r slots numArgs (call_stmt cargs)) (rev args ++ S) m
      = Some (rev (fst (callee args m)) ++ S, m'')
      /\ (forall n, In n slots -> m'' n = m n)
      /\ (forall n, ~ In n slots -> m'' n = snd (callee args m) n).
Proof. exact spill_frame_same_type. Qed.
Print Assumptions C02_spill_frame_same_type.

(* no local slots: [spill] leaves the routine alone; the bare call has the frame property for any
   number of results *)
Theorem C02_spill_frame_no_slots :
  forall (numArgs : nat) (cargs : list arg) (callee : callee_t) (args S : list value) (m : scratch),
    length args = numArgs ->
    srun callee numArgs [call_stmt cargs] (rev args ++ S) m
    = Some (rev (fst (callee args m)) ++ S, snd (callee args m)).
Proof. exact spill_frame_no_slots. Qed.
Print Assumptions C02_spill_frame_no_slots.

(* ---- (R) the frame property FAILS when the flag and the callee disagree ----
   This is what the compiler did before the fix 258948a (flag = the CALLER's return type) under mutual
   recursion none <-> uint64.  Flag false, callee returns a value: the stack is wrong
   and both local slots are corrupted — on AVM 4 and AVM 6 *)
Theorem C02_spill_frame_refuted_callee_returns :
  forall version, version = 4%N \/ version = 6%N ->
  exists stk m'',
    srun callee_one 1 (spill_one version false [3;4]%N 1 (call_stmt [ASub 1%N])) (rev [VI 7] ++ [VI 1000]) m0
    = Some (stk, m'')
    /\ length (fst (callee_one [VI 7] m0)) = 1%nat
    /\ stk <> rev (fst (callee_one [VI 7] m0)) ++ [VI 1000]
    /\ m'' 3%N <> m0 3%N /\ m'' 4%N <> m0 4%N.
Proof. exact spill_frame_refuted_callee_returns. Qed.
Print Assumptions C02_spill_frame_refuted_callee_returns.

(* flag true, callee returns nothing: the caller's operand (1000) is consumed, both slots corrupted *)
Theorem C02_spill_frame_refuted_callee_none :
  forall version, version = 4%N \/ version = 6%N ->
  exists stk m'',
    srun callee_none 1 (spill_one version true [3;4]%N 1 (call_stmt [ASub 1%N])) (rev [VI 7] ++ [VI 1000]) m0
    = Some (stk, m'')
    /\ length (fst (callee_none [VI 7] m0)) = 0%nat
    /\ stk <> rev (fst (callee_none [VI 7] m0)) ++ [VI 1000]
    /\ m'' 3%N <> m0 3%N /\ m'' 4%N <> m0 4%N.
Proof. exact spill_frame_refuted_callee_none. Qed.
Print Assumptions C02_spill_frame_refuted_callee_none.

(* [spill] hands spill_one the CALLED subroutine's flag (the fix 258948a), shown on the mutual recursion
   f : none (id 1) <-> g : uint64 (id 2): the call of g inside f is wrapped for a result, the call of f
   inside g for none, so C02_spill_frame_same_type applies to both calls. *)
Theorem C02_spill_uses_callee_flag :
  spill 6 ex_prog
        [mkFR None [call_stmt [ASub 1%N]];
         mkFR (Some ex_f) [call_stmt [ASub 2%N]];
         mkFR (Some ex_g) [call_stmt [ASub 1%N]]]
        [(None, []); (Some 1%N, [3; 4]%N); (Some 2%N, [5]%N)]
  = COk [mkFR None [call_stmt [ASub 1%N]];
         mkFR (Some ex_f) (spill_one 6 true [3; 4]%N 1 (call_stmt [ASub 2%N]));
         mkFR (Some ex_g) (spill_one 6 false [5]%N 1 (call_stmt [ASub 1%N]))].
Proof. exact spill_uses_callee_flag. Qed.
Print Assumptions C02_spill_uses_callee_flag.

(* ---- (F) scratch convention: reversed stores bind parameter i to argument i ---- *)
Theorem C02_prologue_scratch :
  forall (callee : callee_t) (na : nat) (slots : list N) (args S : list value) (m : scratch),
    NoDup slots -> Forall slot_ok slots -> length args = length slots ->
    exists m',
      srun callee na (scratch_prologue slots) (rev args ++ S) m = Some (S, m')
      /\ (forall i s v, nth_error slots i = Some s -> nth_error args i = Some v ->
            m' s = v
            /\ forall stk, sstep callee na (OpI O_load s) stk m' = Some (v :: stk, m'))
      /\ (forall n, ~ In n slots -> m' n = m n).
Proof. exact prologue_scratch. Qed.
Print Assumptions C02_prologue_scratch.

(* ---- (F) frame-pointer convention on the reference machine ---- *)
Theorem C02_callsub_proto :
  forall cx p (m : mach) (l : string) (t : nat) (A R : N),
    nth_error (pr_code p) (m_pc m) = Some (mkP O_callsub [IName l]) ->
    label_pc p l = Some t ->
    nth_error (pr_code p) t = Some (mkP O_proto [IInt A; IInt R]) ->
    (height m <= STACK_MAX)%nat -> (N.to_nat A <= height m)%nat ->
    let m1 := mkM t (m_stack m) (mkFrame (S (m_pc m)) None :: m_calls m) true (m_intc m) (m_bytec m) (m_st m) in
    step cx p m = Running m1 /\
    step cx p m1 =
    Running (mkM (S t) (m_stack m)
                 (mkFrame (S (m_pc m)) (Some (height m, N.to_nat A, N.to_nat R)) :: m_calls m)
                 false (m_intc m) (m_bytec m) (m_st m)).
Proof. exact callsub_proto_steps. Qed.
Print Assumptions C02_callsub_proto.

(* frame_dig (i - A) pushes argument i for EVERY content above the frame pointer *)
Theorem C02_prologue_fp :
  forall cx p (m : mach) (ret : nat) (fs : list frame) (A R i : nat) (args locals C : list value) (v : value),
    m_calls m = mkFrame ret (Some (length (rev args ++ C), A, R)) :: fs ->
    m_stack m = locals ++ rev args ++ C ->
    length args = A -> (A <= 128)%nat -> nth_error args i = Some v ->
    (height m <= STACK_MAX)%nat ->
    nth_error (pr_code p) (m_pc m) = Some (mkP O_frame_dig [IInt (256 - N.of_nat (A - i))]) ->
    step cx p m = Running (with_pc_stack m (S (m_pc m)) (v :: m_stack m)).
Proof. exact prologue_fp. Qed.
Print Assumptions C02_prologue_fp.

(* frame_bury 0; retsub with the result on top of any number of locals delivers result :: caller stack *)
Theorem C02_retsub_fp :
  forall cx p (m : mach) (ret : nat) (fs : list frame) (A : nat) (imms : list imm)
         (result cell0 : value) (above args C : list value),
    m_calls m = mkFrame ret (Some (length (rev args ++ C), A, 1%nat)) :: fs ->
    m_stack m = result :: above ++ cell0 :: rev args ++ C ->
    length args = A -> (height m <= STACK_MAX)%nat ->
    nth_error (pr_code p) (m_pc m) = Some (mkP O_frame_bury [IInt 0]) ->
    nth_error (pr_code p) (S (m_pc m)) = Some (mkP O_retsub imms) ->
    let m1 := with_pc_stack m (S (m_pc m)) (above ++ result :: rev args ++ C) in
    step cx p m = Running m1 /\
    step cx p m1 = Running (mkM ret (result :: C) fs false (m_intc m) (m_bytec m) (m_st m)).
Proof. exact retsub_fp. Qed.
Print Assumptions C02_retsub_fp.

Theorem C02_retsub_fp_no_locals :
  forall cx p (m : mach) (ret : nat) (fs : list frame) (A : nat) (imms : list imm)
         (result : value) (args C : list value),
    m_calls m = mkFrame ret (Some (length (rev args ++ C), A, 1%nat)) :: fs ->
    m_stack m = result :: rev args ++ C ->
    length args = A -> (height m <= STACK_MAX)%nat ->
    nth_error (pr_code p) (m_pc m) = Some (mkP O_retsub imms) ->
    step cx p m = Running (mkM ret (result :: C) fs false (m_intc m) (m_bytec m) (m_st m)).
Proof. exact retsub_fp_no_locals. Qed.
Print Assumptions C02_retsub_fp_no_locals.

Theorem C02_retsub_fp_none :
  forall cx p (m : mach) (ret : nat) (fs : list frame) (A : nat) (imms : list imm)
         (locals args C : list value),
    m_calls m = mkFrame ret (Some (length (rev args ++ C), A, 0%nat)) :: fs ->
    m_stack m = locals ++ rev args ++ C ->
    length args = A -> (height m <= STACK_MAX)%nat ->
    nth_error (pr_code p) (m_pc m) = Some (mkP O_retsub imms) ->
    step cx p m = Running (mkM ret C fs false (m_intc m) (m_bytec m) (m_st m)).
Proof. exact retsub_fp_none. Qed.
Print Assumptions C02_retsub_fp_none.

(* general form: R result cells at the frame pointer, anything above *)
Theorem C02_retsub_fp_general :
  forall cx p (m : mach) (ret : nat) (fs : list frame) (A R : nat) (imms : list imm)
         (above rs args C : list value),
    m_calls m = mkFrame ret (Some (length (rev args ++ C), A, R)) :: fs ->
    m_stack m = above ++ rs ++ rev args ++ C ->
    length args = A -> length rs = R ->
    (height m <= STACK_MAX)%nat ->
    nth_error (pr_code p) (m_pc m) = Some (mkP O_retsub imms) ->
    step cx p m = Running (mkM ret (rs ++ C) fs false (m_intc m) (m_bytec m) (m_st m)).
Proof. exact retsub_fp_general. Qed.
Print Assumptions C02_retsub_fp_general.

(* ---- bridge: a non-call step of the straight-line semantics is a machine step ---- *)
Theorem C02_sstep_is_exec_op :
  forall cx callee na (o : opc) (ns : list N) stk (st : mstate) stk' m',
    o <> O_callsub ->
    sstep callee na (COp (mkI o (map AInt ns))) stk (sc_of st) = Some (stk', m') ->
    exists st', exec_op cx o (map IInt ns) stk st = OOk stk' st' /\ forall n, sc_of st' n = m' n.
Proof. exact sstep_is_exec_op. Qed.
Print Assumptions C02_sstep_is_exec_op.

(* ---- (P) end to end on the machine: non-recursive call, scratch convention, straight-line body ----
   Bodies with control flow, nested or recursive calls, and the link from the source semantics to the machine:
   C02_program_text_calls_*_partial in Props/C02_machine.v (whole compiled programs, scratch convention).
   The frame-pointer convention on the machine: C02_fp_call_protocol there; it is not connected to the
   source semantics. *)
Theorem C02_call_correct_partial :
  forall cx p (f : list value -> value)
         (m : mach) (l : string) (t : nat) (slots : list N) (args Sk : list value)
         (body : list pinstr) (imms : list imm),
    nth_error (pr_code p) (m_pc m) = Some (mkP O_callsub [IName l]) ->
    label_pc p l = Some t ->
    seg_at p t (map store_instr (rev slots) ++ body) ->
    nth_error (pr_code p) (t + length slots + length body) = Some (mkP O_retsub imms) ->
    m_stack m = rev args ++ Sk -> length args = length slots ->
    NoDup slots -> Forall slot_ok slots ->
    (height m <= STACK_MAX)%nat -> (S (length Sk) <= STACK_MAX)%nat ->
    (forall st1,
        (forall i s v, nth_error slots i = Some s -> nth_error args i = Some v -> sc_of st1 s = v) ->
        exists st2, mrun cx body Sk st1 = Some (f args :: Sk, st2)) ->
    exists st2,
      msteps cx p (2 + length slots + length body) m
      = Some (mkM (S (m_pc m)) (f args :: Sk) (m_calls m) false (m_intc m) (m_bytec m) st2).
Proof. exact call_correct_partial_fun. Qed.
Print Assumptions C02_call_correct_partial.
