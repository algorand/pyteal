(* Props/C14.v — Inner method calls are marshalled per ARC-4.
   Property theorems only; proofs live in Proofs/ItxnWalk.v, Proofs/ItxnCorrect.v and
   Proofs/ItxnClient.v.

   [method_call]  = model of InnerTxnBuilder.MethodCall (Router/Itxn.v): the inner transactions it adds to
                    the open group, as the reference AVM records them, or the exception class;
   [denotes]      = what the supplied Python objects mean at the ARC-4 level (an ABI instance means the
                    value it holds; a raw bytes expression for a plain parameter is — by MethodCall's
                    contract — already the ARC-4 encoding of the value meant; a dict is a transaction);
   [observe]      = the recorded application call read as ApplicationArgs / Accounts / Assets /
                    Applications / preceding transactions;
   [valid_call]   = the ARC-4 client convention (selector first; one application argument per
                    non-transaction argument, the 15th and later packed as ONE tuple by [pack] of
                    Router/Args.v; a reference argument travels as a uint8 index that RESOLVES, for the
                    callee, to the value passed; transaction arguments are the transactions immediately
                    before the call, in order, each of the type the signature names);
   [assignable]   = model of type_spec_is_assignable_to (ABI/Assignable.v, C19);
   [selector_of]  = SHA-512/256 truncated to 4 bytes, an oracle: only assumed to be a function.
   (F) marks a part of the property proved in full, (R) a part refuted by the theorem that follows. *)
From Coq Require Import List Arith NArith Ascii String Bool.
From PV Require Import Base.Bytes AVM.Syntax ABI.Types ABI.Spec ABI.Layout ABI.Assignable
  Router.Args Router.Itxn Proofs.ItxnWalk Proofs.ItxnCorrect Proofs.ItxnClient.
Import ListNotations.
Local Open Scope string_scope.
Local Open Scope list_scope.

(* MAIN (F).  For every signature with at most 15 non-transaction arguments, every argument list the
   constructor accepts and every meaning of it: the group MethodCall records is the transaction
   arguments in order, immediately followed by ONE application call (TypeEnum appl) which — however
   extra_fields extends the foreign arrays — is an ARC-4 client encoding of the call. *)
Theorem C14_itxn_method_call_correct_le15 :
  forall (selector_of : string -> bytes) (s : msig) (app_id : aid) (args : list iarg) (extra : fdict)
         (grp : list itx) (ks : list karg) (sender : bytes) (callee : N),
    method_call selector_of s app_id args extra = Ok grp ->
    denotes (s_params s) args ks ->
    (count_nontxn (s_params s) <= 15)%nat ->
    extra_ok extra = true ->
    let pre := ktxns (combine (s_params s) ks) in
    exists calltx,
      grp = pre ++ [calltx] /\
      last_field "TypeEnum" calltx = Some (VI 6) /\
      forall c, observe pre calltx = Some c ->
                valid_call (selector_of (arc4_sig_str s)) sender callee s ks c.
Proof. exact method_call_correct_le15. Qed.
Print Assumptions C14_itxn_method_call_correct_le15.

(* ... and the call can indeed be read back (the universally quantified [c] above exists) whenever
   extra_fields leaves the foreign arrays alone. *)
Theorem C14_itxn_method_call_observable :
  forall (selector_of : string -> bytes) s app_id args extra grp ks,
    method_call selector_of s app_id args extra = Ok grp ->
    denotes (s_params s) args ks ->
    extra_plain extra = true ->
    exists calltx c, grp = ktxns (combine (s_params s) ks) ++ [calltx] /\
                     observe (ktxns (combine (s_params s) ks)) calltx = Some c.
Proof. exact method_call_observable. Qed.
Print Assumptions C14_itxn_method_call_observable.

(* REFUTED beyond 15 (R).  MethodCall never packs: for sixteen uint64 arguments it records 17
   application arguments, which is not an ARC-4 encoding of the call (no ARC-4 call has more than 16).
   Known finding C14/no-tuple-packing. *)
Theorem C14_itxn_method_call_gt15_refuted :
  forall (selector_of : string -> bytes) (sender : bytes) (callee : N),
    exists grp calltx c,
      method_call selector_of s16 (AidExpr (XE T_uint (VI 1))) args16 [] = Ok grp /\
      denotes (s_params s16) args16 ks16 /\
      grp = ktxns (combine (s_params s16) ks16) ++ [calltx] /\
      observe (ktxns (combine (s_params s16) ks16)) calltx = Some c /\
      List.length (ic_args c) = 17%nat /\
      ~ valid_call (selector_of (arc4_sig_str s16)) sender callee s16 ks16 c.
Proof. exact method_call_gt15_refuted. Qed.
Print Assumptions C14_itxn_method_call_gt15_refuted.

Theorem C14_valid_call_at_most_16_args :
  forall sel sender callee s ks c, valid_call sel sender callee s ks c -> (List.length (ic_args c) <= 16)%nat.
Proof. exact valid_call_at_most_16_args. Qed.
Print Assumptions C14_valid_call_at_most_16_args.

(* GATE (F, through C19's relation).  An ABI instance is accepted only for a plain parameter its type
   is assignable to; then both types have the same layout and the recorded bytes are the ARC-4
   encoding of the held value under the SIGNATURE's type ... *)
Theorem C14_itxn_accepts_only_assignable :
  forall (selector_of : string -> bytes) s app_id args extra grp i t a v,
    method_call selector_of s app_id args extra = Ok grp ->
    nth_error (s_params s) i = Some t -> nth_error args i = Some (IAbi a v) ->
    is_txn_ty t = false /\ is_ref_ty t = false /\
    assignable a t = true /\ canon a = canon t /\
    exists bs, arc4_encode a v = Some bs /\ arc4_encode t v = Some bs /\ val_has_type t v = true.
Proof. exact method_call_gate. Qed.
Print Assumptions C14_itxn_accepts_only_assignable.

(* ... and an instance of a type that is not assignable is rejected when the expression is built. *)
Theorem C14_itxn_rejects_unassignable :
  forall (selector_of : string -> bytes) s app_id args extra i t a v,
    nth_error (s_params s) i = Some t -> nth_error args i = Some (IAbi a v) ->
    assignable a t = false ->
    exists e, method_call selector_of s app_id args extra = Err e.
Proof. exact method_call_rejects_unassignable. Qed.
Print Assumptions C14_itxn_rejects_unassignable.

(* INDEX RULES (F).  The reference argument that follows the parameters ps1 is recorded at application
   argument 1 + (number of non-transaction parameters in ps1) as the single byte
     accounts / applications: 1 + (number of earlier parameters of the same kind)   [entry 0 is implicit]
     assets:                  number of earlier asset parameters,
   and the value passed sits at position (number of earlier parameters of that kind) of the matching
   foreign array of the same transaction.  Holds for any number of arguments. *)
Theorem C14_reference_index_rules :
  forall (selector_of : string -> bytes) s app_id args extra grp ps1 k ps2 as1 a as2,
    method_call selector_of s app_id args extra = Ok grp ->
    s_params s = ps1 ++ TRef k :: ps2 -> args = as1 ++ a :: as2 -> List.length as1 = List.length ps1 ->
    exists pre calltx v,
      grp = pre ++ [calltx] /\ ref_value k a = Ok v /\
      nth_error (arr_of "ApplicationArgs" calltx) (S (count_nontxn ps1))
        = Some (VB [n2b (N.of_nat (pyteal_index k (count_ref k ps1)))]) /\
      nth_error (arr_of (array_name k) calltx) (count_ref k ps1) = Some v.
Proof. exact reference_index_rules. Qed.
Print Assumptions C14_reference_index_rules.

(* SPEC LINK (F).  The relation [valid_call] admits the reference client of C09: whatever
   [client_encode] (Router/Args.v — reuses entries, passes sender / called application as index 0;
   validated against algosdk's AtomicTransactionComposer on every C09 run) produces is a valid call. *)
Theorem C14_reference_client_is_valid_call :
  forall sel sender app s args c,
    client_encode sel sender app s args = Some c ->
    valid_call sel sender app s (map karg_of args) (icall_of c).
Proof. exact client_encode_is_valid_call. Qed.
Print Assumptions C14_reference_client_is_valid_call.

(* ---- non-vacuity: a call with every kind of argument is accepted, has a meaning, and is observed ---- *)
Definition ex_sig : msig :=
  mkSig "swap" [TRef RAccount; TTxn TxPay; TUint 64; TRef RAsset; TTup [TStaticArray TByte 32; TDynArray TBool];
                TRef RApplication; TTxn TxAny; TRef RAccount; TString] (Some (TUint 64)).
Definition ex_addr (c : ascii) : bytes := repeat c 32.
Definition ex_args : list iarg :=
  [ IExpr (XE T_bytes (VB (ex_addr "A")));
    IDict [("TypeEnum", FExpr (XEnum "pay")); ("Amount", FExpr (XE T_uint (VI 1000)))];
    IAbi (TUint 64) (VUint 7);
    IRefInst RAsset (VI 31);
    IAbi (TNamed 3 ["owner"; "flags"] [TAddress; TDynArray TBool])
         (VList [VBytes (ex_addr "B"); VList [VBool true; VBool false; VBool true]]);
    IExpr (XE T_any (VI 44));
    IDict [("TypeEnum", FExpr (XEnum "axfer")); ("XferAsset", FExpr (XE T_uint (VI 31)))];
    IRefInst RAccount (VB (ex_addr "C"));
    IExpr (XE T_bytes (VB (be_encode 2 2 ++ bytes_of_string "hi"))) ].
Definition ex_ks : list karg :=
  [ KAccount (ex_addr "A");
    KTxn [("TypeEnum", VI 1); ("Amount", VI 1000)];
    KVal (VUint 7);
    KAsset 31;
    KVal (VList [VBytes (ex_addr "B"); VList [VBool true; VBool false; VBool true]]);
    KApp 44;
    KTxn [("TypeEnum", VI 4); ("XferAsset", VI 31)];
    KAccount (ex_addr "C");
    KVal (VBytes (bytes_of_string "hi")) ].

Example C14_nonvacuous_accepted :
  exists grp, method_call (fun _ => bytes_of_string "SEL!") ex_sig (AidExpr (XE T_uint (VI 9))) ex_args
                          [("Fee", FExpr (XE T_uint (VI 0)))] = Ok grp /\ List.length grp = 3%nat.
Proof. eexists. split; [vm_compute; reflexivity | reflexivity]. Qed.

Example C14_nonvacuous_denotes : denotes (s_params ex_sig) ex_args ex_ks /\ count_nontxn (s_params ex_sig) = 7%nat.
Proof.
  split; [|reflexivity].
  repeat (apply D_cons || apply D_nil).
  - apply D_acct_e. reflexivity.
  - apply D_txn; [vm_compute; reflexivity | repeat constructor; cbn; intuition discriminate].
  - apply D_abi; reflexivity.
  - apply D_asset_i.
  - apply D_abi; reflexivity.
  - apply D_app_e. reflexivity.
  - apply D_txn; [vm_compute; reflexivity | repeat constructor; cbn; intuition discriminate].
  - apply D_acct_i.
  - eapply D_raw; try reflexivity.
Qed.

Example C14_nonvacuous_rejected :
  method_call (fun _ => []) (mkSig "f" [TAddress] None) AidNone [IAbi (TStaticBytes 32) (VBytes (ex_addr "A"))] []
    = Err E_Type /\
  method_call (fun _ => []) (mkSig "f" [TTxn TxPay] None) AidNone [IDict [("TypeEnum", FExpr (XEnum "axfer"))]] []
    = Err E_Input /\
  method_call (fun _ => []) (mkSig "f" [TUint 8] None) AidNone [IOther] [] = Err E_Type /\
  method_call (fun _ => []) (mkSig "f" [TUint 8] None) AidNone [] [] = Err E_Input.
Proof. vm_compute. repeat split; reflexivity. Qed.
