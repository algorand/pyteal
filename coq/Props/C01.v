(* Props/C01.v — compiled TEAL computes what the PyTeal expression denotes.
   Property theorems only.  The induction is in CallX/LowerCorrect.v, for the evaluator with a call
   oracle; Proofs/LowerCorrect.v instantiates it at the oracle that knows nothing. *)
From Coq Require Import List NArith.
From PV Require Import Base.Bytes AVM.Syntax AVM.Machine Src.Expr Src.Denote
  Comp.Blocks Comp.Lower Comp.GraphSem Proofs.LowerFrame Proofs.LowerLemmas Proofs.LowerCorrect.
Import ListNotations.

(* Stage A — lowering.  For every recipe e (no bound on nesting), every compile options o, every
   lowering context c consistent with the evaluator's notion of "inside a subroutine", every
   continuation k and every well-formed graph g: in every graph G that contains the lowered
   fragment, from the fragment's start block with ANY operand stack and machine state, the block
   graph reaches exactly the configuration the source semantics prescribes:
     normal completion  -> the continuation k with the resulting stack/state,
     Break / Continue   -> the loop exit / the loop's continue target,
     Return / Exit      -> the retsub / return op with the value,
     failure            -> failure,
   for every fuel at which the evaluator does not run out of fuel.  Nothing is claimed for a run
   the evaluator gives up on ([DUnsup], where [tgt] is True): every run that reaches an [ECall],
   whose arguments are not even evaluated, or an op [do_op] gives up on ([exec_op] does not run
   it, or its immediates have no value).  With calls: C02_lower_correct_calls in
   Props/C02_compose.v.  This is where operand order (left to right, once), branch polarity, loop
   back-edges, Continue targets, the v2 assert expansion, Cond's fall-through to err and the
   reversed multi-value stores live. *)
Theorem C01_lower_correct :
  forall (env : denv) (o : copts) (fuel : nat) (c : lctx) (e : expr),
    consistent env c ->
    forall (k : option id) (g : graph) (s en : id) (g' : graph),
      wf g -> lower o c e k g = ((s, en), g') ->
      forall G : bgraph, gincl (g_blk g') G ->
      forall (stk : list value) (st : mstate),
        tgt env G (GAt s stk st) k c (denote env fuel e stk st).
Proof. exact lower_correct. Qed.
Print Assumptions C01_lower_correct.

(* the graph only grows while lowering: blocks present before a lowering step are untouched *)
Theorem C01_lower_frame :
  forall (o : copts) (e : expr) (c : lctx) (k : option id) (g : graph) r (g' : graph),
    wf g -> lower o c e k g = (r, g') -> frame g g'.
Proof. intros o e c. exact (lower_frame o e c). Qed.
Print Assumptions C01_lower_frame.
