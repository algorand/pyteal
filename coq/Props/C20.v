(* Props/C20.v — "Compilation is total: TEAL or a PyTeal error, never a crash".
   Property theorems only; proofs live in Proofs/Totality*.v.

   Status of the statement on the faithful model (Comp/*.v, tied to /repo by harness/c20.py):
     R  [walk_depth_unbounded]      the recursive walks need a stack as deep as the program is long:
                                    for every bound there is a well-typed straight-line program beyond it,
                                    which the (stack-less) model accepts — the implementation raises
                                    RecursionError on it (known finding "long-program-recursion");
     -  [optimizer_witness_now_accepted] the second refutation of the design (the optimiser's structural block
                                    comparison diverges on a cycle of conditional blocks => RecursionError) was
                                    repaired in /repo (commit f003506); the former witness is recorded;
     P  [accepts_well_typed_partial] acceptance proved for the straight-line fragment, unbounded in length
                                    and nesting depth, every version/mode/option (see below for the gap);
     -  the third refutation of the design (a loop as first statement => AssertionError in NormalizeBlocks)
        is no longer a theorem either: /repo was repaired (commit 39fa261) and the model follows the code;
        [loop_first_now_accepted] records the former witness.  The tree-validity theorems of
        addIncoming / validateTree / NormalizeBlocks for ARBITRARY graphs belong to Props/C20_tree.v
        (another file of this property, proofs in Proofs/IncomingProof.v, Proofs/NormalizeCorrect.v). *)
From Coq Require Import List NArith String Bool.
From PV Require Import Base.Bytes AVM.Syntax Src.Expr Src.WellTyped Comp.Blocks Comp.Lower Comp.Passes Comp.Compile
  Gen.Tables Extract.WireExpr
  Proofs.TotalityChain Proofs.TotalityWalk Proofs.TotalityAccept Proofs.TotalityWitness.
Import ListNotations.

(* Recursion depth.  For EVERY program of the straight-line fragment that ends in a return, the
   depth of addIncoming's recursion (second component of the model's [add_incoming]) on the lowered
   graph is the number of blocks of the program minus one — one Python frame per operator node and
   per Seq.  ([blocks]: Proofs/TotalityChain.v.) *)
Theorem walk_depth_is_program_length :
  forall (o : copts) (modes : opc -> bool * bool) (e : expr),
    straight o (okop o modes) e = true -> has_return e = true ->
    let r := lower o (mkL None None None main_param) e None empty_graph in
    snd (add_incoming (snd r) (fst (fst r))) = blocks e - 1.
Proof.
  intros o modes e ST HR.
  destruct (compile_one_straight o modes e ST HR) as (g & ops & _ & _ & _ & D). exact D.
Qed.
Print Assumptions walk_depth_is_program_length.

(* The property demands acceptance "irrespective of how long the program is".  For every version
   2..10, mode, option setting and every bound L there is a well-typed (constructor checks), straight-line
   program — Seq(Pop(Int(0)) x n, Approve()) — whose walk is deeper than L, and which the model accepts.
   An implementation that walks the graph recursively on a bounded stack therefore rejects a
   well-typed program with a non-PyTeal exception, whatever the bound. *)
Theorem walk_depth_unbounded :
  forall (v : N) (app ss fp : bool), (2 <= v)%N -> (v <= 10)%N ->
  forall L : nat,
  exists e : expr,
    wt e = true /\
    straight (std_opts v app ss fp) (okop (std_opts v app ss fp) gen_modes) e = true /\
    (let r := lower (std_opts v app ss fp) (mkL None None None main_param) e None empty_graph in
     L < snd (add_incoming (snd r) (fst (fst r)))) /\
    (exists lines, compile_model (std_opts v app ss fp) gen_modes (mkProgram e [] []) = COk lines).
Proof.
  intros v app ss fp V1 V2 L.
  destruct (std_ok v app ss fp V1 V2) as (K1 & K2 & K3).
  exists (long_prog L). split; [apply wt_long|]. split; [apply straight_long; assumption|]. split.
  - cbv zeta. rewrite (walk_depth_long (std_opts v app ss fp) gen_modes K1 K2 K3 L). Lia.lia.
  - apply (accepts_straight (std_opts v app ss fp) gen_modes (mkProgram (long_prog L) [] [])).
    + exact V1.
    + exact V2.
    + apply straight_long; assumption.
    + apply has_return_long.
Qed.
Print Assumptions walk_depth_unbounded.

(* Acceptance (partial).  FRAGMENT: the main routine is built from operator nodes with plain
   immediates (Int, Bytes, Txn/Global fields, arithmetic, comparisons, Pop, Log, ... any arity and
   nesting depth), NaryExpr, Seq nested to any depth, Approve/Reject/ExitProgram and Return(e) —
   [straight]; it ends in a return; every operator is available at the target version and mode per
   the tables in [o]/[modes] and is not a scratch load/store — [okop].  For every such program, of any
   length, at every version 2..10, in both modes, with and without the scratch-slot optimiser and frame
   pointers, and whatever subroutine/slot tables accompany it, the model returns TEAL.
   MISSING for the general statement: conditionals and loops (where NormalizeBlocks does real work:
   the general tree-validity invariant is the subject of Props/C20_tree.v), scratch variables (slot
   assignment and validateSlots with a non-empty slot set, the optimiser's cancellation), subroutines
   (spilling, resolution), MultiValue, WideRatio, Assert. *)
Theorem accepts_well_typed_partial :
  forall (o : copts) (modes : opc -> bool * bool) (p : prog),
    (2 <= o_version o)%N -> (o_version o <= 10)%N ->
    straight o (okop o modes) (p_main p) = true -> has_return (p_main p) = true ->
    exists lines, compile_model o modes p = COk lines.
Proof. exact accepts_straight. Qed.
Print Assumptions accepts_well_typed_partial.

(* non-vacuity: a nested, well-typed member of the fragment under the generated tables *)
Example fragment_member :
  let e := ESeq [pop_int 7;
                 ESeq [EOp O_pop [] TNone [ENary O_add TUint [int_ 1; EOp O_minus [] TUint [int_ 9; int_ 2]; int_ 3]]];
                 EReturn (Some (EOp O_lt [] TUint [EOp O_txn [AStr "Fee"] TUint []; int_ 5]))] in
  wt e = true /\ has_return e = true /\
  forallb (fun v => straight (std_opts v true false false) (okop (std_opts v true false false) gen_modes) e) versions = true.
Proof. vm_compute. repeat split; reflexivity. Qed.

(* The optimiser.  The design refuted totality a second time: on a loop whose cycle consists of
   conditional blocks only, with a store/load pair in the loop condition, the optimiser's STRUCTURAL block
   comparison (TealConditionalBlock.__eq__ has no cycle guard) did not terminate => RecursionError.
   /repo was repaired (commit f003506: the current block is located by identity) and the model follows
   the code, so the refutation is no longer a theorem about the current model.  What remains checkable:
   the former witness is accepted at every version with the optimiser on, and the predicate describing
   the PINNED comparison ([eq_diverges], kept in Comp/Passes.v) still holds on the witness's graph for a
   block that carries a store/load candidate — the exact condition under which the pinned code crashed. *)
Example optimizer_witness_now_accepted :
  wt (p_main opt_witness) = true /\
  forallb (fun v => is_ok (compile_model (std_opts v true true (N.leb 8 v)) gen_modes opt_witness)) versions = true.
Proof. vm_compute. split; reflexivity. Qed.

Example optimizer_pinned_comparison_diverged :
  match compile_one (std_opts 9 true true true) None (p_main opt_witness) with
  | COk cr =>
      existsb (fun b => eq_diverges (cr_graph cr) b &&
                        existsb (fun i => is_op i O_store) (get_ops (cr_graph cr) b) &&
                        existsb (fun i => is_op i O_load) (get_ops (cr_graph cr) b))
              (iterate (cr_graph cr) (cr_start cr))
  | CErr _ => false
  end = true.
Proof. vm_compute. reflexivity. Qed.

(* Former refutation, now an accepted program: a loop as the first statement. *)
Example loop_first_now_accepted :
  wt (p_main loop_first_witness) = true /\
  forallb (fun v => is_ok (compile_model (std_opts v true (N.leb 9 v) (N.leb 8 v)) gen_modes loop_first_witness)) versions = true.
Proof. vm_compute. split; reflexivity. Qed.
