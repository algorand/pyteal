(* Props/C01_end_to_end.v — property C01 (compiled TEAL computes what the PyTeal expression denotes)
   for ONE routine, end to end: from the source semantics [denote] down to the flattened linear
   instruction list, composed from the stage theorems
     A  lowering                       Props/C01.v            (C01_lower_correct)
     D  addIncoming + NormalizeBlocks  Props/C01_normalize.v  (C01_lowered_normalize_correct)
     C  sortBlocks                     Props/C01_flatten.v    (C01_sort_blocks_complete)
     B  flattenBlocks                  Props/C01_flatten.v    (C01_flatten_correct)
   and the glue, composed in CallX/EndToEnd*.v for the semantics with a call oracle and instantiated
   in Proofs/EndToEnd*.v.  Property theorems only. *)
From Coq Require Import List NArith String.
From PV Require Import Base.Bytes AVM.Syntax AVM.Machine Src.Expr Src.Denote
  Comp.Blocks Comp.Lower Comp.Passes Comp.GraphSem Comp.LinearSem Comp.SimCheck Comp.Compile
  Proofs.LowerFrame Proofs.LowerLemmas Proofs.LowerCorrect Proofs.LowerShape
  Proofs.NormalizeLowered Proofs.FlattenCorrect Proofs.SortCorrect
  Proofs.EndToEndExits Proofs.EndToEndGlue Proofs.EndToEnd Proofs.EndToEndTyped Proofs.EndToEndExamples
  Proofs.OptimizeSem Proofs.OptimizeCorrect Proofs.EndToEndOpt Proofs.EndToEndOptExample.
From PV Require Import Src.WellTyped.
Import ListNotations.

(* ---- the end-to-end theorem ----
   For every option record o, every routine context — the main routine (sub = None) or a subroutine
   body (sub = Some r) without deferred expression (every subroutine except an ABI-returning one) —
   and every recipe ast0 such that
     * compile_one o sub ast0 succeeds with cr (PyTeal's own checks, the lowering, addIncoming,
       validateTree, NormalizeBlocks, validateTree), the scratch-slot optimiser not being applied,
     * sortBlocks and flattenBlocks succeed on cr, giving the instruction list [code],
     * the root handed to the lowering is not headed by a loop (true of every root PyTeal can build; see
       C01_end_to_end_needs_root_condition and C01_root_head_loop),
   the start block of the routine is at pc 0 of [code], and for every evaluation environment consistent
   with the lowering context (same notion of "inside a subroutine", same parameter loads), every fuel,
   every initial operand stack and machine state: whenever the source semantics gives an outcome
   other than out-of-fuel / outside-the-modelled-fragment, the linear code started at pc 0 with that
   stack and state reaches exactly the corresponding halting configuration
       DExit v st  ->  LExit v st    (return / exit: same value, same state)
       DRet stk st ->  LRet stk st   (retsub: same stack, same state)
       DFail       ->  LFail
       DNorm/DEnd  ->  LEnd stk st   (control ran off the routine; DBrk/DCont likewise, but the checks of
                                      compile_one exclude an escaping Break/Continue)
   and reaches NO other halting configuration. *)
Theorem C01_routine_end_to_end :
  forall (o : copts) (sub : option routine) (ast0 : expr) (cr : croutine)
         (order : list id) (code : list comp),
    (match sub with Some r => r_deferred r | None => None end) = None ->
    compile_one o sub ast0 = COk cr ->
    head_loop (root_ast ast0) = false ->
    sort_blocks (cr_graph cr) (cr_start cr) (cr_end cr) = Some order ->
    flatten_blocks (cr_graph cr) order = Some code ->
    pos_of (cr_graph cr) order (cr_start cr) = 0 /\
    forall env : denv, consistent env (routine_ctx o sub) ->
    forall (fuel : nat) (stk : list value) (st : mstate) (h : lconf),
      halt_of (denote env fuel (root_ast ast0) stk st) = Some h ->
      lstar env code (LAt 0 stk st) h /\
      forall c2, lstar env code (LAt 0 stk st) c2 -> lfinal c2 = true -> c2 = h.
Proof. exact routine_end_to_end. Qed.
Print Assumptions C01_routine_end_to_end.

(* the same, one stage earlier: the normalised block graph of the routine (what the optimiser, the slot
   assignment and sortBlocks receive) computes what the source semantics prescribes *)
Theorem C01_routine_graph_correct :
  forall (o : copts) (sub : option routine) (ast0 : expr) (cr : croutine),
    (match sub with Some r => r_deferred r | None => None end) = None ->
    compile_one o sub ast0 = COk cr ->
    head_loop (root_ast ast0) = false ->
    forall env : denv, consistent env (routine_ctx o sub) ->
    forall (fuel : nat) (stk : list value) (st : mstate) (h : gconf),
      ghalt_of (denote env fuel (root_ast ast0) stk st) = Some h ->
      star env (g_blk (cr_graph cr)) (GAt (cr_start cr) stk st) h.
Proof. exact routine_graph_correct. Qed.
Print Assumptions C01_routine_graph_correct.

(* ---- the glue facts ---- *)

(* lowering a whole routine that passes PyTeal's checks (no Break/Continue outside a loop, no Continue
   in a loop header): the only block control can fall off is the end block, a simple block without
   successor.  This is the [single_exit] / [ends_last] obligation of the sort and flatten stages. *)
Theorem C01_lowered_routine_single_exit :
  forall (o : copts) (c : lctx) (e : expr) (s en : id) (g0 : graph),
    l_brk c = None -> l_cont c = None ->
    check_expr o (l_sub_ret c) false e = None -> has_bad_continue false e = false ->
    lower o c e None empty_graph = ((s, en), g0) ->
    (forall i bb, g_blk g0 i = Some bb ->
       existsb is_term_op (b_ops bb) = false /\ outgoing bb = [] -> i = en) /\
    exists ops, g_blk g0 en = Some (BSimple ops None).
Proof. exact lower_root_exits. Qed.
Print Assumptions C01_lowered_routine_single_exit.

(* the general form, for every fragment, continuation and loop context *)
Theorem C01_lower_exits :
  forall (o : copts) (e : expr) (c : lctx) (il pb : bool),
    (il = true -> l_brk c <> None) /\ (il = true -> pb = false -> l_cont c <> None) ->
    check_expr o (l_sub_ret c) il e = None /\ has_bad_continue pb e = false ->
    forall (k : option id) (g : graph) (s en : id) (g' : graph),
      wf g -> lower o c e k g = ((s, en), g') ->
      (forall i bb, g_blk g' i = Some bb ->
         existsb is_term_op (b_ops bb) = false /\ outgoing bb = [] ->
         g_blk g i = Some bb \/ match k with None => Some en | Some _ => None end = Some i) /\
      exists ops n, g_blk g' en = Some (BSimple ops n) /\ (n = k \/ n = l_brk c \/ n = l_cont c).
Proof. exact lower_exits. Qed.
Print Assumptions C01_lower_exits.

(* NormalizeBlocks keeps the single exit (and the end block keeps its id: it absorbs its predecessor) *)
Theorem C01_normalize_keeps_exit :
  forall (g : graph) (s : id) (g' : graph) (s' en : id),
    normalize g s = (g', s') -> exits_at g en -> exits_at g' en.
Proof. exact normalize_exits. Qed.
Print Assumptions C01_normalize_keeps_exit.

(* everything the later stages use about a compiled routine, in one statement *)
Theorem C01_compiled_routine_facts :
  forall (o : copts) (sub : option routine) (ast0 : expr) (cr : croutine),
    (match sub with Some r => r_deferred r | None => None end) = None ->
    compile_one o sub ast0 = COk cr ->
    exists s g0,
      lower o (routine_ctx o sub) (root_ast ast0) None empty_graph = ((s, cr_end cr), g0) /\
      wf g0 /\
      (head_loop (root_ast ast0) = false ->
       forall env, equiv_from env (g_blk g0) s (g_blk (cr_graph cr)) (cr_start cr)) /\
      wf (cr_graph cr) /\
      exits_at (cr_graph cr) (cr_end cr).
Proof. exact compiled_routine_facts. Qed.
Print Assumptions C01_compiled_routine_facts.

(* ---- the side condition on the root ---- *)
Theorem C01_root_head_loop :
  forall ast0, head_loop ast0 = false -> head_loop (root_ast ast0) = false.
Proof. exact root_head_loop. Qed.
Print Assumptions C01_root_head_loop.

Theorem C01_root_head_loop_stmt :
  forall ast0, has_return ast0 = false -> type_of ast0 = TNone -> head_loop (root_ast ast0) = false.
Proof. exact root_head_loop_stmt. Qed.
Print Assumptions C01_root_head_loop_stmt.

(* every well-typed recipe (Src/WellTyped.v: what PyTeal's constructors accept for a main routine — the
   quantifier of C20) satisfies it: a loop has type none and no constructor takes a none-typed first
   operand / condition / returned value *)
Theorem C01_well_typed_root_not_loop_headed :
  forall (fty : string -> string -> option ty) (ast0 : expr),
    well_typed fty false ast0 = true -> head_loop (root_ast ast0) = false.
Proof. exact wt_root_head_loop. Qed.
Print Assumptions C01_well_typed_root_not_loop_headed.

(* hence, for a well-typed main routine, the end-to-end theorem has no side condition *)
Theorem C01_main_end_to_end_well_typed :
  forall (fty : string -> string -> option ty) (o : copts) (ast0 : expr) (cr : croutine)
         (order : list id) (code : list comp),
    well_typed fty false ast0 = true ->
    compile_one o None ast0 = COk cr ->
    sort_blocks (cr_graph cr) (cr_start cr) (cr_end cr) = Some order ->
    flatten_blocks (cr_graph cr) order = Some code ->
    pos_of (cr_graph cr) order (cr_start cr) = 0 /\
    forall env : denv, consistent env (routine_ctx o None) ->
    forall (fuel : nat) (stk : list value) (st : mstate) (h : lconf),
      halt_of (denote env fuel (root_ast ast0) stk st) = Some h ->
      lstar env code (LAt 0 stk st) h /\
      forall c2, lstar env code (LAt 0 stk st) c2 -> lfinal c2 = true -> c2 = h.
Proof. exact main_end_to_end_well_typed. Qed.
Print Assumptions C01_main_end_to_end_well_typed.

(* a subroutine as compile_rec compiles it (compile_one o (Some r) (decl_body o r)): the declaration body
   is a Seq, so the side condition holds for EVERY subroutine without deferred expression *)
Theorem C01_subroutine_end_to_end :
  forall (o : copts) (r : routine) (cr : croutine) (order : list id) (code : list comp),
    r_deferred r = None ->
    compile_one o (Some r) (decl_body o r) = COk cr ->
    sort_blocks (cr_graph cr) (cr_start cr) (cr_end cr) = Some order ->
    flatten_blocks (cr_graph cr) order = Some code ->
    pos_of (cr_graph cr) order (cr_start cr) = 0 /\
    forall env : denv, consistent env (routine_ctx o (Some r)) ->
    forall (fuel : nat) (stk : list value) (st : mstate) (h : lconf),
      halt_of (denote env fuel (root_ast (decl_body o r)) stk st) = Some h ->
      lstar env code (LAt 0 stk st) h /\
      forall c2, lstar env code (LAt 0 stk st) c2 -> lfinal c2 = true -> c2 = h.
Proof. exact subroutine_end_to_end. Qed.
Print Assumptions C01_subroutine_end_to_end.

(* it cannot be dropped: a While used as an operand (rejected by PyTeal's constructors, accepted by the
   checks of compile_one) gives a routine whose code starts with the END of the loop body *)
Theorem C01_end_to_end_needs_root_condition :
  exists o ast0 cr order code env fuel stk st h,
    compile_one o None ast0 = COk cr /\
    head_loop (root_ast ast0) = true /\
    sort_blocks (cr_graph cr) (cr_start cr) (cr_end cr) = Some order /\
    flatten_blocks (cr_graph cr) order = Some code /\
    consistent env (routine_ctx o None) /\
    halt_of (denote env fuel (root_ast ast0) stk st) = Some h /\
    ~ lstar env code (LAt 0 stk st) h.
Proof. exact end_to_end_needs_root_condition. Qed.
Print Assumptions C01_end_to_end_needs_root_condition.

(* ---- non-vacuity: a routine with a loop and an If; every hypothesis holds, the run predicted by the
   theorem is the run the linear machine computes ---- *)
Theorem C01_routine_end_to_end_example :
  let cr := cr_of opts0 ex_ast in
  compile_one opts0 None ex_ast = COk cr /\
  head_loop (root_ast ex_ast) = false /\
  sort_blocks (cr_graph cr) (cr_start cr) (cr_end cr) = Some (order_of cr) /\
  flatten_blocks (cr_graph cr) (order_of cr) = Some (code_of cr) /\
  consistent ex_env1 (routine_ctx opts0 None) /\
  denote ex_env1 100 (root_ast ex_ast) [] ex_st = DExit (VI 1) ex_final /\
  lstar ex_env1 (code_of cr) (LAt 0 [] ex_st) (LExit (VI 1) ex_final) /\
  lrun 200 ex_env1 (code_of cr) (LAt 0 [] ex_st) = LExit (VI 1) ex_final /\
  List.length (code_of cr) = 22.
Proof. exact routine_end_to_end_example. Qed.
Print Assumptions C01_routine_end_to_end_example.

Theorem C01_example_is_well_typed : well_typed (fun _ _ => None) false ex_ast = true.
Proof. exact ex_ast_well_typed. Qed.
Print Assumptions C01_example_is_well_typed.

(* a subroutine with one argument and a loop: called with 4 on the stack it returns 12 by retsub *)
Theorem C01_subroutine_end_to_end_example :
  compile_one sub_opts (Some ex_sub) (decl_body sub_opts ex_sub) = COk sub_cr /\
  sort_blocks (cr_graph sub_cr) (cr_start sub_cr) (cr_end sub_cr) = Some (order_of sub_cr) /\
  flatten_blocks (cr_graph sub_cr) (order_of sub_cr) = Some (code_of sub_cr) /\
  consistent ex_env_sub (routine_ctx sub_opts (Some ex_sub)) /\
  denote ex_env_sub 100 (root_ast (decl_body sub_opts ex_sub)) [VI 4] ex_st = DRet [VI 12] sub_final /\
  lstar ex_env_sub (code_of sub_cr) (LAt 0 [VI 4] ex_st) (LRet [VI 12] sub_final) /\
  lrun 200 ex_env_sub (code_of sub_cr) (LAt 0 [VI 4] ex_st) = LRet [VI 12] sub_final.
Proof. exact subroutine_end_to_end_example. Qed.
Print Assumptions C01_subroutine_end_to_end_example.

(* ---- with the scratch-slot optimiser (stretch; PARTIAL) ----
   The optimiser deletes load/store operations only: the graph stays well-formed and keeps its single exit
   (unconditionally), so sortBlocks/flattenBlocks are correct on the optimised graph too. *)
Theorem C01_optimizer_keeps_shape :
  forall (g : graph) (start : id) (skip : list N) (g' : graph) (en : id),
    optimize_routine g start skip = Some g' -> wf g -> exits_at g en -> wf g' /\ exits_at g' en.
Proof. exact optimize_keeps_shape. Qed.
Print Assumptions C01_optimizer_keeps_shape.

(* PARTIAL.  End to end with the optimiser applied between compile_one and sortBlocks, as far as C03's
   theorem about the optimiser goes: under ITS hypotheses (ids_bounded, slot_ops_wf, no_orphan_store — which
   the code does not establish, see C03_optimizer_refuted —, inj_on, safe_from) the code reaches a halting
   configuration that equals the source outcome UP TO the scratch cells of the removed slots, and no other.
   Missing for a full statement: the optimiser's own side conditions. *)
Theorem C01_routine_end_to_end_optimized_partial :
  forall (o : copts) (sub : option routine) (ast0 : expr) (cr : croutine) (skip : list N) (g' : graph)
         (order : list id) (code : list comp),
    (match sub with Some r => r_deferred r | None => None end) = None ->
    compile_one o sub ast0 = COk cr ->
    head_loop (root_ast ast0) = false ->
    optimize_routine (cr_graph cr) (cr_start cr) skip = Some g' ->
    sort_blocks g' (cr_start cr) (cr_end cr) = Some order ->
    flatten_blocks g' order = Some code ->
    ids_bounded (cr_graph cr) (cr_start cr) ->
    slot_ops_wf (cr_graph cr) (iterate (cr_graph cr) (cr_start cr)) ->
    no_orphan_store (cr_graph cr) g' (cr_start cr) ->
    pos_of g' order (cr_start cr) = 0 /\
    forall env : denv, consistent env (routine_ctx o sub) ->
    inj_on env (removed_slot (cr_graph cr) g' (cr_start cr)) ->
    forall (fuel : nat) (stk : list value) (st : mstate) (gh : gconf),
      ghalt_of (denote env fuel (root_ast ast0) stk st) = Some gh ->
      safe_from (PL env (removed_slot (cr_graph cr) g' (cr_start cr))) env (g_blk (cr_graph cr))
                (GAt (cr_start cr) stk st) ->
      exists gh',
        conf_eqx (cellsL env (removed_slot (cr_graph cr) g' (cr_start cr))) gh gh' /\
        lstar env code (LAt 0 stk st) (img (pos_of g' order) gh') /\
        forall c2, lstar env code (LAt 0 stk st) c2 -> lfinal c2 = true -> c2 = img (pos_of g' order) gh'.
Proof. exact routine_end_to_end_optimized_partial. Qed.
Print Assumptions C01_routine_end_to_end_optimized_partial.

Theorem C01_optimized_end_to_end_example :
  optimize_routine (cr_graph exo_cr) (cr_start exo_cr) [] = Some exo_g /\
  exists st', lstar ex_env1 exo_code (LAt 0 [] ex_st) (LExit (VI 1) st') /\
              lrun 200 ex_env1 exo_code (LAt 0 [] ex_st) = LExit (VI 1) st'.
Proof. exact optimized_end_to_end_example. Qed.
Print Assumptions C01_optimized_end_to_end_example.
