(* Props/C01_normalize.v — C01, stage "NormalizeBlocks": the block graph after
   TealBlock.NormalizeBlocks computes what the graph before it computes.
   Property theorems only; the proofs are in CallX/Normalize*.v, for the semantics with a call
   oracle, with the graph bookkeeping in Proofs/NormalizeGraph.v and Proofs/IncomingProof.v;
   Proofs/Normalize*.v instantiate them.

   Observation = the halting configurations (return value + state, retsub stack + state, failure,
   falling off the graph, unsupported op) reachable from the start block, for every operand stack
   and machine state.  [normalize] is the model of the Python passes as of /repo 39fa261
   (Comp/Passes.v); [normalize_pinned] is the code before that commit, kept as an explicitly defined
   variant (Comp/SimCheck.v) for the statements at the end. *)
From Coq Require Import List NArith.
From PV Require Import Base.Bytes AVM.Syntax AVM.Machine Src.Expr Src.Denote
  Comp.Blocks Comp.Passes Comp.GraphSem Comp.SimCheck
  Proofs.LowerFrame Proofs.NormalizeSem Proofs.NormalizeGraph Proofs.IncomingProof
  Proofs.NormalizeCorrect Proofs.NormalizeExamples Proofs.LowerShape Proofs.NormalizeLowered.
From PV Require Import Comp.Lower Comp.Compile.
Import ListNotations.

(* block.ops = prev.ops + block.ops: running a concatenation = running the parts in sequence; an
   early return / retsub / failure of the first part is the outcome of the whole *)
Theorem C01_exec_ops_app :
  forall (env : denv) (a b : list instr) (stk : list value) (st : mstate),
    exec_ops env (a ++ b) stk st =
    match exec_ops env a stk st with
    | BOk s' st' => exec_ops env b s' st'
    | r => r
    end.
Proof. intros env a. exact (exec_ops_app env a). Qed.
Print Assumptions C01_exec_ops_app.

(* pass 2, one step, ALL graphs: by-passing an empty single-successor block keeps the observable
   behaviour from every block, whatever the incoming lists contain (stale or not); the start moves to
   the successor when the by-passed block was the start *)
Theorem C01_norm_body2_preserves :
  forall (env : denv) (g : graph) (s w : id) (g' : graph) (s' : id),
    cond_full g -> norm_body2 g s w = (g', s') ->
    cond_full g' /\ equiv_from env (g_blk g) s (g_blk g') s' /\
    forall i, equiv_from env (g_blk g) i (g_blk g') i.
Proof. exact norm_body2_preserves. Qed.
Print Assumptions C01_norm_body2_preserves.

(* the graph-level fact behind it: re-pointing ANY set of edges that enter empty single-successor
   blocks to the successors *)
Theorem C01_skip_equiv :
  forall (env : denv) (G G' : bgraph), gskip G G' -> forall i, equiv_from env G i G' i.
Proof. exact skip_equiv. Qed.
Print Assumptions C01_skip_equiv.

(* pass 1, one step, ALL graphs satisfying the invariant (conditional blocks have both branches,
   incoming ⊇ predecessors on the reachable part, no edge into the start): the merge preserves
   behaviour from the start and re-establishes the invariant *)
Theorem C01_norm_body1_preserves :
  forall (env : denv) (g : graph) (s w : id) (g' : graph) (s' : id),
    cond_full g -> inc_covers g s -> g_inc g s = [] ->
    norm_body1 g s w = (g', s') ->
    equiv_from env (g_blk g) s (g_blk g') s' /\
    cond_full g' /\ inc_covers g' s' /\ g_inc g' s' = [].
Proof. exact norm_body1_preserves. Qed.
Print Assumptions C01_norm_body1_preserves.

(* the two-to-one simulation behind it, on bare graphs: G' = G with [prev]'s ops prepended to [blk]
   and edges into [prev] renamed to [blk] on an edge-closed set Lv of blocks in which [blk] has no
   predecessor other than [prev] *)
Theorem C01_merge_equiv :
  forall (env : denv) (G G' : bgraph) (prev blk : id) (pops : list instr) (bb : block) (Lv : id -> Prop),
    G prev = Some (BSimple pops (Some blk)) ->
    G blk = Some bb ->
    (forall i b x, Lv i -> G' i = Some b -> In x (outgoing b) -> Lv x) ->
    (forall i, Lv i -> i <> blk -> G' i = option_map (map_out (rd prev blk)) (G i)) ->
    (Lv blk -> G' blk = Some (map_out (rd prev blk) (set_ops bb (pops ++ b_ops bb)))) ->
    (forall i b, Lv i -> G i = Some b -> In blk (outgoing b) -> blk = prev) ->
    (Lv blk -> equiv_from env G prev G' blk) /\
    (forall i, Lv i -> i <> blk -> equiv_from env G i G' i).
Proof. exact merge_equiv. Qed.
Print Assumptions C01_merge_equiv.

(* both passes of NormalizeBlocks, the BFS that mutates the graph it walks included *)
Theorem C01_normalize_correct :
  forall (env : denv) (g : graph) (s : id) (g' : graph) (s' : id),
    cond_full g ->
    inc_covers g s ->
    g_inc g s = [] ->
    normalize g s = (g', s') ->
    equiv_from env (g_blk g) s (g_blk g') s'.
Proof. exact normalize_correct. Qed.
Print Assumptions C01_normalize_correct.

(* the same with decidable hypotheses: [validate_tree] is the check the compiler itself runs right
   before NormalizeBlocks; completeness of the conditional blocks and the emptiness of the start
   block's incoming list are computed on the graph *)
Theorem C01_norm_cert_sound :
  forall (env : denv) (g : graph) (s : id) (g' : graph) (s' : id),
    wf g -> norm_cert g s = true -> normalize g s = (g', s') ->
    equiv_from env (g_blk g) s (g_blk g') s'.
Proof. exact norm_cert_sound. Qed.
Print Assumptions C01_norm_cert_sound.

(* from the graph as lowering leaves it: addIncoming, then NormalizeBlocks *)
Theorem C01_add_incoming_normalize_correct :
  forall (env : denv) (g : graph) (s : id) (g' : graph) (s' : id),
    wf g -> (forall b, g_inc g b = []) ->
    cond_full g ->
    (forall p, reach g s p -> ~ In s (out_of g p)) ->
    normalize (fst (add_incoming g s)) s = (g', s') ->
    equiv_from env (g_blk g) s (g_blk g') s'.
Proof. exact add_incoming_normalize_correct. Qed.
Print Assumptions C01_add_incoming_normalize_correct.

(* on LOWERED graphs no side condition on the graph is left: for every recipe e lowered as a whole
   routine (empty graph, no continuation, no enclosing loop), addIncoming + NormalizeBlocks preserve
   behaviour provided the recipe's start block is not a loop head — a syntactic condition
   ([head_loop], Proofs/LowerShape.v) that holds of every root compile_one builds around a loop *)
Theorem C01_lowered_normalize_correct :
  forall (env : denv) (o : copts) (c : lctx) (e : expr) (s en : id) (g0 g' : graph) (s' : id),
    l_brk c = None -> l_cont c = None ->
    head_loop e = false ->
    lower o c e None empty_graph = ((s, en), g0) ->
    normalize (fst (add_incoming g0 s)) s = (g', s') ->
    equiv_from env (g_blk g0) s (g_blk g') s'.
Proof. exact lowered_normalize_correct. Qed.
Print Assumptions C01_lowered_normalize_correct.

(* what lowering guarantees (one induction over the recipe): well-formed, conditional blocks complete,
   no incoming list written, and no edge into the start block unless the recipe is loop-headed *)
Theorem C01_lower_root_shape :
  forall (o : copts) (c : lctx) (e : expr) (s en : id) (g : graph),
    l_brk c = None -> l_cont c = None ->
    lower o c e None empty_graph = ((s, en), g) ->
    wf g /\ cond_full g /\ (forall x, g_inc g x = []) /\
    (head_loop e = false -> forall p, ~ In s (out_of g p)).
Proof. exact lower_root_shape. Qed.
Print Assumptions C01_lower_root_shape.

(* non-vacuity: the hypotheses hold of a loop graph that the pass does rewrite *)
Theorem C01_normalize_correct_nonvacuous :
  exists g s, wf g /\ cond_full g /\ inc_covers g s /\ g_inc g s = [] /\
              g_blk (fst (normalize g s)) <> g_blk g.
Proof. exact normalize_correct_nonvacuous. Qed.
Print Assumptions C01_normalize_correct_nonvacuous.

(* the remaining side condition is needed: a start block that has a predecessor which gets merged
   into it (compile_one never produces one: the root of a routine is never a loop) *)
Theorem C01_normalize_start_with_pred_refuted :
  exists g s,
    wf g /\ cond_full_check g = true /\ inc_covers g s /\ validate_tree g s = true /\
    let '(g', s') := normalize g s in
    ~ equiv_from env0 (g_blk g) s (g_blk g') s'.
Proof. exact normalize_start_with_pred_refuted. Qed.
Print Assumptions C01_normalize_start_with_pred_refuted.

(* the code before /repo 39fa261 ([normalize_pinned]):
   it preserved behaviour as well (its defects were AssertionErrors, C20) on graphs whose
   conditional blocks have two DIFFERENT branches ... *)
Theorem C01_normalize_pinned_correct :
  forall (env : denv) (g : graph) (s : id) (g' : graph) (s' : id),
    cond_full g ->
    (forall p b, reach g s p -> g_blk g p = Some b -> dist_b b) ->
    inc_covers g s -> g_inc g s = [] ->
    normalize_pinned g s = (g', s') ->
    equiv_from env (g_blk g) s (g_blk g') s'.
Proof. exact normalize_pinned_correct. Qed.
Print Assumptions C01_normalize_pinned_correct.

(* ... and only on those: with the [elif] replacement a conditional block whose two branches
   coincide made pass 1 run the merged predecessor's ops twice *)
Theorem C01_normalize_pinned_double_edge_refuted :
  exists g s,
    wf g /\ cond_full g /\ inc_covers g s /\ g_inc g s = [] /\ validate_tree g s = true /\
    let '(g', s') := normalize_pinned g s in
    ~ equiv_from env0 (g_blk g) s (g_blk g') s'.
Proof. exact normalize_pinned_double_edge_refuted. Qed.
Print Assumptions C01_normalize_pinned_double_edge_refuted.
