(* Props/C20_late.v — property C20 (compilation is total: TEAL or a PyTeal error, never a crash), the
   passes AFTER compile_one, for programs WITH control flow:

     sortBlocks     never raises "End block not present" on a compiled routine,
     flattenBlocks  never trips an assertion / KeyError on the order sortBlocks returns,

   for every recipe the lowering handles — If, Cond, While, For, Break, Continue, Assert, Return, Exit,
   MultiValue, subroutine calls, WideRatio, nested in any way —, every option record, main routine and
   subroutine bodies alike.  Composed with the tree-validity half (Props/C20_tree.v) one routine goes from
   PyTeal's own checks to a flat instruction list; composed with the slot-assignment and pipeline lemmas
   the compile model never reports a crash for a whole program (optimiser on or off); and the C01 end-to-end
   theorems (Props/C01_end_to_end.v) are restated WITHOUT their "sort/flatten succeeded" hypotheses.

   Side conditions that remain (each shown necessary or discussed in design_notes/C20_late.md):
     * r_deferred = None      no ABI-returning subroutine (no stage theorem covers the deferred splice);
     * nec (root_ast ast0)    no Cond WITHOUT ARMS anywhere in the recipe.  Cond() is rejected by PyTeal's
                              constructor (TealInputError); [check_expr] models __teal__ only.  Necessary:
                              C20_sort_total_needs_cond_arms_refuted.  Holds for every well-typed recipe.
   Property theorems only; proofs in Proofs/LatePassTotal*.v. *)
From Coq Require Import List NArith String Bool.
From PV Require Import Base.Bytes AVM.Syntax AVM.Machine Src.Expr Src.Denote Src.WellTyped
  Comp.Blocks Comp.Lower Comp.Passes Comp.GraphSem Comp.LinearSem Comp.SimCheck Comp.Compile Comp.Assemble
  Proofs.LowerFrame Proofs.LowerCorrect Proofs.LowerShape Proofs.NormalizeLowered Proofs.FlattenCorrect
  Proofs.EndToEndExits Proofs.EndToEndGlue Proofs.EndToEnd Proofs.EndToEndExamples
  Proofs.SlotCompose Proofs.SlotComposeAssign
  Proofs.LatePassTotalReach Proofs.LatePassTotalNorm Proofs.LatePassTotal Proofs.LatePassTotalExamples
  Proofs.LatePassTotalProgram Proofs.LatePassTotalOpt Proofs.LatePassTotalAccept Proofs.StageECompose
  Proofs.SortCorrect Proofs.PipelineStages.
Import ListNotations.

Local Notation reach := SortCorrect.reach.

(* sortBlocks finds the end block of every routine compile_one returns *)
Theorem C20_sort_total :
  forall (o : copts) (sub : option routine) (ast0 : expr) (cr : croutine),
    (match sub with Some r => r_deferred r | None => None end) = None ->
    compile_one o sub ast0 = COk cr ->
    nec (root_ast ast0) = true ->
    exists order, sort_blocks (cr_graph cr) (cr_start cr) (cr_end cr) = Some order.
Proof. exact sort_total. Qed.
Print Assumptions C20_sort_total.

(* flattenBlocks succeeds on that order: every listed block is defined, every conditional block has
   both branches, every successor of a listed block is listed *)
Theorem C20_flatten_total :
  forall (o : copts) (sub : option routine) (ast0 : expr) (cr : croutine) (order : list id),
    (match sub with Some r => r_deferred r | None => None end) = None ->
    compile_one o sub ast0 = COk cr ->
    nec (root_ast ast0) = true ->
    sort_blocks (cr_graph cr) (cr_start cr) (cr_end cr) = Some order ->
    exists code, flatten_blocks (cr_graph cr) order = Some code.
Proof. exact flatten_total. Qed.
Print Assumptions C20_flatten_total.

Theorem C20_late_passes_total :
  forall (o : copts) (sub : option routine) (ast0 : expr) (cr : croutine),
    (match sub with Some r => r_deferred r | None => None end) = None ->
    compile_one o sub ast0 = COk cr ->
    nec (root_ast ast0) = true ->
    exists order code,
      sort_blocks (cr_graph cr) (cr_start cr) (cr_end cr) = Some order /\
      flatten_blocks (cr_graph cr) order = Some code.
Proof. exact late_passes_total. Qed.
Print Assumptions C20_late_passes_total.

(* from PyTeal's own checks (the errors __teal__ raises; no Continue in a loop header, the model's one
   unsupported construct) to the instruction list of the routine: nothing else can go wrong *)
Theorem C20_routine_compiles_total :
  forall (o : copts) (sub : option routine) (ast0 : expr),
    (match sub with Some r => r_deferred r | None => None end) = None ->
    check_expr o (option_map r_ret sub) false (root_ast ast0) = None ->
    has_bad_continue false (root_ast ast0) = false ->
    nec (root_ast ast0) = true ->
    exists cr order code,
      compile_one o sub ast0 = COk cr /\
      sort_blocks (cr_graph cr) (cr_start cr) (cr_end cr) = Some order /\
      flatten_blocks (cr_graph cr) order = Some code.
Proof. exact routine_compiles_total. Qed.
Print Assumptions C20_routine_compiles_total.

(* sortBlocks on ANY well-formed graph: its only failure is an end block that cannot be reached *)
Theorem C20_sort_fails_iff_end_unreachable :
  forall (g : graph) (start end_ : id),
    wf g -> (sort_blocks g start end_ = None <-> ~ reach g start end_).
Proof. exact sort_blocks_none_iff. Qed.
Print Assumptions C20_sort_fails_iff_end_unreachable.

(* flattenBlocks on ANY graph and list: it succeeds when every listed block is defined, has both
   branches if conditional, and has its successors in the list (the converse is C01_flatten_closed) *)
Theorem C20_flatten_blocks_total :
  forall (g : graph) (blocks : list id),
    (forall b, In b blocks ->
       exists bb, g_blk g b = Some bb /\ full_b bb /\ forall x, In x (outgoing bb) -> In x blocks) ->
    exists code, flatten_blocks g blocks = Some code.
Proof. exact flatten_blocks_total. Qed.
Print Assumptions C20_flatten_blocks_total.

(* lowering, general form: every id allocated by [lower] is defined when it returns, and from the start
   block of the fragment one reaches its end block (a simple block that continues with k) or the break /
   continue target of the enclosing loop *)
Theorem C20_lower_reach :
  forall (o : copts) (e : expr) (c : lctx) (il pb : bool),
    (il = true -> l_brk c <> None) /\ (il = true -> pb = false -> l_cont c <> None) ->
    (check_expr o (l_sub_ret c) il e = None /\ has_bad_continue pb e = false) /\ nec e = true ->
    forall (k : option id) (g : graph) (s en : id) (g' : graph),
      wf g -> lower o c e k g = ((s, en), g') ->
      (forall j, g_next g <= j -> j < g_next g' -> g_blk g' j <> None) /\
      ((reach g' s en /\ exists ops, g_blk g' en = Some (BSimple ops k)) \/
       (exists b, (l_brk c = Some b \/ l_cont c = Some b) /\ reach g' s b)).
Proof. exact lower_reach. Qed.
Print Assumptions C20_lower_reach.

(* a whole routine: the end block is reachable from the start block, every id below the counter is
   defined *)
Theorem C20_lowered_routine_end_reachable :
  forall (o : copts) (c : lctx) (e : expr) (s en : id) (g0 : graph),
    l_brk c = None -> l_cont c = None ->
    check_expr o (l_sub_ret c) false e = None -> has_bad_continue false e = false -> nec e = true ->
    lower o c e None empty_graph = ((s, en), g0) ->
    reach g0 s en /\ (forall j, j < g_next g0 -> g_blk g0 j <> None).
Proof. exact lower_root_reach. Qed.
Print Assumptions C20_lowered_routine_end_reachable.

(* NormalizeBlocks keeps: the single exit, the reachability of the end block from the (possibly moved)
   start block, "every edge points to a defined block", and the definedness of the start block *)
Theorem C20_normalize_keeps_end_reachable :
  forall (g : graph) (s : id) (g' : graph) (s' en : id),
    normalize g s = (g', s') ->
    exits_at g en /\ reach g s en /\ (forall p x, In x (out_of g p) -> g_blk g x <> None) /\ g_blk g s <> None ->
    exits_at g' en /\ reach g' s' en /\ (forall p x, In x (out_of g' p) -> g_blk g' x <> None) /\ g_blk g' s' <> None.
Proof. exact normalize_late_inv. Qed.
Print Assumptions C20_normalize_keeps_end_reachable.

(* what sortBlocks / flattenBlocks receive from compile_one *)
Theorem C20_compiled_late_facts :
  forall (o : copts) (sub : option routine) (ast0 : expr) (cr : croutine),
    (match sub with Some r => r_deferred r | None => None end) = None ->
    compile_one o sub ast0 = COk cr ->
    nec (root_ast ast0) = true ->
    wf (cr_graph cr) /\ cond_full (cr_graph cr) /\
    exits_at (cr_graph cr) (cr_end cr) /\ reach (cr_graph cr) (cr_start cr) (cr_end cr) /\
    (forall p x, In x (out_of (cr_graph cr) p) -> g_blk (cr_graph cr) x <> None) /\
    g_blk (cr_graph cr) (cr_start cr) <> None.
Proof. exact compiled_late_facts. Qed.
Print Assumptions C20_compiled_late_facts.

Theorem C20_root_keeps_nec :
  forall ast0, nec ast0 = true -> nec (root_ast ast0) = true.
Proof. exact nec_root. Qed.
Print Assumptions C20_root_keeps_nec.

Theorem C20_decl_body_nec :
  forall (o : copts) (r : routine), nec (r_body r) = true -> nec (root_ast (decl_body o r)) = true.
Proof. exact nec_decl_body. Qed.
Print Assumptions C20_decl_body_nec.

(* every well-typed recipe (Src/WellTyped.v, the quantifier of C20) satisfies it *)
Theorem C20_well_typed_no_empty_cond :
  forall (fty : string -> string -> option ty) (ast0 : expr),
    well_typed fty false ast0 = true -> nec (root_ast ast0) = true.
Proof. exact wt_root_nec. Qed.
Print Assumptions C20_well_typed_no_empty_cond.

(* it is necessary: compile_one accepts Cond() (a recipe no PyTeal constructor builds), and sortBlocks
   does not find the end block (model outcome: TealInternalError, not a crash) *)
Theorem C20_sort_total_needs_cond_arms_refuted :
  exists (o : copts) (ast0 : expr) (cr : croutine),
    compile_one o None ast0 = COk cr /\
    nec (root_ast ast0) = false /\
    sort_blocks (cr_graph cr) (cr_start cr) (cr_end cr) = None.
Proof. exists opts0, (ECond []), (cr_of opts0 (ECond [])). exact sort_needs_cond_arms. Qed.
Print Assumptions C20_sort_total_needs_cond_arms_refuted.

(* C01 end to end without the "late passes succeeded" hypotheses *)
Theorem C01_routine_end_to_end_total :
  forall (o : copts) (sub : option routine) (ast0 : expr) (cr : croutine),
    (match sub with Some r => r_deferred r | None => None end) = None ->
    compile_one o sub ast0 = COk cr ->
    head_loop (root_ast ast0) = false ->
    nec (root_ast ast0) = true ->
    exists (order : list id) (code : list comp),
      sort_blocks (cr_graph cr) (cr_start cr) (cr_end cr) = Some order /\
      flatten_blocks (cr_graph cr) order = Some code /\
      pos_of (cr_graph cr) order (cr_start cr) = 0 /\
      forall env : denv, consistent env (routine_ctx o sub) ->
      forall (fuel : nat) (stk : list value) (st : mstate) (h : lconf),
        halt_of (denote env fuel (root_ast ast0) stk st) = Some h ->
        lstar env code (LAt 0 stk st) h /\
        forall c2, lstar env code (LAt 0 stk st) c2 -> lfinal c2 = true -> c2 = h.
Proof. exact routine_end_to_end_total. Qed.
Print Assumptions C01_routine_end_to_end_total.

(* from the checks alone: nothing about the success of any pass is assumed *)
Theorem C01_routine_checked_end_to_end :
  forall (o : copts) (sub : option routine) (ast0 : expr),
    (match sub with Some r => r_deferred r | None => None end) = None ->
    check_expr o (option_map r_ret sub) false (root_ast ast0) = None ->
    has_bad_continue false (root_ast ast0) = false ->
    head_loop (root_ast ast0) = false ->
    nec (root_ast ast0) = true ->
    exists (cr : croutine) (order : list id) (code : list comp),
      compile_one o sub ast0 = COk cr /\
      sort_blocks (cr_graph cr) (cr_start cr) (cr_end cr) = Some order /\
      flatten_blocks (cr_graph cr) order = Some code /\
      pos_of (cr_graph cr) order (cr_start cr) = 0 /\
      forall env : denv, consistent env (routine_ctx o sub) ->
      forall (fuel : nat) (stk : list value) (st : mstate) (h : lconf),
        halt_of (denote env fuel (root_ast ast0) stk st) = Some h ->
        lstar env code (LAt 0 stk st) h /\
        forall c2, lstar env code (LAt 0 stk st) c2 -> lfinal c2 = true -> c2 = h.
Proof. exact routine_checked_end_to_end. Qed.
Print Assumptions C01_routine_checked_end_to_end.

(* subroutine bodies as compile_rec compiles them: one condition, on the user's body *)
Theorem C01_subroutine_end_to_end_total :
  forall (o : copts) (r : routine) (cr : croutine),
    r_deferred r = None ->
    compile_one o (Some r) (decl_body o r) = COk cr ->
    nec (r_body r) = true ->
    exists (order : list id) (code : list comp),
      sort_blocks (cr_graph cr) (cr_start cr) (cr_end cr) = Some order /\
      flatten_blocks (cr_graph cr) order = Some code /\
      pos_of (cr_graph cr) order (cr_start cr) = 0 /\
      forall env : denv, consistent env (routine_ctx o (Some r)) ->
      forall (fuel : nat) (stk : list value) (st : mstate) (h : lconf),
        halt_of (denote env fuel (root_ast (decl_body o r)) stk st) = Some h ->
        lstar env code (LAt 0 stk st) h /\
        forall c2, lstar env code (LAt 0 stk st) c2 -> lfinal c2 = true -> c2 = h.
Proof. exact subroutine_end_to_end_total. Qed.
Print Assumptions C01_subroutine_end_to_end_total.

(* well-typed main routines: no side condition at all *)
Theorem C01_main_end_to_end_well_typed_total :
  forall (fty : string -> string -> option ty) (o : copts) (ast0 : expr) (cr : croutine),
    well_typed fty false ast0 = true ->
    compile_one o None ast0 = COk cr ->
    exists (order : list id) (code : list comp),
      sort_blocks (cr_graph cr) (cr_start cr) (cr_end cr) = Some order /\
      flatten_blocks (cr_graph cr) order = Some code /\
      pos_of (cr_graph cr) order (cr_start cr) = 0 /\
      forall env : denv, consistent env (routine_ctx o None) ->
      forall (fuel : nat) (stk : list value) (st : mstate) (h : lconf),
        halt_of (denote env fuel (root_ast ast0) stk st) = Some h ->
        lstar env code (LAt 0 stk st) h /\
        forall c2, lstar env code (LAt 0 stk st) c2 -> lfinal c2 = true -> c2 = h.
Proof. exact main_end_to_end_well_typed_total. Qed.
Print Assumptions C01_main_end_to_end_well_typed_total.

(* what compile_components really sorts and flattens is the SLOT-ASSIGNED routine: same order, and the
   code is the slot rewrite of the routine's own code *)
Theorem C20_routine_assigned_total :
  forall (look : N -> N) (o : copts) (sub : option routine) (ast0 : expr) (cr : croutine),
    (match sub with Some r => r_deferred r | None => None end) = None ->
    compile_one o sub ast0 = COk cr ->
    nec (root_ast ast0) = true ->
    let cr' := rw_routine look cr in
    exists order code,
      sort_blocks (cr_graph cr) (cr_start cr) (cr_end cr) = Some order /\
      flatten_blocks (cr_graph cr) order = Some code /\
      sort_blocks (cr_graph cr') (cr_start cr') (cr_end cr') = Some order /\
      flatten_blocks (cr_graph cr') order = Some (rw_code look code).
Proof. exact routine_assigned_total. Qed.
Print Assumptions C20_routine_assigned_total.

(* every routine of a program (main + subroutines reached by compile_rec), after slot assignment *)
Theorem C20_program_flat_stage_total :
  forall (o : copts) (p : prog) (crs crs' : list croutine) (locals : list (option N * list N)) (asg : list (N * N)),
    (forall r, In r (p_subs p) -> r_deferred r = None /\ nec (r_body r) = true) ->
    nec (root_ast (p_main p)) = true ->
    compile_rec (S (List.length (p_subs p))) o p None (p_main p) [] = COk crs ->
    assign_slots p crs = COk (crs', locals, asg) ->
    exists frs, flat_stage crs' = COk frs.
Proof. exact program_flat_stage_total. Qed.
Print Assumptions C20_program_flat_stage_total.

(* the scratch-slot optimiser always returns a graph (the structural comparison that could diverge is gone
   since the repair f003506 of /repo), so compile_components never reports CrashRecursion ... *)
Theorem C20_optimize_routine_total :
  forall (g : graph) (start : id) (skip : list N), exists g', optimize_routine g start skip = Some g'.
Proof. exact optimize_routine_total. Qed.
Print Assumptions C20_optimize_routine_total.

(* ... and it keeps everything the late passes rely on (it only deletes load/store operations) *)
Theorem C20_optimizer_keeps_late_shape :
  forall (c : croutine) (skip : list N) (g' : graph),
    optimize_routine (cr_graph c) (cr_start c) skip = Some g' ->
    wf (cr_graph c) /\ cond_full (cr_graph c) /\ late_inv (cr_end c) (cr_graph c) (cr_start c) ->
    wf g' /\ cond_full g' /\ late_inv (cr_end c) g' (cr_start c).
Proof. exact optimize_keeps_late. Qed.
Print Assumptions C20_optimizer_keeps_late_shape.

(* PARTIAL (scope): no ABI-returning subroutine (no deferred expression), no Cond without arms.
   Within that scope the compile model NEVER reports a crash: whatever the program — any control flow,
   any number of subroutines, recursion —, version, mode, scratch-slot optimiser ON OR OFF: the outcome is
   TEAL lines, one of PyTeal's four errors, or the model's "unsupported" marker (Continue in a loop header,
   unknown subroutine id, validateSlots fuel).  Formally: a [CErr e] has e not in
   {CrashAssertion, CrashRecursion, CrashOther}. *)
Theorem C20_compile_model_no_crash_partial :
  forall (o : copts) (modes : opc -> bool * bool) (p : prog) (e : cerr),
    (forall r, In r (p_subs p) -> r_deferred r = None /\ nec (r_body r) = true) ->
    nec (root_ast (p_main p)) = true ->
    compile_model o modes p = CErr e ->
    match e with CrashAssertion | CrashRecursion | CrashOther _ => False | _ => True end.
Proof.
  intros o modes p e HS Hm H. pose proof (compile_model_no_crash_opt o modes p e HS Hm H) as K.
  destruct e; cbn in K; try discriminate K; exact Logic.I.
Qed.
Print Assumptions C20_compile_model_no_crash_partial.

(* one routine: compileSubroutine reports the errors of __teal__ or the model's limit, never a crash *)
Theorem C20_compile_one_no_crash :
  forall (o : copts) (sub : option routine) (ast0 : expr) (e : cerr),
    (match sub with Some r => r_deferred r | None => None end) = None ->
    compile_one o sub ast0 = CErr e ->
    match e with CrashAssertion | CrashRecursion | CrashOther _ => False | _ => True end.
Proof.
  intros o sub ast0 e D H. pose proof (compile_one_no_crash o sub ast0 e D H) as K.
  destruct e; cbn in K; try discriminate K; exact Logic.I.
Qed.
Print Assumptions C20_compile_one_no_crash.

(* assembly never fails on placeholder-free components *)
Theorem C20_assemble_all_total :
  forall (l : list comp),
    forallb (fun c => match c with
                      | COp i => forallb (fun a => match a with ASlot _ | ASub _ => false | _ => true end) (i_args i)
                      | _ => true end) l = true ->
    exists lines, assemble_all l = Some lines.
Proof. exact assemble_all_total. Qed.
Print Assumptions C20_assemble_all_total.

(* PARTIAL (scope): main-only programs, optimiser off.  ACCEPTANCE for programs with control flow: when
   PyTeal's own checks pass on the main routine (and it has no Cond without arms), the routine compiles; if
   moreover it calls no subroutine and slot assignment succeeds, sortBlocks / flattenBlocks succeed; and if
   the emitted operations exist at the version / in the mode (verifyOpsForVersion / verifyOpsForMode), the
   compile model returns TEAL lines — the assembly of the slot-rewritten code of the routine.  No hypothesis
   about the success of tree validation, NormalizeBlocks, sortBlocks, flattenBlocks, spilling, subroutine
   flattening or assembly. *)
Theorem C20_main_only_accepts_partial :
  forall (o : copts) (modes : opc -> bool * bool) (p : prog),
    p_subs p = [] -> o_opt_slots o = false ->
    (2 <=? o_version o)%N && (o_version o <=? 10)%N = true ->
    check_expr o None false (root_ast (p_main p)) = None ->
    has_bad_continue false (root_ast (p_main p)) = false ->
    nec (root_ast (p_main p)) = true ->
    exists cr, compile_one o None (p_main p) = COk cr /\
      (graph_subs (cr_graph cr) (cr_start cr) = [] ->
       forall crs' locals asg, assign_slots p [cr] = COk (crs', locals, asg) ->
       exists order code,
         sort_blocks (cr_graph cr) (cr_start cr) (cr_end cr) = Some order /\
         flatten_blocks (cr_graph cr) order = Some code /\
         (verify_ops o modes (map (prefix_labels "main_") (rw_code (look_of asg) code)) = None ->
          exists lines,
            assemble_all (main_comps (o_version o) (rw_code (look_of asg) code)) = Some lines /\
            compile_model o modes p = COk lines)).
Proof. exact main_only_accepts. Qed.
Print Assumptions C20_main_only_accepts_partial.

(* a routine with a For nested in a While, Break and Continue in both, an If whose arms are Break and
   Continue, an Assert and a Cond: the hypotheses hold, cr / order / code come FROM the theorem, and the
   promised run is the computed one (DExit 1) *)
Theorem C20_late_passes_example :
  check_expr opts0 None false (root_ast late_ast) = None /\
  has_bad_continue false (root_ast late_ast) = false /\
  head_loop (root_ast late_ast) = false /\
  nec (root_ast late_ast) = true /\
  denote ex_env1 400 (root_ast late_ast) [] ex_st = DExit (VI 1) late_final /\
  exists cr order code,
    compile_one opts0 None late_ast = COk cr /\
    sort_blocks (cr_graph cr) (cr_start cr) (cr_end cr) = Some order /\
    flatten_blocks (cr_graph cr) order = Some code /\
    lstar ex_env1 code (LAt 0 [] ex_st) (LExit (VI 1) late_final).
Proof. exact late_passes_example. Qed.
Print Assumptions C20_late_passes_example.

Theorem C20_late_passes_computed :
  let cr := cr_of opts0 late_ast in
  compile_one opts0 None late_ast = COk cr /\
  sort_blocks (cr_graph cr) (cr_start cr) (cr_end cr) = Some (order_of cr) /\
  flatten_blocks (cr_graph cr) (order_of cr) = Some (code_of cr) /\
  List.length (order_of cr) = 15 /\ last (order_of cr) 1 = cr_end cr /\ List.length (code_of cr) = 58 /\
  lrun 2000 ex_env1 (code_of cr) (LAt 0 [] ex_st) = LExit (VI 1) late_final.
Proof. exact late_passes_computed. Qed.
Print Assumptions C20_late_passes_computed.

(* the same routine as a main-only program: the acceptance theorem applies and yields the 59 lines *)
Theorem C20_main_only_accepts_example :
  exists lines, compile_model opts0 all_modes late_prog = COk lines /\ List.length lines = 59.
Proof. exact main_only_accepts_example. Qed.
Print Assumptions C20_main_only_accepts_example.
