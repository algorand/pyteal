(* Props/C11.v — compilation is deterministic and independent of process history.  PARTIAL.

   What is proved (about the models in Hist/): the process-global state is two counters and a marker;
   every API call only shifts the counters upwards (a probe and the router's cleaning context rewind the
   slot counter exactly), so everything a program is handed by the counters after any history is a
   strictly monotone renumbering of what it is handed in a fresh process — PROVIDED the marker
   SubroutineEval._current_proto is clear; the three places of the compiler that look at ids only sort
   by them, and their results are invariant under strictly monotone renumbering.  The marker is clear
   after every call when _frame_pointer_context restores it in a finally clause (Fixed); for the code
   as it is (Faithful) that is REFUTED: an exception escaping a subroutine body evaluated with frame
   pointers leaves it set, and an unrelated program then compiles differently.

   What is missing for the full statement (hence _partial):
   * the remaining stages (lowering, flattening, text emission) are not modelled here: the theorem speaks
     of slot numbers, label indices and compile order, not of TEAL text;
   * PYTHONHASHSEED, set iteration order and object addresses do not exist in the model: Python sets are
     lists, which is harmless when ids are pairwise distinct (C11_assign_set_order_irrelevant) and is
     exactly what the implementation side of the check (harness/c11.py) tests with separate interpreter
     processes under several hash seeds;
   * objects shared with the history (a subroutine compiled earlier, a declaration cached by
     ReturnedValue.store_into) are outside the statement — see design_notes/C11.md for the finding
     about store_into. *)
From Coq Require Import NArith List Bool Permutation.
From PV Require Import Hist.Events Hist.Assign Hist.Session
  Proofs.HistoryEvents Proofs.HistoryAssign Proofs.HistoryCompose Proofs.HistorySession.
Import ListNotations.
Local Open Scope N_scope.

(* ---- only the relative order of ids is used ---- *)

(* slot numbering (scratchslots.py:149): renumbering the automatic ids by any strictly monotone f gives
   every slot object the same number (and the same failure, if any); for all inputs, reserved ids
   interleaved in any way *)
Theorem C11_assign_rename_invariant :
  forall (f : N -> N) (all : list slotobj), strictly_monotone f ->
    same_failure (assign_slots (map (rename_slot f) all)) (assign_slots all) /\
    (forall o k, assigned (assign_slots all) o k <->
                 assigned (assign_slots (map (rename_slot f) all)) (rename_slot f o) k) /\
    (forall o' k, assigned (assign_slots (map (rename_slot f) all)) o' k ->
                  exists o, In o all /\ o' = rename_slot f o).
Proof. exact assign_rename_invariant_proof. Qed.
Print Assumptions C11_assign_rename_invariant.

(* the iteration order of the set of slots is irrelevant when ids are pairwise distinct *)
Theorem C11_assign_set_order_irrelevant :
  forall all all' : list slotobj, Permutation all all' -> NoDup (map so_id all) ->
    match assign_slots all, assign_slots all' with
    | AssignOk m, AssignOk m' => m = m'
    | AssignTooMany a, AssignTooMany b => a = b
    | _, _ => False
    end.
Proof. exact assign_perm_invariant_proof. Qed.
Print Assumptions C11_assign_set_order_irrelevant.

(* ... and it is NOT when two slot objects share an id *)
Theorem C11_assign_tie_order_dependent :
  exists (all all' : list slotobj) (o : slotobj) (k : N),
    Permutation all all' /\ assigned (assign_slots all) o k /\ ~ assigned (assign_slots all') o k.
Proof. exact assign_tie_order_dependent_proof. Qed.
Print Assumptions C11_assign_tie_order_dependent.

(* label indices (subroutines.py:279) *)
Theorem C11_resolve_rename_invariant :
  forall (f : N -> N) (subs : list subobj), strictly_monotone f ->
    resolve (map (rename_sub f) subs) = map (fun p => (rename_sub f (fst p), snd p)) (resolve subs).
Proof. exact resolve_rename_invariant_proof. Qed.
Print Assumptions C11_resolve_rename_invariant.

(* compile order (compiler.py:224) *)
Theorem C11_compile_order_rename_invariant :
  forall (f : N -> N) (key : N -> N) (calls : N -> list N), strictly_monotone f ->
    forall fuel cur vis, corder fuel (fun o => f (key o)) calls cur vis = corder fuel key calls cur vis.
Proof. exact corder_rename_proof. Qed.
Print Assumptions C11_compile_order_rename_invariant.

(* ---- every operation only shifts ---- *)

(* counters never decrease, for every event tree, in both semantics, however it ends *)
Theorem C11_counters_monotone :
  forall (m : mode) (es : evs) (g : gst),
    g_slot g <= g_slot (r_st (run_evs m es g)) /\ g_sub g <= g_sub (r_st (run_evs m es g)).
Proof. exact run_evs_monotone. Qed.
Print Assumptions C11_counters_monotone.

Theorem C11_session_counters_monotone :
  forall (m : mode) (st : sstate) (o : op),
    g_slot (s_g st) <= g_slot (s_g (fst (step m st o))) /\ g_sub (s_g st) <= g_sub (s_g (fst (step m st o))).
Proof. exact step_monotone. Qed.
Print Assumptions C11_session_counters_monotone.

(* a probe that returns rewinds the slot counter exactly *)
Theorem C11_probe_rewinds :
  forall (m : mode) (body : evs) (g : gst),
    r_raised (run_ev m (EProbe body) g) = false -> g_slot (r_st (run_ev m (EProbe body) g)) = g_slot g.
Proof. exact probe_rewinds. Qed.
Print Assumptions C11_probe_rewinds.

(* after ANY history that leaves the marker clear, running p hands out the identifiers of a fresh
   process plus one constant per counter (a strictly monotone renumbering) and ends the same way *)
Theorem C11_history_only_shifts :
  forall (m : mode) (h : list evs) (p : evs),
    let g := run_history m h init_gst in
    g_marker g = None ->
    run_evs m p g = shift_res (g_slot g - NUM_SLOTS) (g_sub g) (run_evs m p init_gst).
Proof. exact history_only_shifts_gen. Qed.
Print Assumptions C11_history_only_shifts.

(* ---- the marker ---- *)

(* with try/finally: restored by every event tree, however it ends *)
Theorem C11_marker_restored_fixed :
  forall (es : evs) (g : gst),
    marker_tag (r_st (run_evs Fixed es g)) = marker_tag g /\
    (g_marker g = None -> g_marker (r_st (run_evs Fixed es g)) = None).
Proof. exact marker_restored_fixed_proof. Qed.
Print Assumptions C11_marker_restored_fixed.

Theorem C11_session_marker_restored_fixed :
  forall (ops : list op),
    Forall (fun x => g_marker (fst x) = None) (run_session Fixed init_sstate ops).
Proof. exact session_marker_fixed_init. Qed.
Print Assumptions C11_session_marker_restored_fixed.

(* the code as it is: restored when no exception escapes and none is swallowed on the way *)
Theorem C11_marker_restored_without_exception :
  forall (es : evs) (g : gst), no_catch_s es = true -> r_raised (run_evs Faithful es g) = false ->
    marker_tag (r_st (run_evs Faithful es g)) = marker_tag g.
Proof. exact (proj2 marker_faithful_both). Qed.
Print Assumptions C11_marker_restored_without_exception.

(* REFUTED for the code as it is: define a subroutine whose body raises, compile a call to it at a
   frame-pointer version: the call completes (with the exception) and the marker stays set *)
Theorem C11_marker_restored_refuted :
  exists (ops : list op) (g : gst) (raised : bool),
    last (run_session Faithful init_sstate ops) (init_gst, false) = (g, raised) /\ g_marker g <> None.
Proof. exact marker_restored_refuted_proof. Qed.
Print Assumptions C11_marker_restored_refuted.

(* REFUTED: "objects that stay referenced hold pairwise distinct ids".  Router.compile_program twice (scratch
   convention, two value-returning methods): the id that the first build gave to a slot of a declaration cached by
   store_into is handed out again by the second build (finding store-into-evaluates-and-caches; ties are then
   broken by set order, C11_assign_tie_order_dependent) *)
Theorem C11_router_recompile_reuses_cached_ids :
  exists (ops : list op) (first second : list titem) (i : N),
    nth_error (run_session_tr Faithful init_sstate ops) 2 = Some first /\
    nth_error (run_session_tr Faithful init_sstate ops) 3 = Some second /\
    nth_error first 2 = Some (TSlot i) /\ nth_error second 2 = Some (TSlot i).
Proof. exact router_recompile_reuses_cached_ids_proof. Qed.
Print Assumptions C11_router_recompile_reuses_cached_ids.

(* ---- composition: the id-dependent stages do not see the history ---- *)
Theorem C11_compile_history_independent_partial :
  forall (m : mode) (h : list evs) (p : program),
    let g := run_history m h init_gst in
    g_marker g = None ->
    calls_are_subs p (r_tr (run_evs m (p_events p) init_gst)) ->
    same_view (compile_view m p g) (compile_view m p init_gst).
Proof. exact compile_history_independent_proof. Qed.
Print Assumptions C11_compile_history_independent_partial.

(* unconditional once the marker is restored in a finally clause *)
Theorem C11_compile_history_independent_fixed_partial :
  forall (h : list evs) (p : program),
    calls_are_subs p (r_tr (run_evs Fixed (p_events p) init_gst)) ->
    same_view (compile_view Fixed p (run_history Fixed h init_gst)) (compile_view Fixed p init_gst).
Proof. exact compile_history_independent_fixed_proof. Qed.
Print Assumptions C11_compile_history_independent_fixed_partial.

(* REFUTED for the code as it is: after the history "a subroutine body raised under frame pointers" the
   unrelated program `abi.Uint64()` has a frame variable where a fresh process gives it a scratch slot *)
Theorem C11_compile_history_independent_refuted :
  exists (h : list evs) (p : program),
    calls_are_subs p (r_tr (run_evs Faithful (p_events p) init_gst)) /\
    ~ same_view (compile_view Faithful p (run_history Faithful h init_gst)) (compile_view Faithful p init_gst).
Proof. exact compile_history_independent_refuted_proof. Qed.
Print Assumptions C11_compile_history_independent_refuted.
