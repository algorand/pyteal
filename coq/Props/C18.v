(* Props/C18.v — comments, pragmas, nonces and names never change the code.
   Property theorems only; proofs live in Proofs/C18*.v, the model in Comp/Annotate.v.
   F = proved in full, P = partial (gap stated), R = refuted on the faithful model (witness = finding). *)
From Coq Require Import List Arith NArith Ascii String Bool.
From PV Require Import Base.Bytes Base.Sexp AVM.Syntax AVM.Machine AVM.Parse Src.Expr Src.Denote
  Comp.Blocks Comp.Lower Comp.Passes Comp.GraphSem Comp.Assemble Comp.Compile Comp.Annotate Extract.WireExpr
  Proofs.LowerFrame Proofs.LowerLemmas Proofs.LowerCorrect
  Proofs.C18Text Proofs.C18Fuel Proofs.C18Sem Proofs.C18Commute Proofs.C18Stream.
Import ListNotations.
Local Open Scope string_scope.

(* ================= behaviour (F) ================= *)

(* [arel e e'] (Comp/Annotate.v): e' is e with annotations added, removed or changed anywhere — Comment(text, .)
   around any sub-expression, Nonce(lit, .) around any sub-expression, Pragma(.) (identity), any Assert comment on
   either side, stand-alone Comment(text) inserted between the statements of any Seq — for ANY texts.
   For every environment, stack and state the two recipes have the same outcomes under the source semantics. *)
Theorem C18_annotation_behaviour_invariant :
  forall env e e', arel e e' ->
  forall stk st r, evaluates env e stk st r <-> evaluates env e' stk st r.
Proof. exact annotation_behaviour. Qed.
Print Assumptions C18_annotation_behaviour_invariant.

(* the fuel offset is exact for a Comment wrapper: one unit *)
Theorem C18_comment_wrapper_exact :
  forall env f text e stk st,
    denote env (S f) (annot_comment text e) stk st = denote env f e stk st.
Proof. exact comment_eval. Qed.
Print Assumptions C18_comment_wrapper_exact.

(* an Assert comment is not even looked at by the semantics; Pragma is the identity *)
Theorem C18_assert_comment_and_pragma_inert :
  forall env f conds cm cm' stk st e,
    denote env f (EAssert conds cm) stk st = denote env f (EAssert conds cm') stk st /\ annot_pragma e = e.
Proof. intros env f conds cm cm' stk st e. split; [destruct f; reflexivity|reflexivity]. Qed.
Print Assumptions C18_assert_comment_and_pragma_inert.

(* the evaluator is monotone in its fuel (so [evaluates] is a partial function) *)
Theorem C18_denote_fuel_mono :
  forall env f f' e stk st,
    f <= f' -> denote env f e stk st <> DFuel -> denote env f' e stk st = denote env f e stk st.
Proof. exact denote_fuel_mono. Qed.
Print Assumptions C18_denote_fuel_mono.

Theorem C18_evaluates_functional :
  forall env e stk st r1 r2, evaluates env e stk st r1 -> evaluates env e stk st r2 -> r1 = r2.
Proof. exact evaluates_functional. Qed.
Print Assumptions C18_evaluates_functional.

(* whole main routines, including compileSubroutine's implicit Return *)
Theorem C18_annotation_run_main :
  forall env main main',
    arel main main' -> type_of main = type_of main' -> has_return main = has_return main' ->
    forall f st, fst (run_main env f main st) <> DVFuel ->
    exists f', run_main env f' main' st = run_main env f main st.
Proof. exact annotation_run_main. Qed.
Print Assumptions C18_annotation_run_main.

(* the wrappers keep type_of and has_return (the hypotheses above) *)
Theorem C18_wrappers_keep_typing :
  forall text lit e,
    type_of (annot_comment text e) = type_of e /\ has_return (annot_comment text e) = has_return e /\
    type_of (annot_nonce lit e) = type_of e /\ has_return (annot_nonce lit e) = has_return e.
Proof.
  intros text lit e. repeat split;
    [apply annot_comment_type|apply annot_comment_has_return].
Qed.
Print Assumptions C18_wrappers_keep_typing.

(* through C01's lowering theorem: the lowered graphs of a recipe and of its annotated variant both reach
   the configuration prescribed by the SAME outcome (continuation / loop exit / return / failure) *)
Theorem C18_annotation_graph_behaviour :
  forall (env : denv) (o : copts) (c : lctx) (e e' : expr),
    consistent env c -> arel e e' ->
    forall k1 g1 s1 en1 g1' G1, wf g1 -> lower o c e k1 g1 = ((s1, en1), g1') -> gincl (g_blk g1') G1 ->
    forall k2 g2 s2 en2 g2' G2, wf g2 -> lower o c e' k2 g2 = ((s2, en2), g2') -> gincl (g_blk g2') G2 ->
    forall stk st r, evaluates env e stk st r ->
      tgt env G1 (GAt s1 stk st) k1 c r /\ tgt env G2 (GAt s2 stk st) k2 c r.
Proof. exact annotation_graph_behaviour. Qed.
Print Assumptions C18_annotation_graph_behaviour.

(* non-vacuity: the relation relates a recipe to each of its annotated forms *)
Example C18_arel_inhabited :
  forall text lit e conds cm xs ys, nonce_ok lit ->
    arel e (annot_comment text e) /\ arel e (annot_nonce lit e) /\ arel e (annot_pragma e) /\
    arel (EAssert conds cm) (annot_assert conds text) /\
    arel (ESeq (xs ++ ys)) (ESeq (xs ++ annot_comment0 text :: ys)).
Proof.
  intros. repeat split;
    [apply arel_comment|apply arel_nonce; assumption|apply arel_pragma|apply arel_assert_comment|apply arel_seq_insert].
Qed.

Example C18_nonce_ok_example : nonce_ok "0xA1b2".
Proof. eexists. vm_compute. reflexivity. Qed.

(* ================= Nonce (F) ================= *)

(* on the block graph Nonce adds exactly an empty Seq start, [byte lit] and [pop], in front of the child's
   unchanged fragment; under the semantics it is the child *)
Theorem C18_nonce_adds_push_pop_only :
  (forall o c lit e k g,
     lower o c (annot_nonce lit e) k g =
     let '((s, en), g1) := lower o c e k g in
     let '(popb, g2) := add_block g1 (BSimple [mkI O_pop []] (Some s)) in
     let '(byteb, g3) := add_block g2 (BSimple [mkI O_byte [AStr lit]] (Some popb)) in
     let '(st, g4) := add_block g3 (BSimple [] (Some byteb)) in
     ((st, en), g4)) /\
  (forall env f lit e stk st, nonce_ok lit ->
     denote env (S (S (S f))) (annot_nonce lit e) stk st = denote env (S (S f)) e stk st).
Proof. split; [exact nonce_lowering|exact nonce_eval]. Qed.
Print Assumptions C18_nonce_adds_push_pop_only.

(* ================= text: comments (F) ================= *)

(* Comment never hands a line with a line break to CommentExpr, whatever the text *)
Theorem C18_comment_lines_accepted :
  forall text ln, In ln (splitlines text) ->
    Forall (fun c => c <> chr 10 /\ c <> chr 13) (list_ascii_of_string ln).
Proof. exact comment_lines_accepted. Qed.
Print Assumptions C18_comment_lines_accepted.

(* every comment op assembles to one line that starts with // and contains no line feed ... *)
Theorem C18_comment_op_line :
  forall text ln, In ln (splitlines text) ->
    exists s, assemble_instr (mkI O_comment [AStr ln]) = Some s /\
              is_comment_line s = true /\ no_nl (list_ascii_of_string s).
Proof. exact comment_op_line. Qed.
Print Assumptions C18_comment_op_line.

(* ... and deleting every such line from a program text does not change what the assembler reads *)
Theorem C18_comment_lines_invisible :
  forall msel ls,
    ls <> [] -> Forall (fun ln => no_nl (list_ascii_of_string ln)) ls ->
    statements_of_text msel (join_nl ls) =
    statements_of_text msel (join_nl (filter (fun ln => negb (is_comment_line ln)) ls)).
Proof. exact comment_lines_invisible. Qed.
Print Assumptions C18_comment_lines_invisible.

(* ================= text: subroutine names ================= *)

(* (F) the label is made of [A-Za-z0-9_] whatever the name, and its line reads as exactly one label statement *)
Theorem C18_label_chars_safe :
  forall msel name i,
    forallb label_char (list_ascii_of_string (sub_label name i)) = true /\
    tokens_of_line (sub_label name i ++ ":") = [sub_label name i ++ ":"] /\
    parse_stmt msel [sub_label name i ++ ":"] = Some (Some (SLabel (sub_label name i))).
Proof.
  intros msel name i. split; [apply sub_label_chars|].
  apply label_line_statement; [|apply sub_label_chars].
  intros E. apply (sub_label_nonempty name i). rewrite E. reflexivity.
Qed.
Print Assumptions C18_label_chars_safe.

(* (F) for EVERY name the subroutine header reads as exactly one statement, the label.  Since /repo 3627216
   TealLabel.assemble emits one `// ` line per line of name.splitlines() (or one empty comment line); before that
   commit the name was emitted raw and a line feed in it injected instructions (C18_former_injection_witness shows what that witness reads as today).  Trusted assumption, as everywhere: the assembler splits
   its input at U+000A only — the separators splitlines() knows beyond \n and \r\n are gone from every emitted
   line anyway (C18_comment_lines_accepted's lemma splitlines_no_break). *)
Theorem C18_subroutine_comment_single_line :
  forall msel name i,
    assemble_comp (sub_header name i) = Some (header_text name (sub_label name i)) /\
    statements_of_text msel (header_text name (sub_label name i)) = Some [SLabel (sub_label name i)].
Proof. intros msel name i. split; [reflexivity|apply sub_header_single_statement]. Qed.
Print Assumptions C18_subroutine_comment_single_line.

(* the former witness: the name foo / int 0 / return (three lines) now yields three comment lines *)
Example C18_former_injection_witness :
  header_text evil_name (sub_label evil_name 0) =
    nl ++ "// foo" ++ nl ++ "// int 0" ++ nl ++ "// return" ++ nl ++ "fooint0return_0:" /\
  statements_of_text [] (header_text evil_name (sub_label evil_name 0)) = Some [SLabel "fooint0return_0"].
Proof. exact evil_name_header. Qed.

(* ================= instruction stream ================= *)

(* (R) "an annotation leaves the stream (comments stripped, labels alpha-renamed) unchanged" is false of the faithful
   model in three ways; each pair is related by [arel_prog] *)
Theorem C18_annotation_stream_refuted :
  arel_prog wA_plain wA_annot /\ stream_eq (opts 6 false) wA_plain wA_annot = Some false.
Proof. split; [exact wA_related|exact wA_streams_differ]. Qed.
Print Assumptions C18_annotation_stream_refuted.

Theorem C18_annotation_stream_optimizer_refuted :
  arel_prog wB_plain wB_annot /\ stream_eq (opts 9 true) wB_plain wB_annot = Some false /\
  stream_eq (opts 9 false) wB_plain wB_annot = Some true.
Proof. split; [exact wB_related|split; [exact wB_streams_differ|exact wB_streams_equal_unoptimised]]. Qed.
Print Assumptions C18_annotation_stream_optimizer_refuted.

Theorem C18_annotation_trailing_comment_refuted :
  arel_prog wC_plain wC_annot /\ stream_eq (opts 6 false) wC_plain wC_annot = Some false /\
  arel_prog wC_main_plain wC_main_annot /\
  compile_model (opts 6 false) gen_modes wC_main_plain = COk ["#pragma version 6"; "int 1"; "pop"; "int 1"; "return"] /\
  compile_model (opts 6 false) gen_modes wC_main_annot = CErr ErrCompile.
Proof.
  split; [exact wC_related|]. split; [exact wC_streams_differ|]. split; [exact wC_main_related|]. exact wC_main_outputs.
Qed.
Print Assumptions C18_annotation_trailing_comment_refuted.

(* (P) what IS invariant: on a routine's block graph g (as produced by lowering + addIncoming), deleting every comment
   op BEFORE NormalizeBlocks, sortBlocks and flattenBlocks yields exactly the comment-stripped components, whenever
   NormalizeBlocks' second pass never visits a block made of comment ops only ([normalize_clean], executable).
   PARTIAL — not covered: (i) the step from "the annotated graph with its comment ops deleted" to "the graph of the
   un-annotated program" (they differ by empty blocks: Seq start blocks and emptied comment blocks; needs the
   empty-block elision theory of NormalizeBlocks), (ii) the slot optimiser (comment ops between store and load matter:
   C18_annotation_stream_optimizer_refuted), (iii) slot assignment, spilling, subroutine flattening (they do not look
   at comment ops; tied by the correspondence only).  The side condition fails on witness (A). *)
Theorem C18_annotation_stream_invariant_partial :
  forall g start end_,
    normalize_clean g start = true ->
    routine_code (strip_graph g) start end_ = option_map strip_comps (routine_code g start end_).
Proof. exact routine_code_strip_commute. Qed.
Print Assumptions C18_annotation_stream_invariant_partial.

(* its ingredients hold unconditionally for sortBlocks and flattenBlocks *)
Theorem C18_sort_flatten_ignore_comments :
  forall g g' start end_ order, srel g g' ->
    sort_blocks g' start end_ = sort_blocks g start end_ /\
    flatten_blocks g' order = option_map strip_comps (flatten_blocks g order).
Proof. intros g g' start end_ order R. split; [apply sort_blocks_srel; exact R|apply flatten_blocks_srel; exact R]. Qed.
Print Assumptions C18_sort_flatten_ignore_comments.

(* non-vacuity: a program with Comment wrappers, a commented branch and a commented loop body satisfies the side
   condition and compiles to at least 12 components; witness (A) does not satisfy it *)
Example C18_partial_nonvacuous :
  (let '(g, s, en) := lowered ex_clean_prog in
   normalize_clean g s = true /\
   routine_code (strip_graph g) s en = option_map strip_comps (routine_code g s en) /\
   option_map (fun l => Nat.leb 12 (List.length l)) (routine_code g s en) = Some true) /\
  (let '(g, s, _) := lowered (p_main wA_annot) in normalize_clean g s = false).
Proof. split; [exact ex_clean|exact wA_side_condition_fails]. Qed.
