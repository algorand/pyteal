(* Props/C05.v — Emitted code keeps stack and type discipline on every path.
   Property theorems only; proofs live in Proofs/StackSigProof.v, Proofs/StackSigPool.v (realisability on
   the value pool), Proofs/StackCheckSound.v, and Proofs/ExecOpFacts.v (facts about [exec_op] and [step]).

   Reading guide.
   * [annot_inductive p rt ann] (AVM/StackCheck.v) is the verified checker: [ann] gives, for each pc, the
     routine it belongs to, whether its [proto] ran, and the abstract types (uint64 / bytes / any) of the
     cells that routine OWNS (its arguments and what it pushed), TOP FIRST; [rt] is the table of routine
     signatures.  The extracted [stack_check] computes [rt] and [ann] and accepts only when
     [annot_inductive] holds ([C05_stack_check_accept_means]).
   * [conf p rt ann m] (Proofs/StackCheckSound.v): machine state [m] agrees with the annotation at [m_pc m]:
     its stack splits into the current routine's cells, which have exactly the annotated height and
     each a value of the annotated type ([VI] in uint64/any, [VB] in bytes/any), and the callers' cells below;
     every pending frame returns to a pc whose annotation is the callee's declared results on top of
     what the caller had left, and frame pointers sit exactly above the routine's arguments.
   * [reach cx p n m0 = Some m]: [m] is reached from [m0] by [n] steps of [Machine.step]. *)
From Coq Require Import List Arith NArith Ascii String Bool.
From PV Require Import Base.Bytes AVM.Syntax AVM.Ops AVM.Machine AVM.Parse AVM.StackSig AVM.StackCheck
  Proofs.ExecOpFacts Proofs.StackSigProof Proofs.StackSigPool Proofs.StackCheckSound.
Import ListNotations.

(* Soundness, for EVERY program, routine table and annotation the checker accepts, every typed context,
   every initial state and every number of steps: the reached state conforms to the annotation.
   (All control-flow paths: there is no bound on [n], and [conf] contains the call stack.) *)
Theorem C05_stack_check_sound :
  forall p rt ann, annot_inductive p rt ann = true ->
  forall cx, ctx_typed cx ->
  forall n st m, reach cx p n (init_mach st) = Some m -> conf p rt ann m.
Proof. exact stack_check_sound_lemma. Qed.
Print Assumptions C05_stack_check_sound.

(* Heights agree on all paths: two executions (any contexts, states, lengths) that stand at the same pc
   own the same number of cells there, typed by the same annotation. *)
Theorem C05_heights_agree_on_all_paths :
  forall p rt ann, annot_inductive p rt ann = true ->
  forall cx1 cx2, ctx_typed cx1 -> ctx_typed cx2 ->
  forall n1 n2 st1 st2 m1 m2,
    reach cx1 p n1 (init_mach st1) = Some m1 -> reach cx2 p n2 (init_mach st2) = Some m2 ->
    m_pc m1 = m_pc m2 ->
    exists a cur1 below1 cur2 below2,
      nth_error ann (m_pc m1) = Some (Some a) /\
      m_stack m1 = cur1 ++ below1 /\ m_stack m2 = cur2 ++ below2 /\
      stack_has cur1 (a_stk a) /\ stack_has cur2 (a_stk a) /\
      List.length cur1 = List.length cur2.
Proof.
  intros p rt ann IND cx1 cx2 T1 T2 n1 n2 st1 st2 m1 m2 R1 R2 E.
  eapply conf_same_pc; eauto using stack_check_sound_lemma.
Qed.
Print Assumptions C05_heights_agree_on_all_paths.

(* No opcode takes an operand from below the cells its routine owns: at every reached state the
   instruction exists (control never runs off the end) and the routine's OWN cells alone satisfy the
   opcode's operand count. *)
Theorem C05_operands_come_from_own_cells :
  forall p rt ann, annot_inductive p rt ann = true ->
  forall cx, ctx_typed cx ->
  forall n st m, reach cx p n (init_mach st) = Some m ->
    exists i a cur below,
      nth_error (pr_code p) (m_pc m) = Some i /\ nth_error ann (m_pc m) = Some (Some a) /\
      m_stack m = cur ++ below /\ stack_has cur (a_stk a) /\
      (sig_of (p_op i) (p_imms i) <> SCtl -> enough_cells (sig_of (p_op i) (p_imms i)) cur = true).
Proof.
  intros p rt ann IND cx CT n st m R. apply (conf_own_cells p rt ann IND). eapply stack_check_sound_lemma; eauto.
Qed.
Print Assumptions C05_operands_come_from_own_cells.

(* No reached step fails by stack underflow, by a missing or too small frame (callsub / retsub / proto /
   frame_dig / frame_bury), by a missing label or by running off the end.  Holds for every accepted
   program, including those in which [any]-typed cells reach typed operands. *)
Theorem C05_no_underflow_or_frame_failure :
  forall p rt ann, annot_inductive p rt ann = true ->
  forall cx, ctx_typed cx ->
  forall n st m, reach cx p n (init_mach st) = Some m -> ~ depth_failure cx p m.
Proof.
  intros p rt ann IND cx CT n st m R. eapply conf_no_depth_failure; eauto. eapply stack_check_sound_lemma; eauto.
Qed.
Print Assumptions C05_no_underflow_or_frame_failure.

(* The corollary of the property statement: when moreover no operand position that requires a definite
   type is annotated [any] ([annot_strict]: the program is "anytype-free" as far as its operands go), no
   reached step fails with a type or stack-underflow error ([shape_failure], defined in
   Proofs/StackCheckSound.v from the signatures of AVM/StackSig.v).  What may still fail: err, assert,
   arithmetic, ranges, constant-block indices, the 1000-cell limit. *)
Theorem C05_no_anytype_no_type_error :
  forall p rt ann, annot_inductive p rt ann = true -> annot_strict p rt ann = true ->
  forall cx, ctx_typed cx ->
  forall n st m, reach cx p n (init_mach st) = Some m -> ~ shape_failure cx p m.
Proof.
  intros p rt ann IND STR cx CT n st m R. eapply conf_no_shape_failure; eauto. eapply stack_check_sound_lemma; eauto.
Qed.
Print Assumptions C05_no_anytype_no_type_error.

(* the same for the fuelled interpreter [run]: a run that ends with [VFail] did not end in a shape failure *)
Theorem C05_run_never_ends_in_type_error :
  forall p rt ann, annot_inductive p rt ann = true -> annot_strict p rt ann = true ->
  forall cx, ctx_typed cx ->
  forall fuel st mf, run fuel cx p (init_mach st) = (VFail, mf) -> ~ shape_failure cx p mf.
Proof.
  intros p rt ann IND STR cx CT fuel st mf H.
  destruct (run_reach _ _ _ _ _ _ H) as [n [m [R S]]]; [discriminate|].
  rewrite (step_done_same _ _ _ _ _ S).
  eapply conf_no_shape_failure; eauto. eapply stack_check_sound_lemma; eauto.
Qed.
Print Assumptions C05_run_never_ends_in_type_error.

(* what an "accept" of the extracted checker means *)
Theorem C05_stack_check_accept_means :
  forall p decl rt ann strict, stack_check p decl = V5Accept rt ann strict ->
    annot_inductive p rt ann = true /\ (strict = true -> annot_strict p rt ann = true).
Proof.
  intros p decl rt ann strict H. unfold stack_check in H.
  destruct (build_rt p decl); try discriminate.
  destruct (settle _ p _) as [[pc m|pc m| |a] rt']; try discriminate.
  destruct (annot_inductive p rt' a) eqn:E; try discriminate.
  inversion H; subst. split; auto.
Qed.
Print Assumptions C05_stack_check_accept_means.

(* The signature table against the machine, both directions that do not depend on values:
   (1) abstraction: an accepted abstract stack, a conforming concrete top part, a successful opcode
       => the cells below are untouched and the new top part has the predicted types;
   (2) necessity: an opcode that succeeds had operands of the shape the signature asks for
       (except itxn_field, where the machine model accepts any value). *)
Theorem C05_signatures_abstract_the_machine :
  forall cx o imms strict abs abs' cur below st stk' st',
    ctx_typed cx -> sig_apply strict (sig_of o imms) abs = Some abs' -> stack_has cur abs ->
    exec_op cx o imms (cur ++ below) st = OOk stk' st' ->
    exists cur', stk' = cur' ++ below /\ stack_has cur' abs'.
Proof. exact exec_op_sound. Qed.
Print Assumptions C05_signatures_abstract_the_machine.

Theorem C05_signatures_necessary :
  forall cx o imms stk st stk' st',
    exec_op cx o imms stk st = OOk stk' st' -> o <> O_itxn_field ->
    (forall n, imms = [IInt n] -> (n <= 255)%N) ->
    operands_ok (sig_of o imms) stk = true.
Proof. exact sig_necessary. Qed.
Print Assumptions C05_signatures_necessary.

(* (3) the table is not too lax either (finite check, 127 opcode/immediate cases x all operand shapes up to the
   opcode's depth over {uint64, bytes}): every shape the signature accepts is realised by some stack from a
   small pool of values on which the machine succeeds.  With (2): a shape is accepted exactly when the opcode
   can succeed on operands of that shape, so [shape_failure] = "fails whatever the operand VALUES are". *)
Theorem C05_signatures_realisable_on_pool : all_realisable = true /\ all_meaningful = true.
Proof. exact sig_realisable_on_pool. Qed.
Print Assumptions C05_signatures_realisable_on_pool.

(* ---- non-vacuity: real compileTeal output (pasted), parsed by AVM/Parse.v, checked by vm_compute ---- *)
Local Open Scope string_scope.
Definition ex_mutual_v6 : string := "#pragma version 6
int 3
callsub h_2
int 1
int 2
callsub f_0
return

// f
f_0:
store 1
store 0
load 0
load 1
+
store 2
load 0
int 0
==
bz f_0_l2
int 1
retsub
f_0_l2:
load 0
int 1
-
load 2
byte ""z""
load 0
load 1
load 2
uncover 5
uncover 5
uncover 5
callsub g_1
cover 3
store 2
store 1
store 0
load 2
+
retsub

// g
g_1:
store 5
store 4
store 3
load 5
store 6
load 4
int 0
==
bz g_1_l2
int 1
retsub
g_1_l2:
load 3
load 4
load 3
load 4
load 5
load 6
uncover 5
uncover 5
callsub f_0
cover 4
store 6
store 5
store 4
store 3
load 6
len
+
retsub

// h
h_2:
store 7
load 7
pop
byte ""x""
pop
retsub".

Definition ex_mutual_v8 : string := "#pragma version 8
int 3
callsub h_2
int 1
int 2
callsub f_0
return

// f
f_0:
proto 2 1
frame_dig -2
frame_dig -1
+
store 0
frame_dig -2
int 0
==
bz f_0_l2
int 1
retsub
f_0_l2:
frame_dig -2
int 1
-
load 0
byte ""z""
load 0
cover 3
callsub g_1
swap
store 0
load 0
+
retsub

// g
g_1:
proto 3 1
frame_dig -1
store 1
frame_dig -2
int 0
==
bz g_1_l2
int 1
retsub
g_1_l2:
frame_dig -3
frame_dig -2
load 1
cover 2
callsub f_0
swap
store 1
load 1
len
+
retsub

// h
h_2:
proto 1 0
frame_dig -1
pop
byte ""x""
pop
retsub".

Definition ex_mutual_v4 : string := "#pragma version 4
int 3
callsub h_2
int 1
int 2
callsub f_0
return

// f
f_0:
store 1
store 0
load 0
load 1
+
store 2
load 0
int 0
==
bz f_0_l2
int 1
retsub
f_0_l2:
load 0
int 1
-
load 2
byte ""z""
load 0
load 1
load 2
dig 5
dig 5
dig 5
callsub g_1
store 0
store 2
store 1
load 0
swap
store 0
swap
pop
swap
pop
swap
pop
load 2
+
retsub

// g
g_1:
store 5
store 4
store 3
load 5
store 6
load 4
int 0
==
bz g_1_l2
int 1
retsub
g_1_l2:
load 3
load 4
load 3
load 4
load 5
load 6
dig 5
dig 5
callsub f_0
store 3
store 6
store 5
store 4
load 3
swap
store 3
swap
pop
swap
pop
load 6
len
+
retsub

// h
h_2:
store 7
load 7
pop
byte ""x""
pop
retsub".

Definition ex_loop_v5 : string := "#pragma version 5
int 0
store 0
main_l1:
load 0
int 5
<
bnz main_l7
main_l2:
txn Fee
int 3
>
bnz main_l6
int 1
bnz main_l5
err
main_l5:
txn Note
len
b main_l10
main_l6:
int 1
b main_l10
main_l7:
load 0
int 3
==
bnz main_l2
load 0
int 1
+
store 0
txn Fee
int 7
>
bnz main_l1
int 1
pop
b main_l1
main_l10:
return".

Definition ex_strict_v6 : string := "#pragma version 6
txn Fee
int 1
+
int 5
>
txn Note
byte ""ab""
concat
len
int 9
<
&&
return".

Definition ex_orphan_v6 : string := "#pragma version 6
int 1
int 2
return".

Definition ex_ctrl_v6 : string := "#pragma version 6
int 10
int 3
callsub k_0
-
return

// k
k_0:
store 0
int 5
load 0
retsub
int 2
+
retsub".


Definition accepted (text : string) (decl : list (string * list ty * list ty)) : option bool :=
  match parse_program [] text with
  | Some p => match stack_check p decl with V5Accept _ _ strict => Some strict | _ => None end
  | None => None
  end.
Definition rejected_at (text : string) (decl : list (string * list ty * list ty)) : option nat :=
  match parse_program [] text with
  | Some p => match stack_check p decl with V5Reject pc _ => Some pc | _ => None end
  | None => None
  end.

Definition decl_mutual : list (string * list ty * list ty) :=
  [("f_0", [TA; TA], [TU]); ("g_1", [TA; TA; TA], [TU]); ("h_2", [TA], [])].

(* mutual recursion with spilled local slots: dig/pop spill (v4), cover/uncover spill (v6), frame pointers (v8) *)
Example C05_ex_mutual_v4 : accepted ex_mutual_v4 decl_mutual = Some false.
Proof. vm_compute. reflexivity. Qed.
Example C05_ex_mutual_v6 : accepted ex_mutual_v6 decl_mutual = Some false.
Proof. vm_compute. reflexivity. Qed.
Example C05_ex_mutual_v8 : accepted ex_mutual_v8 decl_mutual = Some false.
Proof. vm_compute. reflexivity. Qed.
(* a loop with Break/Continue and an expression-valued Cond; strict thanks to the flow-sensitive slot types:
   the loop counter is loaded as uint64 *)
Example C05_ex_loop_v5 : accepted ex_loop_v5 [] = Some true.
Proof. vm_compute. reflexivity. Qed.
(* a program without anytype cells: the strict premise of C05_no_anytype_no_type_error is satisfiable *)
Example C05_ex_strict_v6 : accepted ex_strict_v6 [] = Some true.
Proof. vm_compute. reflexivity. Qed.

(* the hypotheses of the soundness theorems are satisfiable together: an accepted real program, a typed
   context, and an execution of several steps *)
Example C05_ex_execution :
  exists p rt ann cx m,
    parse_program [] ex_mutual_v8 = Some p /\ annot_inductive p rt ann = true /\
    ctx_typedb cx = true /\ reach cx p 40 (init_mach (init_state [] [] [])) = Some m /\ m_pc m <> 0%nat.
Proof.
  (* the text is parsed once and the checker run once, on the parsed program *)
  destruct (parse_program [] ex_mutual_v8) as [p|] eqn:E; [|vm_compute in E; discriminate].
  vm_compute in E. injection E as <-.
  match goal with |- context [Some ?P = Some _] => set (p := P) end.
  assert (C : exists rt ann s, stack_check p decl_mutual = V5Accept rt ann s)
    by (vm_compute; do 3 eexists; reflexivity).
  destruct C as (rt & ann & s & C).
  exists p, rt, ann, (mkCtx true [] 0 [] [] 0).
  destruct (C05_stack_check_accept_means _ _ _ _ _ C) as [I _].
  eexists. split; [reflexivity|]. split; [exact I|]. split; [reflexivity|].
  split; [vm_compute; reflexivity | vm_compute; discriminate].
Qed.

(* known findings on /repo, as the checker sees them (confirmed on the real compiler by harness/c05.py):
   the optimiser deletes both stores of [x.store(1); x.store(2); Return(x.load())]: two values at [return] *)
Example C05_orphan_store_rejected : rejected_at ex_orphan_v6 [] = Some 2%nat.
Proof. vm_compute. reflexivity. Qed.
(* [Int(5) + Seq(Return(a), Int(2))] in a subroutine: retsub with two cells for one declared result *)
Example C05_ctrl_in_operand_rejected : rejected_at ex_ctrl_v6 [("k_0", [TA], [TU])] = Some 8%nat.
Proof. vm_compute. reflexivity. Qed.
