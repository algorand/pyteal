(* Props/C01_text.v — property C01 (compiled TEAL computes what the PyTeal expression denotes), STAGE E:
   from the flattened, slot-assigned instruction list of a routine to the TEXT PyTeal prints, to the program the
   AVM's assembler reads from that text, to the verdict of AVM/Machine.run.

     1. MACHINE BRIDGE    [link]: the assembler's own label resolution ([build_prog]) applied to the list;
                          Machine.step on the linked program simulates LinearSem.lstep on the list step for step;
                          halting configurations of the list correspond to verdicts of Machine.run.
     2. TEXT ROUND TRIP   for every list in the syntactic class [printable]: parsing the assembled text gives back
                          exactly the statements of the list (comments dropped, pragma recognised, literals with
                          their values); hence parse_program (text) = link (list).
     3. COMPOSITION       under the hypotheses of C01_routine_end_to_end_assigned: the text of the routine parses
                          to a program on which Machine.run returns the verdict the source semantics denotes; and
                          the same for the lines [compile_model] returns for a main-only program.

   Property theorems only; proofs in Proofs/StageE*.v, those of the machine bridge in Proofs/CallMachineSim.v. *)
From Coq Require Import List Arith NArith ZArith String Bool.
From PV Require Import Base.Bytes Base.Sexp AVM.Syntax AVM.Ops AVM.Machine AVM.Parse Src.Expr Src.Denote
  Comp.Blocks Comp.Lower Comp.Passes Comp.GraphSem Comp.LinearSem Comp.SimCheck Comp.Compile Comp.Assemble
  Lit.Escape Lit.BaseN Lit.Spec
  Proofs.LowerFrame Proofs.LowerCorrect Proofs.LowerShape Proofs.NormalizeLowered Proofs.FlattenCorrect Proofs.SortCorrect
  Proofs.EndToEndGlue Proofs.EndToEnd
  Proofs.SlotCompose Proofs.SlotComposeAssign Proofs.SlotComposeEnd Proofs.SlotComposeCover Proofs.SlotComposeFinal
  Proofs.StageELink Proofs.StageEText Proofs.StageECompose Proofs.StageEFlatten Proofs.StageEPipeline
  Proofs.StageELiterals Proofs.StageEExamples Proofs.CallMachineSim.
Import ListNotations.

(* 1. the machine bridge *)

(* [link msel code] = build_prog (the assembler's label resolution, AVM/Parse.v) on the statements of the list.
   Its instructions are the real instructions of the list in order (comment ops, labels, pragmas dropped); a
   label resolves to [mpc code p] = the number of real instructions before the label's list position p. *)
Theorem C01_link_spec :
  forall (msel : list (string * bytes)) (code : list comp) (P : program),
    link msel code = Some P ->
    pr_code P = pinstrs msel code /\
    forall l, label_pc P l = option_map (mpc code) (find_label l code).
Proof. exact link_spec. Qed.
Print Assumptions C01_link_spec.

(* linking succeeds when every argument assembles and the labels are pairwise different (the assembler rejects
   a duplicate label) *)
Theorem C01_link_total :
  forall (msel : list (string * bytes)) (code : list comp) (ss : list stmt),
    stmts_of msel code = Some ss -> NoDup (labels_of code) -> exists P, link msel code = Some P.
Proof. exact link_total. Qed.
Print Assumptions C01_link_total.

(* STEP FOR STEP.  [rel code pc stk st m]: machine pc = number of real instructions before list position pc,
   same operand stack, same machine state, empty call stack.  Hypotheses: the list links; every branch target
   is defined ([targets_ok], decidable); the operand stack is within the AVM's limit of 1000.
   Covered: every instruction LinearSem gives a meaning to — all non-control opcodes through the shared
   [exec_op] (success / failure), err, return, retsub (main routine: empty call stack, the machine fails),
   b / bz / bnz taken and not taken, running off the end, comment ops / labels / pragmas (the machine does not
   move).  Not covered: steps LinearSem itself reports as outside its fragment ([LUnsup]: callsub, proto,
   frame_dig/bury, constant blocks, switch/match, operations exec_op does not model). *)
Theorem C01_machine_simulates_list :
  forall (env : denv) (code : list comp) (P : program),
    link (e_msel env) code = Some P -> targets_ok code = true ->
    forall pc stk st m c', rel code pc stk st m -> List.length stk <= STACK_MAX ->
      lstep env code (LAt pc stk st) = Some c' ->
      match c' with
      | LAt pc' stk' st' =>
          (exists m', step (e_ctx env) P m = Running m' /\ rel code pc' stk' st' m') \/
          (rel code pc' stk' st' m /\ exists c, nth_error code pc = Some c /\ real c = false)
      | LUnsup _ => True
      | h => exists v, verdict_of h = Some v /\ step (e_ctx env) P m = Done v m /\ final_ok h m
      end.
Proof. exact machine_simulates_list. Qed.
Print Assumptions C01_machine_simulates_list.

(* RUNS.  A halting configuration of the list reached from a related pair gives the verdict of Machine.run for
   every sufficiently large fuel:  LExit (VI n) -> approve iff n <> 0, reject iff n = 0;  LExit (VB _), LFail,
   LRet -> fail;  LEnd stk -> approve/reject by the single uint64 left, fail otherwise ([verdict_of]); and the
   machine at the verdict carries the same state / stack ([final_ok]).
   [stack_bounded]: every configuration on the run has at most 1000 stack entries. *)
Theorem C01_machine_bridge :
  forall (env : denv) (code : list comp) (P : program),
    link (e_msel env) code = Some P -> targets_ok code = true ->
    forall c0 h, lstar env code c0 h ->
    forall pc stk st m v, c0 = LAt pc stk st -> rel code pc stk st m ->
      verdict_of h = Some v -> stack_bounded env code c0 ->
      exists n m', (forall k, n <= k -> run k (e_ctx env) P m = (v, m')) /\ final_ok h m'.
Proof. exact machine_bridge. Qed.
Print Assumptions C01_machine_bridge.

Theorem C01_machine_bridge_init :
  forall (env : denv) (code : list comp) (P : program),
    link (e_msel env) code = Some P -> targets_ok code = true ->
    forall st h v, lstar env code (LAt 0 [] st) h -> verdict_of h = Some v ->
      stack_bounded env code (LAt 0 [] st) ->
      exists n m', (forall k, n <= k -> run k (e_ctx env) P (init_mach st) = (v, m')) /\ final_ok h m'.
Proof. exact machine_bridge_init. Qed.
Print Assumptions C01_machine_bridge_init.

(* what the verdicts are *)
Theorem C01_verdict_of_spec :
  (forall n st, verdict_of (LExit (VI n) st) = Some (if (n =? 0)%N then VReject else VApprove)) /\
  (forall b st, verdict_of (LExit (VB b) st) = Some VFail) /\
  verdict_of LFail = Some VFail /\
  (forall s st, verdict_of (LRet s st) = Some VFail) /\
  (forall n st, verdict_of (LEnd [VI n] st) = Some (if (n =? 0)%N then VReject else VApprove)) /\
  (forall o, verdict_of (LUnsup o) = None).
Proof. repeat split. Qed.
Print Assumptions C01_verdict_of_spec.

(* both side conditions are necessary: an undefined target of a branch that is never taken; a run that exceeds
   the stack limit and then returns 1 *)
Theorem C01_bridge_needs_targets :
  exists P, link [] nt_code = Some P /\ targets_ok nt_code = false /\
    lstar tx_env nt_code (LAt 0 [] ex_st) (LExit (VI 1) ex_st) /\
    stack_bounded tx_env nt_code (LAt 0 [] ex_st) /\
    fst (run 100 ex_ctx P (init_mach ex_st)) = VFail.
Proof. exact bridge_needs_targets. Qed.
Print Assumptions C01_bridge_needs_targets.

Theorem C01_bridge_needs_stack_bound :
  exists P, link [] deep_code = Some P /\ targets_ok deep_code = true /\
    (exists st', lstar tx_env deep_code (LAt 0 [] ex_st) (LExit (VI 1) st')) /\
    fst (run (N.to_nat 20000) ex_ctx P (init_mach ex_st)) = VFail.
Proof. exact bridge_needs_stack_bound. Qed.
Print Assumptions C01_bridge_needs_stack_bound.

(* the code flattenBlocks emits: labels pairwise different; label-closed when no block BODY contains a branch
   instruction (the branches flattenBlocks adds target labels it emits); prefixing + pragma keep both *)
Theorem C01_flatten_labels_distinct :
  forall g blocks code, flatten_blocks g blocks = Some code -> NoDup (labels_of code).
Proof. exact flatten_labels_nodup. Qed.
Print Assumptions C01_flatten_labels_distinct.

Theorem C01_flatten_label_closed :
  forall g blocks code version,
    flatten_blocks g blocks = Some code ->
    (forall b ins, In b blocks -> In ins (get_ops g b) -> jump_of ins = None) ->
    targets_ok code = true /\ targets_ok (main_comps version code) = true.
Proof.
  intros g blocks code version F NJ. pose proof (flatten_targets_ok g blocks code F NJ) as T.
  split; [exact T|exact (main_comps_targets version code T)].
Qed.
Print Assumptions C01_flatten_label_closed.

(* flattenSubroutines' label prefix does not change the step function *)
Theorem C01_label_prefix_invisible :
  forall (env : denv) (pre : string) (code : list comp),
    (forall i, In (COp i) code -> lbl_regular i = true) ->
    forall c, lstep env (map (prefix_labels pre) code) c = lstep env code c.
Proof. exact lstep_prefix. Qed.
Print Assumptions C01_label_prefix_invisible.

(* 2. the text round trip *)

(* one printable instruction: its line has no line feed and reads back as the instruction's statement(s) *)
Theorem C01_instr_line :
  forall (msel : list (string * bytes)) (i : instr), printable_instr msel i = true ->
    exists line, assemble_instr i = Some line /\ C18Text.no_nl (list_ascii_of_string line) /\
    exists ss, stmt_of msel (COp i) = Some ss /\ line_stmts msel line = Some ss.
Proof. exact instr_line. Qed.
Print Assumptions C01_instr_line.

(* the table facts behind it: every op name except the comment pseudo-op (188 of the 189 constructors of [opc]) is a single word that
   reads back as its opcode *)
Theorem C01_opc_names_read_back :
  forall o, is_comment o = false -> word (opc_name o) = true /\ parse_opc (opc_name o) = Some o.
Proof. intros o H. split; [exact (opc_name_word o H)|exact (opc_name_reads_back o H)]. Qed.
Print Assumptions C01_opc_names_read_back.

(* THE ROUND TRIP: for every printable list, the statements the assembler reads from the program text
   (lines joined by line feeds) are exactly the statements of the list *)
Theorem C01_text_roundtrip :
  forall (msel : list (string * bytes)) (code : list comp) (lines : list string),
    printable msel code = true -> code <> [] -> assemble_all code = Some lines ->
    exists ss, stmts_of msel code = Some ss /\ statements_of_text msel (program_text lines) = Some ss.
Proof. exact text_roundtrip. Qed.
Print Assumptions C01_text_roundtrip.

(* ... so the assembler's program for the text is the linked program of the list *)
Theorem C01_text_links :
  forall (msel : list (string * bytes)) (code : list comp) (lines : list string),
    printable msel code = true -> code <> [] -> assemble_all code = Some lines ->
    parse_program msel (program_text lines) = link msel code.
Proof. exact text_links. Qed.
Print Assumptions C01_text_links.

Theorem C01_printable_assembles :
  forall msel code, printable msel code = true -> exists lines, assemble_all code = Some lines.
Proof. exact printable_assembles. Qed.
Print Assumptions C01_printable_assembles.

(* C13's literal constructors produce printable instructions whose immediate is the specified value *)
Theorem C01_bytes_literal_printable :
  forall (msel : list (string * bytes)) (a : bytes_arg) (s : string),
    bytes_payload a = Some s ->
    printable_instr msel (mkI O_byte [AStr s]) = true /\
    exists b, bytes_value a = Some b /\ imm_of_arg msel O_byte (AStr s) = Some (IBytes b).
Proof. exact bytes_literal_printable. Qed.
Print Assumptions C01_bytes_literal_printable.

Theorem C01_int_literal_printable :
  forall (msel : list (string * bytes)) (z : Z) (n : N),
    int_value z = Some n ->
    printable_instr msel (mkI O_int [AInt n]) = true /\ int_line z = Some ("int " ++ N_to_dec n)%string.
Proof. exact int_literal_printable. Qed.
Print Assumptions C01_int_literal_printable.

(* 3. composition *)

(* list -> text -> machine for the components of a main routine: [main_comps version code] =
   #pragma version, then code with every label prefixed main_ (what flattenSubroutines does) *)
Theorem C01_main_text_runs :
  forall (msel : list (string * bytes)) (version : N) (code : list comp),
    let comps := main_comps version code in
    NoDup (labels_of code) -> no_pragma code = true ->
    printable msel comps = true -> targets_ok comps = true ->
    exists lines P,
      assemble_all comps = Some lines /\
      parse_program msel (program_text lines) = Some P /\ link msel comps = Some P /\ pr_version P = version /\
      forall env, e_msel env = msel ->
      forall st h v,
        lstar env code (LAt 0 [] st) h -> verdict_of h = Some v ->
        stack_bounded env code (LAt 0 [] st) ->
        exists n m', (forall k, n <= k -> run k (e_ctx env) P (init_mach st) = (v, m')) /\ final_ok h m'.
Proof. exact main_text_runs. Qed.
Print Assumptions C01_main_text_runs.

(* the verdict a source outcome stands for *)
Theorem C01_verdict_of_dout_spec :
  (forall n st, verdict_of_dout (DExit (VI n) st) = Some (if (n =? 0)%N then VReject else VApprove)) /\
  (forall b st, verdict_of_dout (DExit (VB b) st) = Some VFail) /\
  verdict_of_dout DFail = Some VFail /\
  (forall s st, verdict_of_dout (DRet s st) = Some VFail) /\
  (forall s st, verdict_of_dout (DNorm s st) = Some (end_verdict s)) /\
  (forall s st, verdict_of_dout (DEnd s st) = Some (end_verdict s)) /\
  verdict_of_dout DFuel = None /\ (forall o, verdict_of_dout (DUnsup o) = None).
Proof. exact verdict_of_dout_spec. Qed.
Print Assumptions C01_verdict_of_dout_spec.

(* THE STATEMENT.  Hypotheses of C01_routine_end_to_end_assigned for the main routine, plus: the emitted
   components are printable and label-closed (both decidable, on the output), the run stays within the stack
   limit.  Conclusion: the text parses; the pragma is recognised; Machine.run on the parsed program, started
   on the initial machine with the same state, returns — for every sufficiently large fuel — the verdict of the
   source outcome (approve iff DExit (VI n) with n <> 0, reject iff n = 0, fail for DFail / a bytes result),
   in the machine state the source semantics ends in. *)
Theorem C01_routine_text_end_to_end :
  forall (o : copts) (ast0 : expr) (cr : croutine) (p : prog)
         (crs crs' : list croutine) (locals : list (option N * list N)) (asg : list (N * N))
         (msel : list (string * bytes)),
    compile_one o None ast0 = COk cr ->
    head_loop (root_ast ast0) = false ->
    In cr crs ->
    assign_slots p crs = COk (crs', locals, asg) ->
    requested_valid p (all_slots crs) ->
    let cr' := rw_routine (look_of asg) cr in
    forall (order : list id) (code : list comp),
    sort_blocks (cr_graph cr') (cr_start cr') (cr_end cr') = Some order ->
    flatten_blocks (cr_graph cr') order = Some code ->
    let comps := main_comps (o_version o) code in
    printable msel comps = true -> targets_ok comps = true ->
    exists lines P,
      assemble_all comps = Some lines /\
      parse_program msel (program_text lines) = Some P /\ pr_version P = o_version o /\
      forall env, consistent env (routine_ctx o None) -> e_msel env = msel ->
      forall fuel st v,
        let r := denote (with_asg env (look_of asg)) fuel (root_ast ast0) [] st in
        verdict_of_dout r = Some v ->
        stack_bounded env code (LAt 0 [] st) ->
        exists n m', (forall k, n <= k -> run k (e_ctx env) P (init_mach st) = (v, m')) /\ state_ok r m'.
Proof. exact routine_text_end_to_end. Qed.
Print Assumptions C01_routine_text_end_to_end.

(* what compile_model prints for a main-only program with the slot optimiser off *)
Theorem C01_compile_model_main_only :
  forall (o : copts) (modes : opc -> bool * bool) (p : prog) (lines : list string),
    compile_model o modes p = COk lines -> o_opt_slots o = false -> p_subs p = [] ->
    exists cr crs' locals asg order code,
      compile_one o None (p_main p) = COk cr /\
      assign_slots p [cr] = COk (crs', locals, asg) /\
      let cr' := rw_routine (look_of asg) cr in
      sort_blocks (cr_graph cr') (cr_start cr') (cr_end cr') = Some order /\
      flatten_blocks (cr_graph cr') order = Some code /\
      assemble_all (main_comps (o_version o) code) = Some lines.
Proof. exact compile_model_main_only. Qed.
Print Assumptions C01_compile_model_main_only.

(* ... and the statement for the pipeline function itself: the LINES compile_model returns, joined by line
   feeds, parse to a program whose run gives the verdict the source semantics of p_main denotes under the
   pipeline's slot assignment [model_assignment o p] *)
Theorem C01_program_text_end_to_end :
  forall (o : copts) (modes : opc -> bool * bool) (p : prog) (lines : list string) (msel : list (string * bytes)),
    compile_model o modes p = COk lines -> o_opt_slots o = false -> p_subs p = [] ->
    head_loop (root_ast (p_main p)) = false ->
    (forall u i, In (u, (i, true)) (p_slots p) -> (i < 256)%N) ->
    exists asg code,
      model_assignment o p = COk asg /\
      assemble_all (main_comps (o_version o) code) = Some lines /\
      (printable msel (main_comps (o_version o) code) = true ->
       targets_ok (main_comps (o_version o) code) = true ->
       exists P,
         parse_program msel (program_text lines) = Some P /\ pr_version P = o_version o /\
         forall env, consistent env (routine_ctx o None) -> e_msel env = msel ->
         forall fuel st v,
           let r := denote (with_asg env (look_of asg)) fuel (root_ast (p_main p)) [] st in
           verdict_of_dout r = Some v ->
           stack_bounded env code (LAt 0 [] st) ->
           exists n m', (forall k, n <= k -> run k (e_ctx env) P (init_mach st) = (v, m')) /\ state_ok r m').
Proof. exact program_text_end_to_end. Qed.
Print Assumptions C01_program_text_end_to_end.

(* 4. non-vacuity *)

(* a main routine with a loop and the literal Bytes('a;b // "q"\n'): the lines are those the real compiler
   prints (checked on /repo, version 6, scratch-slot optimiser off) *)
Example C01_text_example_lines :
  tx_lines =
  [ "#pragma version 6"; "int 0"; "store 7"; "int 0"; "store 0"; "main_l1:"; "load 0"; "int 3"; "<"; "bz main_l3";
    "load 7"; "byte ""a;b // \""q\""\n"""; "len"; "+"; "store 7"; "load 0"; "int 1"; "+"; "store 0"; "b main_l1";
    "main_l3:"; "load 7"; "int 33"; "=="; "return" ]%string.
Proof. exact tx_text_lines. Qed.

(* every hypothesis of C01_routine_text_end_to_end holds; the text parses to 22 instructions, the tenth pushes the
   11 bytes of the literal; the source outcome is DExit 1; the theorem's conclusion (approve, in the source's
   final state) agrees with running the machine *)
Example C01_text_example :
  compile_one opts0 None tx_ast = COk tx_cr /\
  head_loop (root_ast tx_ast) = false /\
  printable [] tx_comps = true /\ targets_ok tx_comps = true /\
  parse_program [] tx_text = Some tx_P /\ pr_version tx_P = 6%N /\
  List.length (pr_code tx_P) = 22 /\
  nth_error (pr_code tx_P) 9 =
    Some (mkP O_byte [IBytes (list_ascii_of_string "a;b // ""q""" ++ [Ascii.ascii_of_N 10])%list]) /\
  (exists st', denote (with_asg tx_env (look_of tx_asg)) 100 (root_ast tx_ast) [] ex_st = DExit (VI 1) st' /\
     exists n m', (forall k, n <= k -> run k ex_ctx tx_P (init_mach ex_st) = (VApprove, m')) /\ m_st m' = st') /\
  fst (run 1000 ex_ctx tx_P (init_mach ex_st)) = VApprove.
Proof. exact routine_text_end_to_end_example. Qed.
Print Assumptions C01_text_example.

(* the line shapes of real PyTeal output (verbatim compileTeal output on /repo, version 8: comment, txn / global /
   txna / gtxn fields, named integers, addr, method, byte in base64 / base16 / base32 / raw / string form, ops with
   two immediates, op names with a slash or a bar, itxn_field, asset_params_get, base64_decode, json_ref, gload,
   2^64-1) are in the printable class: the component list assembles to exactly these lines and the text parses to
   the linked program *)
Example C01_real_line_shapes_printable :
  assemble_all shapes_comps = Some shapes_lines /\
  printable shapes_msel shapes_comps = true /\
  (exists P, parse_program shapes_msel (program_text shapes_lines) = Some P /\
             link shapes_msel shapes_comps = Some P /\ List.length (pr_code P) = 76).
Proof. exact real_line_shapes_printable. Qed.

(* a two-routine text with a subroutine header whose name contains a line feed (verbatim compileTeal output) *)
Example C01_subroutine_header_roundtrip :
  printable [] two_comps = true /\
  (exists lines, assemble_all two_comps = Some lines /\
     program_text lines =
       ("#pragma version 6" ++ nl ++ "int 5" ++ nl ++ "callsub fooint0_0" ++ nl ++ "return" ++ nl ++
        nl ++ "// foo" ++ nl ++ "// int 0" ++ nl ++ "fooint0_0:" ++ nl ++ "store 0" ++ nl ++ "load 0" ++ nl ++
        "int 2" ++ nl ++ "*" ++ nl ++ "retsub")%string /\
     parse_program [] (program_text lines) = link [] two_comps) /\
  (exists P, link [] two_comps = Some P /\ List.length (pr_code P) = 8 /\ label_pc P "fooint0_0" = Some 3 /\
             fst (run 100 ex_ctx P (init_mach ex_st)) = VApprove).
Proof. exact subroutine_header_roundtrip. Qed.
