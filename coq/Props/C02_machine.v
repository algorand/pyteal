(* Props/C02_machine.v — Subroutine calls behave as function calls: from the LINKED code to the reference
   machine, through the printed TEXT; and the frame-pointer calling convention on the machine.
   Property theorems only (each closed by [exact] of a lemma, with its Print Assumptions); proofs in
   Proofs/CallMachine{Sim,Text,Program,Frame,FpSem,Examples}.v.  Design note: design_notes/C02_machine.md.

   1. WHOLE-RUN MACHINE BRIDGE for Comp/LinkedSem.v (list-level semantics with a call stack): every [pstep]
      step is a [Machine.step] on the assembler's program [link msel code] (or no machine step, exactly at a label,
      pragma or comment), call stacks related by the position translation [mpc]; halting runs give the verdict of
      [Machine.run].  Coverage: scratch-slot convention — [proto], [frame_dig], [frame_bury], constant blocks,
      [switch]/[match] are [PUnsup] in Comp/LinkedSem.v and nothing is claimed for runs reaching them (section 4
      covers the three frame instructions with an extended semantics).
   2. TEXT: the text compile_model prints for a program WITH subroutines parses to exactly that program, and
      [Machine.run] on it returns the verdict of the call-aware source semantics [denote_k] (any call graph) /
      of the by-value semantics [denote_c] (acyclic, by-value parameters, non-failing runs).
   3. FRAME-POINTER CONVENTION on the machine: a frame rule for [Machine.step] (all instructions) and the
      call/return protocol [callsub; proto A R; body; retsub].
   4. The linked semantics extended with proto / frame_dig / frame_bury / retsub-under-proto ([fstep]) and its
      whole-run bridge to the machine. *)
From Coq Require Import String.
From Coq Require Import List Arith NArith Bool Lia.
From PV Require Import Base.Bytes Base.Sexp AVM.Syntax AVM.Ops AVM.Machine AVM.Parse Src.Expr Src.Denote Src.DenoteCall
  Comp.Blocks Comp.Lower Comp.Passes Comp.GraphSem Comp.LinearSem Comp.LinkedSem Comp.Compile Comp.Assemble
  Proofs.LowerShape Proofs.NormalizeLowered Proofs.SlotComposeAssign Proofs.FlattenCorrect
  Proofs.StageELink Proofs.StageEText Proofs.StageECompose
  Proofs.CallMachineSim Proofs.CallMachineText Proofs.CallMachineFrame Proofs.CallMachineFpSem
  CallX.Denote CallX.EndToEnd
  Proofs.CallComposeLink Proofs.CallComposeMain Proofs.CallComposeLayout
  Proofs.CallComposeSpill Proofs.CallComposeSpillPass Proofs.CallComposeProgram Proofs.CallComposeAcyclic
  Proofs.CallComposeFinal Proofs.CallComposeByValue Proofs.CallComposeByValueFinal Proofs.CallComposeExamples
  Proofs.CallMachineProgram Proofs.CallMachineExamples.
Import ListNotations.
Local Open Scope list_scope.

(* 1. the whole-run machine bridge for linked code *)

(* step for step.  [prel code fr pc stk st m]: machine pc = number of real instructions before list position
   pc, same operand stack and state, machine call stack = one frame WITHOUT proto per return position, its
   return pc = [mpc] of the position.  One [pstep] is
     - one [Machine.step] to a related machine: every operation [exec_op] models, b, bz/bnz (taken or not),
       [callsub <label>] (the frame for position pc+1 is pushed, control at the label's position),
       [retsub] with a non-empty call stack (the frame is popped, control at its return position);
     - no machine step: exactly at a label, a pragma or a comment op (the call stack is unchanged);
     - a verdict [Done v m]: return (approve iff the top is a non-zero uint64), err and every failing
       operation, a wrong-typed or empty stack at a branch, [callsub] to an undefined label, [retsub] with
       an empty call stack (fail), running off the end of the list (verdict by the stack).
   Nothing is claimed when the list semantics is inconclusive ([PUnsup]). *)
Theorem C02_machine_simulates_linked : forall (env : Src.Denote.denv) code P,
  link (Src.Denote.e_msel env) code = Some P -> targets_ok code = true ->
  forall fr pc stk st m c', prel code fr pc stk st m -> List.length stk <= STACK_MAX ->
    pstep env code (PAt fr pc stk st) = Some c' ->
    match c' with
    | PAt fr' pc' stk' st' =>
        (exists m', step (Src.Denote.e_ctx env) P m = Running m' /\ prel code fr' pc' stk' st' m') \/
        (prel code fr' pc' stk' st' m /\ fr' = fr /\ exists c, nth_error code pc = Some c /\ real c = false)
    | PUnsup _ => True
    | h => exists v, pverdict_of h = Some v /\ step (Src.Denote.e_ctx env) P m = Done v m /\ pfinal_ok h m
    end.
Proof. exact machine_simulates_linked. Qed.
Print Assumptions C02_machine_simulates_linked.

(* the two call rules spelled out *)
Theorem C02_machine_linked_callsub : forall (env : Src.Denote.denv) code P,
  link (Src.Denote.e_msel env) code = Some P -> targets_ok code = true ->
  forall fr pc stk st m i l p,
    prel code fr pc stk st m -> List.length stk <= STACK_MAX ->
    nth_error code pc = Some (COp i) -> call_label i = Some l -> find_label l code = Some p ->
    exists m', step (Src.Denote.e_ctx env) P m = Running m' /\ prel code (S pc :: fr) p stk st m'.
Proof. exact machine_linked_callsub. Qed.
Print Assumptions C02_machine_linked_callsub.

Theorem C02_machine_linked_retsub : forall (env : Src.Denote.denv) code P,
  link (Src.Denote.e_msel env) code = Some P -> targets_ok code = true ->
  forall fr ret pc stk st m i,
    prel code (ret :: fr) pc stk st m -> List.length stk <= STACK_MAX ->
    nth_error code pc = Some (COp i) -> i_op i = O_retsub ->
    exists m', step (Src.Denote.e_ctx env) P m = Running m' /\ prel code fr ret stk st m'.
Proof. exact machine_linked_retsub. Qed.
Print Assumptions C02_machine_linked_retsub.

(* runs, from any related pair *)
Theorem C02_machine_bridge_linked_from : forall (env : Src.Denote.denv) code P,
  link (Src.Denote.e_msel env) code = Some P -> targets_ok code = true ->
  forall c0 h, pstar env code c0 h ->
  forall fr pc stk st m v, c0 = PAt fr pc stk st -> prel code fr pc stk st m ->
    pverdict_of h = Some v -> pstack_bounded env code c0 ->
    exists n m', (forall k, n <= k -> run k (Src.Denote.e_ctx env) P m = (v, m')) /\ pfinal_ok h m'.
Proof. exact pmachine_bridge. Qed.
Print Assumptions C02_machine_bridge_linked_from.

(* a pragma in front of the list shifts every position and every return position by one *)
Theorem C02_pstep_pragma : forall (env : Src.Denote.denv) v code c,
  pstep env (CPragma v :: code) (pshift c) = option_map pshift (pstep env code c).
Proof. exact pstep_pragma. Qed.
Print Assumptions C02_pstep_pragma.

(* THE BRIDGE: L the linked list (C02_compose's [flatten_subroutines ...]), P the assembler's program for
   [#pragma version v :: L] ([link] = AVM.Parse.build_prog on the statements; it exists when the labels are
   pairwise distinct and every argument assembles: C01_link_total), every b/bz/bnz target defined.  A run of L
   from pc 0 with an empty call stack to a halting configuration with a verdict gives: [Machine.run] with any
   fuel >= n returns that verdict, in a machine carrying the final state (and the returned value on top).
   [pstack_bounded]: no configuration on the run has more than 1000 operand cells (necessary:
   C01_bridge_needs_stack_bound; [targets_ok] necessary: C01_bridge_needs_targets). *)
Theorem C02_machine_bridge_linked : forall (env : Src.Denote.denv) version L P,
  link (Src.Denote.e_msel env) (CPragma version :: L) = Some P -> targets_ok (CPragma version :: L) = true ->
  forall st h v,
    pstar env L (PAt [] 0 [] st) h -> pverdict_of h = Some v ->
    pstack_bounded env L (PAt [] 0 [] st) ->
    exists n m', (forall k, n <= k -> run k (Src.Denote.e_ctx env) P (init_mach st) = (v, m')) /\ pfinal_ok h m'.
Proof. exact machine_bridge_linked. Qed.
Print Assumptions C02_machine_bridge_linked.

(* an executable sufficient check for the stack bound on terminating runs *)
Theorem C02_pbounded_run_sound : forall (env : Src.Denote.denv) code fuel c,
  pbounded_run fuel env code c = true -> pstack_bounded env code c.
Proof. intros env code. exact (pbounded_run_sound env code). Qed.
Print Assumptions C02_pbounded_run_sound.

(* 2. the text *)

(* any printable linked list: the printed text parses to [link msel (pragma :: L)], and halting runs of L are
   verdicts of [Machine.run] on that parse.  (Subroutine headers [// name] + label line and
   [callsub <label>] are in the class [printable], Proofs/StageEText.v.) *)
Theorem C02_linked_text_runs : forall msel version L,
  let comps := CPragma version :: L in
  NoDup (Proofs.StageELink.labels_of L) ->
  printable msel comps = true -> targets_ok comps = true ->
  exists lines P,
    assemble_all comps = Some lines /\
    parse_program msel (program_text lines) = Some P /\ link msel comps = Some P /\
    (no_pragma L = true -> pr_version P = version) /\
    forall (env : Src.Denote.denv), Src.Denote.e_msel env = msel ->
    forall st h v,
      pstar env L (PAt [] 0 [] st) h -> pverdict_of h = Some v ->
      pstack_bounded env L (PAt [] 0 [] st) ->
      exists n m', (forall k, n <= k -> run k (Src.Denote.e_ctx env) P (init_mach st) = (v, m')) /\ pfinal_ok h m'.
Proof. exact linked_text_runs. Qed.
Print Assumptions C02_linked_text_runs.

(* ---- (P) source semantics with calls -> the text compile_model prints -> Machine.run; acyclic call graph ----
   Hypotheses of C02_call_correct_nonrecursive_partial (with [compile_model] in place of [compile_components])
   plus, on the emitted list, [printable] and [targets_ok], and on the run, [pstack_bounded].  Conclusion: the
   lines ARE [assemble_all (#pragma :: L)]; their text parses to P = [link msel (#pragma :: L)]; and whenever
   the call-aware source semantics [denote_k] of the main routine (depth n, fuel) has a claimed outcome h with a
   verdict v ([return] with a uint64: approve iff non-zero; [return] with bytes, failure, [retsub] in main:
   fail), [Machine.run] on P with any sufficient fuel returns v, and when the program exits the machine carries
   the final state of the source semantics and the returned value on top of the stack.
   PARTIAL: relative to [denote_k] (items (1)-(4) of C02_call_correct_nonrecursive_partial, of which (3) — the
   pragma, assembling and parsing — is closed here); the hypotheses NoDup / linkable / printable / targets_ok
   are about the OUTPUT and not derived from the pipeline; [pstack_bounded] is about the run (the source
   semantics has no stack limit); optimiser off; no constant assembly; scratch-slot convention (the frame
   instructions are outside [printable] and [pstep]); non-terminating runs: no statement. *)
Theorem C02_program_text_calls_nonrecursive_partial : forall o modes p lines (rank : N -> nat) msel,
  compile_model o modes p = COk lines -> o_opt_slots o = false ->
  head_loop (root_ast (p_main p)) = false ->
  (forall r, In r (p_subs p) -> r_deferred r = None) ->
  (forall u i, In (u, (i, true)) (p_slots p) -> (i < 256)%N) ->
  exists crs crs' locals asg frs,
    compile_rec (S (List.length (p_subs p))) o p None (p_main p) [] = COk crs /\
    assign_slots p crs = COk (crs', locals, asg) /\
    fold_right flat_step (COk []) crs' = COk frs /\
    (acyclic rank frs ->
     let L := flatten_subroutines frs in
     let comps := CPragma (o_version o) :: L in
     compile_components o modes p = COk comps /\ assemble_all comps = Some lines /\
     (NoDup (Proofs.CallComposeLink.labels_of L) ->
      forallb (fun fr => linkable (fr_ops fr)) frs = true ->
      printable msel comps = true -> targets_ok comps = true ->
      exists P,
        parse_program msel (program_text lines) = Some P /\ link msel comps = Some P /\
        (no_pragma L = true -> pr_version P = o_version o) /\
        forall cx n fuel st h v,
          halt_of (denote_k o cx (look_of asg) msel (fs_subs frs) idW n None fuel (root_ast (p_main p)) [] st) = Some h ->
          claimed h -> verdict_of h = Some v ->
          pstack_bounded (lenv cx (look_of asg) msel (fs_subs frs)) L (PAt [] 0 [] st) ->
          exists k0 m', (forall k, k0 <= k -> run k cx P (init_mach st) = (v, m')) /\ exit_ok h m')).
Proof. exact program_text_calls_nonrecursive. Qed.
Print Assumptions C02_program_text_calls_nonrecursive_partial.

(* ---- (P) any call graph: the text WITH the spill code, [denote_k] with the oracle [W_spill] ---- *)
Theorem C02_program_text_calls_recursive_partial : forall o modes p lines msel,
  compile_model o modes p = COk lines -> o_opt_slots o = false ->
  head_loop (root_ast (p_main p)) = false ->
  (forall r, In r (p_subs p) -> r_deferred r = None) ->
  (forall u i, In (u, (i, true)) (p_slots p) -> (i < 256)%N) ->
  exists crs crs' locals asg frs frs2,
    compile_rec (S (List.length (p_subs p))) o p None (p_main p) [] = COk crs /\
    assign_slots p crs = COk (crs', locals, asg) /\
    fold_right flat_step (COk []) crs' = COk frs /\
    spill (o_version o) p frs locals = COk frs2 /\
    let L := flatten_subroutines frs2 in
    let comps := CPragma (o_version o) :: L in
    compile_components o modes p = COk comps /\ assemble_all comps = Some lines /\
    (NoDup (Proofs.CallComposeLink.labels_of L) ->
     forallb (fun fr => linkable (fr_ops fr)) frs2 = true ->
     printable msel comps = true -> targets_ok comps = true ->
     exists P,
       parse_program msel (program_text lines) = Some P /\ link msel comps = Some P /\
       (no_pragma L = true -> pr_version P = o_version o) /\
       forall cx,
         let W := W_spill o cx (look_of asg) msel (fs_subs frs2) (o_version o) p frs locals in
         forall n fuel st h v,
           halt_of (denote_k o cx (look_of asg) msel (fs_subs frs2) W n None fuel (root_ast (p_main p)) [] st) = Some h ->
           claimed h -> verdict_of h = Some v ->
           pstack_bounded (lenv cx (look_of asg) msel (fs_subs frs2)) L (PAt [] 0 [] st) ->
           exists k0 m', (forall k, k0 <= k -> run k cx P (init_mach st) = (v, m')) /\ exit_ok h m').
Proof. exact program_text_calls_recursive. Qed.
Print Assumptions C02_program_text_calls_recursive_partial.

(* ---- (P) against the by-value semantics [denote_c] of Src/DenoteCall.v ----
   C02_call_correct_nonrecursive_by_value_partial pushed through the text: if [denote_c] of the main routine ends
   the program with value v in state stC, [Machine.run] on the parse of the printed text returns the verdict of
   v, with v on top of the stack, in a state that differs from stC at most in the scratch cells of parameter
   slots ([Rel]).  PARTIAL: items (a)-(e) of that theorem (failing runs, by-reference parameters, [disciplined]
   as a hypothesis, [ce_locals = []], output hypotheses), plus [printable]/[targets_ok]/[pstack_bounded]. *)
Theorem C02_program_text_calls_by_value_partial : forall o modes p lines (rank : N -> nat) (PL : list N) msel,
  compile_model o modes p = COk lines -> o_opt_slots o = false -> o_use_fp o = false ->
  head_loop (root_ast (p_main p)) = false ->
  (forall r, In r (p_subs p) -> r_deferred r = None) ->
  (forall u i, In (u, (i, true)) (p_slots p) -> (i < 256)%N) ->
  exists crs crs' locals asg frs,
    compile_rec (S (List.length (p_subs p))) o p None (p_main p) [] = COk crs /\
    assign_slots p crs = COk (crs', locals, asg) /\
    fold_right flat_step (COk []) crs' = COk frs /\
    (acyclic rank frs ->
     let L := flatten_subroutines frs in
     let comps := CPragma (o_version o) :: L in
     let subs := fs_subs frs in
     let look := look_of asg in
     compile_components o modes p = COk comps /\ assemble_all comps = Some lines /\
     (NoDup (Proofs.CallComposeLink.labels_of L) ->
      forallb (fun fr => linkable (fr_ops fr)) frs = true ->
      printable msel comps = true -> targets_ok comps = true ->
      exists P,
        parse_program msel (program_text lines) = Some P /\ link msel comps = Some P /\
        (no_pragma L = true -> pr_version P = o_version o) /\
        forall cx,
          params_ok look subs rank PL -> bodies_ok look subs rank PL -> disciplined cx look msel subs ->
          forall k, okb look subs rank PL k (root_ast (p_main p)) = true ->
          forall f st v stC,
            denote_c (ceC cx look msel subs) f None [] (root_ast (p_main p)) [] st = DExit v stC ->
            pstack_bounded (lenv cx look msel subs) L (PAt [] 0 [] st) ->
            exists k0 m', (forall k, k0 <= k -> run k cx P (init_mach st) = (exit_verdict v, m')) /\
                          hd_error (m_stack m') = Some v /\ Rel look PL (m_st m') stC)).
Proof. exact program_text_calls_by_value. Qed.
Print Assumptions C02_program_text_calls_by_value_partial.

(* non-vacuity: the loop + nested-call program of C02_compose_example; every hypothesis by computation; the
   theorem gives approve (24 <> 0) in the source semantics' final state; [run 1000] computes the same *)
Example C02_program_text_calls_example :
  compile_model ex_opts ex_modes ex_prog = COk ex_lines /\
  denote_k ex_opts ex_ctx (look_of ex_asg) [] [ex_f; ex_g] idW 100 None 100 (root_ast ex_main) [] ex_st0
    = DExit (VI 24) ex_final /\
  exists P,
    parse_program [] (program_text ex_lines) = Some P /\ pr_version P = 6%N /\
    (exists k0 m', (forall k, k0 <= k -> run k ex_ctx P (init_mach ex_st0) = (VApprove, m')) /\
                   m_st m' = ex_final /\ hd_error (m_stack m') = Some (VI 24)) /\
    fst (run 1000 ex_ctx P (init_mach ex_st0)) = VApprove.
Proof. exact program_text_calls_example. Qed.
Print Assumptions C02_program_text_calls_example.

(* recursion: factorial with a live local; the text contains the spill code *)
Example C02_program_text_calls_recursion_example :
  compile_model ex_opts ex_modes rec_prog = COk rec_lines /\
  denote_k ex_opts ex_ctx (look_of rec_asg) [] [ex_fact] rec_W 100 None 100 (root_ast rec_main) [] ex_st0
    = DExit (VI 25) rec_final /\
  exists P,
    parse_program [] (program_text rec_lines) = Some P /\
    (exists k0 m', (forall k, k0 <= k -> run k ex_ctx P (init_mach ex_st0) = (VApprove, m')) /\
                   m_st m' = rec_final /\ hd_error (m_stack m') = Some (VI 25)) /\
    fst (run 1000 ex_ctx P (init_mach ex_st0)) = VApprove.
Proof. exact program_text_calls_recursion_example. Qed.
Print Assumptions C02_program_text_calls_recursion_example.

(* 3. the frame-pointer convention on the machine *)

(* every operation of [exec_op] that succeeds on a stack succeeds on every extension, extension untouched *)
Theorem C02_exec_op_frame_all : forall cx o imms stk st s' st' rest,
  exec_op cx o imms stk st = OOk s' st' ->
  exec_op cx o imms (stk ++ rest) st = OOk (s' ++ rest) st'.
Proof. exact Proofs.ExecOpFacts.exec_op_frame_all. Qed.
Print Assumptions C02_exec_op_frame_all.

(* THE FRAME RULE for one machine step, all instructions (operations, branches, callsub, proto, retsub with and
   without proto, frame_dig, frame_bury, constant blocks): [lift C fs m] = m with the cells C below its operand
   stack, the frames fs below its call stack, and the frame heights recorded by proto shifted by |C|.
   [calls_wf]: every proto frame has #args <= recorded height (what proto checks; preserved). *)
Theorem C02_machine_step_frame : forall cx p C fs m m',
  step cx p m = Running m' -> calls_wf (m_calls m) -> height m + List.length C <= STACK_MAX ->
  step cx p (Proofs.CallMachineFrame.lift C fs m) = Running (Proofs.CallMachineFrame.lift C fs m') /\ calls_wf (m_calls m').
Proof. exact step_lift. Qed.
Print Assumptions C02_machine_step_frame.

Theorem C02_machine_run_frame : forall cx p C fs n m m',
  msteps cx p (List.length C) n m m' -> calls_wf (m_calls m) ->
  msteps cx p 0 n (Proofs.CallMachineFrame.lift C fs m) (Proofs.CallMachineFrame.lift C fs m') /\ calls_wf (m_calls m').
Proof. intros cx p C fs. exact (msteps_lift cx p C fs). Qed.
Print Assumptions C02_machine_run_frame.

(* THE CALL/RETURN PROTOCOL.  At [callsub l] with the A arguments on top of the caller's cells C, the callee
   starting with [proto A R]: if the body, run on the STRIPPED machine [callee_start] (operand stack = the
   arguments only, call stack = the callee's frame only, frame pointer A) for n steps that leave |C| cells of
   headroom, is at a [retsub] in its own frame with the R result cells [rs] at the frame pointer — anything
   [above] them, the argument cells possibly overwritten ([args']) — then the real machine, in 2 + n + 1 steps,
   is at the instruction after the callsub with operand stack [rs ++ C] and the caller's call stack: every
   caller cell and frame untouched; state and constant blocks as the body left them.
   "The body respects the frame" = its run exists on the stripped machine, where the caller's cells do not
   exist: popping, reading or writing below the argument area fails there.  Nested calls inside the body (with
   or without proto), loops, dupn/popn/frame_bury into locals or arguments are all covered. *)
Theorem C02_fp_call_protocol : forall cx p (M : mach) (l : string) (t : nat) (A R : N)
    (args C : list value) (n : nat) (mb' : mach) (above rs args' : list value) (imms : list imm),
  nth_error (pr_code p) (m_pc M) = Some (mkP O_callsub [IName l]) ->
  label_pc p l = Some t ->
  nth_error (pr_code p) t = Some (mkP O_proto [IInt A; IInt R]) ->
  m_stack M = rev args ++ C -> List.length args = N.to_nat A ->
  height M <= STACK_MAX ->
  msteps cx p (List.length C) n (callee_start M t A R args) mb' ->
  m_calls mb' = [callee_frame (S (m_pc M)) A R] ->
  nth_error (pr_code p) (m_pc mb') = Some (mkP O_retsub imms) ->
  m_stack mb' = above ++ rs ++ rev args' -> List.length args' = N.to_nat A -> List.length rs = N.to_nat R ->
  height mb' + List.length C <= STACK_MAX ->
  msteps cx p 0 (2 + n + 1) M
    (mkM (S (m_pc M)) (rs ++ C) (m_calls M) false (m_intc mb') (m_bytec mb') (m_st mb')).
Proof. exact fp_call_protocol. Qed.
Print Assumptions C02_fp_call_protocol.

Theorem C02_fp_call_protocol_run : forall cx p (M : mach) (l : string) (t : nat) (A R : N)
    (args C : list value) (n : nat) (mb' : mach) (above rs args' : list value) (imms : list imm),
  nth_error (pr_code p) (m_pc M) = Some (mkP O_callsub [IName l]) ->
  label_pc p l = Some t ->
  nth_error (pr_code p) t = Some (mkP O_proto [IInt A; IInt R]) ->
  m_stack M = rev args ++ C -> List.length args = N.to_nat A ->
  height M <= STACK_MAX ->
  msteps cx p (List.length C) n (callee_start M t A R args) mb' ->
  m_calls mb' = [callee_frame (S (m_pc M)) A R] ->
  nth_error (pr_code p) (m_pc mb') = Some (mkP O_retsub imms) ->
  m_stack mb' = above ++ rs ++ rev args' -> List.length args' = N.to_nat A -> List.length rs = N.to_nat R ->
  height mb' + List.length C <= STACK_MAX ->
  forall k, run (2 + n + 1 + k) cx p M =
            run k cx p (mkM (S (m_pc M)) (rs ++ C) (m_calls M) false (m_intc mb') (m_bytec mb') (m_st mb')).
Proof. exact fp_call_protocol_run. Qed.
Print Assumptions C02_fp_call_protocol_run.

(* non-vacuity: a callee with two locals (int 0; dupn 1), frame_dig -2/-1, frame_bury 1, a nested call with its
   own proto, frame_bury 0; retsub — below the arguments the caller keeps a cell (7): it is still there *)
Example C02_fp_call_protocol_example :
  parse_program [] (program_text fp_lines) = Some fp_prog /\
  m_stack fp_M = rev fp_args ++ [VI 7] /\ m_calls fp_M = [] /\
  msteps ex_ctx fp_prog 1 15 (callee_start fp_M 6 2 1 fp_args) fp_mb /\
  m_stack fp_mb = [VI 7] ++ [VI 8] ++ rev fp_args /\
  msteps ex_ctx fp_prog 0 (2 + 15 + 1) fp_M (mkM 4 [VI 8; VI 7] [] false [] [] ex_st0) /\
  fst (run 100 ex_ctx fp_prog (init_mach ex_st0)) = VApprove.
Proof. exact fp_call_protocol_example. Qed.
Print Assumptions C02_fp_call_protocol_example.

(* 4. the linked semantics with the frame instructions *)

(* [fstep] extends [pstep]: wherever [pstep] is conclusive, [fstep] makes the same step (frames without proto;
   the extra component is the machine's "previous instruction was callsub" flag) *)
Theorem C02_fstep_conservative : forall (env : Src.Denote.denv) code c c',
  pstep env code c = Some c' -> (forall o, c' <> PUnsup o) ->
  forall fcs, exists fcs', fstep env code (embF fcs c) = Some (embF fcs' c').
Proof. exact fstep_conservative. Qed.
Print Assumptions C02_fstep_conservative.

(* without frame instructions [link_fp] is [link] *)
Theorem C02_link_fp_plain : forall msel code,
  (forall i, In (COp i) code -> frame_op i = None) -> link_fp msel code = link msel code.
Proof. exact link_fp_plain. Qed.
Print Assumptions C02_link_fp_plain.

(* step for step against the machine: as C02_machine_simulates_linked, plus proto (only directly after callsub,
   A <= height: the innermost frame records (height, A, R)), frame_dig / frame_bury (immediate read as the
   assembler reads it; failure outside a proto frame or outside the stack), retsub under proto *)
Theorem C02_machine_simulates_fp : forall (env : Src.Denote.denv) code P,
  link_fp (Src.Denote.e_msel env) code = Some P -> targets_ok code = true ->
  forall fr fcs pc stk st m c', frel code fr fcs pc stk st m -> List.length stk <= STACK_MAX ->
    fstep env code (FAt fr fcs pc stk st) = Some c' ->
    match c' with
    | FAt fr' fcs' pc' stk' st' =>
        (exists m', step (Src.Denote.e_ctx env) P m = Running m' /\ frel code fr' fcs' pc' stk' st' m') \/
        (frel code fr' fcs' pc' stk' st' m /\ fr' = fr /\ exists c, nth_error code pc = Some c /\ real c = false)
    | FUnsup _ => True
    | h => exists v, fverdict_of h = Some v /\ step (Src.Denote.e_ctx env) P m = Done v m /\ ffinal_ok h m
    end.
Proof. exact machine_simulates_fp. Qed.
Print Assumptions C02_machine_simulates_fp.

Theorem C02_machine_bridge_fp : forall (env : Src.Denote.denv) code P,
  link_fp (Src.Denote.e_msel env) code = Some P -> targets_ok code = true ->
  forall st h v, fstar env code (FAt [] false 0 [] st) h -> fverdict_of h = Some v ->
    fstack_bounded env code (FAt [] false 0 [] st) ->
    exists n m', (forall k, n <= k -> run k (Src.Denote.e_ctx env) P (init_mach st) = (v, m')) /\ ffinal_ok h m'.
Proof. exact fmachine_bridge_init. Qed.
Print Assumptions C02_machine_bridge_fp.

(* non-vacuity: the loop + nested-call program compiled with frame pointers (version 8): the text compile_model
   prints parses to [link_fp] of the component list; [fstep] runs it to [return] with 24; the bridge gives the
   verdict of [Machine.run] *)
Example C02_fp_linked_program_example :
  compile_model fp_opts ex_modes ex_prog = COk fpc_lines /\
  assemble_all fpc_comps = Some fpc_lines /\
  parse_program [] (program_text fpc_lines) = Some fpc_P /\
  link_fp [] fpc_comps = Some fpc_P /\
  frun 600 fpc_lenv fpc_comps (FAt [] false 0 [] ex_st0) = FExit (VI 24) fpc_final /\
  (exists k0 m', (forall k, k0 <= k -> run k ex_ctx fpc_P (init_mach ex_st0) = (VApprove, m')) /\
                 m_st m' = fpc_final /\ hd_error (m_stack m') = Some (VI 24)) /\
  fst (run 1000 ex_ctx fpc_P (init_mach ex_st0)) = VApprove.
Proof. exact fp_linked_program_example. Qed.
Print Assumptions C02_fp_linked_program_example.
