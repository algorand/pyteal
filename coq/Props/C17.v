(* Props/C17.v — Reading a routine-local variable before writing it is rejected.
   Property theorems only; proofs live in Proofs/ValidateSlotsProof.v; the model of
   TealBlock.validateSlots and the specification predicates are in Comp/ValidateSlots.v.

   Reading guide.  A routine is a finite block graph g (any shape, cycles included) with start block
   [start]; [init] are the slots shared with other routines (assumed initialised by PyTeal).
   [validate_slots g start init = Some errs]: the model of start.validateSlots(slotsInUse=init) returns the
   error list errs (each error named by the tag of its load's source expression); compilation is rejected
   iff errs <> [] (scratchslots.py raises TealInternalError from errs[0]).
   [unstored_path g start init s b i t]: op i of block b is `load s` (tag t), s is not shared, and some
   control-flow path from the start reaches that op without passing a `store s` (blocks on the way are
   non-terminal, no return/retsub/err in front of the load in its own block).
   [scan_path]: the same without the last condition (what the block scan of validateSlots sees). *)
From Coq Require Import List NArith.
From PV Require Import Comp.ValidateSlots Proofs.ValidateSlotsProof.
Import ListNotations.

(* THE property (one direction, as stated by C17): an unstored control-flow path to a load implies that
   the validation terminates and its error list names that load.  All graphs, all start blocks, all sets
   of shared slots; the memoisation on (block, sorted slot tuple) shared by the whole recursion loses
   nothing. *)
Theorem C17_validate_complete :
  forall (g : graph) (start : nat) (init : list N) (s : N) (b i : nat) (t : N),
    unstored_path g start init s b i t ->
    exists errs, validate_slots g start init = Some errs /\ In t errs.
Proof. exact validate_complete_lemma. Qed.
Print Assumptions C17_validate_complete.

(* The validation always terminates (fuel_bound = #edges * 2^#slots + 1 recursion depth suffices) ... *)
Theorem C17_validate_total :
  forall (g : graph) (init : list N) (start : nat), validate_slots g start init <> None.
Proof. exact validate_slots_total. Qed.
Print Assumptions C17_validate_total.

(* ... and an answer obtained with any other fuel (the extracted binary uses a fixed one) is that answer. *)
Theorem C17_fuel_irrelevant :
  forall fuel g start init errs vis,
    validate_slots_fuel fuel g start init = Some (errs, vis) -> validate_slots g start init = Some errs.
Proof. exact validate_slots_fuel_agrees. Qed.
Print Assumptions C17_fuel_irrelevant.

(* Auxiliary, exact characterisation of what is reported: a tag is reported iff it is the tag of a load
   with an unstored SCAN path (a block path from the start through non-terminal blocks that never stores
   the slot, and no store in front of the load inside its block — but possibly a return/retsub/err in
   front of it there: validateSlots keeps scanning a block after a terminator, so it may also reject a
   dead load, which C17 permits).  Direction <- restricted to [unstored_path] is the property theorem;
   direction -> is validate_reports_only_graph_loads. *)
Theorem C17_validate_exact :
  forall g start init errs, validate_slots g start init = Some errs ->
    forall t, In t errs <-> exists s b i, scan_path g start init s b i t.
Proof. exact validate_exact. Qed.
Print Assumptions C17_validate_exact.

Theorem C17_validate_reports_only_graph_loads :
  forall g start init errs t, validate_slots g start init = Some errs -> In t errs ->
    exists s b i, scan_path g start init s b i t.
Proof. exact validate_reports_lemma. Qed.
Print Assumptions C17_validate_reports_only_graph_loads.

(* Consequence for accepted routines, on the abstract execution semantics of the block graph
   ([runs_to]: ops execute in order, a terminator ends the run, a branch may go either way, every other
   op — callsub included — leaves routine-local slots alone): whenever an execution is about to run a load
   of a non-shared slot, it has executed a store to that slot before.
   PARTIAL: this is about the block graph validateSlots sees, not about the AVM run of the final TEAL:
   flattening, slot numbering, the spill code around recursive calls (spill loads are compiler-inserted
   and excluded) and the fact that the condition of a branch is a run-time value are not covered here;
   stores through `stores` (DynamicScratchVar) are not counted by PyTeal, so it rejects more than needed. *)
Theorem C17_compiled_never_reads_unwritten_partial :
  forall g start init,
    validate_slots g start init = Some [] ->
    forall b k tr s t,
      runs_to g start b k tr ->
      nth_error (ops_of (getb g b)) k = Some (Load s t) ->
      ~ In s init ->
      In (Store s) tr.
Proof. exact accepted_never_reads_unwritten_lemma. Qed.
Print Assumptions C17_compiled_never_reads_unwritten_partial.

(* non-vacuity: hypotheses are satisfiable, on graphs with the shapes C17 names *)

(* A loop with a Break-like exit and an early return:
     0: x:=..; (cond) -> 1 | 5          loop head: body or exit
     1: (cond) -> 2 | 3                 if
     2: store 7 ; -> 4                  then: write slot 7
     3: -> 5                            else: Break (jumps to the loop exit, slot 7 unwritten)
     4: (cond) -> 0 | 6                 continue looping, or early return
     5: load 7 (tag 1) ; term           after the loop: reads slot 7
     6: term ; load 7 (tag 2)           early return, then a dead load in the same block
   Paths 0,5 (zero iterations) and 0,1,3,5 (Break) reach the load of 7 unwritten. *)
Definition ex_loop : graph :=
  [ Cond [Store 1%N; Other] (Some 1) (Some 5);
    Cond [Load 1%N 9%N] (Some 2) (Some 3);
    Simple [Store 7%N] (Some 4);
    Simple [] (Some 5);
    Cond [Other] (Some 0) (Some 6);
    Simple [Load 7%N 1%N; Term] None;
    Simple [Term; Load 7%N 2%N] None ].

Example C17_ex_unstored_break_path : unstored_path ex_loop 0 [] 7%N 5 0 1%N.
Proof.
  split; [| simpl; tauto].
  exists [0; 1; 3]. split.
  - apply (bp_step ex_loop 0 [0; 1] 3 5); [| reflexivity | simpl; tauto].
    apply (bp_step ex_loop 0 [0] 1 3); [| reflexivity | simpl; tauto].
    apply (bp_step ex_loop 0 [] 0 1); [apply bp_nil | reflexivity | simpl; tauto].
  - split; [reflexivity |]. split; [simpl; tauto |].
    simpl. intros H. repeat (destruct H as [H | H]; [discriminate |]). exact H.
Qed.

(* the model reports the live load (tag 1) and NOT the dead one behind the early return (tag 2: its
   block is only entered with slot 7 written) *)
Example C17_ex_loop_result : validate_slots ex_loop 0 [] = Some [1%N].
Proof. vm_compute. reflexivity. Qed.

(* with slot 7 shared (pre-initialised) the routine is accepted; the hypothesis of the partial theorem holds *)
Example C17_ex_loop_shared_accepted : validate_slots ex_loop 0 [7%N] = Some [].
Proof. vm_compute. reflexivity. Qed.

(* a dead load behind a terminator in the same block IS reported when the slot is unwritten on entry:
   scan_path holds where unstored_path does not *)
Example C17_ex_dead_load_reported :
  validate_slots [Simple [Term; Load 7%N 2%N] None] 0 [] = Some [2%N].
Proof. vm_compute. reflexivity. Qed.

(* the memo matters: the join block 2 is entered twice, first with slot 7 written (true branch), then
   without; keying the memo on the block alone would skip the second visit and miss the load *)
Example C17_ex_memo_diamond :
  validate_slots [Cond [] (Some 1) (Some 2); Simple [Store 7%N] (Some 2); Simple [Load 7%N 3%N] None] 0 [] = Some [3%N].
Proof. vm_compute. reflexivity. Qed.

(* an abstract execution reaching the load through the Break edge *)
Example C17_ex_run : runs_to ex_loop 0 5 0 [Store 1%N; Other; Load 1%N 9%N].
Proof.
  apply (run_jump ex_loop 0 3); [| simpl; tauto].
  apply (run_jump ex_loop 0 1); [| simpl; tauto].
  change [Store 1%N; Other; Load 1%N 9%N] with ([Store 1%N; Other] ++ [Load 1%N 9%N]).
  apply (run_op ex_loop 0 1 0); [| reflexivity | discriminate].
  apply (run_jump ex_loop 0 0); [| simpl; tauto].
  change [Store 1%N; Other] with ([Store 1%N] ++ [Other]).
  apply (run_op ex_loop 0 0 1); [| reflexivity | discriminate].
  change [Store 1%N] with ([] ++ [Store 1%N]).
  apply (run_op ex_loop 0 0 0); [apply run_start | reflexivity | discriminate].
Qed.
