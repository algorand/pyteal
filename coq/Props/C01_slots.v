(* Props/C01_slots.v — property C01 (compiled TEAL computes what the PyTeal expression denotes): the
   scratch-slot ASSIGNMENT composed into the end-to-end theorem for one routine.

   Before the assignment a routine's code carries slot OBJECTS ([ASlot u] immediates); the shared
   one-step function [do_op] reads [load/store <slot u>] as "cell [e_asg env u], no range check".
   [assign_slots] (Comp/Compile.v) replaces every [ASlot u] by [AInt (look u)]; from then on load/store go
   through [exec_op] with the AVM's range check (< 256).  This file states that
     1. the rewrite is a semantic identity — per operation, step for step on linear code, block step for
        block step on graphs — when the environment numbers the variables as [look] does and directly
        accessed variables are numbered below 256 (theorems C01_slot_rewrite_xxx);
     2. a successful [assign_slots] rewrites every routine with one function [look_of asg], injective on
        the program's slots and, when requested ids are valid scratch numbers, below 256
        (theorems C01_assign_slots_xxx) — proved for the pipeline's own function (C10's theorems are about the
        separate model Comp/Slots.v);
     3. hence the end-to-end theorem holds for the ASSIGNED code (C01_routine_end_to_end_slots), whose
        instruction list is the linear rewrite of the un-assigned one and contains no placeholder
        (C01_routine_assigned_code), so that the final statement (C01_routine_end_to_end_assigned,
        C01_program_routines_end_to_end) mentions the abstract reading of variables on the SOURCE side only;
     4. under the assignment two different variables never share a cell (C01_assigned_variables_independent).
   Property theorems only; proofs in CallX/SlotCompose*.v, for the semantics with a call oracle, and
   instantiated in Proofs/SlotCompose*.v (the assignment itself: Proofs/SlotComposeAssign.v). *)
From Coq Require Import List NArith String.
From PV Require Import Base.Bytes AVM.Syntax AVM.Machine Src.Expr Src.Denote
  Comp.Blocks Comp.Lower Comp.Passes Comp.GraphSem Comp.LinearSem Comp.SimCheck Comp.Compile Comp.Assemble
  Proofs.LowerFrame Proofs.LowerCorrect Proofs.LowerShape Proofs.NormalizeLowered Proofs.FlattenCorrect Proofs.SortCorrect
  Proofs.EndToEndGlue Proofs.EndToEnd Proofs.EndToEndExamples
  Proofs.SlotCompose Proofs.SlotComposeAssign Proofs.SlotComposeEnd Proofs.SlotComposeCover
  Proofs.SlotComposeFinal Proofs.SlotComposePipeline Proofs.SlotComposeExamples.
Import ListNotations.

(* ---------------------------------------------------------------------------------------------- *)
(* 1. the rewrite preserves the semantics                                                          *)
(* ---------------------------------------------------------------------------------------------- *)

(* One operation, whatever the opcode and wherever the slot immediates sit (load/store, the [int] of a
   ScratchIndex, anything else): agreement on the slots that occur; range only for a direct access. *)
Theorem C01_slot_rewrite_op :
  forall (env : denv) (look : N -> N) (o : opc) (imms : list arg) (stk : list value) (st : mstate),
    agree_on env look (arg_slots imms) ->
    in_range look (direct_slots (mkI o imms)) ->
    do_op env o (map (rw_arg look) imms) stk st = do_op env o imms stk st.
Proof. exact do_op_rw. Qed.
Print Assumptions C01_slot_rewrite_op.

(* Linear code: the step function of the rewritten code IS the step function of the abstract code — on
   every configuration, hence same stacks, same machine states, same halting outcomes, step for step. *)
Theorem C01_slot_rewrite_linear_step :
  forall (env : denv) (look : N -> N) (code : list comp),
    agree_on env look (code_slots code) -> in_range look (code_direct code) ->
    forall c, lstep env (rw_code look code) c = lstep env code c.
Proof. exact lstep_rw. Qed.
Print Assumptions C01_slot_rewrite_linear_step.

(* ... in the simple form: every slot of the code numbered as the environment says, below 256 *)
Theorem C01_slot_rewrite_preserves :
  forall (env : denv) (look : N -> N) (code : list comp),
    slots_ok env look (code_slots code) ->
    (forall c, lstep env (rw_code look code) c = lstep env code c) /\
    (forall c c', lstar env (rw_code look code) c c' <-> lstar env code c c') /\
    (forall fuel c, lrun fuel env (rw_code look code) c = lrun fuel env code c).
Proof. exact rewrite_preserves. Qed.
Print Assumptions C01_slot_rewrite_preserves.

(* Block graphs: a graph in which some blocks (those whose slots are numbered consistently) are rewritten *)
Theorem C01_slot_rewrite_graph :
  forall (env : denv) (look : N -> N) (G G' : bgraph),
    rw_graph env look G G' ->
    (forall c, gstep env G' c = gstep env G c) /\
    (forall c c', star env G' c c' <-> star env G c c').
Proof. intros env look G G' H. split; [exact (gstep_rw env look G G' H)|exact (star_rw env look G G' H)]. Qed.
Print Assumptions C01_slot_rewrite_graph.

(* what map_graph_ops (the function assign_slots maps over the routines) does to a routine's graph *)
Theorem C01_rewritten_routine_graph :
  forall (look : N -> N) (c : croutine) (b : id),
    g_blk (cr_graph (rw_routine look c)) b =
    if mem_id b (iterate (cr_graph c) (cr_start c)) then option_map (rw_block look) (g_blk (cr_graph c) b)
    else g_blk (cr_graph c) b.
Proof. exact mgo_blk. Qed.
Print Assumptions C01_rewritten_routine_graph.

(* after the rewrite nothing is a placeholder, and code without placeholders ignores [e_asg] *)
Theorem C01_rewritten_code_no_slots :
  forall (look : N -> N) (code : list comp), code_slots (rw_code look code) = [].
Proof. exact rw_code_no_slots. Qed.
Print Assumptions C01_rewritten_code_no_slots.

Theorem C01_no_slots_asg_irrelevant :
  forall (env : denv) (f : N -> N) (code : list comp), code_slots code = [] ->
    (forall c, lstep (with_asg env f) code c = lstep env code c) /\
    (forall c c', lstar (with_asg env f) code c c' <-> lstar env code c c').
Proof. intros env f code H. split; [exact (lstep_asg_irrelevant env f code H)|exact (lstar_asg_irrelevant env f code H)]. Qed.
Print Assumptions C01_no_slots_asg_irrelevant.

(* the range hypothesis cannot be dropped: agreement alone does not make the rewrite an identity *)
Theorem C01_slot_rewrite_needs_range :
  exists (env : denv) (look : N -> N) (code : list comp) (c : lconf),
    agree_on env look (code_slots code) /\
    lstep env code c = Some (LAt 1 [VI 0] ex_st) /\
    lstep env (rw_code look code) c = Some LFail.
Proof. exact rewrite_needs_range. Qed.
Print Assumptions C01_slot_rewrite_needs_range.

(* ---------------------------------------------------------------------------------------------- *)
(* 2. what assign_slots computes                                                                   *)
(* ---------------------------------------------------------------------------------------------- *)
Theorem C01_assign_slots_rewrites :
  forall (p : prog) (crs crs' : list croutine) (locals : list (option N * list N)) (asg : list (N * N)),
    assign_slots p crs = COk (crs', locals, asg) ->
    crs' = map (rw_routine (look_of asg)) crs.
Proof. intros p crs crs' locals asg H. exact (proj1 (assign_slots_facts p crs crs' locals asg H)). Qed.
Print Assumptions C01_assign_slots_rewrites.

Theorem C01_assign_slots_injective :
  forall (p : prog) (crs crs' : list croutine) (locals : list (option N * list N)) (asg : list (N * N)),
    assign_slots p crs = COk (crs', locals, asg) ->
    forall s1 s2, In s1 (all_slots crs) -> In s2 (all_slots crs) ->
      look_of asg s1 = look_of asg s2 -> s1 = s2.
Proof. exact assign_look_injective. Qed.
Print Assumptions C01_assign_slots_injective.

Theorem C01_assign_slots_in_range :
  forall (p : prog) (crs crs' : list croutine) (locals : list (option N * list N)) (asg : list (N * N)),
    assign_slots p crs = COk (crs', locals, asg) ->
    requested_valid p (all_slots crs) ->
    forall s, In s (all_slots crs) -> (look_of asg s < 256)%N.
Proof. exact assign_look_in_range. Qed.
Print Assumptions C01_assign_slots_in_range.

Theorem C01_assign_slots_requested :
  forall (p : prog) (crs crs' : list croutine) (locals : list (option N * list N)) (asg : list (N * N)),
    assign_slots p crs = COk (crs', locals, asg) ->
    forall s, In s (all_slots crs) -> res p s = true -> look_of asg s = sid p s.
Proof. exact assign_look_requested. Qed.
Print Assumptions C01_assign_slots_requested.

(* [requested_valid] from the program record alone *)
Theorem C01_requested_valid_of_table :
  forall (p : prog) (l : list N),
    (forall u i, In (u, (i, true)) (p_slots p) -> (i < 256)%N) -> requested_valid p l.
Proof. exact requested_valid_of_table. Qed.
Print Assumptions C01_requested_valid_of_table.

(* ---------------------------------------------------------------------------------------------- *)
(* 3. the end-to-end theorem with the assignment                                                   *)
(* ---------------------------------------------------------------------------------------------- *)

(* for ANY numbering [look]: compile_one, rewrite the graph, sortBlocks, flattenBlocks *)
Theorem C01_routine_end_to_end_rewritten :
  forall (o : copts) (sub : option routine) (ast0 : expr) (cr : croutine) (look : N -> N)
         (order : list id) (code : list comp),
    (match sub with Some r => r_deferred r | None => None end) = None ->
    compile_one o sub ast0 = COk cr ->
    head_loop (root_ast ast0) = false ->
    let cr' := rw_routine look cr in
    sort_blocks (cr_graph cr') (cr_start cr') (cr_end cr') = Some order ->
    flatten_blocks (cr_graph cr') order = Some code ->
    pos_of (cr_graph cr') order (cr_start cr') = 0 /\
    forall env : denv, consistent env (routine_ctx o sub) ->
    slots_ok env look (routine_slots cr) ->
    forall (fuel : nat) (stk : list value) (st : mstate) (h : lconf),
      halt_of (denote env fuel (root_ast ast0) stk st) = Some h ->
      lstar env code (LAt 0 stk st) h /\
      forall c2, lstar env code (LAt 0 stk st) c2 -> lfinal c2 = true -> c2 = h.
Proof. exact routine_end_to_end_rewritten. Qed.
Print Assumptions C01_routine_end_to_end_rewritten.

(* for the numbering assign_slots computes (range discharged) *)
Theorem C01_routine_end_to_end_slots :
  forall (o : copts) (sub : option routine) (ast0 : expr) (cr : croutine) (p : prog)
         (crs crs' : list croutine) (locals : list (option N * list N)) (asg : list (N * N)),
    (match sub with Some r => r_deferred r | None => None end) = None ->
    compile_one o sub ast0 = COk cr ->
    head_loop (root_ast ast0) = false ->
    In cr crs ->
    assign_slots p crs = COk (crs', locals, asg) ->
    requested_valid p (all_slots crs) ->
    let cr' := rw_routine (look_of asg) cr in
    In cr' crs' /\
    forall (order : list id) (code : list comp),
    sort_blocks (cr_graph cr') (cr_start cr') (cr_end cr') = Some order ->
    flatten_blocks (cr_graph cr') order = Some code ->
    pos_of (cr_graph cr') order (cr_start cr') = 0 /\
    forall env : denv, consistent env (routine_ctx o sub) ->
    agree_on env (look_of asg) (routine_slots cr) ->
    forall (fuel : nat) (stk : list value) (st : mstate) (h : lconf),
      halt_of (denote env fuel (root_ast ast0) stk st) = Some h ->
      lstar env code (LAt 0 stk st) h /\
      forall c2, lstar env code (LAt 0 stk st) c2 -> lfinal c2 = true -> c2 = h.
Proof. exact routine_end_to_end_slots. Qed.
Print Assumptions C01_routine_end_to_end_slots.

(* the code of the rewritten routine = the linear rewrite of the code of the routine; no placeholder left *)
Theorem C01_routine_assigned_code :
  forall (o : copts) (sub : option routine) (ast0 : expr) (cr : croutine) (look : N -> N)
         (order : list id) (code : list comp),
    (match sub with Some r => r_deferred r | None => None end) = None ->
    compile_one o sub ast0 = COk cr ->
    let cr' := rw_routine look cr in
    sort_blocks (cr_graph cr') (cr_start cr') (cr_end cr') = Some order ->
    flatten_blocks (cr_graph cr') order = Some code ->
    sort_blocks (cr_graph cr) (cr_start cr) (cr_end cr) = Some order /\
    (exists code0, flatten_blocks (cr_graph cr) order = Some code0 /\ code = rw_code look code0) /\
    code_slots code = [].
Proof. exact routine_assigned_code. Qed.
Print Assumptions C01_routine_assigned_code.

(* the second route: C01_routine_end_to_end for the un-assigned code, then the linear rewrite theorem *)
Theorem C01_routine_end_to_end_linear :
  forall (o : copts) (sub : option routine) (ast0 : expr) (cr : croutine) (look : N -> N)
         (order : list id) (code0 : list comp),
    (match sub with Some r => r_deferred r | None => None end) = None ->
    compile_one o sub ast0 = COk cr ->
    head_loop (root_ast ast0) = false ->
    sort_blocks (cr_graph cr) (cr_start cr) (cr_end cr) = Some order ->
    flatten_blocks (cr_graph cr) order = Some code0 ->
    forall env : denv, consistent env (routine_ctx o sub) ->
    slots_ok env look (routine_slots cr) ->
    forall (fuel : nat) (stk : list value) (st : mstate) (h : lconf),
      halt_of (denote env fuel (root_ast ast0) stk st) = Some h ->
      lstar env (rw_code look code0) (LAt 0 stk st) h /\
      forall c2, lstar env (rw_code look code0) (LAt 0 stk st) c2 -> lfinal c2 = true -> c2 = h.
Proof. exact routine_end_to_end_linear. Qed.
Print Assumptions C01_routine_end_to_end_linear.

(* THE statement.  The emitted code contains no placeholder and is run in an environment whose e_asg
   component is ARBITRARY; it computes what the source semantics denotes when the variables are numbered by
   the assignment ([with_asg env (look_of asg)] = env with e_asg := look_of asg). *)
Theorem C01_routine_end_to_end_assigned :
  forall (o : copts) (sub : option routine) (ast0 : expr) (cr : croutine) (p : prog)
         (crs crs' : list croutine) (locals : list (option N * list N)) (asg : list (N * N)),
    (match sub with Some r => r_deferred r | None => None end) = None ->
    compile_one o sub ast0 = COk cr ->
    head_loop (root_ast ast0) = false ->
    In cr crs ->
    assign_slots p crs = COk (crs', locals, asg) ->
    requested_valid p (all_slots crs) ->
    let cr' := rw_routine (look_of asg) cr in
    In cr' crs' /\
    forall (order : list id) (code : list comp),
    sort_blocks (cr_graph cr') (cr_start cr') (cr_end cr') = Some order ->
    flatten_blocks (cr_graph cr') order = Some code ->
    pos_of (cr_graph cr') order (cr_start cr') = 0 /\
    code_slots code = [] /\
    forall env : denv, consistent env (routine_ctx o sub) ->
    forall (fuel : nat) (stk : list value) (st : mstate) (h : lconf),
      halt_of (denote (with_asg env (look_of asg)) fuel (root_ast ast0) stk st) = Some h ->
      lstar env code (LAt 0 stk st) h /\
      forall c2, lstar env code (LAt 0 stk st) c2 -> lfinal c2 = true -> c2 = h.
Proof. exact routine_end_to_end_assigned. Qed.
Print Assumptions C01_routine_end_to_end_assigned.

(* every routine compile_components flattens (optimiser off) is such a routine *)
Theorem C01_program_routines_end_to_end :
  forall (o : copts) (modes : opc -> bool * bool) (p : prog) (comps : list comp),
    compile_components o modes p = COk comps -> o_opt_slots o = false ->
    head_loop (root_ast (p_main p)) = false ->
    (forall r, In r (p_subs p) -> r_deferred r = None) ->
    exists crs crs' locals asg,
      compile_rec (S (List.length (p_subs p))) o p None (p_main p) [] = COk crs /\
      assign_slots p crs = COk (crs', locals, asg) /\
      (requested_valid p (all_slots crs) ->
       forall cr, In cr crs ->
         exists sub ast0,
           compile_one o sub ast0 = COk cr /\
           let cr' := rw_routine (look_of asg) cr in
           In cr' crs' /\
           forall order code,
             sort_blocks (cr_graph cr') (cr_start cr') (cr_end cr') = Some order ->
             flatten_blocks (cr_graph cr') order = Some code ->
             pos_of (cr_graph cr') order (cr_start cr') = 0 /\
             code_slots code = [] /\
             forall env, consistent env (routine_ctx o sub) ->
             forall fuel stk st h,
               halt_of (denote (with_asg env (look_of asg)) fuel (root_ast ast0) stk st) = Some h ->
               lstar env code (LAt 0 stk st) h /\
               forall c2, lstar env code (LAt 0 stk st) c2 -> lfinal c2 = true -> c2 = h).
Proof. exact program_routines_end_to_end. Qed.
Print Assumptions C01_program_routines_end_to_end.

(* the routines compile_rec returns are compile_one results of the main routine / of declaration bodies *)
Theorem C01_compile_rec_origin :
  forall (o : copts) (p : prog) (crs : list croutine),
    compile_rec (S (List.length (p_subs p))) o p None (p_main p) [] = COk crs ->
    forall cr, In cr crs -> origin o p cr.
Proof. exact compile_rec_origin. Qed.
Print Assumptions C01_compile_rec_origin.

(* ---------------------------------------------------------------------------------------------- *)
(* 4. each variable a cell of its own                                                              *)
(* ---------------------------------------------------------------------------------------------- *)
Theorem C01_assigned_variables_independent :
  forall (p : prog) (crs crs' : list croutine) (locals : list (option N * list N)) (asg : list (N * N)),
    assign_slots p crs = COk (crs', locals, asg) ->
    forall u1 u2, In u1 (all_slots crs) -> In u2 (all_slots crs) ->
    forall (st : mstate) (v : value),
      scratch_get (s_scratch (set_scratch st (look_of asg u1) v)) (look_of asg u1) = v /\
      (u1 <> u2 ->
       scratch_get (s_scratch (set_scratch st (look_of asg u1) v)) (look_of asg u2) =
       scratch_get (s_scratch st) (look_of asg u2)).
Proof. exact assigned_variables_independent. Qed.
Print Assumptions C01_assigned_variables_independent.

(* ---------------------------------------------------------------------------------------------- *)
(* 5. non-vacuity and necessity                                                                    *)
(* ---------------------------------------------------------------------------------------------- *)
(* two variables (acc: requested id 7; i: automatic), a loop, [int <slot of acc>; loads]: all hypotheses
   hold, the assignment is acc |-> 7, i |-> 0, the predicted run is the computed run *)
Theorem C01_slots_example :
  compile_one opts0 None sl_ast = COk sl_cr /\
  head_loop (root_ast sl_ast) = false /\
  assign_slots sl_prog [sl_cr] = COk sl_res /\
  In (rw_routine (look_of sl_asg) sl_cr) (fst (fst sl_res)) /\
  sort_blocks (cr_graph (rw_routine (look_of sl_asg) sl_cr)) (cr_start (rw_routine (look_of sl_asg) sl_cr))
              (cr_end (rw_routine (look_of sl_asg) sl_cr)) = Some sl_order /\
  flatten_blocks (cr_graph (rw_routine (look_of sl_asg) sl_cr)) sl_order = Some sl_code /\
  code_slots sl_code = [] /\
  consistent sl_env0 (routine_ctx opts0 None) /\
  denote (with_asg sl_env0 (look_of sl_asg)) 100 (root_ast sl_ast) [] ex_st = DExit (VI 6) sl_final /\
  lstar sl_env0 sl_code (LAt 0 [] ex_st) (LExit (VI 6) sl_final) /\
  lrun 200 sl_env0 sl_code (LAt 0 [] ex_st) = LExit (VI 6) sl_final /\
  scratch_get (s_scratch sl_final) 7 = VI 6 /\ scratch_get (s_scratch sl_final) 0 = VI 3.
Proof. exact routine_end_to_end_assigned_example. Qed.
Print Assumptions C01_slots_example.

Theorem C01_slots_example_assignment :
  look_of sl_asg v_acc = 7%N /\ look_of sl_asg v_i = 0%N /\ routine_slots sl_cr = [v_acc; v_i].
Proof. exact sl_assignment. Qed.
Print Assumptions C01_slots_example_assignment.

(* the emitted text is what the real compiler prints for this program (labels main_l1 / main_l3 there) *)
Theorem C01_slots_example_text :
  assemble_all sl_code =
  Some [ "int 0"; "store 7"; "int 0"; "store 0"; "l1:"; "load 0"; "int 3"; "<"; "bz l3";
         "load 7"; "int 2"; "+"; "store 7"; "load 0"; "int 1"; "+"; "store 0"; "b l1"; "l3:";
         "int 7"; "loads"; "return" ]%string.
Proof. exact sl_code_text. Qed.
Print Assumptions C01_slots_example_text.

Theorem C01_slot_rewrite_example :
  let code0 := code_of sl_cr in
  let env := with_asg sl_env0 (look_of sl_asg) in
  slots_ok env (look_of sl_asg) (code_slots code0) /\
  code_slots code0 <> [] /\
  rw_code (look_of sl_asg) code0 = sl_code /\
  (forall c, lstep env (rw_code (look_of sl_asg) code0) c = lstep env code0 c) /\
  lrun 200 env code0 (LAt 0 [] ex_st) = LExit (VI 6) sl_final.
Proof. exact rewrite_preserves_example. Qed.
Print Assumptions C01_slot_rewrite_example.

(* [requested_valid] cannot be dropped in the model: a program record claiming requested id 300 passes
   assign_slots; the source semantics exits with 5, the emitted code fails at [store 300].  Not a defect of
   /repo: ScratchSlot(300) raises TealInputError "Invalid slot ID" (checked; C10_constructor_rejects). *)
Theorem C01_slots_needs_requested_valid :
  compile_one opts0 None bad_ast = COk bad_cr /\
  (exists crs' locals, assign_slots bad_prog [bad_cr] = COk (crs', locals, bad_asg)) /\
  ~ requested_valid bad_prog (all_slots [bad_cr]) /\
  (exists st', denote (with_asg sl_env0 (look_of bad_asg)) 100 (root_ast bad_ast) [] ex_st = DExit (VI 5) st') /\
  lrun 200 sl_env0 bad_code (LAt 0 [] ex_st) = LFail.
Proof. exact slots_needs_requested_valid. Qed.
Print Assumptions C01_slots_needs_requested_valid.
