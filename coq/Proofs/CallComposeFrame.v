(* Proofs/CallComposeFrame.v — property C02: the FRAME property of the AVM operations.
   [exec_op_frame]: every operation except the four scratch opcodes (load/store/loads/stores), when it
   succeeds on a stack, succeeds on every extension of that stack with the extension untouched below the
   result, does not change the scratch space, and is parametric in it ([with_sc]).
   The two halves are proved opcode by opcode in Proofs/ExecOpFacts.v.
   Used by Proofs/CallComposeByValue.v (a callee evaluated on its own stack vs on the caller's). *)
From Coq Require Import List Arith NArith String Bool Lia.
From PV Require Import AVM.Syntax AVM.Machine Proofs.ExecOpFacts.
Import ListNotations.
Local Open Scope list_scope.

Definition with_sc (sc : list (N * value)) (st : mstate) : mstate :=
  mkSt sc (s_global st) (s_local st) (s_boxes st) (s_itxn st) (s_last_itxn st) (s_trace st).

Definition scratch_op (o : opc) : bool :=
  match o with O_load | O_store | O_loads | O_stores => true | _ => false end.

Lemma exec_op_frame cx o imms stk st s' st' : scratch_op o = false ->
  exec_op cx o imms stk st = OOk s' st' ->
  s_scratch st' = s_scratch st /\
  forall sc rest, exec_op cx o imms (stk ++ rest) (with_sc sc st) = OOk (s' ++ rest) (with_sc sc st').
Proof.
  intros Ho H. split.
  - apply (exec_op_keeps_scratch _ _ _ _ _ _ _ H); intros ->; discriminate Ho.
  - intros sc rest. apply exec_op_frame_all.
    change (with_sc sc) with (set_sc sc). rewrite (exec_op_set_sc _ _ _ _ _ _ Ho), H. reflexivity.
Qed.
