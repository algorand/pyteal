(* Proofs/CallComposeFinal.v — property C02: the two program-level statements in their final form
   (requested slot ids bounded by the table; acyclicity by a rank function). *)
From Coq Require Import List Arith NArith String Bool Lia.
From PV Require Import Base.Bytes Base.Sexp AVM.Syntax AVM.Machine Src.Expr Src.Denote Src.DenoteCall
  Comp.Blocks Comp.Lower Comp.Passes Comp.GraphSem Comp.LinearSem Comp.LinkedSem Comp.Compile
  Proofs.LowerShape Proofs.NormalizeLowered Proofs.SlotComposeAssign
  CallX.Denote CallX.EndToEnd
  Proofs.CallComposeLink Proofs.CallComposeMain Proofs.CallComposeLayout
  Proofs.CallComposeSpill Proofs.CallComposeSpillPass Proofs.CallComposeProgram Proofs.CallComposeAcyclic.
Import ListNotations.
Local Open Scope list_scope.

Theorem call_correct_nonrecursive o modes p comps (rank : N -> nat) :
  compile_components o modes p = COk comps -> o_opt_slots o = false ->
  head_loop (root_ast (p_main p)) = false ->
  (forall r, In r (p_subs p) -> r_deferred r = None) ->
  (forall u i, In (u, (i, true)) (p_slots p) -> (i < 256)%N) ->
  exists crs crs' locals asg frs,
    compile_rec (S (List.length (p_subs p))) o p None (p_main p) [] = COk crs /\
    assign_slots p crs = COk (crs', locals, asg) /\
    fold_right flat_step (COk []) crs' = COk frs /\
    (acyclic rank frs ->
     let L := flatten_subroutines frs in
     comps = CPragma (o_version o) :: L /\
     (NoDup (labels_of L) ->
      forallb (fun fr => linkable (fr_ops fr)) frs = true ->
      forall cx msel,
        (forall n, realizes (lenv cx (look_of asg) msel (fs_subs frs)) L (fs_res frs)
                            (call_k o cx (look_of asg) msel (fs_subs frs) idW n)) /\
        (forall n fuel stk st h,
           halt_of (denote_k o cx (look_of asg) msel (fs_subs frs) idW n None fuel (root_ast (p_main p)) stk st) = Some h ->
           claimed h ->
           pstar (lenv cx (look_of asg) msel (fs_subs frs)) L (PAt [] 0 stk st) (emb 0 [] h)))).
Proof.
  intros H Ho HL HD HT.
  destruct (compile_components_stages_inv o modes p comps H Ho) as (crs & crs' & locals & asg & frs & frs2 & HR & HA & HF & HS & HC).
  exists crs, crs', locals, asg, frs. repeat (split; [assumption|]).
  intros Ha L. rewrite (spill_acyclic_identity rank (o_version o) p frs locals frs2 Ha HS) in HC. split; [exact HC|].
  intros ND LK cx msel.
  exact (program_core o p crs crs' locals asg frs frs idW cx msel HR HA HF HL HD (requested_valid_of_table p _ HT)
           (unit_lift_id _ _ _ _ _ frs) ND LK).
Qed.

Theorem call_correct_recursive o modes p comps :
  compile_components o modes p = COk comps -> o_opt_slots o = false ->
  head_loop (root_ast (p_main p)) = false ->
  (forall r, In r (p_subs p) -> r_deferred r = None) ->
  (forall u i, In (u, (i, true)) (p_slots p) -> (i < 256)%N) ->
  exists crs crs' locals asg frs frs2,
    compile_rec (S (List.length (p_subs p))) o p None (p_main p) [] = COk crs /\
    assign_slots p crs = COk (crs', locals, asg) /\
    fold_right flat_step (COk []) crs' = COk frs /\
    spill (o_version o) p frs locals = COk frs2 /\
    let L := flatten_subroutines frs2 in
    comps = CPragma (o_version o) :: L /\
    (NoDup (labels_of L) ->
     forallb (fun fr => linkable (fr_ops fr)) frs2 = true ->
     forall cx msel,
       let W := W_spill o cx (look_of asg) msel (fs_subs frs2) (o_version o) p frs locals in
       (forall n, realizes (lenv cx (look_of asg) msel (fs_subs frs2)) L (fs_res frs2)
                           (call_k o cx (look_of asg) msel (fs_subs frs2) W n)) /\
       (forall n fuel stk st h,
          halt_of (denote_k o cx (look_of asg) msel (fs_subs frs2) W n None fuel (root_ast (p_main p)) stk st) = Some h ->
          claimed h ->
          pstar (lenv cx (look_of asg) msel (fs_subs frs2)) L (PAt [] 0 stk st) (emb 0 [] h))).
Proof.
  intros H Ho HL HD HT.
  destruct (compile_components_stages_inv o modes p comps H Ho) as (crs & crs' & locals & asg & frs & frs2 & HR & HA & HF & HS & HC).
  exists crs, crs', locals, asg, frs, frs2.
  split; [exact HR|]. split; [exact HA|]. split; [exact HF|]. split; [exact HS|].
  intros L. split; [exact HC|]. intros ND LK cx msel W.
  exact (program_core o p crs crs' locals asg frs frs2 W cx msel HR HA HF HL HD (requested_valid_of_table p _ HT)
           (unit_lift_spill _ _ _ _ _ _ _ _ _ _ HS LK) ND LK).
Qed.
