(* Proofs/ABIEncodeDescr.v — PyTeal's type descriptors (ABI/Encode.v: py_is_dynamic, py_byte_length_static,
   the _bool_aware_static_byte_length loop) agree with the ARC-4 spec (ABI/Spec.v: is_dynamic, static_len).
   (str(type_spec) = type_str is Proofs/ABIDescrProof.v py_str_type_str.) *)
From Coq Require Import List Arith NArith Ascii String Bool Lia.
From PV Require Import Base.Bytes ABI.Types ABI.Spec ABI.Encode.
Import ListNotations.
Local Open Scope N_scope.

Lemma existsb_ext_Forall : forall {A} (f g : A -> bool) l,
    Forall (fun x => f x = g x) l -> existsb f l = existsb g l.
Proof. intros A f g l H. induction H as [|x r Hx _ IH]; simpl; [reflexivity | rewrite Hx, IH; reflexivity]. Qed.

Lemma forallb_ext_Forall : forall {A} (f g : A -> bool) l,
    Forall (fun x => f x = g x) l -> forallb f l = forallb g l.
Proof. intros A f g l H. induction H as [|x r Hx _ IH]; simpl; [reflexivity | rewrite Hx, IH; reflexivity]. Qed.

Theorem py_is_dynamic_agrees : forall t, py_is_dynamic t = is_dynamic t.
Proof.
  (* the two fixpoints compile to the same case analysis; the induction is kept so that a divergence
     of the model shows up case by case *)
  induction t as [| | n | | | e n IH | e IH | nm ts IH | n | | k | k] using ty_ind'; simpl; try reflexivity;
    try exact IH; try (apply existsb_ext_Forall; exact IH).
Qed.

Lemma bool_sequence_length_spec : forall n, bool_sequence_length n = bool_seq_len n.
Proof. intro n. unfold bool_sequence_length, bool_seq_len. f_equal. lia. Qed.

(* the ignoreNext loop computes the run-packed length *)
Definition lift (l : list (bool * N)) : list (bool * option N) := map (fun x => (fst x, Some (snd x))) l.

Lemma consecutive_lift : forall l, consecutive_true (map fst (lift l)) = consecutive_true (map fst l).
Proof. intro l. unfold lift. rewrite map_map. reflexivity. Qed.

Lemma bool_aware_len_spec : forall l,
    bool_aware_len (lift l) 0 = Some (seq_static_len l 0) /\
    forall k, option_map (N.add (bool_seq_len (k + N.of_nat (consecutive_true (map fst l)))))
                         (bool_aware_len (lift l) (consecutive_true (map fst l)))
              = Some (seq_static_len l k).
Proof.
  induction l as [|[b n] r [IHA IHB]].
  - split; [reflexivity|]. intro k. simpl. rewrite N.add_0_r, N.add_0_r. reflexivity.
  - destruct b.
    + assert (Hct : consecutive_true (map fst ((true, n) :: r)) = S (consecutive_true (map fst r))) by reflexivity.
      split.
      * cbn [lift map bool_aware_len fst snd consecutive_true]. fold (lift r). rewrite consecutive_lift.
        replace (S (consecutive_true (map fst r)) - 1)%nat with (consecutive_true (map fst r)) by lia.
        rewrite bool_sequence_length_spec. cbn [seq_static_len].
        specialize (IHB (0 + 1)). rewrite <- IHB. f_equal. f_equal. f_equal. lia.
      * intro k. rewrite Hct. cbn [lift map bool_aware_len fst snd]. fold (lift r).
        cbn [seq_static_len]. rewrite <- (IHB (k + 1)). f_equal. f_equal. f_equal. lia.
    + split.
      * cbn [lift map bool_aware_len fst snd obind]. fold (lift r). rewrite IHA. simpl. reflexivity.
      * intro k. cbn [map fst consecutive_true]. rewrite N.add_0_r.
        cbn [lift map bool_aware_len fst snd obind]. fold (lift r). rewrite IHA. simpl.
        f_equal. lia.
Qed.

Lemma static_len_opt_static : forall t, is_dynamic t = false -> has_txn t = false ->
    static_len_opt t = Some (static_len t).
Proof.
  intros t Hd Ht. unfold static_len_opt. rewrite Hd. destruct t; try reflexivity. discriminate.
Qed.

Theorem py_byte_length_static_agrees : forall t, has_txn t = false ->
    py_byte_length_static t = static_len_opt t.
Proof.
  induction t as [| | n | | | e n IH | e IH | nm ts IH | n | | k | k] using ty_ind'; intro Ht;
    try reflexivity; try discriminate.
  - (* T[n] *)
    simpl in Ht. cbn [py_byte_length_static]. unfold static_len_opt. cbn [is_dynamic].
    rewrite py_is_dynamic_agrees. destruct (is_dynamic e) eqn:Hd; [reflexivity|].
    cbn [static_len]. destruct (is_bool e); [rewrite bool_sequence_length_spec; reflexivity|].
    rewrite (IH Ht), (static_len_opt_static e Hd Ht). reflexivity.
  - (* tuple *)
    simpl in Ht. cbn [py_byte_length_static]. unfold static_len_opt. cbn [is_dynamic].
    rewrite (existsb_ext_Forall py_is_dynamic is_dynamic ts)
      by (apply Forall_forall; intros; apply py_is_dynamic_agrees).
    destruct (existsb is_dynamic ts) eqn:Hd; [reflexivity|].
    cbn [static_len].
    replace (map (fun x => (is_bool x, py_byte_length_static x)) ts)
      with (lift (map (fun x => (is_bool x, static_len x)) ts)).
    + apply (proj1 (bool_aware_len_spec _)).
    + unfold lift. rewrite map_map. cbn [fst snd].
      clear nm. induction IH as [|x r Hx _ IHr]; [reflexivity|].
      simpl in Ht, Hd. apply orb_false_iff in Ht as [Ht1 Ht2]. apply orb_false_iff in Hd as [Hd1 Hd2].
      cbn [map]. rewrite (Hx Ht1), (static_len_opt_static x Hd1 Ht1), (IHr Ht2 Hd2). reflexivity.
  - (* byte[n] *)
    cbn [py_byte_length_static omul option_map]. unfold static_len_opt. simpl.
    f_equal. change (8 / 8) with 1. lia.
Qed.

Lemma encodable_no_txn : forall t, encodable t = true -> has_txn t = false.
Proof.
  induction t as [| | n | | | e n IH | e IH | nm ts IH | n | | k | k] using ty_ind'; intro H;
    try reflexivity; try discriminate; simpl in *.
  - exact (IH H).
  - exact (IH H).
  - induction IH as [|x r Hx _ IHr]; [reflexivity|]. simpl in *.
    apply andb_true_iff in H as [H1 H2]. rewrite (Hx H1), (IHr H2). reflexivity.
Qed.

Lemma pyteal_ty_encodable : forall t, pyteal_ty t = true -> encodable t = true.
Proof.
  induction t as [| | n | | | e n IH | e IH | nm ts IH | n | | k | k] using ty_ind'; intro H;
    try reflexivity; try discriminate; simpl in *.
  - unfold pyteal_uint_bits in H. unfold valid_uint_bits.
    repeat (apply orb_true_iff in H as [H|H]); apply N.eqb_eq in H; subst; reflexivity.
  - exact (IH H).
  - exact (IH H).
  - induction IH as [|x r Hx _ IHr]; [reflexivity|]. simpl in *.
    apply andb_true_iff in H as [H1 H2]. rewrite (Hx H1), (IHr H2). reflexivity.
Qed.

(* for a static type without transaction specs: the length PyTeal uses unguarded *)
Lemma bls_static : forall t, is_dynamic t = false -> has_txn t = false -> bls t = static_len t.
Proof.
  intros t Hd Ht. unfold bls. rewrite (py_byte_length_static_agrees t Ht), (static_len_opt_static t Hd Ht).
  reflexivity.
Qed.
