(* Proofs/ConstantsProgram.v — C12, whole program: the program compiled with assembleConstants and
   the pseudo-op program run in lock step on AVM/Machine.v (after the block lines), for every context,
   every initial state and every fuel. *)
From Coq Require Import List Arith NArith Ascii String Bool Lia.
From PV Require Import Base.Bytes Base.U64 Base.Sexp AVM.Syntax AVM.Ops AVM.Machine AVM.Parse
  Comp.Constants Comp.ConstantsSpec Proofs.ConstantsProof Proofs.ConstantsSim
  Proofs.ConstantsProgramMach Proofs.ConstantsProgramLink.
Import ListNotations.
Local Open Scope string_scope.

Section Program.
Variable addr_hash : bytes -> bytes.
Variable sig_hash : string -> bytes.
Variable sigma : string -> string.
Variable msel : list (string * bytes).
Hypothesis Hmsel : msel_consistent sig_hash msel.

(* what linking the two lists gives *)
Lemma constants_link_rel ops out ver P :
  create_constant_blocks addr_hash sig_hash ops = Some out ->
  input_ok sigma msel ops -> no_block_ops ops = true ->
  clink sigma msel ver ops = Some P ->
  exists pro body ib bb proI,
    out = (pro ++ body)%list /\
    Forall (fun c => exists i, c = COp i /\ (i_op i = O_intcblock \/ i_op i = O_bytecblock)) pro /\
    blocks_after sigma msel pro [] [] = Some (ib, bb) /\
    Forall2 (site_ok sigma msel ib bb) ops body /\
    List.length proI = List.length pro /\ blocks_of proI [] [] = Some (ib, bb) /\
    (exists P', clink sigma msel ver out = Some P') /\
    forall P', clink sigma msel ver out = Some P' ->
      exists c', pr_code P' = (proI ++ c')%list /\ Forall2 (irel ib bb) (pr_code P) c' /\
                 labels_shift (List.length pro) P P' /\ pr_version P' = pr_version P.
Proof.
  intros Hc Hok Hnb HP.
  destruct (constants_sites_preserved addr_hash sig_hash sigma msel Hmsel ops out Hc Hok)
    as (pro & body & ib & bb & -> & Hpro & Hb & Hf).
  destruct (pro_stmts sigma msel pro Hpro [] [] _ Hb) as (proI & Sp & Bp & Lp).
  unfold clink in HP. destruct (cstmts_of sigma msel ops) as [ss|] eqn:Ss; [|discriminate HP].
  destruct (cstmts_rel sigma msel ib bb ops body Hf Hok Hnb ss Ss) as (sb & Sb & Fs).
  exists pro, body, ib, bb, proI. split; [reflexivity|]. do 5 (split; [assumption|]).
  assert (So : cstmts_of sigma msel (pro ++ body) = Some (map SInstr proI ++ sb)%list)
    by (apply cstmts_of_app_some; assumption).
  assert (Bo : build_prog (map SInstr proI ++ sb) 0 ver [] [] =
               build_prog sb (0 + List.length proI) ver (rev proI) (shift_labels (List.length proI) [])).
  { rewrite build_prefix, app_nil_r. reflexivity. }
  destruct (build_rel ib bb ss sb Fs 0 ver [] [] (List.length proI) (rev proI) P HP)
    as (P0 & B0 & c & c' & C & C' & F & L & V).
  unfold clink. rewrite So, Bo, B0. split; [eauto|]. intros P' HP'. injection HP' as <-.
  cbn [rev app] in C. rewrite rev_involutive in C'.
  exists c'. split; [exact C'|]. split; [rewrite C; exact F|]. split; [|exact V].
  intros l. unfold label_pc. rewrite L, alookup_shift, Lp. reflexivity.
Qed.

(* result of a run of P against a run of P': same verdict (out of fuel included), machines equal up to the
   pc / return-address shift, the second holding the emitted blocks *)
Definition run_sim (n : nat) (ib : list N) (bb : list bytes) (r r' : verdict * mach) : Prop :=
  fst r' = fst r /\ lockrel n ib bb (snd r) (snd r').

Theorem constants_program_equiv ops out ver P P' :
  create_constant_blocks addr_hash sig_hash ops = Some out ->
  input_ok sigma msel ops ->
  no_block_ops ops = true ->
  indexes_encodable out = true ->
  clink sigma msel ver ops = Some P ->
  clink sigma msel ver out = Some P' ->
  exists pro body ib bb,
    out = (pro ++ body)%list /\
    blocks_after sigma msel pro [] [] = Some (ib, bb) /\
    Forall2 (site_ok sigma msel ib bb) ops body /\
    pr_version P' = pr_version P /\
    (* the block lines execute first *)
    (forall cx st k,
       run (k + List.length pro) cx P' (init_mach st) =
       run k cx P' (mkM (List.length pro) [] [] false ib bb st)) /\
    (forall st, lockrel (List.length pro) ib bb (init_mach st) (mkM (List.length pro) [] [] false ib bb st)) /\
    (* from then on: lock step *)
    (forall cx m m', lockrel (List.length pro) ib bb m m' ->
       match step cx P m, step cx P' m' with
       | Running a, Running a' => lockrel (List.length pro) ib bb a a'
       | Done v a, Done v' a' => v' = v /\ lockrel (List.length pro) ib bb a a'
       | _, _ => False
       end) /\
    (* hence the runs agree for every fuel *)
    (forall cx st k,
       run_sim (List.length pro) ib bb (run k cx P (init_mach st)) (run (k + List.length pro) cx P' (init_mach st))).
Proof.
  intros Hc Hok Hnb _ HP HP'.
  destruct (constants_link_rel ops out ver P Hc Hok Hnb HP)
    as (pro & body & ib & bb & proI & -> & Hpro & Hb & Hf & Lp & Bp & _ & Hrel).
  destruct (Hrel P' HP') as (c' & C' & F & L & V).
  exists pro, body, ib, bb. split; [reflexivity|]. do 3 (split; [assumption|]).
  assert (Hpre : forall cx st k,
            run (k + List.length pro) cx P' (init_mach st) =
            run k cx P' (mkM (List.length pro) [] [] false ib bb st)).
  { intros cx st k. rewrite Nat.add_comm, <- Lp.
    exact (run_blocks cx P' proI [] c' [] [] ib bb Bp C' k st). }
  assert (Hinit : forall st, lockrel (List.length pro) ib bb (init_mach st) (mkM (List.length pro) [] [] false ib bb st)).
  { intros st. split; [|split; reflexivity]. constructor; reflexivity. }
  rewrite <- Lp in L.
  split; [exact Hpre|]. split; [exact Hinit|]. split.
  - intros cx m m' Hl. rewrite <- Lp in Hl |- *.
    exact (lock_step_inv cx P P' proI (pr_code P) c' ib bb eq_refl C' F L m m' Hl).
  - intros cx st k. rewrite Hpre. unfold run_sim. rewrite <- Lp.
    apply (run_lock cx P P' proI (pr_code P) c' ib bb eq_refl C' F L k). rewrite Lp. apply Hinit.
Qed.

(* the second program links whenever the first does *)
Theorem constants_link_total ops out ver P :
  create_constant_blocks addr_hash sig_hash ops = Some out ->
  input_ok sigma msel ops -> no_block_ops ops = true ->
  clink sigma msel ver ops = Some P ->
  exists P', clink sigma msel ver out = Some P'.
Proof.
  intros Hc Hok Hnb HP.
  destruct (constants_link_rel ops out ver P Hc Hok Hnb HP) as (? & ? & ? & ? & ? & _ & _ & _ & _ & _ & _ & H & _).
  exact H.
Qed.
End Program.

(* what a caller sees of [run_sim] when n block lines precede a body as long as the input *)
Lemma run_sim_visible {A B} (R : A -> B -> Prop) (ops : list A) (out pro body : list B) n ib bb P P' :
  out = (pro ++ body)%list -> Forall2 R ops body -> List.length out = (n + List.length ops)%nat ->
  (forall cx st k,
     run_sim (List.length pro) ib bb (run k cx P (init_mach st)) (run (k + List.length pro) cx P' (init_mach st))) ->
  forall cx st k,
    fst (run (k + n) cx P' (init_mach st)) = fst (run k cx P (init_mach st)) /\
    m_stack (snd (run (k + n) cx P' (init_mach st))) = m_stack (snd (run k cx P (init_mach st))) /\
    m_st (snd (run (k + n) cx P' (init_mach st))) = m_st (snd (run k cx P (init_mach st))) /\
    m_pc (snd (run (k + n) cx P' (init_mach st))) = m_pc (snd (run k cx P (init_mach st))) + n.
Proof.
  intros -> Hf Hlen Hrun cx st k. rewrite app_length, <- (forall2_length _ _ _ Hf) in Hlen.
  replace n with (List.length pro) by lia.
  destruct (Hrun cx st k) as (Hv & [Rpc Rstk _ _ Rst] & _). repeat split; assumption.
Qed.
