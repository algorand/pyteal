(* Proofs/StageEPipeline.v — stage E: what [compile_model] prints for a MAIN-ONLY program (no subroutine, slot
   optimiser off): the lines of [main_comps version code], where [code] is the flattened, slot-assigned main
   routine.  Connects the stage-E theorems, stated for that component list, to the pipeline function itself. *)
From Coq Require Import List Arith NArith Ascii String Bool Lia.
From PV Require Import Base.Bytes Base.Sexp AVM.Syntax AVM.Machine Src.Expr Src.Denote
  Comp.Blocks Comp.Lower Comp.Passes Comp.GraphSem Comp.LinearSem Comp.SimCheck Comp.Compile Comp.Assemble
  Proofs.SlotCompose Proofs.SlotComposeAssign Proofs.StageECompose Proofs.PipelineStages.
Import ListNotations.

(* with fuel for one routine only, compileSubroutine either stops at the main routine or fails *)
Lemma compile_rec_main_only o p crs :
  compile_rec 1 o p None (p_main p) [] = COk crs ->
  exists cr, compile_one o None (p_main p) = COk cr /\ crs = [cr].
Proof.
  cbn [compile_rec]. destruct (compile_one o None (p_main p)) as [cr|e] eqn:E; [|discriminate].
  cbn [app]. set (news := filter _ _). clearbody news.
  intros H. exists cr. split; [reflexivity|].
  induction news as [|s t IH]; cbn [fold_left] in H; [injection H as <-; reflexivity|].
  destruct (existsb _ [cr]); [exact (IH H)|].
  destruct (find_sub p s); rewrite fold_step_err in H by (intros e0 x; reflexivity); discriminate H.
Qed.

(* the pipeline on a main-only program, inverted *)
Lemma compile_components_main_only o modes p comps :
  compile_components o modes p = COk comps -> o_opt_slots o = false -> p_subs p = [] ->
  exists cr crs' locals asg order code,
    compile_one o None (p_main p) = COk cr /\
    compile_rec 1 o p None (p_main p) [] = COk [cr] /\
    assign_slots p [cr] = COk (crs', locals, asg) /\
    let cr' := rw_routine (look_of asg) cr in
    sort_blocks (cr_graph cr') (cr_start cr') (cr_end cr') = Some order /\
    flatten_blocks (cr_graph cr') order = Some code /\
    comps = main_comps (o_version o) code.
Proof.
  intros C Ho Hs. rewrite compile_components_stages, Ho, Hs in C. cbn [List.length] in C.
  destruct (negb _); [discriminate C|].
  apply cbind_ok in C as (crs & E1 & C). destruct (compile_rec_main_only o p crs E1) as (cr & E & ->).
  cbn [cbind] in C. apply cbind_ok in C as ([[crs2 locals] asg] & E2 & C).
  pose proof (proj1 (assign_slots_facts p [cr] crs2 locals asg E2)) as R. cbn [map] in R. subst crs2.
  set (cr' := rw_routine (look_of asg) cr) in *.
  assert (Sub : cr_sub cr' = None) by exact (compile_one_sub o None (p_main p) cr E).
  destruct (sort_blocks (cr_graph cr') (cr_start cr') (cr_end cr')) as [order|] eqn:E3;
    [|unfold emit_stage, sort_flatten_all in C; cbn [fold_right] in C; rewrite E3 in C; discriminate C].
  destruct (flatten_blocks (cr_graph cr') order) as [code|] eqn:E4;
    [|unfold emit_stage, sort_flatten_all in C; cbn [fold_right] in C; rewrite E3, E4 in C; discriminate C].
  rewrite (emit_main_only o modes p cr' locals order code Sub E3 E4) in C.
  destruct (verify_ops o modes _); [discriminate C|]. injection C as <-.
  exists cr, [cr'], locals, asg, order, code. repeat split; assumption.
Qed.

Theorem compile_model_main_only o modes p lines :
  compile_model o modes p = COk lines -> o_opt_slots o = false -> p_subs p = [] ->
  exists cr crs' locals asg order code,
    compile_one o None (p_main p) = COk cr /\
    assign_slots p [cr] = COk (crs', locals, asg) /\
    let cr' := rw_routine (look_of asg) cr in
    sort_blocks (cr_graph cr') (cr_start cr') (cr_end cr') = Some order /\
    flatten_blocks (cr_graph cr') order = Some code /\
    assemble_all (main_comps (o_version o) code) = Some lines.
Proof.
  intros H Ho Hs. apply compile_model_ok in H as (comps & C & A).
  destruct (compile_components_main_only o modes p comps C Ho Hs)
    as (cr & crs' & locals & asg & order & code & E & _ & HA & HS & HF & ->).
  exists cr, crs', locals, asg, order, code. repeat split; assumption.
Qed.

(* source semantics -> the text compile_model prints -> Machine.run, for a main-only program *)
From PV Require Import AVM.Parse Proofs.LowerFrame Proofs.LowerShape Proofs.NormalizeLowered Proofs.LowerCorrect Proofs.EndToEndGlue Proofs.EndToEnd Proofs.FlattenCorrect
  Proofs.StageELink Proofs.StageEText.

Theorem program_text_end_to_end o modes p lines msel :
  compile_model o modes p = COk lines -> o_opt_slots o = false -> p_subs p = [] ->
  head_loop (root_ast (p_main p)) = false ->
  (forall u i, In (u, (i, true)) (p_slots p) -> (i < 256)%N) ->
  exists asg code,
    model_assignment o p = COk asg /\
    assemble_all (main_comps (o_version o) code) = Some lines /\
    (printable msel (main_comps (o_version o) code) = true ->
     targets_ok (main_comps (o_version o) code) = true ->
     exists P,
       parse_program msel (program_text lines) = Some P /\ pr_version P = o_version o /\
       forall env, consistent env (routine_ctx o None) -> e_msel env = msel ->
       forall fuel st v,
         let r := denote (with_asg env (look_of asg)) fuel (root_ast (p_main p)) [] st in
         verdict_of_dout r = Some v ->
         stack_bounded env code (LAt 0 [] st) ->
         exists n m', (forall k, n <= k -> run k (e_ctx env) P (init_mach st) = (v, m')) /\ state_ok r m').
Proof.
  intros H Ho Hs HL HT. apply compile_model_ok in H as (comps & C & A).
  destruct (compile_components_main_only o modes p comps C Ho Hs)
    as (cr & crs' & locals & asg & order & code & E & E1 & HA & HS & HF & ->).
  exists asg, code. split.
  { unfold model_assignment. rewrite Hs, Ho. cbn [List.length]. rewrite E1, HA. reflexivity. }
  split; [exact A|].
  intros PR TG.
  destruct (routine_text_end_to_end o (p_main p) cr p [cr] crs' locals asg msel E HL (or_introl eq_refl) HA
              (requested_valid_of_table p _ HT) order code HS HF PR TG) as (lines' & P & A' & PP & PV & Run).
  rewrite A in A'. injection A' as <-.
  exists P. split; [exact PP|]. split; [exact PV|]. exact Run.
Qed.
