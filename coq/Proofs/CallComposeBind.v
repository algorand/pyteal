(* Proofs/CallComposeBind.v — property C02 (i): what the declaration body of a subroutine does under the
   scratch-slot calling convention, in the source semantics with a call oracle (CallX/Denote.v), i.e. in
   the semantics [call_k]/[denote_k] of Proofs/CallComposeMain.v that the linked code is proved to compute:
     - [decl_body_binds]: entered on the stack [rev args ++ rest], the declaration body pops exactly the
       arguments, stores argument i into the slot of parameter i and runs the user's body on [rest];
     - [param_reads_arg]: in that state parameter i ([EParam i], compiled to [load <slot i>]) evaluates to
       argument i, and every slot that is not a parameter slot of the routine is as before the call. *)
From Coq Require Import List Arith NArith String Bool Lia.
From PV Require Import Base.Bytes AVM.Syntax AVM.Machine Src.Expr
  Comp.Blocks Comp.Lower Comp.Passes Comp.Compile
  CallX.Denote Proofs.ExecOpFacts.
Import ListNotations.
Local Open Scope list_scope.

Section Bind.
  Variable o : copts.
  Variable env : denv.

  (* slots := the parameters' slot objects; store the values, LAST parameter first (it is on top) *)
  Fixpoint bind_rev (slots : list N) (vals : list value) (st : mstate) : mstate :=
    match slots, vals with
    | s :: ts, v :: tv => bind_rev ts tv (set_scratch st (e_asg env s) v)
    | _, _ => st
    end.

  Definition store_of (ps : bool * N) : expr := EOp O_store [ASlot (snd ps)] TNone [].

  Lemma denote_store f u v stk st :
    denote env (S f) (EOp O_store [ASlot u] TNone []) (v :: stk) st = DNorm stk (set_scratch st (e_asg env u) v).
  Proof. reflexivity. Qed.

  (* the stores of the prologue, in the order they are emitted, on the values in the order they lie on the stack *)
  Lemma prologue_stores f (ps : list (bool * N)) (vals rest : list value) (tail : list expr) st :
    List.length vals = List.length ps ->
    den_list (denote env (S f)) (map store_of ps ++ tail) (vals ++ rest) st =
    den_list (denote env (S f)) tail rest (bind_rev (map snd ps) vals st).
  Proof.
    revert vals st. induction ps as [|p t IH]; intros vals st Hl.
    - destruct vals; [reflexivity|discriminate Hl].
    - destruct vals as [|v tv]; [discriminate Hl|]. cbn [map app den_list]. unfold store_of at 1.
      rewrite denote_store. cbn [bind map snd bind_rev]. apply IH. cbn [List.length] in Hl. lia.
  Qed.

  Hypothesis Hfp : o_use_fp o = false.

  (* the declaration body = bind the parameters, then the user's body on the rest of the stack *)
  Theorem decl_body_binds r f (args rest : list value) st :
    List.length args = List.length (r_params r) ->
    denote env (S (S f)) (decl_body o r) (rev args ++ rest) st =
    denote env (S f) (r_body r) rest (bind_rev (map snd (rev (r_params r))) (rev args) st).
  Proof.
    intros Hl. unfold decl_body. rewrite Hfp.
    change (denote env (S (S f)) (ESeq ?es) ?s ?t) with (den_list (denote env (S f)) es s t).
    assert (E : map (fun '(_, slot) => EOp O_store [ASlot slot] TNone []) (rev (r_params r)) = map store_of (rev (r_params r))).
    { apply map_ext. intros [b s]. reflexivity. }
    rewrite E, prologue_stores by (rewrite !rev_length; exact Hl).
    cbn [den_list]. destruct (denote env (S f) (r_body r) rest _); reflexivity.
  Qed.

  Lemma bind_rev_other slots : forall vals st n, ~ In n (map (e_asg env) slots) ->
    scratch_get (s_scratch (bind_rev slots vals st)) n = scratch_get (s_scratch st) n.
  Proof.
    induction slots as [|s t IH]; intros vals st n Hn; [reflexivity|]. destruct vals as [|v tv]; [reflexivity|].
    cbn [bind_rev]. rewrite IH by (intros H; apply Hn; right; exact H). rewrite scratch_get_set.
    destruct (N.eqb_spec n (e_asg env s)) as [->|Ne]; [exfalso; apply Hn; left; reflexivity|reflexivity].
  Qed.

  Lemma bind_rev_nth slots : forall vals st k s v, NoDup (map (e_asg env) slots) ->
    nth_error slots k = Some s -> nth_error vals k = Some v ->
    scratch_get (s_scratch (bind_rev slots vals st)) (e_asg env s) = v.
  Proof.
    induction slots as [|s0 t IH]; intros vals st k s v ND Hs Hv; [destruct k; discriminate Hs|].
    destruct vals as [|v0 tv]; [destruct k; discriminate Hv|]. cbn [map] in ND. inversion ND as [|? ? Nin ND']; subst.
    destruct k as [|k]; cbn [nth_error] in Hs, Hv.
    - injection Hs as <-. injection Hv as <-. cbn [bind_rev]. rewrite bind_rev_other by exact Nin.
      rewrite scratch_get_set, N.eqb_refl. reflexivity.
    - cbn [bind_rev]. exact (IH tv _ k s v ND' Hs Hv).
  Qed.

  Lemma nth_error_rev {A} (l : list A) k : (k < List.length l)%nat ->
    nth_error (rev l) (List.length l - 1 - k) = nth_error l k.
  Proof.
    intros H. destruct (nth_error l k) as [x|] eqn:E; [|apply nth_error_None in E; lia].
    rewrite (nth_error_nth' (rev l) x) by (rewrite rev_length; lia).
    rewrite rev_nth by lia. replace (List.length l - S (List.length l - 1 - k))%nat with k by lia.
    rewrite (nth_error_nth _ _ x E). reflexivity.
  Qed.

  (* the slot of parameter i holds argument i (both lists are bound in reverse) *)
  Lemma bound_param r (args : list value) st i p v :
    List.length args = List.length (r_params r) ->
    NoDup (map (e_asg env) (map snd (r_params r))) ->
    nth_error (r_params r) i = Some p -> nth_error args i = Some v ->
    scratch_get (s_scratch (bind_rev (map snd (rev (r_params r))) (rev args) st)) (e_asg env (snd p)) = v.
  Proof.
    intros Hl ND Hp Ha.
    assert (Lk : (i < List.length (r_params r))%nat) by (apply nth_error_Some; rewrite Hp; discriminate).
    apply (bind_rev_nth _ _ _ (List.length (r_params r) - 1 - i)).
    - rewrite map_rev, map_rev. apply NoDup_rev. exact ND.
    - rewrite map_rev. rewrite <- (map_length snd (r_params r)). rewrite nth_error_rev by (rewrite map_length; exact Lk).
      rewrite nth_error_map, Hp. reflexivity.
    - rewrite <- Hl. rewrite nth_error_rev by lia. exact Ha.
  Qed.

  (* parameter i reads argument i; every other slot is as it was *)
  Theorem param_reads_arg r (args : list value) st i b slot v stk f :
    List.length args = List.length (r_params r) ->
    NoDup (map (e_asg env) (map snd (r_params r))) ->
    nth_error (r_params r) (N.to_nat i) = Some (b, slot) -> nth_error args (N.to_nat i) = Some v ->
    e_param env = param_instr o r ->
    let st1 := bind_rev (map snd (rev (r_params r))) (rev args) st in
    (b = false -> denote env (S f) (EParam i) stk st1 = DNorm (v :: stk) st1) /\
    (forall n, ~ In n (map (e_asg env) (map snd (r_params r))) ->
               scratch_get (s_scratch st1) n = scratch_get (s_scratch st) n).
  Proof.
    intros Hl ND Hp Ha Hpar st1. split.
    - intros Hb. subst b. cbn [denote]. rewrite Hpar. unfold param_instr. rewrite Hp, Hfp. cbn [andb i_op i_args].
      unfold do_op. cbn [call_target slot_access is_load]. f_equal. f_equal.
      exact (bound_param r args st _ _ v Hl ND Hp Ha).
    - intros n Hn. unfold st1. apply bind_rev_other. rewrite map_rev, map_rev. intros H. apply in_rev in H. exact (Hn H).
  Qed.
End Bind.
