(* Proofs/SlotComposeFinal.v — the two routes from the source semantics to the slot-assigned linear code
   of one routine agree, and the assigned code does not depend on the abstract reading of variables:

     route A (pipeline order):  compile_one -> rewrite the GRAPH (assign_slots) -> sortBlocks -> flattenBlocks
                                [routine_end_to_end_slots, Proofs/SlotComposeEnd.v]
     route B (linear rewrite):  compile_one -> sortBlocks -> flattenBlocks -> rewrite the CODE
                                [routine_end_to_end_linear: C01's routine_end_to_end + lstar_rw]
     [routine_assigned_code] : both produce the same instruction list.

   [routine_end_to_end_assigned] is the statement without any abstract slot: the emitted code has no
   placeholder, is run in an environment with an ARBITRARY e_asg component, and computes what the source
   semantics denotes when its variables are numbered by the assignment.
   Composed in CallX/SlotComposeFinal.v, for the semantics with a call oracle. *)
From Coq Require Import List Arith NArith String Bool Lia.
From PV Require Import Base.Bytes AVM.Syntax AVM.Machine Src.Expr Src.Denote
  Comp.Blocks Comp.Lower Comp.Passes Comp.GraphSem Comp.LinearSem Comp.SimCheck Comp.Compile
  Proofs.LowerFrame Proofs.LowerCorrect Proofs.LowerShape
  Proofs.NormalizeLowered Proofs.FlattenCorrect Proofs.EndToEndGlue Proofs.EndToEnd
  Proofs.SlotCompose Proofs.SlotComposeAssign Proofs.OracleTransfer.
From PV Require CallX.SlotComposeFinal.
Import ListNotations.

(* route B: C01's end-to-end theorem for the un-assigned code, then the linear-level rewrite theorem *)
Theorem routine_end_to_end_linear o sub ast0 cr look order code0 :
  (match sub with Some r => r_deferred r | None => None end) = None ->
  compile_one o sub ast0 = COk cr ->
  head_loop (root_ast ast0) = false ->
  sort_blocks (cr_graph cr) (cr_start cr) (cr_end cr) = Some order ->
  flatten_blocks (cr_graph cr) order = Some code0 ->
  forall env, consistent env (routine_ctx o sub) ->
  slots_ok env look (routine_slots cr) ->
  forall fuel stk st h, halt_of (denote env fuel (root_ast ast0) stk st) = Some h ->
    lstar env (rw_code look code0) (LAt 0 stk st) h /\
    forall c2, lstar env (rw_code look code0) (LAt 0 stk st) c2 -> lfinal c2 = true -> c2 = h.
Proof.
  intros D E HL HS HF env Hc Hok fuel stk st h Hh. apply lstar_unique_lift.
  exact (CallX.SlotComposeFinal.routine_end_to_end_linear o sub ast0 cr look order code0 D E HL HS HF
           (lift env) Hc Hok fuel stk st h (halt_of_lift _ _ _ _ _ _ Hh)).
Qed.

(* the code the pipeline emits for the routine is that rewritten code *)
Theorem routine_assigned_code o sub ast0 cr look order code :
  (match sub with Some r => r_deferred r | None => None end) = None ->
  compile_one o sub ast0 = COk cr ->
  let cr' := rw_routine look cr in
  sort_blocks (cr_graph cr') (cr_start cr') (cr_end cr') = Some order ->
  flatten_blocks (cr_graph cr') order = Some code ->
  sort_blocks (cr_graph cr) (cr_start cr) (cr_end cr) = Some order /\
  (exists code0, flatten_blocks (cr_graph cr) order = Some code0 /\ code = rw_code look code0) /\
  code_slots code = [].
Proof. exact (CallX.SlotComposeFinal.routine_assigned_code o sub ast0 cr look order code). Qed.

(* no abstract slot left anywhere on the target side *)
Theorem routine_end_to_end_assigned o sub ast0 cr p crs crs' locals asg :
  (match sub with Some r => r_deferred r | None => None end) = None ->
  compile_one o sub ast0 = COk cr ->
  head_loop (root_ast ast0) = false ->
  In cr crs ->
  assign_slots p crs = COk (crs', locals, asg) ->
  requested_valid p (all_slots crs) ->
  let cr' := rw_routine (look_of asg) cr in
  In cr' crs' /\
  forall order code,
  sort_blocks (cr_graph cr') (cr_start cr') (cr_end cr') = Some order ->
  flatten_blocks (cr_graph cr') order = Some code ->
  pos_of (cr_graph cr') order (cr_start cr') = 0 /\
  code_slots code = [] /\
  forall env, consistent env (routine_ctx o sub) ->
  forall fuel stk st h,
    halt_of (denote (with_asg env (look_of asg)) fuel (root_ast ast0) stk st) = Some h ->
    lstar env code (LAt 0 stk st) h /\
    forall c2, lstar env code (LAt 0 stk st) c2 -> lfinal c2 = true -> c2 = h.
Proof.
  intros D E HL Hin HA HV cr'.
  destruct (CallX.SlotComposeFinal.routine_end_to_end_assigned o sub ast0 cr p crs crs' locals asg D E HL Hin HA HV)
    as [P Q].
  split; [exact P|]. intros order code HS HF. destruct (Q order code HS HF) as (P0 & NS & T).
  split; [exact P0|]. split; [exact NS|]. intros env Hc fuel stk st h Hh.
  apply lstar_unique_lift. exact (T (lift env) Hc fuel stk st h (halt_of_lift _ _ _ _ _ _ Hh)).
Qed.

(* "each variable a cell of its own" under the assignment: a store to one variable of the program is read
   back from it and leaves every other variable of the program unchanged — what the source semantics
   assumes when it treats [e_asg env u] as the private cell of u *)
Theorem assigned_variables_independent p crs crs' locals asg :
  assign_slots p crs = COk (crs', locals, asg) ->
  forall u1 u2, In u1 (all_slots crs) -> In u2 (all_slots crs) ->
  forall st v,
    scratch_get (s_scratch (set_scratch st (look_of asg u1) v)) (look_of asg u1) = v /\
    (u1 <> u2 ->
     scratch_get (s_scratch (set_scratch st (look_of asg u1) v)) (look_of asg u2) =
     scratch_get (s_scratch st) (look_of asg u2)).
Proof. exact (CallX.SlotComposeFinal.assigned_variables_independent p crs crs' locals asg). Qed.
