(* Proofs/CallComposeAcyclic.v — property C02: for a program whose call graph is ACYCLIC (every routine
   calls only routines of smaller rank, for some rank function) the pass [spill] changes nothing: no
   routine is re-entered, so no call is wrapped.  This is the case of [call_correct_nonrecursive]
   (Proofs/CallComposeFinal.v). *)
From Coq Require Import List Arith NArith String Bool Lia.
From PV Require Import Base.Bytes AVM.Syntax Src.Expr Comp.Blocks Comp.Lower Comp.Passes Comp.Compile
  Proofs.SlotCompose Proofs.CallComposeSpillPass.
Import ListNotations.
Local Open Scope list_scope.

Definition acyclic (rank : N -> nat) (frs : list flat_routine) : Prop :=
  forall fr r, In fr frs -> fr_sub fr = Some r ->
    forall c, In c (flat_map comp_subs (fr_ops fr)) -> (rank c < rank (r_id r))%nat.

Section Acyclic.
  Variable rank : N -> nat.
  Variable gr : list (N * list N).
  Hypothesis Hgr : forall a l, In (a, l) gr -> forall y, In y l -> (rank y < rank a)%nat.

  Definition succ_of (c : N) : list N :=
    match find (fun x => N.eqb (fst x) c) gr with Some (_, l) => l | None => [] end.

  Lemma succ_rank c y : In y (succ_of c) -> (rank y < rank c)%nat.
  Proof.
    unfold succ_of. destruct (find (fun x => N.eqb (fst x) c) gr) as [[a l]|] eqn:F; [|intros []].
    apply find_some in F. destruct F as [Hin E]. cbn [fst] in E. apply N.eqb_eq in E. subst a.
    exact (Hgr c l Hin y).
  Qed.

  (* a search that starts below the target never finds it *)
  Lemma graph_search_below target : forall fuel stack visited,
    (forall x, In x stack -> (rank x < rank target)%nat) ->
    graph_search fuel gr stack visited target = false.
  Proof.
    induction fuel as [|f IH]; intros stack visited Hs; [reflexivity|]. cbn [graph_search].
    destruct (rev stack) as [|cur rest_rev] eqn:E; [reflexivity|].
    assert (Hcur : In cur stack) by (apply in_rev; rewrite E; left; reflexivity).
    assert (Hrest : forall x, In x (rev rest_rev) -> In x stack).
    { intros x Hx. apply in_rev. rewrite E. right. apply in_rev. exact Hx. }
    destruct (mem_N cur visited).
    - apply IH. intros x Hx. apply Hs. exact (Hrest x Hx).
    - destruct (N.eqb_spec cur target) as [->|Ne]; [specialize (Hs target Hcur); lia|].
      apply IH. intros x Hx. apply in_app_or in Hx. destruct Hx as [Hx|Hx]; [apply Hs; exact (Hrest x Hx)|].
      fold (succ_of cur) in Hx. pose proof (succ_rank cur x Hx). specialize (Hs cur Hcur). lia.
  Qed.
End Acyclic.

Lemma sp_graph_rank rank frs : acyclic rank frs ->
  forall a l, In (a, l) (sp_graph frs) -> forall y, In y l -> (rank y < rank a)%nat.
Proof.
  intros Ha a l Hin y Hy. unfold sp_graph in Hin. apply in_flat_map in Hin. destruct Hin as (fr & Hfr & Hin).
  destruct (fr_sub fr) as [r|] eqn:Es; [|destruct Hin]. destruct Hin as [E|[]]. injection E as <- <-.
  apply (proj1 (in_sort_dedup' _ _)) in Hy. exact (Ha fr r Hfr Es y Hy).
Qed.

Lemma sp_reentry_acyclic rank frs : acyclic rank frs -> forall s, sp_reentry frs s = [].
Proof.
  intros Ha s. unfold sp_reentry. cbv zeta.
  destruct (find (fun x => N.eqb (fst x) s) (sp_graph frs)) as [[a callees]|] eqn:F; [|reflexivity].
  pose proof (sp_graph_rank rank frs Ha) as Hgr.
  apply find_some in F. destruct F as [Hin E]. cbn [fst] in E. apply N.eqb_eq in E. subst a.
  (* a callee that passed the filter would reach s from below *)
  destruct (filter _ callees) as [|c t] eqn:Ef; [reflexivity|exfalso].
  pose proof (in_eq c t) as Hc. rewrite <- Ef in Hc. apply filter_In in Hc. destruct Hc as [Hc G].
  rewrite (graph_search_below rank (sp_graph frs) Hgr s) in G; [discriminate G|].
  intros x Hx. fold (succ_of (sp_graph frs) c) in Hx.
  pose proof (succ_rank rank (sp_graph frs) Hgr c x Hx). pose proof (Hgr s callees Hin c Hc). lia.
Qed.

Theorem spill_acyclic_identity rank version p frs locals frs2 :
  acyclic rank frs -> spill version p frs locals = COk frs2 -> frs2 = frs.
Proof.
  intros Ha H. rewrite (spill_inv version p frs locals frs2 H).
  transitivity (map (fun fr : flat_routine => fr) frs); [|apply map_id].
  apply map_ext. intros fr. unfold sp_fr.
  destruct (fr_sub fr) as [r|]; [|reflexivity]. unfold sp_active. rewrite (sp_reentry_acyclic rank frs Ha). reflexivity.
Qed.
