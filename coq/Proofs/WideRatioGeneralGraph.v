(* Proofs/WideRatioGeneralGraph.v — C16 for arbitrary factors, on the lowered graph:
   (a) a syntactic class of factor expressions for which the semantic hypothesis [uint_valued] of
       [wide_ratio_never_wraps] holds in EVERY environment (constants, sums and products);
   (b) the theorems of Proofs/WideRatioGeneral.v restated on the block graph PyTeal's lowering
       emits for [EWide ns ds], by composition with [lower_correct] (Proofs/LowerCorrect.v). *)
From Coq Require Import List NArith Lia Bool.
From PV Require Import Base.Bytes Base.U64 AVM.Syntax AVM.Ops AVM.Machine Src.Expr Src.Denote
  Comp.Blocks Comp.WideRatio Comp.Lower Comp.GraphSem
  Proofs.LowerFrame Proofs.LowerLemmas Proofs.LowerCorrect
  Proofs.WideRatioProof Proofs.WideRatioGeneralOps Proofs.WideRatioGeneral.
Import ListNotations.
Local Open Scope N_scope.

Definition x_int (n : N) : expr := EOp O_int [AInt n] TUint [].

Lemma denote_int env f n s st :
  denote env (S f) (x_int n) s st = if n <? U64 then DNorm (VI n :: s) st else DFail.
Proof. apply do_op_int. Qed.

Lemma uint_valued_int env n : uint_valued env (x_int n).
Proof.
  intros fuel s st s' st' H. destruct fuel as [|f]; [discriminate H|]. rewrite denote_int in H.
  destruct (N.ltb_spec n U64) as [L|L]; [|discriminate H].
  inversion H; subst. exists n. split; [exact L|reflexivity].
Qed.

Definition sum_or_product (o : opc) : bool := match o with O_add | O_mul => true | _ => false end.

Lemma sum_or_product_inv o : sum_or_product o = true -> o = O_add \/ o = O_mul.
Proof. destruct o; (discriminate || auto). Qed.

(* [+] and [*] push the checked result [f a b] *)
Lemma do_op_sum_product env o : sum_or_product o = true ->
  exists f : N -> N -> N, forall a b s st,
    do_op env o [] (VI b :: VI a :: s) st = if f a b <? U64 then DNorm (VI (f a b) :: s) st else DFail.
Proof.
  intros H. destruct (sum_or_product_inv o H) as [-> | ->]; [exists N.add|exists N.mul]; intros a b s st.
  all: rewrite do_op_pure by (reflexivity || (apply glue_not_pnot; reflexivity)).
  all: cbn [exec_pure]; unfold oki, fits64; destruct (_ <? U64); reflexivity.
Qed.

Lemma nary_rest_uint env den o rest : sum_or_product o = true -> Forall (uintv den) rest ->
  forall a s st s' st', a < U64 ->
    den_nary_rest env den o rest (VI a :: s) st = DNorm s' st' -> exists v, v < U64 /\ s' = VI v :: s.
Proof.
  intros Ho. destruct (do_op_sum_product env o Ho) as (f & Hf).
  induction 1 as [|x rest Ux _ IH]; intros a s st s' st' Ha H; cbn [den_nary_rest] in H.
  - inversion H; subst. eauto.
  - apply bind_norm_inv in H as (s1 & st1 & E & H). destruct (Ux _ _ _ _ E) as (b & Hb & ->).
    rewrite Hf in H. destruct (N.ltb_spec (f a b) U64) as [L|L]; [|discriminate H].
    exact (IH _ _ _ _ _ L H).
Qed.

(* a sum / product of uint64-valued expressions is uint64-valued (PyTeal's Add / Mul) *)
Lemma uint_valued_nary env o t a1 rest : sum_or_product o = true ->
  uint_valued env a1 -> Forall (uint_valued env) rest -> uint_valued env (ENary o t (a1 :: rest)).
Proof.
  intros Ho U1 Ur fuel s st s' st' H. destruct fuel as [|f]; [discriminate H|].
  cbn [denote] in H. apply bind_norm_inv in H as (s1 & st1 & E & H).
  destruct (U1 f _ _ _ _ E) as (a & Ha & ->).
  apply (Forall_impl (uintv (denote env f)) (fun x (Hx : uint_valued env x) => Hx f)) in Ur.
  exact (nary_rest_uint env (denote env f) o rest Ho Ur a s st1 s' st' Ha H).
Qed.

(* constant factors [x_int v] satisfy the hypothesis of the general theorem, which for them speaks of
   [denote] on [EWide (map x_int ns) (map x_int ds)].  The op-list theorem of Props/C16.v is what the
   general theorem is proved from, not an instance of it. *)
Lemma eval_factors_consts env f vs st : Forall (fun c => c < U64) vs ->
  eval_factors env (S f) (map x_int vs) st vs st.
Proof.
  induction 1 as [|v vs Hv _ IH]; cbn [map]; [constructor|].
  apply (evalF_cons _ (x_int v) (map x_int vs) st v st vs st Hv); [|exact IH].
  intros s. rewrite denote_int. apply N.ltb_lt in Hv. rewrite Hv. reflexivity.
Qed.

Section Graph.
  Variable env : denv.
  Variable o : copts.
  Variable c : lctx.
  Hypothesis Hcons : consistent env c.
  Variables (ns ds : list expr) (k : option id) (g : graph) (s en : id) (g' : graph).
  Hypothesis W : wf g.
  Hypothesis Hlow : lower o c (EWide ns ds) k g = ((s, en), g').
  Variable G : bgraph.
  Hypothesis HG : gincl (g_blk g') G.

  Lemma wide_graph_tgt fuel stk st :
    tgt env G (GAt s stk st) k c (denote env fuel (EWide ns ds) stk st).
  Proof. exact (lower_correct env o fuel c (EWide ns ds) Hcons k g s en g' W Hlow G HG stk st). Qed.

  (* factors that evaluate: the graph reaches the continuation with the exact quotient pushed, or fails *)
  Theorem wide_ratio_general_graph f nvals dvals stk st stm st' :
    ns <> [] -> ds <> [] ->
    eval_factors env f ns st nvals stm ->
    eval_factors env f ds stm dvals st' ->
    star env G (GAt s stk st)
         (match wide_ratio_spec nvals dvals with
          | Some q => cont_conf k (VI q :: stk) st'
          | None => GFail
          end).
  Proof.
    intros Hn Hd En Ed. pose proof (wide_graph_tgt (S f) stk st) as T.
    rewrite (wide_ratio_general env f ns ds nvals dvals stk st stm st' Hn Hd En Ed) in T.
    destruct (wide_ratio_spec nvals dvals); exact T.
  Qed.

  (* uint64-valued factors: whatever the source semantics prescribes is what the graph does, and when
     that is a normal completion the value pushed is the exact quotient of values the factors took *)
  Theorem wide_ratio_graph_never_wraps fuel stk st :
    ns <> [] -> ds <> [] ->
    Forall (uint_valued env) ns -> Forall (uint_valued env) ds ->
    tgt env G (GAt s stk st) k c (denote env fuel (EWide ns ds) stk st) /\
    forall s' st', denote env fuel (EWide ns ds) stk st = DNorm s' st' ->
      star env G (GAt s stk st) (cont_conf k s' st') /\
      exists f nvals dvals stm,
        fuel = S f /\
        ran_factors env f stk ns st nvals stm /\
        ran_factors env f stk ds stm dvals st' /\
        running_ok 1 nvals = true /\ running_ok 1 dvals = true /\
        prod dvals <> 0 /\ prod nvals / prod dvals < U64 /\
        s' = VI (prod nvals / prod dvals) :: stk.
  Proof.
    intros Hn Hd Un Ud. pose proof (wide_graph_tgt fuel stk st) as T. split; [exact T|].
    intros s' st' E. split.
    - rewrite E in T. exact T.
    - exact (wide_ratio_never_wraps env fuel ns ds stk st s' st' Hn Hd Un Ud E).
  Qed.

  (* a numerator factor that fails makes the graph fail *)
  Theorem wide_ratio_graph_factor_fails f pre e post stk st vals st1 :
    ns = pre ++ e :: post ->
    eval_factors env f pre st vals st1 ->
    (forall s0, denote env f e s0 st1 = DFail) ->
    star env G (GAt s stk st) GFail.
  Proof.
    intros Ens Hpre He. pose proof (wide_graph_tgt (S f) stk st) as T. rewrite Ens in T.
    destruct (wide_ratio_abrupt_num env f pre e post ds stk st vals st1 (fun _ => DFail) Hpre He
                (fun _ => Logic.I)) as (acc & E).
    rewrite E in T. destruct (running_ok 1 vals); exact T.
  Qed.
End Graph.
