(* Proofs/RouterArgsProof.v — C09: the binding plan of the router glue, evaluated on a call produced by
   the ARC-4 client, binds every parameter to what the caller passed for it.

   Tuple element access on ARC-4 bytes (needed only for methods with more than 15 non-transaction
   parameters: de-tupling of ApplicationArgs[15]) is property C07's subject; it enters here as the
   Section hypothesis [member_correct] over an abstract [member].  coq/Router/Args.v [member_bytes] is
   the concrete instance the extracted binary uses; harness/c09.py validates it against the reference
   codec on every tupled call. *)
From Coq Require Import List Arith NArith Ascii Bool Lia.
From PV Require Import Base.Bytes ABI.Types ABI.Spec ABI.Descr Gen.Tables Router.Args
  Proofs.ABISpecProof Proofs.RouterArgsLists.
Import ListNotations.

(* the constant of pyteal/config.py (Gen/Tables.v) is the one the ARC-4 text fixes *)
Lemma cutoff_is_15 : CUTOFF = 15.
Proof. reflexivity. Qed.

Lemma to_nat_of_nat_S_sub : forall j, N.to_nat (N.of_nat (S j)) - 1 = j.
Proof. intro j. rewrite Nat2N.id. lia. Qed.

Lemma prefix_self : forall {A} (l : list A), exists s, l = l ++ s.
Proof. intros A l. exists []. now rewrite app_nil_r. Qed.

Section Pop.
  Context {A : Type} (eqb : A -> A -> bool).
  Hypothesis eqb_eq : forall x y, eqb x y = true -> x = y.

  Lemma index_of_nth : forall x l i, index_of eqb x l = Some i -> nth_error l i = Some x.
  Proof.
    intros x l. induction l as [| y r IH]; intros i H; cbn in H; [discriminate |].
    destruct (eqb x y) eqn:E.
    - inversion H; subst. cbn. f_equal. symmetry. now apply eqb_eq.
    - destruct (index_of eqb x r) as [j |] eqn:Ej; [| discriminate]. inversion H; subst. cbn. now apply IH.
  Qed.

  Lemma populate_spec : forall x arr i arr',
    populate eqb x arr = (i, arr') -> nth_error arr' i = Some x /\ exists suf, arr' = arr ++ suf.
  Proof.
    intros x arr i arr' H. unfold populate in H. destruct (index_of eqb x arr) as [j |] eqn:E.
    - inversion H; subst. split; [now apply index_of_nth | exists []; now rewrite app_nil_r].
    - inversion H; subst. split; [| now exists [x]].
      rewrite nth_error_app2 by lia. now rewrite Nat.sub_diag.
  Qed.

  (* Accounts and Applications: the sender / the called application is the implicit entry 0; any other
     value is looked up or appended, and counted from 1 *)
  Lemma place_implicit : forall x x0 arr i arr',
    (if eqb x x0 then (0, arr) else let '(j, l) := populate eqb x arr in (S j, l)) = (i, arr') ->
    (exists suf, arr' = arr ++ suf) /\
    (if N.eqb (N.of_nat i) 0 then Some x0 else nth_error arr' (N.to_nat (N.of_nat i) - 1)) = Some x.
  Proof.
    intros x x0 arr i arr' P. destruct (eqb x x0) eqn:E.
    - inversion P; subst. split; [apply prefix_self |]. cbn. f_equal. symmetry. now apply eqb_eq.
    - destruct (populate eqb x arr) as [j l] eqn:Q. inversion P; subst.
      apply populate_spec in Q. destruct Q as [Hn Hs]. split; [exact Hs |].
      replace (N.eqb (N.of_nat (S j)) 0) with false by (symmetry; apply N.eqb_neq; lia).
      now rewrite to_nat_of_nat_S_sub.
  Qed.
End Pop.

Lemma nth_error_ext : forall {A} (l s : list A) i x, nth_error l i = Some x -> nth_error (l ++ s) i = Some x.
Proof.
  intros A l s i x H. rewrite nth_error_app1; [assumption |]. apply nth_error_Some. congruence.
Qed.

Definition extends (f f' : foreign) : Prop :=
  (exists s, f_accounts f' = f_accounts f ++ s) /\
  (exists s, f_assets f' = f_assets f ++ s) /\
  (exists s, f_apps f' = f_apps f ++ s).

Lemma extends_refl : forall f, extends f f.
Proof. intro f. repeat split; apply prefix_self. Qed.

Lemma extends_trans : forall a b c, extends a b -> extends b c -> extends a c.
Proof.
  intros a b c [[s1 H1] [[s2 H2] [s3 H3]]] [[t1 G1] [[t2 G2] [t3 G3]]].
  repeat split; [exists (s1 ++ t1) | exists (s2 ++ t2) | exists (s3 ++ t3)];
    rewrite app_assoc; congruence.
Qed.

Lemma resolve_account_ext : forall sender l s i a,
  resolve_account sender l i = Some a -> resolve_account sender (l ++ s) i = Some a.
Proof.
  intros sender l s i a. unfold resolve_account. destruct (N.eqb i 0); [trivial |]. apply nth_error_ext.
Qed.
Lemma resolve_asset_ext : forall l s i a, resolve_asset l i = Some a -> resolve_asset (l ++ s) i = Some a.
Proof. intros l s i a. unfold resolve_asset. apply nth_error_ext. Qed.
Lemma resolve_app_ext : forall app l s i a,
  resolve_app app l i = Some a -> resolve_app app (l ++ s) i = Some a.
Proof.
  intros app l s i a. unfold resolve_app. destruct (N.eqb i 0); [trivial |]. apply nth_error_ext.
Qed.

(* what the client puts on the wire for a non-transaction argument *)
Inductive wire_rel (sender : bytes) (app_id : N) (fs : foreign) : ty * carg -> ty * val -> Prop :=
| wr_val : forall t v, is_plain_ty t = true -> wire_rel sender app_id fs (t, CVal v) (t, v)
| wr_account : forall addr i,
    resolve_account sender (f_accounts fs) i = Some addr ->
    wire_rel sender app_id fs (TRef RAccount, CAccount addr) (TUint 8, VUint i)
| wr_asset : forall id i,
    resolve_asset (f_assets fs) i = Some id ->
    wire_rel sender app_id fs (TRef RAsset, CAsset id) (TUint 8, VUint i)
| wr_app : forall id i,
    resolve_app app_id (f_apps fs) i = Some id ->
    wire_rel sender app_id fs (TRef RApplication, CApp id) (TUint 8, VUint i).

Lemma wire_rel_ext : forall sender app_id f f' pa tv,
  extends f f' -> wire_rel sender app_id f pa tv -> wire_rel sender app_id f' pa tv.
Proof.
  intros sender app_id f f' pa tv [[s1 H1] [[s2 H2] [s3 H3]]] H.
  destruct H as [t v Hp | addr i Hr | id i Hr | id i Hr].
  - now constructor.
  - constructor. rewrite H1. now apply resolve_account_ext.
  - constructor. rewrite H2. now apply resolve_asset_ext.
  - constructor. rewrite H3. now apply resolve_app_ext.
Qed.

Lemma wire_rel_ty : forall sender app_id f pa tv, wire_rel sender app_id f pa tv -> fst tv = wire_ty (fst pa).
Proof.
  intros sender app_id f pa tv H. destruct H as [t v Hp | | |]; cbn; try reflexivity.
  destruct t; cbn in *; try reflexivity; discriminate.
Qed.

Definition txn_rel (pa : ty * carg) (x : gtx) : Prop :=
  exists k, pa = (TTxn k, CTxn x) /\ txn_type_ok k x = true.

Lemma plain_not_txn : forall t, is_plain_ty t = true -> is_txn_ty t = false.
Proof. intros t H. destruct t; cbn in *; try reflexivity; discriminate. Qed.

Ltac crunch_place1 H :=
  repeat match type of H with
         | context [match ?k with RAccount => _ | RAsset => _ | RApplication => _ end] => destruct k
         | context [let '(_, _) := ?p in _] => destruct p eqn:?
         | context [if ?c then _ else _] => destruct c eqn:?
         end.

(* one parameter: a transaction of the declared type joins the group; anything else goes on the wire, its
   foreign array extended *)
Lemma place1_spec : forall sender app_id t a fs pl,
  place1 sender app_id t a fs = Some pl ->
  match pl with
  | PTxn x => exists k, t = TTxn k /\ a = CTxn x /\ txn_type_ok k x = true
  | PWire tv fs1 => is_txn_ty t = false /\ extends fs fs1 /\ wire_rel sender app_id fs1 (t, a) tv
  end.
Proof.
  intros sender app_id t a fs pl H.
  destruct t; destruct a; cbn in H; try discriminate H; crunch_place1 H; try discriminate H;
    inversion H; subst; clear H; try (split; [reflexivity |]).
  (* first the ten plain types: nothing is appended to the foreign arrays *)
  1-10: (split; [apply extends_refl | constructor; cbn; assumption || reflexivity]).
  (* left: a transaction, an account, an asset, an application *)
  - eauto.
  - apply (place_implicit bytes_eqb (fun x y => proj1 (bytes_eqb_eq x y))) in Heqp. destruct Heqp as [[suf Hs] Hr].
    split; [repeat split; cbn; eauto using prefix_self | constructor; exact Hr].
  - apply (populate_spec N.eqb (fun x y => proj1 (N.eqb_eq x y))) in Heqp. destruct Heqp as [Hn [suf Hs]].
    split; [repeat split; cbn; eauto using prefix_self |].
    constructor. unfold resolve_asset. cbn [f_assets]. now rewrite Nat2N.id.
  - apply (place_implicit N.eqb (fun x y => proj1 (N.eqb_eq x y))) in Heqp. destruct Heqp as [[suf Hs] Hr].
    split; [repeat split; cbn; eauto using prefix_self | constructor; exact Hr].
Qed.

Lemma place_spec : forall sender app_id ps fs w xs fs',
  place sender app_id ps fs = Some (w, xs, fs') ->
  extends fs fs' /\
  Forall2 (wire_rel sender app_id fs') (filter (fun pa => not_txn_ty (fst pa)) ps) w /\
  Forall2 txn_rel (filter (fun pa => is_txn_ty (fst pa)) ps) xs.
Proof.
  intros sender app_id ps. induction ps as [| [t a] r IH]; intros fs w xs fs' H.
  - cbn in H. inversion H; subst. split; [apply extends_refl |]. split; constructor.
  - cbn [place] in H. destruct (place1 sender app_id t a fs) as [[tv fs1 | x] |] eqn:P1; [| | discriminate H].
    + destruct (place sender app_id r fs1) as [[[w' xs'] fs''] |] eqn:PR; [| discriminate H].
      inversion H; subst. apply place1_spec in P1. destruct P1 as [Ht [He Hw]].
      apply IH in PR. destruct PR as [He' [Hw' Hx']].
      cbn [filter fst]. unfold not_txn_ty at 1. rewrite Ht. cbn [negb].
      split; [eapply extends_trans; eauto |]. split; [| assumption].
      constructor; [eapply wire_rel_ext; eauto | assumption].
    + destruct (place sender app_id r fs) as [[[w' xs'] fs''] |] eqn:PR; [| discriminate H].
      inversion H; subst. apply place1_spec in P1. destruct P1 as [k [Ht [Ha Hok]]]. subst.
      apply IH in PR. destruct PR as [He' [Hw' Hx']].
      cbn [filter fst is_txn_ty not_txn_ty negb].
      split; [assumption |]. split; [assumption |].
      constructor; [exists k; split; [reflexivity | assumption] | assumption].
Qed.

Definition enc_rel (tv : ty * val) (b : bytes) : Prop := arc4_encode (fst tv) (snd tv) = Some b.

Lemma enc_each_Forall2 : forall w bs, enc_each w = Some bs <-> Forall2 enc_rel w bs.
Proof.
  apply (traverse_Forall2 (fun tv => arc4_encode (fst tv) (snd tv)) enc_each eq_refl).
  intros [t v] r. reflexivity.
Qed.

Lemma pack_le15 : forall w, length w <= 15 -> pack w = enc_each w.
Proof. intros w H. unfold pack. now replace (15 <? length w) with false by (symmetry; apply Nat.ltb_ge; lia). Qed.

Lemma pack_small : forall w bs, length w <= 15 -> pack w = Some bs -> Forall2 enc_rel w bs.
Proof. intros w bs Hl H. rewrite pack_le15 in H by exact Hl. now apply enc_each_Forall2. Qed.

Lemma pack_big : forall w bs, 15 < length w -> pack w = Some bs ->
  exists heads tup, bs = heads ++ [tup] /\ Forall2 enc_rel (firstn 14 w) heads /\
    arc4_encode (TTuple None (map fst (skipn 14 w))) (VList (map snd (skipn 14 w))) = Some tup.
Proof.
  intros w bs Hl H. unfold pack in H.
  replace (15 <? length w) with true in H by (symmetry; apply Nat.ltb_lt; lia).
  destruct (enc_each (firstn 14 w)) as [heads |] eqn:E; [| discriminate H].
  destruct (arc4_encode (TTuple None (map fst (skipn 14 w))) (VList (map snd (skipn 14 w)))) as [tup |] eqn:T; [| discriminate H].
  inversion H; subst. exists heads, tup. split; [reflexivity |]. split; [now apply enc_each_Forall2 | reflexivity].
Qed.

(* the glue's plan for the non-transaction parameters, position by position *)
Definition app_source (apps : list ty) (r : nat) : source :=
  if (length apps <=? 15) || (r <? 14) then SArg (r + 1) else SMember 15 (skipn 14 apps) (r - 14).

Lemma app_bindings_length : forall apps, length (app_bindings apps) = length apps.
Proof.
  intro apps. unfold app_bindings. destruct (CUTOFF <? length apps).
  - rewrite app_length, !mapi_from_length, <- app_length, firstn_skipn. reflexivity.
  - apply mapi_from_length.
Qed.

Lemma app_bindings_nth : forall apps r t,
  nth_error apps r = Some t ->
  nth_error (app_bindings apps) r = Some (mk_binding (app_source apps r) t).
Proof.
  intros apps r t H. unfold app_bindings, app_source. change CUTOFF with 15. change (15 - 1) with 14.
  assert (Hr : r < length apps) by (apply nth_error_Some; congruence).
  destruct (15 <? length apps) eqn:C.
  - apply Nat.ltb_lt in C. replace (length apps <=? 15) with false by (symmetry; apply Nat.leb_gt; lia).
    cbn [orb]. assert (L14 : length (firstn 14 apps) = 14) by (apply firstn_length_le; lia).
    destruct (r <? 14) eqn:R.
    + apply Nat.ltb_lt in R. rewrite nth_error_app1 by (rewrite mapi_from_length; lia).
      rewrite nth_error_mapi_from, nth_error_firstn_lt by lia. rewrite H. reflexivity.
    + apply Nat.ltb_ge in R. rewrite nth_error_app2 by (rewrite mapi_from_length; lia).
      rewrite mapi_from_length, L14, nth_error_mapi_from, nth_error_skipn_add.
      replace (14 + (r - 14)) with r by lia. rewrite H. reflexivity.
  - apply Nat.ltb_ge in C. replace (length apps <=? 15) with true by (symmetry; apply Nat.leb_le; lia).
    cbn [orb]. rewrite nth_error_mapi_from, H. reflexivity.
Qed.

Lemma app_bindings_Forall : forall (P : binding -> Prop) apps,
  (forall r t, nth_error apps r = Some t -> P (mk_binding (app_source apps r) t)) -> Forall P (app_bindings apps).
Proof.
  intros P apps H. apply Forall_forall. intros b Hin. apply In_nth_error in Hin. destruct Hin as [j Hj].
  assert (Hjl : j < length apps) by (rewrite <- app_bindings_length; apply nth_error_Some; congruence).
  destruct (nth_error apps j) as [t |] eqn:Et; [| apply nth_error_None in Et; lia].
  rewrite (app_bindings_nth _ _ _ Et) in Hj. inversion Hj. now apply H.
Qed.

Lemma txn_bindings_Forall : forall (P : binding -> Prop) txns,
  (forall j t, nth_error txns j = Some t -> P (BTxn (length txns - j) (kind_of t))) -> Forall P (txn_bindings txns).
Proof.
  intros P txns H. apply Forall_forall. intros b Hin. apply In_nth_error in Hin. destruct Hin as [j Hj].
  unfold txn_bindings in Hj. rewrite nth_error_mapi_from in Hj.
  destruct (nth_error txns j) as [t |] eqn:Et; [| discriminate Hj]. inversion Hj. now apply H.
Qed.

(* a reference travels as a uint8: one byte *)
Lemma uint8_enc : forall n, arc4_encode (TUint 8) (VUint n) = if (n <? 256)%N then Some [n2b n] else None.
Proof. reflexivity. Qed.

Lemma uint8_enc_inv : forall i bs,
  arc4_encode (TUint 8) (VUint i) = Some bs -> exists c, bs = [c] /\ b2n c = i.
Proof.
  intros i bs H. rewrite uint8_enc in H. destruct (N.ltb_spec i 256) as [Hl |]; [| discriminate H].
  inversion H. exists (n2b i). split; [reflexivity | rewrite b2n_n2b; now apply N.mod_small].
Qed.

(* a tuple encodes only if each of its components does *)
Lemma tuple_member_encodes : forall ts vs bs j t v,
  arc4_encode (TTuple None ts) (VList vs) = Some bs ->
  nth_error ts j = Some t -> nth_error vs j = Some v ->
  exists e, arc4_encode t v = Some e.
Proof.
  intros ts vs bs j t v H Ht Hv. cbn [arc4_encode tuple_enc] in H. apply obind_some in H as [es [S _]].
  destruct (enc_seq_nth _ _ _ _ _ _ S (map_nth_error _ _ _ Ht) Hv) as [e [_ He]].
  destruct (is_bool t) eqn:B.
  - apply is_bool_true in B. subst t. apply enc_elem_bool_inv in He as (b & -> & _). cbn. eauto.
  - apply enc_elem_nonbool_inv in He as (e' & He & _). eauto.
Qed.

Lemma eval_all_Forall2 : forall member args group gi bl rs,
  eval_all member args group gi bl = Some rs <->
  Forall2 (fun b r => eval_binding member args group gi b = Some r) bl rs.
Proof.
  intros member args group gi.
  apply (traverse_Forall2 (eval_binding member args group gi) (eval_all member args group gi)); reflexivity.
Qed.

Lemma eval_all_nth : forall member args group gi bl rs j b,
  eval_all member args group gi bl = Some rs -> nth_error bl j = Some b ->
  exists r, nth_error rs j = Some r /\ eval_binding member args group gi b = Some r.
Proof.
  intros member args group gi bl rs j b H Hj. apply eval_all_Forall2 in H. exact (Forall2_nth_l _ _ _ _ _ H Hj).
Qed.

Lemma eval_all_length : forall member args group gi bl rs,
  eval_all member args group gi bl = Some rs -> length rs = length bl.
Proof. intros member args group gi bl rs H. apply eval_all_Forall2 in H. symmetry. exact (Forall2_len _ _ _ H). Qed.

Lemma splice_Forall : forall {A} (P : A -> Prop) tys (LA LT : list A),
  Forall P LA -> Forall P LT -> Forall P (splice tys LA LT).
Proof.
  intros A P tys. induction tys as [| t r IH]; intros LA LT HA HT; cbn [splice]; [constructor |].
  destruct (is_txn_ty t); [destruct HT | destruct HA]; constructor; auto.
Qed.

(* object identity: the spliced lists are related position by position when the sub-lists are *)
Lemma Forall2_splice : forall {A B} (R : A -> B -> Prop) tys LA LT LA' LT',
  Forall2 R LA LA' -> Forall2 R LT LT' -> Forall2 R (splice tys LA LT) (splice tys LA' LT').
Proof.
  intros A B R tys. induction tys as [| t r IH]; intros LA LT LA' LT' HA HT; cbn [splice]; [constructor |].
  destruct (is_txn_ty t); [destruct HT | destruct HA]; constructor; auto.
Qed.

Lemma splice_Forall2 : forall {A} (R : ty -> A -> Prop) tys (LA LT : list A),
  Forall2 R (filter not_txn_ty tys) LA -> Forall2 R (filter is_txn_ty tys) LT ->
  Forall2 R tys (splice tys LA LT).
Proof.
  intros A R tys. induction tys as [| t r IH]; intros LA LT HA HT; [constructor |].
  cbn [filter] in HA, HT. unfold not_txn_ty in HA at 1. cbn [splice].
  destruct (is_txn_ty t) eqn:Et; cbn [negb] in HA.
  - inversion HT; subst. constructor; [assumption | now apply IH].
  - inversion HA; subst. constructor; [assumption | now apply IH].
Qed.

Lemma wire_rel_types : forall sender app_id fs apps_pa w,
  Forall2 (wire_rel sender app_id fs) apps_pa w -> map wire_ty (map fst apps_pa) = map fst w.
Proof.
  intros sender app_id fs apps_pa w H. induction H as [| pa tv r1 r2 Hr Hrest IH]; [reflexivity |].
  cbn [map]. rewrite IH. f_equal. symmetry. eapply wire_rel_ty; eauto.
Qed.

Section Binding.
  Variable member : list ty -> nat -> bytes -> option bytes.
  (* C07's subject: element j of an encoded tuple is the encoding of the j-th component *)
  Hypothesis member_correct : forall ts vs bs j t v,
    arc4_encode (TTuple None ts) (VList vs) = Some bs ->
    nth_error ts j = Some t -> nth_error vs j = Some v ->
    member ts j bs = arc4_encode t v.

  (* what the glue reads for the r-th non-transaction parameter is what the client encoded for it *)
  Lemma read_source_ok : forall (apps : list ty) (w : list (ty * val)) bs sel r wt wv,
    map wire_ty apps = map fst w ->
    pack w = Some bs ->
    nth_error w r = Some (wt, wv) ->
    exists e, arc4_encode wt wv = Some e /\ read_source member (sel :: bs) (app_source apps r) = Some e.
  Proof.
    intros apps w bs sel r wt wv Hty Hp Hr.
    assert (Hlen : length apps = length w).
    { rewrite <- (map_length wire_ty apps), Hty. apply map_length. }
    assert (Hrl : r < length w) by (apply nth_error_Some; congruence).
    unfold app_source. rewrite Hlen. destruct (length w <=? 15) eqn:C.
    - apply Nat.leb_le in C. cbn [orb]. apply pack_small in Hp; [| exact C].
      destruct (Forall2_nth_l _ _ _ _ _ Hp Hr) as [e [He Hrel]]. exists e. split; [exact Hrel |].
      cbn [read_source]. rewrite Nat.add_1_r. exact He.
    - apply Nat.leb_gt in C. cbn [orb]. destruct (pack_big _ _ C Hp) as [heads [tup [Hbs [Hh Ht]]]]. subst bs.
      assert (L14 : length heads = 14).
      { rewrite <- (Forall2_len _ _ _ Hh). apply firstn_length_le. lia. }
      destruct (r <? 14) eqn:R.
      + apply Nat.ltb_lt in R.
        assert (Hr' : nth_error (firstn 14 w) r = Some (wt, wv)) by (rewrite nth_error_firstn_lt by lia; exact Hr).
        destruct (Forall2_nth_l _ _ _ _ _ Hh Hr') as [e [He Hrel]]. exists e. split; [exact Hrel |].
        cbn [read_source]. rewrite Nat.add_1_r. cbn [nth_error]. rewrite nth_error_app1 by lia. exact He.
      + apply Nat.ltb_ge in R. cbn [read_source].
        change (nth_error (sel :: heads ++ [tup]) 15) with (nth_error (heads ++ [tup]) 14).
        rewrite nth_error_app2 by lia. rewrite L14. cbn [Nat.sub nth_error].
        rewrite <- skipn_map, Hty, skipn_map.
        assert (Hsk : nth_error (skipn 14 w) (r - 14) = Some (wt, wv)).
        { rewrite nth_error_skipn_add. replace (14 + (r - 14)) with r by lia. exact Hr. }
        assert (Hf : nth_error (map fst (skipn 14 w)) (r - 14) = Some wt)
          by (apply (map_nth_error fst) in Hsk; exact Hsk).
        assert (Hs : nth_error (map snd (skipn 14 w)) (r - 14) = Some wv)
          by (apply (map_nth_error snd) in Hsk; exact Hsk).
        rewrite (member_correct _ _ _ (r - 14) wt wv Ht Hf Hs).
        destruct (tuple_member_encodes _ _ _ _ _ _ Ht Hf Hs) as [e He]. exists e. split; assumption.
  Qed.

  Lemma app_part : forall sender app_id (c : call) fs apps_pa w bs sel group gi,
    f_accounts fs = c_accounts c -> f_assets fs = c_assets c -> f_apps fs = c_apps c ->
    Forall2 (wire_rel sender app_id fs) apps_pa w -> pack w = Some bs ->
    exists EA, eval_all member (sel :: bs) group gi (app_bindings (map fst apps_pa)) = Some EA /\
               Forall2 (fun pa b => app_bound_ok sender app_id c (fst pa) (snd pa) b) apps_pa EA.
  Proof.
    intros sender app_id c fs apps_pa w bs sel group gi Hac Has Hap Hw Hp.
    pose proof (wire_rel_types _ _ _ _ _ Hw) as Hty.
    set (apps := map fst apps_pa) in *.
    destruct (Forall2_exists_mid (fun b r => eval_binding member (sel :: bs) group gi b = Some r)
                (fun pa r => app_bound_ok sender app_id c (fst pa) (snd pa) r) apps_pa (app_bindings apps))
      as [EA [He Hok]]; [| exists EA; split; [now apply eval_all_Forall2 | exact Hok]].
    apply Forall2_of_nth; [unfold apps; now rewrite app_bindings_length, map_length |].
    intros j pa b Epa Hj.
    assert (Et : nth_error apps j = Some (fst pa)) by (unfold apps; now apply map_nth_error).
    rewrite (app_bindings_nth _ _ _ Et) in Hj. inversion Hj; subst b. clear Hj.
    destruct (Forall2_nth_l _ _ _ _ _ Hw Epa) as [[wt wv] [Etv Hrel]].
    destruct (read_source_ok apps w bs sel j wt wv Hty Hp Etv) as [e [Hen Hrd]].
    inversion Hrel as [t v Hpl E1 E2 | addr i Hr E1 E2 | id i Hr E1 E2 | id i Hr E1 E2]; subst pa; subst; cbn [fst snd] in *.
    1: { assert (Hmk : mk_binding (app_source apps j) wt = BVal (app_source apps j) wt)
           by (destruct wt; cbn in *; try reflexivity; discriminate).
         rewrite Hmk. cbn [eval_binding]. rewrite Hrd. eexists. split; [reflexivity | now constructor]. }
    (* a reference: the byte read is the index the client chose, and it resolves in the call's arrays *)
    all: cbn [mk_binding eval_binding]; rewrite Hrd; destruct (uint8_enc_inv _ _ Hen) as [ch [-> <-]];
      eexists; (split; [reflexivity |]); constructor; congruence.
  Qed.

  (* transaction parameters: the j-th one denotes the j-th transaction before the call *)
  Lemma txn_part : forall (l : list (ty * carg)) (xsl : list gtx) pre me after args,
    Forall2 txn_rel l xsl ->
    eval_all member args (pre ++ xsl ++ me :: after) (length pre + length xsl) (txn_bindings (map fst l))
    = Some (mapi_from 0 (fun j x => RTxn (length pre + j) x) xsl).
  Proof.
    intros l xsl pre me after args H. pose proof (Forall2_len _ _ _ H) as Hlen.
    apply eval_all_Forall2. unfold txn_bindings. rewrite map_length.
    apply Forall2_of_nth; [now rewrite !mapi_from_length, map_length |].
    intros j b r Hb Hr. rewrite nth_error_mapi_from, nth_error_map in Hb. rewrite nth_error_mapi_from in Hr.
    destruct (nth_error l j) as [pa |] eqn:Ep; [| discriminate Hb].
    destruct (Forall2_nth_l _ _ _ _ _ H Ep) as [x [Ex [k [-> Hok]]]].
    assert (Hj : j < length l) by (apply nth_error_Some; congruence).
    rewrite Ex in Hr. inversion Hb; inversion Hr; subst b r. cbn [Nat.add fst kind_of eval_binding].
    replace (length l - j <=? length pre + length xsl) with true by (symmetry; apply Nat.leb_le; lia).
    replace (length pre + length xsl - (length l - j)) with (length pre + j) by lia.
    rewrite nth_error_app2 by lia. replace (length pre + j - length pre) with j by lia.
    rewrite nth_error_app1 by lia. now rewrite Ex, Hok.
  Qed.

  Lemma splice_args_ok : forall sender app_id c group base ps n EA xs,
    Forall2 (fun pa b => app_bound_ok sender app_id c (fst pa) (snd pa) b)
            (filter (fun pa => not_txn_ty (fst pa)) ps) EA ->
    Forall2 txn_rel (filter (fun pa => is_txn_ty (fst pa)) ps) xs ->
    (forall j x, nth_error xs j = Some x -> nth_error group (base + n + j) = Some x) ->
    args_ok sender app_id c group base n ps
            (splice (map fst ps) EA (mapi_from 0 (fun j x => RTxn (base + n + j) x) xs)).
  Proof.
    intros sender app_id c group base ps. induction ps as [| [t a] r IH]; intros n EA xs HA HT Hg.
    - constructor.
    - cbn [filter fst] in HA, HT. unfold not_txn_ty in HA at 1. cbn [map fst splice].
      destruct (is_txn_ty t) eqn:Et; cbn [negb] in HA.
      + inversion HT as [| pa x l' xs' Hrel Hrest E1 E2]; subst. destruct Hrel as [k [Epa Hok]].
        inversion Epa; subst. cbn [mapi_from]. rewrite Nat.add_0_r.
        constructor; [exact Hok | |].
        * specialize (Hg 0 x eq_refl). now rewrite Nat.add_0_r in Hg.
        * rewrite mapi_from_shift.
          rewrite (mapi_from_ext _ (fun j y => RTxn (base + S n + j) y)) by (intros; f_equal; lia).
          apply IH; [exact HA | exact Hrest |]. intros j y Hj. specialize (Hg (S j) y Hj).
          now replace (base + S n + j) with (base + n + S j) by lia.
      + inversion HA as [| pa b l' EA' Hrel Hrest E1 E2]; subst. cbn [fst snd] in Hrel.
        constructor; [exact Et | exact Hrel |]. apply IH; assumption.
  Qed.

  Theorem arg_binding_main : forall sel sender app_id s args c before me after,
    client_encode sel sender app_id s args = Some c ->
    exists bounds,
      eval_all member (c_args c) (group_of before c me after) (group_index_of before c)
               (binding_plan (s_params s)) = Some bounds /\
      args_ok sender app_id c (group_of before c me after) (length before) 0
              (combine (s_params s) args) bounds /\
      length (c_txns c) = length (filter is_txn_ty (s_params s)) /\
      length (s_params s) = length args.
  Proof.
    intros sel sender app_id s args c before me after H. unfold client_encode in H.
    destruct (Nat.eqb (length (s_params s)) (length args)) eqn:El; [| discriminate H].
    apply Nat.eqb_eq in El.
    destruct (place sender app_id (combine (s_params s) args) (mkForeign [] [] [])) as [[[w xs] fs] |] eqn:P; [| discriminate H].
    destruct (pack w) as [bs |] eqn:Pk; [| discriminate H]. inversion H; subst c. clear H.
    set (ps := combine (s_params s) args) in *.
    assert (Hps : map fst ps = s_params s) by (apply map_fst_combine; exact El).
    destruct (place_spec _ _ _ _ _ _ _ P) as [_ [Hw Hx]].
    set (c := mkCall (sel :: bs) (f_accounts fs) (f_assets fs) (f_apps fs) xs).
    unfold group_of, group_index_of. cbn [c_txns c_args].
    destruct (app_part sender app_id c fs _ w bs sel
                (before ++ xs ++ me :: after) (length before + length xs) eq_refl eq_refl eq_refl Hw Pk)
      as [EA [HEA HokA]].
    pose proof (txn_part _ xs before me after (sel :: bs) Hx) as HET.
    exists (splice (s_params s) EA (mapi_from 0 (fun j x => RTxn (length before + j) x) xs)).
    split; [| split; [| split]].
    - unfold binding_plan. rewrite <- Hps at 2 3. rewrite !filter_map_fst.
      apply eval_all_Forall2, Forall2_splice; apply eval_all_Forall2; assumption.
    - rewrite <- Hps.
      rewrite (mapi_from_ext _ (fun j x => RTxn (length before + 0 + j) x)) by (intros; f_equal; lia).
      apply splice_args_ok; [exact HokA | exact Hx |].
      intros j x Hj. rewrite Nat.add_0_r. rewrite nth_error_app2 by lia.
      replace (length before + j - length before) with j by lia.
      change (c_txns c) with xs. rewrite nth_error_app1 by (apply nth_error_Some; congruence). exact Hj.
    - change (c_txns c) with xs. rewrite <- (Forall2_len _ _ _ Hx). rewrite <- Hps, filter_map_fst, map_length. reflexivity.
    - exact El.
  Qed.
End Binding.

(* a transaction parameter of kind k is bound by a BTxn of kind k, anything else by a BVal / BRef *)
Definition plan_shape (t : ty) (b : binding) : Prop :=
  match t with
  | TTxn k => exists back, b = BTxn back k
  | TRef k => exists s, b = BRef s k
  | _ => exists s, b = BVal s t
  end.

Lemma binding_plan_shape : forall tys, Forall2 plan_shape tys (binding_plan tys).
Proof.
  intro tys. unfold binding_plan. apply splice_Forall2.
  - apply Forall2_of_nth; [now rewrite app_bindings_length |].
    intros j t b Ht Hb. rewrite (app_bindings_nth _ _ _ Ht) in Hb. inversion Hb; subst b.
    apply nth_error_In, filter_In in Ht. destruct Ht as [_ Ht]. destruct t; cbn in *; try discriminate; eauto.
  - unfold txn_bindings. apply Forall2_of_nth; [now rewrite mapi_from_length |].
    intros j t b Hj Hb. rewrite nth_error_mapi_from, Hj in Hb. cbn in Hb. inversion Hb; subst b.
    apply nth_error_In, filter_In in Hj. destruct Hj as [_ Hj]. destruct t; cbn in *; try discriminate; eauto.
Qed.

(* txn_bindings uses len - idx with idx < len, and nothing else makes a BTxn *)
Definition back_pos (b : binding) : Prop := match b with BTxn back _ => 0 < back | _ => True end.

Lemma binding_plan_back_pos : forall tys, Forall back_pos (binding_plan tys).
Proof.
  intro tys. apply splice_Forall.
  - apply app_bindings_Forall. intros r t _. now destruct t.
  - apply txn_bindings_Forall. intros j t Hj.
    assert (j < length (filter is_txn_ty tys)) by (apply nth_error_Some; congruence). cbn. lia.
Qed.

(* Whatever the application arguments and the group are (client-made or not): if the glue gets
   through, every transaction parameter denotes an existing group transaction of the declared
   type, at the computed position.  A transaction of another type makes the call fail. *)
Theorem txn_type_enforced_main : forall member args group gi tys i k bounds,
  nth_error tys i = Some (TTxn k) ->
  eval_all member args group gi (binding_plan tys) = Some bounds ->
  exists g x, nth_error bounds i = Some (RTxn g x) /\ g < gi /\ nth_error group g = Some x /\
              txn_type_ok k x = true.
Proof.
  intros member args group gi tys i k bounds Hi He.
  destruct (Forall2_nth_l _ _ _ _ _ (binding_plan_shape tys) Hi) as [b [Hb [back ->]]].
  destruct (eval_all_nth _ _ _ _ _ _ _ _ He Hb) as [r [Hr Ev]].
  cbn [eval_binding] in Ev. destruct (back <=? gi) eqn:Eb; [| discriminate Ev]. apply Nat.leb_le in Eb.
  destruct (nth_error group (gi - back)) as [x |] eqn:Ex; [| discriminate Ev].
  destruct (txn_type_ok k x) eqn:Ek; [| discriminate Ev]. inversion Ev; subst r.
  exists (gi - back), x. repeat split; auto.
  pose proof (binding_plan_back_pos tys) as Hpos. rewrite Forall_forall in Hpos.
  specialize (Hpos _ (nth_error_In _ _ Hb)). cbn in Hpos. lia.
Qed.

Lemma app_bindings_le : forall apps, length apps <= 15 ->
  app_bindings apps = mapi_from 0 (fun idx t => mk_binding (SArg (idx + 1)) t) apps.
Proof.
  intros apps H. unfold app_bindings. change CUTOFF with 15.
  replace (15 <? length apps) with false by (symmetry; apply Nat.ltb_ge; lia). reflexivity.
Qed.

Lemma app_bindings_gt : forall apps, 15 < length apps ->
  app_bindings apps =
    mapi_from 0 (fun idx t => mk_binding (SArg (idx + 1)) t) (firstn 14 apps)
    ++ mapi_from 0 (fun idx t => mk_binding (SMember 15 (skipn 14 apps) idx) t) (skipn 14 apps).
Proof.
  intros apps H. unfold app_bindings. change CUTOFF with 15. change (15 - 1) with 14.
  replace (15 <? length apps) with true by (symmetry; apply Nat.ltb_lt; lia).
  rewrite firstn_length_le by lia. reflexivity.
Qed.

Lemma splice_no_txn : forall {A} tys (LA LT : list A),
  forallb not_txn_ty tys = true -> length LA = length tys -> splice tys LA LT = LA.
Proof.
  intros A tys. induction tys as [| t r IH]; intros LA LT H Hl.
  - destruct LA; [reflexivity | discriminate].
  - cbn in H. apply andb_prop in H. destruct H as [Ht Hr]. unfold not_txn_ty in Ht. cbn [splice].
    destruct (is_txn_ty t); [discriminate |]. destruct LA as [| b LA']; [discriminate |]. f_equal. apply IH; auto.
Qed.

Lemma filter_all : forall {A} (p : A -> bool) l, forallb p l = true -> filter p l = l.
Proof.
  intros A p l. induction l as [| x r IH]; intro H; [reflexivity |]. cbn in *.
  apply andb_prop in H. destruct H as [Hx Hr]. rewrite Hx. f_equal. now apply IH.
Qed.

(* a method without transaction parameters: the plan is the application-argument plan *)
Lemma binding_plan_no_txn : forall tys, forallb not_txn_ty tys = true -> binding_plan tys = app_bindings tys.
Proof.
  intros tys H. unfold binding_plan. rewrite (filter_all _ _ H).
  apply splice_no_txn; [exact H | apply app_bindings_length].
Qed.

(* 15 arguments: one application argument each *)
Theorem cutoff_15_individual_main : forall tys,
  length tys = 15 -> forallb not_txn_ty tys = true ->
  binding_plan tys = mapi_from 0 (fun idx t => mk_binding (SArg (idx + 1)) t) tys /\ tupled_types tys = [].
Proof.
  intros tys Hl H. rewrite (binding_plan_no_txn _ H). split; [apply app_bindings_le; lia |].
  unfold tupled_types. rewrite (filter_all _ _ H). change CUTOFF with 15. rewrite Hl. reflexivity.
Qed.

(* 16 arguments: 14 alone, the last two as a 2-tuple in application argument 15 *)
Theorem cutoff_16_tupled_main : forall tys,
  length tys = 16 -> forallb not_txn_ty tys = true ->
  exists t14 t15,
    skipn 14 tys = [t14; t15] /\ tupled_types tys = [t14; t15] /\
    binding_plan tys =
      mapi_from 0 (fun idx t => mk_binding (SArg (idx + 1)) t) (firstn 14 tys)
      ++ [mk_binding (SMember 15 [t14; t15] 0) t14; mk_binding (SMember 15 [t14; t15] 1) t15].
Proof.
  intros tys Hl H.
  assert (Hs : exists t14 t15, skipn 14 tys = [t14; t15]).
  { pose proof (skipn_length 14 tys) as L. rewrite Hl in L. change (16 - 14) with 2 in L.
    destruct (skipn 14 tys) as [| a [| b [| c r]]]; try discriminate. eauto. }
  destruct Hs as [t14 [t15 Hs]]. exists t14, t15. split; [exact Hs |]. split.
  - unfold tupled_types. rewrite (filter_all _ _ H). change CUTOFF with 15. rewrite Hl. cbn [Nat.ltb Nat.leb]. exact Hs.
  - rewrite (binding_plan_no_txn _ H), app_bindings_gt by lia. rewrite Hs. reflexivity.
Qed.

Lemma enc_each_length : forall w bs, enc_each w = Some bs -> length bs = length w.
Proof. intros w bs H. apply enc_each_Forall2 in H. symmetry. eapply Forall2_len; eauto. Qed.

Theorem client_cutoff_main : forall w bs,
  pack w = Some bs ->
  (length w <= 15 -> length bs = length w /\ Forall2 enc_rel w bs) /\
  (15 < length w ->
     length bs = 15 /\ Forall2 enc_rel (firstn 14 w) (firstn 14 bs) /\
     nth_error bs 14 = arc4_encode (TTuple None (map fst (skipn 14 w))) (VList (map snd (skipn 14 w)))).
Proof.
  intros w bs H. split; intro Hl.
  - pose proof (pack_small _ _ Hl H) as F. split; [symmetry; eapply Forall2_len; eauto | exact F].
  - destruct (pack_big _ _ Hl H) as [heads [tup [-> [Hh Ht]]]].
    assert (L14 : length heads = 14) by (rewrite <- (Forall2_len _ _ _ Hh); apply firstn_length_le; lia).
    split; [rewrite app_length, L14; reflexivity |]. split.
    + rewrite firstn_app, L14, Nat.sub_diag, firstn_O, app_nil_r.
      rewrite (firstn_all2 heads) by lia. exact Hh.
    + rewrite nth_error_app2 by lia. rewrite L14, Nat.sub_diag, Ht. reflexivity.
Qed.

Corollary pack_length : forall w bs, pack w = Some bs -> length bs <= 15.
Proof.
  intros w bs H. destruct (client_cutoff_main w bs H) as [Hle Hgt].
  destruct (Nat.le_gt_cases (length w) 15) as [Hl | Hl].
  - destruct (Hle Hl) as [-> _]. exact Hl.
  - destruct (Hgt Hl) as [-> _]. constructor.
Qed.
