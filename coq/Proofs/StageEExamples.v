(* Proofs/StageEExamples.v — non-vacuity of the stage-E theorems: a main routine with a loop and a byte literal
   whose spelling contains a quote, a semicolon, a double slash and an escaped line feed. *)
From Coq Require Import List Arith NArith Ascii String Bool Lia.
From PV Require Import Base.Bytes AVM.Syntax AVM.Ops AVM.Machine AVM.Parse Src.Expr Src.Denote Comp.Blocks
  Comp.Lower Comp.Passes Comp.LinearSem Comp.Compile Comp.Assemble Proofs.LowerCorrect Proofs.LowerShape
  Proofs.NormalizeLowered Proofs.FlattenCorrect Proofs.EndToEndGlue Proofs.EndToEndExamples Proofs.SlotCompose
  Proofs.SlotComposeAssign Proofs.SlotComposeExamples Proofs.MachineStep Proofs.StageELink Proofs.StageEText
  Proofs.StageECompose Proofs.CallMachineSim.
Import ListNotations.
Local Open Scope list_scope.
Local Open Scope string_scope.

(* the spelling PyTeal prints for Bytes('a;b // "q"\n'):  "a;b // \"q\"\n"  (13 + 2 characters, 11 bytes) *)
Definition tx_lit : string := """a;b // \""q\""\n""".

Definition tx_bytes : expr := EOp O_byte [AStr tx_lit] TBytes [].

(* acc := 0; i := 0; while i < 3 { acc := acc + len(<literal>); i := i + 1 }; return acc == 33 *)
Definition tx_ast : expr :=
  ESeq [ s_st v_acc (s_int 0);
         s_st v_i (s_int 0);
         EWhile (EOp O_lt [] TUint [s_ld v_i; s_int 3])
                (ESeq [ s_st v_acc (ENary O_add TUint [s_ld v_acc; EOp O_len [] TUint [tx_bytes]]);
                        s_st v_i (ENary O_add TUint [s_ld v_i; s_int 1]) ]);
         EReturn (Some (EOp O_eq [] TUint [s_ld v_acc; s_int 33])) ].

Definition tx_prog : prog := mkProgram tx_ast [] [(v_acc, (7%N, true))].
Definition tx_cr : croutine := cr_of opts0 tx_ast.
Definition tx_res : list croutine * list (option N * list N) * list (N * N) :=
  match assign_slots tx_prog [tx_cr] with COk r => r | CErr _ => ([], [], []) end.
Definition tx_asg : list (N * N) := snd tx_res.
Notation tx_cr' := (rw_routine (look_of tx_asg) tx_cr).
Definition tx_order : list id := order_of tx_cr'.
Definition tx_code : list comp := code_of tx_cr'.
Definition tx_comps : list comp := main_comps 6 tx_code.
Definition tx_lines : list string := match assemble_all tx_comps with Some l => l | None => [] end.
Definition tx_text : string := program_text tx_lines.
Definition tx_P : program := match parse_program [] tx_text with Some P => P | None => mkProg 0 [] [] end.
Definition tx_env : denv := mkEnv ex_ctx (fun n => (n + 100)%N) [] [] false main_param.

(* the text, line for line *)
Example tx_text_lines :
  tx_lines =
  [ "#pragma version 6"; "int 0"; "store 7"; "int 0"; "store 0"; "main_l1:"; "load 0"; "int 3"; "<"; "bz main_l3";
    "load 7"; "byte ""a;b // \""q\""\n"""; "len"; "+"; "store 7"; "load 0"; "int 1"; "+"; "store 0"; "b main_l1";
    "main_l3:"; "load 7"; "int 33"; "=="; "return" ].
Proof. vm_compute. reflexivity. Qed.

Example tx_requested_valid : requested_valid tx_prog (all_slots [tx_cr]).
Proof. apply requested_valid_of_table. intros u i [E|[]]. injection E as _ <-. reflexivity. Qed.

(* every hypothesis of [routine_text_end_to_end] holds, the source outcome is DExit 1, and the theorem's
   conclusion — Machine.run on the program parsed from the text approves — agrees with running the machine *)
Example routine_text_end_to_end_example :
  compile_one opts0 None tx_ast = COk tx_cr /\
  head_loop (root_ast tx_ast) = false /\
  printable [] tx_comps = true /\ targets_ok tx_comps = true /\
  parse_program [] tx_text = Some tx_P /\ pr_version tx_P = 6%N /\
  List.length (pr_code tx_P) = 22 /\
  nth_error (pr_code tx_P) 9 = Some (mkP O_byte [IBytes (list_ascii_of_string "a;b // ""q""" ++ [ascii_of_N 10])%list]) /\
  (exists st', denote (with_asg tx_env (look_of tx_asg)) 100 (root_ast tx_ast) [] ex_st = DExit (VI 1) st' /\
     exists n m', (forall k, n <= k -> run k ex_ctx tx_P (init_mach ex_st) = (VApprove, m')) /\ m_st m' = st') /\
  fst (run 1000 ex_ctx tx_P (init_mach ex_st)) = VApprove.
Proof.
  assert (E : compile_one opts0 None tx_ast = COk tx_cr) by (vm_compute; reflexivity).
  assert (HL : head_loop (root_ast tx_ast) = false) by reflexivity.
  assert (HA : assign_slots tx_prog [tx_cr] = COk (fst (fst tx_res), snd (fst tx_res), tx_asg)) by (vm_compute; reflexivity).
  assert (HS : sort_blocks (cr_graph tx_cr') (cr_start tx_cr') (cr_end tx_cr') = Some tx_order) by (vm_compute; reflexivity).
  assert (HF : flatten_blocks (cr_graph tx_cr') tx_order = Some tx_code) by (vm_compute; reflexivity).
  assert (PR : printable [] tx_comps = true) by (vm_compute; reflexivity).
  assert (TG : targets_ok tx_comps = true) by (vm_compute; reflexivity).
  assert (Hc : consistent tx_env (routine_ctx opts0 None)) by (apply consistent_main; reflexivity).
  destruct (routine_text_end_to_end opts0 tx_ast tx_cr tx_prog [tx_cr] _ _ tx_asg [] E HL (or_introl eq_refl) HA
              tx_requested_valid tx_order tx_code HS HF PR TG) as (lines & P & A & PP & PV & Run).
  assert (El : lines = tx_lines).
  { unfold tx_lines, tx_comps. change (o_version opts0) with 6%N in A. rewrite A. reflexivity. }
  subst lines.
  assert (EP : P = tx_P). { unfold tx_P, tx_text. rewrite PP. reflexivity. }
  subst P.
  split; [exact E|]. split; [exact HL|]. split; [exact PR|]. split; [exact TG|]. split; [exact PP|].
  split; [exact PV|]. split; [vm_compute; reflexivity|]. split; [vm_compute; reflexivity|].
  split; [|vm_compute; reflexivity].
  remember (denote (with_asg tx_env (look_of tx_asg)) 100 (root_ast tx_ast) [] ex_st) as r eqn:Er.
  assert (Dn : exists st', r = DExit (VI 1) st').
  { subst r. vm_compute. eexists. reflexivity. }
  destruct Dn as [st' Dn]. exists st'. split; [exact Dn|].
  assert (B : stack_bounded tx_env tx_code (LAt 0 [] ex_st)).
  { apply (bounded_run_sound tx_env tx_code 200). vm_compute. reflexivity. }
  destruct (Run tx_env Hc eq_refl 100 ex_st VApprove) as (n & m' & Hrun & Hst).
  - cbv zeta. rewrite <- Er, Dn. reflexivity.
  - exact B.
  - exists n, m'. split; [exact Hrun|]. cbv zeta in Hst. rewrite <- Er, Dn in Hst. exact (proj1 Hst).
Qed.

(* the two side conditions of the machine bridge are necessary *)
Definition opi (o : opc) (n : N) : comp := COp (mkI o [AInt n]).
Definition op_ (o : opc) : comp := COp (mkI o []).
Definition opl (o : opc) (l : string) : comp := COp (mkI o [ALbl l]).

(* (1) an undefined branch target that is never taken: the list semantics runs on, the machine (like the real
   assembler, which rejects the text) does not *)
Definition nt_code : list comp := [opi O_int 1; opl O_bz "nowhere"; opi O_int 1; op_ O_return_].

Example bridge_needs_targets :
  exists P, link [] nt_code = Some P /\ targets_ok nt_code = false /\
    lstar tx_env nt_code (LAt 0 [] ex_st) (LExit (VI 1) ex_st) /\
    stack_bounded tx_env nt_code (LAt 0 [] ex_st) /\
    fst (run 100 ex_ctx P (init_mach ex_st)) = VFail.
Proof.
  eexists. split; [vm_compute; reflexivity|]. split; [vm_compute; reflexivity|].
  split; [|split; [apply (bounded_run_sound tx_env nt_code 20); vm_compute; reflexivity|vm_compute; reflexivity]].
  assert (E : lrun 10 tx_env nt_code (LAt 0 [] ex_st) = LExit (VI 1) ex_st) by (vm_compute; reflexivity).
  rewrite <- E. apply lrun_lstar.
Qed.

(* (2) the AVM's stack limit: a loop that leaves 1001 values on the stack and then returns 1 *)
Definition deep_code : list comp :=
  [ opi O_int 0; opi O_store 0;
    CLabel "l1" None;
    opi O_int 7; opi O_load 0; opi O_int 1; op_ O_add; opi O_store 0;
    opi O_load 0; opi O_int 1001; op_ O_lt; opl O_bnz "l1";
    opi O_int 1; op_ O_return_ ].

(* One turn of the loop, for a variable counter n in slot 0: both sides are run symbolically, so that the 1001
   turns are an induction and not some 9000 evaluated steps (twice). *)
Lemma deep_iter n stk st :
  scratch_get (s_scratch st) 0 = VI n -> (n < 1001)%N ->
  lstar tx_env deep_code (LAt 2 stk st)
    (if (n + 1 <? 1001)%N then LAt 2 (VI 7 :: stk) (set_scratch st 0 (VI (n + 1)%N))
     else LExit (VI 1) (set_scratch st 0 (VI (n + 1)%N))).
Proof.
  intros Hs Hn.
  assert (Hf : Base.U64.fits64 (n + 1) = true) by (apply N.ltb_lt; unfold Base.U64.U64; lia).
  do 3 (eapply lstar_step; [reflexivity|]).
  change (lstep_op tx_env deep_code 4 (mkI O_load [AInt 0]) (VI 7 :: stk) st)
    with (LAt 5 (scratch_get (s_scratch st) 0 :: VI 7 :: stk) st). rewrite Hs.
  do 2 (eapply lstar_step; [reflexivity|]).
  unfold lstep_op, do_op, exec_op. cbn -[N.add Base.U64.fits64 N.ltb]. unfold oki. rewrite Hf. cbn -[N.add N.ltb].
  do 4 (eapply lstar_step; [reflexivity|]).
  unfold lstep_op, do_op, exec_op. cbn -[N.add N.ltb].
  destruct (n + 1 <? 1001)%N.
  - eapply lstar_step; [reflexivity|]. apply lstar_refl.
  - do 3 (eapply lstar_step; [reflexivity|]). apply lstar_refl.
Qed.

Lemma deep_loop r : forall n stk st,
  scratch_get (s_scratch st) 0 = VI n -> (n + N.of_nat r = 1000)%N ->
  exists st', lstar tx_env deep_code (LAt 2 stk st) (LExit (VI 1) st').
Proof.
  induction r as [|r IH]; intros n stk st Hs Hn; pose proof (deep_iter n stk st Hs ltac:(lia)) as H.
  - replace n with 1000%N in H by lia. eexists. exact H.
  - replace (n + 1 <? 1001)%N with true in H by (symmetry; apply N.ltb_lt; lia).
    destruct (IH (n + 1)%N (VI 7 :: stk) (set_scratch st 0 (VI (n + 1)%N)) eq_refl ltac:(lia)) as [st' R].
    exists st'. exact (lstar_trans _ _ _ _ _ H R).
Qed.

Section DeepMachine.
  Variable P : program.
  Hypothesis LK : link [] deep_code = Some P.

  Lemma deep_at pc : nth_error (pr_code P) pc = nth_error (pinstrs [] deep_code) pc.
  Proof. now rewrite (proj1 (link_spec _ _ _ LK)). Qed.

  (* the three pushes that open a turn: int 7; load 0; int 1 *)
  Lemma deep_mach_push n stk st f :
    scratch_get (s_scratch st) 0 = VI n -> List.length stk + 2 <= STACK_MAX ->
    run (3 + f) ex_ctx P (mkM 2 stk [] false [] [] st)
    = run f ex_ctx P (mkM 5 (VI 1 :: VI n :: VI 7 :: stk) [] false [] [] st).
  Proof.
    intros Hs Hh. cbn [Nat.add].
    erewrite run_op; [|lia|rewrite deep_at; reflexivity|reflexivity].
    erewrite run_op; [|cbn; lia|rewrite deep_at; reflexivity|reflexivity]. rewrite Hs.
    erewrite run_op; [|cbn; lia|rewrite deep_at; reflexivity|reflexivity]. reflexivity.
  Qed.

  (* one turn of the machine at "l1" with n cells, n + 3 within the limit *)
  Lemma deep_mach_iter n stk st f :
    scratch_get (s_scratch st) 0 = VI n -> (n + 1 < 1001)%N -> List.length stk + 3 <= STACK_MAX ->
    run (9 + f) ex_ctx P (mkM 2 stk [] false [] [] st)
    = run f ex_ctx P (mkM 2 (VI 7 :: stk) [] false [] [] (set_scratch st 0 (VI (n + 1)%N))).
  Proof.
    intros Hs Hn Hh.
    assert (Hf : Base.U64.fits64 (n + 1) = true) by (apply N.ltb_lt; unfold Base.U64.U64; lia).
    apply N.ltb_lt in Hn.
    change (9 + f) with (3 + S (S (S (S (S (S f)))))). rewrite (deep_mach_push n stk st _ Hs) by lia.
    erewrite run_op; [|cbn; lia|rewrite deep_at; reflexivity|].
    2:{ unfold exec_op. cbn -[N.add Base.U64.fits64]. unfold oki. rewrite Hf. reflexivity. }
    do 3 (erewrite run_op; [|cbn; lia|rewrite deep_at; reflexivity|reflexivity]).
    erewrite run_op; [|cbn; lia|rewrite deep_at; reflexivity|].
    2:{ unfold exec_op. cbn -[N.add N.ltb]. rewrite Hn. reflexivity. }
    cbn [run]. erewrite step_bnz; [|cbn; lia|rewrite deep_at; reflexivity].
    rewrite (proj2 (link_spec _ _ _ LK)). reflexivity.
  Qed.

  (* with 998 cells, the third push of the turn makes 1001: the next instruction is not executed *)
  Lemma deep_mach_loop r : forall n stk st f,
    scratch_get (s_scratch st) 0 = VI n -> (n + N.of_nat r = 998)%N -> List.length stk = N.to_nat n ->
    fst (run (9 * r + (4 + f)) ex_ctx P (mkM 2 stk [] false [] [] st)) = VFail.
  Proof.
    induction r as [|r IH]; intros n stk st f Hs Hn Hl.
    - change (9 * 0 + (4 + f)) with (3 + S f). rewrite (deep_mach_push n stk st _ Hs) by (unfold STACK_MAX; lia).
      cbn [run]. erewrite step_overflow; [reflexivity|rewrite deep_at; reflexivity|].
      unfold height, STACK_MAX. cbn [m_stack List.length]. lia.
    - replace (9 * S r + (4 + f)) with (9 + (9 * r + (4 + f))) by lia.
      rewrite (deep_mach_iter n stk st _ Hs); [|lia|unfold STACK_MAX; lia].
      apply (IH (n + 1)%N); [reflexivity|lia|cbn [List.length]; lia].
  Qed.

  Lemma deep_mach_fails : fst (run (N.to_nat 20000) ex_ctx P (init_mach ex_st)) = VFail.
  Proof.
    change (N.to_nat 20000) with (S (S (9 * 998 + (4 + N.to_nat 11012)))). unfold init_mach.
    erewrite run_op; [|apply Nat.le_0_l|rewrite deep_at; reflexivity|reflexivity].
    erewrite run_op; [|unfold STACK_MAX; cbn [List.length]; lia|rewrite deep_at; reflexivity|reflexivity].
    apply (deep_mach_loop 998 0%N); reflexivity.
  Qed.
End DeepMachine.

Example bridge_needs_stack_bound :
  exists P, link [] deep_code = Some P /\ targets_ok deep_code = true /\
    (exists st', lstar tx_env deep_code (LAt 0 [] ex_st) (LExit (VI 1) st')) /\
    fst (run (N.to_nat 20000) ex_ctx P (init_mach ex_st)) = VFail.
Proof.
  destruct (link [] deep_code) as [P|] eqn:LK; [|vm_compute in LK; discriminate LK].
  exists P. split; [reflexivity|]. split; [vm_compute; reflexivity|]. split; [|exact (deep_mach_fails P LK)].
  destruct (deep_loop 1000 0%N [] (set_scratch ex_st 0 (VI 0)) eq_refl eq_refl) as [st' R].
  exists st'. do 2 (eapply lstar_step; [reflexivity|]). exact R.
Qed.

(* [shapes_lines] is, verbatim, what compileTeal (version 8, /repo) prints for a program using a comment, txn /
   global / txna / gtxn fields, named integer constants, Addr, MethodSignature, Bytes in base64 / base16 / base32 /
   raw / string form, two-immediate ops, the op names containing a slash or a bar, itxn_field, asset_params_get,
   base64_decode, json_ref, gload and the largest uint64; [shapes_comps] is the component list with these lines.
   The list assembles to exactly these lines, is printable, and the text parses to the linked program. *)
Local Open Scope N_scope.
Definition shapes_comps : list comp :=
  [ CPragma 8;
    COp (mkI O_comment [AStr "hello // world; x"]);
    COp (mkI O_txn [AStr "Sender"]);
    COp (mkI O_pop []);
    COp (mkI O_global_ [AStr "GroupSize"]);
    COp (mkI O_pop []);
    COp (mkI O_txna [AStr "ApplicationArgs"; AInt 0]);
    COp (mkI O_pop []);
    COp (mkI O_gtxn [AInt 1; AStr "Amount"]);
    COp (mkI O_pop []);
    COp (mkI O_int [AStr "pay"]);
    COp (mkI O_pop []);
    COp (mkI O_int [AStr "NoOp"]);
    COp (mkI O_pop []);
    COp (mkI O_addr [AStr "AAAAAAAAAAAAAAAAAAAAAAAAAAAAAAAAAAAAAAAAAAAAAAAAAAAAY5HFKQ"]);
    COp (mkI O_pop []);
    COp (mkI O_method_signature [AStr """add(uint64,uint64)uint64"""]);
    COp (mkI O_pop []);
    COp (mkI O_byte [AStr "base64(YWJj)"]);
    COp (mkI O_pop []);
    COp (mkI O_byte [AStr "0x0011"]);
    COp (mkI O_pop []);
    COp (mkI O_byte [AStr "base32(MFRGG===)"]);
    COp (mkI O_pop []);
    COp (mkI O_byte [AStr "0x00ff"]);
    COp (mkI O_pop []);
    COp (mkI O_byte [AStr """abcdef"""]);
    COp (mkI O_extract [AInt 2; AInt 3]);
    COp (mkI O_pop []);
    COp (mkI O_byte [AStr """abcdef"""]);
    COp (mkI O_extract [AInt 2; AInt 0]);
    COp (mkI O_pop []);
    COp (mkI O_int [AInt 7]);
    COp (mkI O_int [AInt 2]);
    COp (mkI O_div []);
    COp (mkI O_pop []);
    COp (mkI O_byte [AStr """a"""]);
    COp (mkI O_byte [AStr """b"""]);
    COp (mkI O_b_div []);
    COp (mkI O_pop []);
    COp (mkI O_int [AInt 1]);
    COp (mkI O_int [AInt 2]);
    COp (mkI O_bitwise_or []);
    COp (mkI O_pop []);
    COp (mkI O_int [AInt 1]);
    COp (mkI O_int [AInt 2]);
    COp (mkI O_logic_and []);
    COp (mkI O_pop []);
    COp (mkI O_int [AInt 1]);
    COp (mkI O_int [AInt 2]);
    COp (mkI O_neq []);
    COp (mkI O_pop []);
    COp (mkI O_byte [AStr """a"""]);
    COp (mkI O_byte [AStr """b"""]);
    COp (mkI O_b_or []);
    COp (mkI O_pop []);
    COp (mkI O_itxn_begin []);
    COp (mkI O_int [AStr "pay"]);
    COp (mkI O_itxn_field [AStr "TypeEnum"]);
    COp (mkI O_int [AInt 0]);
    COp (mkI O_asset_params_get [AStr "AssetTotal"]);
    COp (mkI O_store [AInt 1]);
    COp (mkI O_store [AInt 0]);
    COp (mkI O_load [AInt 1]);
    COp (mkI O_pop []);
    COp (mkI O_byte [AStr """YQ"""]);
    COp (mkI O_base64_decode [AStr "URLEncoding"]);
    COp (mkI O_pop []);
    COp (mkI O_byte [AStr """{}"""]);
    COp (mkI O_byte [AStr """k"""]);
    COp (mkI O_json_ref [AStr "JSONString"]);
    COp (mkI O_pop []);
    COp (mkI O_gload [AInt 0; AInt 1]);
    COp (mkI O_pop []);
    COp (mkI O_int [AInt 18446744073709551615]);
    COp (mkI O_pop []);
    COp (mkI O_int [AInt 1]);
    COp (mkI O_return_ []) ].
Definition shapes_lines : list string :=
  [ "#pragma version 8";
    "// hello // world; x";
    "txn Sender";
    "pop";
    "global GroupSize";
    "pop";
    "txna ApplicationArgs 0";
    "pop";
    "gtxn 1 Amount";
    "pop";
    "int pay";
    "pop";
    "int NoOp";
    "pop";
    "addr AAAAAAAAAAAAAAAAAAAAAAAAAAAAAAAAAAAAAAAAAAAAAAAAAAAAY5HFKQ";
    "pop";
    "method ""add(uint64,uint64)uint64""";
    "pop";
    "byte base64(YWJj)";
    "pop";
    "byte 0x0011";
    "pop";
    "byte base32(MFRGG===)";
    "pop";
    "byte 0x00ff";
    "pop";
    "byte ""abcdef""";
    "extract 2 3";
    "pop";
    "byte ""abcdef""";
    "extract 2 0";
    "pop";
    "int 7";
    "int 2";
    "/";
    "pop";
    "byte ""a""";
    "byte ""b""";
    "b/";
    "pop";
    "int 1";
    "int 2";
    "|";
    "pop";
    "int 1";
    "int 2";
    "&&";
    "pop";
    "int 1";
    "int 2";
    "!=";
    "pop";
    "byte ""a""";
    "byte ""b""";
    "b|";
    "pop";
    "itxn_begin";
    "int pay";
    "itxn_field TypeEnum";
    "int 0";
    "asset_params_get AssetTotal";
    "store 1";
    "store 0";
    "load 1";
    "pop";
    "byte ""YQ""";
    "base64_decode URLEncoding";
    "pop";
    "byte ""{}""";
    "byte ""k""";
    "json_ref JSONString";
    "pop";
    "gload 0 1";
    "pop";
    "int 18446744073709551615";
    "pop";
    "int 1";
    "return" ]%string.
Local Close Scope N_scope.

Definition shapes_msel : list (string * bytes) :=
  [("add(uint64,uint64)uint64"%string, [ascii_of_N 254; ascii_of_N 107; ascii_of_N 104; ascii_of_N 100])].

Example real_line_shapes_printable :
  assemble_all shapes_comps = Some shapes_lines /\
  printable shapes_msel shapes_comps = true /\
  (exists P, parse_program shapes_msel (program_text shapes_lines) = Some P /\
             link shapes_msel shapes_comps = Some P /\ List.length (pr_code P) = 76).
Proof.
  assert (A : assemble_all shapes_comps = Some shapes_lines) by (vm_compute; reflexivity).
  assert (PR : printable shapes_msel shapes_comps = true) by (vm_compute; reflexivity).
  split; [exact A|]. split; [exact PR|].
  rewrite (text_links shapes_msel shapes_comps shapes_lines PR ltac:(discriminate) A).
  eexists. split; [vm_compute; reflexivity|]. split; reflexivity.
Qed.

(* a two-routine text, verbatim what compileTeal prints on /repo for Return(f(Int(5))) with a subroutine named
   "foo<LF>int 0" (body x * 2): the subroutine header (empty line, one comment line per line of the name, label) is
   in the printable class; the text parses to the linked program *)
Definition two_comps : list comp :=
  [ CPragma 6; opi O_int 5; COp (mkI O_callsub [AStr "fooint0_0"]); op_ O_return_;
    CLabel "fooint0_0" (Some ("foo" ++ nl ++ "int 0")%string);
    opi O_store 0; opi O_load 0; opi O_int 2; op_ O_mul; op_ O_retsub ].

Example subroutine_header_roundtrip :
  printable [] two_comps = true /\
  (exists lines, assemble_all two_comps = Some lines /\
     program_text lines =
       ("#pragma version 6" ++ nl ++ "int 5" ++ nl ++ "callsub fooint0_0" ++ nl ++ "return" ++ nl ++
        nl ++ "// foo" ++ nl ++ "// int 0" ++ nl ++ "fooint0_0:" ++ nl ++ "store 0" ++ nl ++ "load 0" ++ nl ++
        "int 2" ++ nl ++ "*" ++ nl ++ "retsub")%string /\
     parse_program [] (program_text lines) = link [] two_comps) /\
  (exists P, link [] two_comps = Some P /\ List.length (pr_code P) = 8 /\ label_pc P "fooint0_0" = Some 3 /\
             fst (run 100 ex_ctx P (init_mach ex_st)) = VApprove).
Proof.
  assert (PR : printable [] two_comps = true) by (vm_compute; reflexivity).
  split; [exact PR|]. split.
  - destruct (printable_assembles [] two_comps PR) as [lines A]. exists lines. split; [exact A|].
    split; [|apply text_links; [exact PR|discriminate|exact A]].
    vm_compute in A. injection A as <-. vm_compute. reflexivity.
  - eexists. split; [vm_compute; reflexivity|]. repeat split.
Qed.
