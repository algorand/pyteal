(* Proofs/NormalizeSem.v — the two semantic building blocks of NormalizeBlocks, for ALL graphs:
   [skip_equiv]  : re-pointing any set of edges that enter an empty single-successor block to that
                   block's successor preserves the reachable halting configurations from every block;
   [merge_equiv] : merging [prev] into [block] (ops concatenated, edges into [prev] re-pointed) is a
                   two-to-one simulation on any edge-closed set [Lv] of blocks of the new graph that
                   avoids [prev] and in which [block] has no other predecessor.
   Plus [exec_ops_app]: running a concatenation = running the parts in sequence, early exits included.
   The simulations are built in CallX/NormalizeSem.v, for the semantics with a call oracle. *)
From Coq Require Import List Arith NArith String Bool Lia.
From PV Require Import Base.Bytes AVM.Syntax AVM.Machine Src.Expr Src.Denote
  Comp.Blocks Comp.Lower Comp.Passes Comp.GraphSem Comp.SimCheck Proofs.OracleTransfer.
From PV Require CallX.NormalizeSem.
Import ListNotations.

Lemma exec_ops_app env a : forall b stk st,
  exec_ops env (a ++ b) stk st =
  match exec_ops env a stk st with
  | BOk s' st' => exec_ops env b s' st'
  | r => r
  end.
Proof.
  intros b stk st. rewrite <- !exec_ops_lift, CallX.NormalizeSem.exec_ops_app.
  destruct (CallX.GraphSem.exec_ops (lift env) a stk st); try reflexivity. apply exec_ops_lift.
Qed.

(* one block step as a function of the block *)
Definition bstep (env : denv) (b : block) (stk : list value) (st : mstate) : gconf :=
  match b with
  | BSimple ops n =>
      match exec_ops env ops stk st with
      | BOk s' st' => cont_conf n s' st'
      | BExit v st' => GExit v st'
      | BRet s' st' => GRet s' st'
      | BFail => GFail
      | BUnsup o => GUnsup o
      end
  | BCond ops t f =>
      match exec_ops env ops stk st with
      | BOk (v :: s') st' =>
          match truthy v with
          | Some true => match t with Some x => GAt x s' st' | None => GFail end
          | Some false => match f with Some x => GAt x s' st' | None => GFail end
          | None => GFail
          end
      | BOk [] _ => GFail
      | BExit v st' => GExit v st'
      | BRet s' st' => GRet s' st'
      | BFail => GFail
      | BUnsup o => GUnsup o
      end
  end.

Lemma bstep_lift env b stk st : CallX.NormalizeSem.bstep (lift env) b stk st = bstep env b stk st.
Proof. destruct b; cbn [CallX.NormalizeSem.bstep bstep]; rewrite exec_ops_lift; reflexivity. Qed.

Lemma gstep_bstep env G i stk st :
  gstep env G (GAt i stk st) = option_map (fun b => bstep env b stk st) (G i).
Proof. cbn [gstep]. destruct (G i) as [[o n|o t f]|]; reflexivity. Qed.

Lemma gstep_halting env G c : halting c -> gstep env G c = None.
Proof. rewrite <- gstep_lift. apply CallX.NormalizeSem.gstep_halting. Qed.

Lemma star_halting env G c c' : halting c -> star env G c c' -> c' = c.
Proof. intros H S. exact (CallX.NormalizeSem.star_halting (lift env) G c c' H (proj2 (star_lift _ _ _ _) S)). Qed.

Lemma star_trans' env G a b c : star env G a b -> star env G b c -> star env G a c.
Proof. induction 1; eauto using star. Qed.

(* the target of a step is an outgoing edge of the block *)
Lemma bstep_target env b stk st x s' st' :
  bstep env b stk st = GAt x s' st' -> In x (outgoing b).
Proof. rewrite <- bstep_lift. apply CallX.NormalizeSem.bstep_target. Qed.

Definition map_out (f : id -> id) (b : block) : block :=
  match b with
  | BSimple o n => BSimple o (option_map f n)
  | BCond o t e => BCond o (option_map f t) (option_map f e)
  end.

Lemma outgoing_set_ops b o : outgoing (set_ops b o) = outgoing b.
Proof. destruct b; reflexivity. Qed.

Lemma b_ops_set_ops b o : b_ops (set_ops b o) = o.
Proof. destruct b; reflexivity. Qed.

Section Skip.
  Variable env : denv.
  Variables G G' : bgraph.

  Definition skip1 (x x' : id) : Prop := x' = x \/ G x = Some (BSimple [] (Some x')).

  Definition oskip (o o' : option id) : Prop :=
    match o, o' with
    | None, None => True
    | Some x, Some x' => skip1 x x'
    | _, _ => False
    end.

  Definition bskip (b b' : block) : Prop :=
    match b, b' with
    | BSimple o n, BSimple o' n' => o = o' /\ oskip n n'
    | BCond o t f, BCond o' t' f' => o = o' /\ oskip t t' /\ oskip f f'
    | _, _ => False
    end.

  Definition gskip : Prop :=
    forall i, match G i, G' i with
              | None, None => True
              | Some b, Some b' => bskip b b'
              | _, _ => False
              end.

  Hypothesis HG : gskip.

  Theorem skip_equiv i : equiv_from env G i G' i.
  Proof. apply equiv_from_lift. exact (CallX.NormalizeSem.skip_equiv (lift env) G G' HG i). Qed.
End Skip.

Section Merge.
  Variable env : denv.
  Variables G G' : bgraph.
  Variables prev blk : id.
  Variable pops : list instr.
  Variable bb : block.
  Variable Lv : id -> Prop.

  Definition rd (x : id) : id := if Nat.eqb x prev then blk else x.

  Hypothesis Hprev : G prev = Some (BSimple pops (Some blk)).
  Hypothesis Hblk : G blk = Some bb.
  Hypothesis HS_closed : forall i b x, Lv i -> G' i = Some b -> In x (outgoing b) -> Lv x.
  Hypothesis HG'_other : forall i, Lv i -> i <> blk -> G' i = option_map (map_out rd) (G i).
  Hypothesis HG'_blk : Lv blk -> G' blk = Some (map_out rd (set_ops bb (pops ++ b_ops bb))).
  Hypothesis H_noedge : forall i b, Lv i -> G i = Some b -> In blk (outgoing b) -> blk = prev.

  Theorem merge_equiv :
    (Lv blk -> equiv_from env G prev G' blk) /\
    (forall i, Lv i -> i <> blk -> equiv_from env G i G' i).
  Proof.
    destruct (CallX.NormalizeSem.merge_equiv (lift env) G G' prev blk pops bb Lv
                Hprev Hblk HS_closed HG'_other HG'_blk H_noedge) as [A B].
    split; [intros Sb|intros i Si Ni]; apply equiv_from_lift; auto.
  Qed.
End Merge.
