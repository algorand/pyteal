(* Proofs/EndToEndExamples.v — the hypotheses of [routine_end_to_end] are satisfiable on a routine with a
   loop and an If (and the computed run agrees), and the one syntactic side condition
   [head_loop (root_ast ast0) = false] cannot be dropped. *)
From Coq Require Import List Arith NArith String Bool Lia.
From PV Require Import Base.Bytes AVM.Syntax AVM.Machine Src.Expr Src.Denote
  Comp.Blocks Comp.Lower Comp.Passes Comp.GraphSem Comp.LinearSem Comp.SimCheck Comp.Compile
  Proofs.LowerFrame Proofs.LowerLemmas Proofs.LowerCorrect Proofs.LowerShape
  Proofs.NormalizeLowered Proofs.FlattenCorrect Proofs.SortCorrect
  Proofs.EndToEndExits Proofs.EndToEndGlue Proofs.EndToEnd.
From PV Require Import Src.WellTyped.
Import ListNotations.

Definition x_int (n : N) : expr := EOp O_int [AInt n] TUint [].
Definition x_ld : expr := EOp O_load [ASlot 0] TUint [].
Definition x_st (e : expr) : expr := EOp O_store [ASlot 0] TNone [e].

(* i := 0; while i < 3: i := i + 1; if i == 3 then return 1 else return 0 *)
Definition ex_ast : expr :=
  ESeq [ x_st (x_int 0);
         EWhile (EOp O_lt [] TUint [x_ld; x_int 3]) (x_st (ENary O_add TUint [x_ld; x_int 1]));
         EIf (EOp O_eq [] TUint [x_ld; x_int 3]) (EReturn (Some (x_int 1))) (Some (EReturn (Some (x_int 0)))) ].

Definition ex_env1 : denv := mkEnv ex_ctx (fun n => n) [] [] false main_param.

Definition cr_of (o : copts) (ast0 : expr) : croutine :=
  match compile_one o None ast0 with COk cr => cr | CErr _ => mkCR None empty_graph 0 0 end.
Definition order_of (cr : croutine) : list id :=
  match sort_blocks (cr_graph cr) (cr_start cr) (cr_end cr) with Some l => l | None => [] end.
Definition code_of (cr : croutine) : list comp :=
  match flatten_blocks (cr_graph cr) (order_of cr) with Some c => c | None => [] end.

Definition ex_final : mstate := match denote ex_env1 100 (root_ast ex_ast) [] ex_st with DExit _ st => st | _ => ex_st end.

Lemma consistent_main o env : e_in_sub env = false -> (forall i, e_param env i = main_param i) ->
  consistent env (routine_ctx o None).
Proof. intros A B. split; [exact A|exact B]. Qed.

(* the compiled example, each stage evaluated once *)
Definition ex_crv : croutine := Eval vm_compute in cr_of opts0 ex_ast.
Definition ex_orderv : list id := Eval vm_compute in order_of ex_crv.
Definition ex_codev : list comp := Eval vm_compute in code_of ex_crv.

Lemma ex_compiled : compile_one opts0 None ex_ast = COk ex_crv.
Proof. vm_compute. reflexivity. Qed.

Lemma ex_sorted : sort_blocks (cr_graph ex_crv) (cr_start ex_crv) (cr_end ex_crv) = Some ex_orderv.
Proof. vm_compute. reflexivity. Qed.

Lemma ex_flattened : flatten_blocks (cr_graph ex_crv) ex_orderv = Some ex_codev.
Proof. vm_compute. reflexivity. Qed.

Lemma cr_of_ex : cr_of opts0 ex_ast = ex_crv.
Proof. unfold cr_of. rewrite ex_compiled. reflexivity. Qed.

Lemma order_of_ex : order_of ex_crv = ex_orderv.
Proof. unfold order_of. rewrite ex_sorted. reflexivity. Qed.

Lemma code_of_ex : code_of ex_crv = ex_codev.
Proof. unfold code_of. rewrite order_of_ex, ex_flattened. reflexivity. Qed.

Definition ex_outv : dout := Eval vm_compute in denote ex_env1 100 (root_ast ex_ast) [] ex_st.

Lemma ex_denoted : denote ex_env1 100 (root_ast ex_ast) [] ex_st = DExit (VI 1) ex_final.
Proof.
  assert (D : denote ex_env1 100 (root_ast ex_ast) [] ex_st = ex_outv) by (vm_compute; reflexivity).
  unfold ex_final. rewrite D. reflexivity.
Qed.

Example routine_end_to_end_example :
  let cr := cr_of opts0 ex_ast in
  compile_one opts0 None ex_ast = COk cr /\
  head_loop (root_ast ex_ast) = false /\
  sort_blocks (cr_graph cr) (cr_start cr) (cr_end cr) = Some (order_of cr) /\
  flatten_blocks (cr_graph cr) (order_of cr) = Some (code_of cr) /\
  consistent ex_env1 (routine_ctx opts0 None) /\
  denote ex_env1 100 (root_ast ex_ast) [] ex_st = DExit (VI 1) ex_final /\
  lstar ex_env1 (code_of cr) (LAt 0 [] ex_st) (LExit (VI 1) ex_final) /\
  lrun 200 ex_env1 (code_of cr) (LAt 0 [] ex_st) = LExit (VI 1) ex_final /\
  List.length (code_of cr) = 22.
Proof.
  cbv zeta. rewrite cr_of_ex, code_of_ex, order_of_ex.
  assert (Hc : consistent ex_env1 (routine_ctx opts0 None)) by (apply consistent_main; reflexivity).
  destruct (routine_end_to_end opts0 None ex_ast ex_crv _ _ eq_refl ex_compiled eq_refl ex_sorted ex_flattened) as [_ T].
  destruct (T ex_env1 Hc 100 [] ex_st (LExit (VI 1) ex_final)) as [T1 T2]; [rewrite ex_denoted; reflexivity|].
  split; [exact ex_compiled|]. split; [reflexivity|]. split; [exact ex_sorted|].
  split; [exact ex_flattened|]. split; [exact Hc|]. split; [exact ex_denoted|]. split; [exact T1|].
  split; [|reflexivity]. apply T2; [apply lrun_lstar|vm_compute; reflexivity].
Qed.

(* The side condition on the root is needed.
   A recipe PyTeal's constructors reject (a While used as an operand) but the model's checks accept:
   the routine's start block is the loop's condition block, whose only predecessor is the last block
   of the loop body; NormalizeBlocks merges that predecessor INTO the start block, so the compiled
   routine begins with the end of the loop body. *)
Definition bad_ast : expr :=
  EReturn (Some (EOp O_int [AInt 1] TUint
                     [EWhile (EOp O_lt [] TUint [x_ld; x_int 3]) (x_st (ENary O_add TUint [x_ld; x_int 1]))])).

Definition bad_crv : croutine := Eval vm_compute in cr_of opts0 bad_ast.
Definition bad_orderv : list id := Eval vm_compute in order_of bad_crv.
Definition bad_codev : list comp := Eval vm_compute in code_of bad_crv.
Definition bad_haltv : lconf := Eval vm_compute in
  match halt_of (denote ex_env1 100 (root_ast bad_ast) [] ex_st) with Some h => h | None => LFail end.
Definition bad_runv : lconf := Eval vm_compute in lrun 50 ex_env1 bad_codev (LAt 0 [] ex_st).

Theorem end_to_end_needs_root_condition :
  exists o ast0 cr order code env fuel stk st h,
    compile_one o None ast0 = COk cr /\
    head_loop (root_ast ast0) = true /\
    sort_blocks (cr_graph cr) (cr_start cr) (cr_end cr) = Some order /\
    flatten_blocks (cr_graph cr) order = Some code /\
    consistent env (routine_ctx o None) /\
    halt_of (denote env fuel (root_ast ast0) stk st) = Some h /\
    ~ lstar env code (LAt 0 stk st) h.
Proof.
  exists opts0, bad_ast, bad_crv, bad_orderv, bad_codev, ex_env1, 100, [], ex_st, bad_haltv.
  split; [vm_compute; reflexivity|]. split; [reflexivity|].
  split; [vm_compute; reflexivity|]. split; [vm_compute; reflexivity|].
  split; [apply consistent_main; reflexivity|]. split; [vm_compute; reflexivity|].
  intros H.
  assert (R : lstar ex_env1 bad_codev (LAt 0 [] ex_st) bad_runv).
  { replace bad_runv with (lrun 50 ex_env1 bad_codev (LAt 0 [] ex_st)) by (vm_compute; reflexivity).
    apply lrun_lstar. }
  discriminate (lstar_final_unique _ _ _ _ _ H eq_refl R eq_refl).
Qed.

(* the example routine is well-typed in the sense of Src/WellTyped.v (no field table needed) *)
Example ex_ast_well_typed : well_typed (fun _ _ => None) false ex_ast = true.
Proof. vm_compute. reflexivity. Qed.

(* a subroutine: one scratch-convention argument, a loop adding it three times, retsub *)
Definition ex_sub : routine :=
  mkRoutine 1 "f" TUint [(false, 5%N)]
    (ESeq [ EOp O_store [ASlot 0] TNone [x_int 0];
            EOp O_store [ASlot 1] TNone [x_int 0];
            EWhile (EOp O_lt [] TUint [EOp O_load [ASlot 1] TUint []; x_int 3])
                   (ESeq [ x_st (ENary O_add TUint [x_ld; EParam 0]);
                           EOp O_store [ASlot 1] TNone
                               [ENary O_add TUint [EOp O_load [ASlot 1] TUint []; x_int 1]] ]);
            EReturn (Some x_ld) ]) None.

Definition sub_opts : copts := mkOpts 6 true false false (fun _ => 0%N) (fun _ _ => 0%N).
Definition ex_env_sub : denv := mkEnv ex_ctx (fun n => n) [] [] true (param_instr sub_opts ex_sub).
Definition sub_cr : croutine :=
  match compile_one sub_opts (Some ex_sub) (decl_body sub_opts ex_sub) with
  | COk cr => cr | CErr _ => mkCR None empty_graph 0 0 end.
Definition sub_final : mstate :=
  match denote ex_env_sub 100 (root_ast (decl_body sub_opts ex_sub)) [VI 4] ex_st with DRet _ st => st | _ => ex_st end.

Definition sub_crv : croutine := Eval vm_compute in sub_cr.
Definition sub_orderv : list id := Eval vm_compute in order_of sub_crv.
Definition sub_codev : list comp := Eval vm_compute in code_of sub_crv.
Definition sub_outv : dout := Eval vm_compute in
  denote ex_env_sub 100 (root_ast (decl_body sub_opts ex_sub)) [VI 4] ex_st.

Example subroutine_end_to_end_example :
  compile_one sub_opts (Some ex_sub) (decl_body sub_opts ex_sub) = COk sub_cr /\
  sort_blocks (cr_graph sub_cr) (cr_start sub_cr) (cr_end sub_cr) = Some (order_of sub_cr) /\
  flatten_blocks (cr_graph sub_cr) (order_of sub_cr) = Some (code_of sub_cr) /\
  consistent ex_env_sub (routine_ctx sub_opts (Some ex_sub)) /\
  denote ex_env_sub 100 (root_ast (decl_body sub_opts ex_sub)) [VI 4] ex_st = DRet [VI 12] sub_final /\
  lstar ex_env_sub (code_of sub_cr) (LAt 0 [VI 4] ex_st) (LRet [VI 12] sub_final) /\
  lrun 200 ex_env_sub (code_of sub_cr) (LAt 0 [VI 4] ex_st) = LRet [VI 12] sub_final.
Proof.
  assert (E : compile_one sub_opts (Some ex_sub) (decl_body sub_opts ex_sub) = COk sub_crv) by (vm_compute; reflexivity).
  assert (Q : sub_cr = sub_crv) by (unfold sub_cr; rewrite E; reflexivity).
  assert (HS : sort_blocks (cr_graph sub_crv) (cr_start sub_crv) (cr_end sub_crv) = Some sub_orderv) by (vm_compute; reflexivity).
  assert (QO : order_of sub_crv = sub_orderv) by (unfold order_of; rewrite HS; reflexivity).
  assert (HF : flatten_blocks (cr_graph sub_crv) sub_orderv = Some sub_codev) by (vm_compute; reflexivity).
  assert (QC : code_of sub_crv = sub_codev) by (unfold code_of; rewrite QO, HF; reflexivity).
  assert (Hc : consistent ex_env_sub (routine_ctx sub_opts (Some ex_sub))) by (split; reflexivity).
  assert (Dn : denote ex_env_sub 100 (root_ast (decl_body sub_opts ex_sub)) [VI 4] ex_st = DRet [VI 12] sub_final).
  { assert (D : denote ex_env_sub 100 (root_ast (decl_body sub_opts ex_sub)) [VI 4] ex_st = sub_outv) by (vm_compute; reflexivity).
    unfold sub_final. rewrite D. reflexivity. }
  rewrite Q, QC, QO.
  destruct (subroutine_end_to_end sub_opts ex_sub sub_crv _ _ eq_refl E HS HF) as [_ T].
  destruct (T ex_env_sub Hc 100 [VI 4] ex_st (LRet [VI 12] sub_final)) as [T1 T2]; [rewrite Dn; reflexivity|].
  split; [exact E|]. split; [exact HS|]. split; [exact HF|]. split; [exact Hc|]. split; [exact Dn|].
  split; [exact T1|]. apply T2; [apply lrun_lstar|vm_compute; reflexivity].
Qed.
