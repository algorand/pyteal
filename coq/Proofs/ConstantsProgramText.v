(* Proofs/ConstantsProgramText.v — C12, whole program: the two TEXTS.
   The lines PyTeal prints for the pseudo-op program (`#pragma version v` + ops) and for the program with
   assembled constants (`#pragma version v` + createConstantBlocks ops), joined by line feeds and read by the
   assembler model (AVM.Parse.parse_program: line splitting, tokeniser, comments, literal readers, label
   resolution) are the programs [clink] builds from the component lists — so the whole-program theorem holds
   for the texts.  Scope: ops in C01's class [printable] (Proofs/StageEText.v), every byte literal spelled as
   ONE assembler token ([single_tok]; every Bytes(...) form PyTeal prints is), placeholder-free (a printable
   constant site is never a TMPL_ name: the text has to assemble as printed).
   Ingredients: C01's per-component round trip [comp_lines] for everything the two texts share; the token-level
   reading [parsed_of] agrees with C01's [stmt_of] on printable ops; new: lines of the form
   `op word* // anything` (the loads with their `// literal` echo) and the block lines. *)
From Coq Require Import List Arith NArith Ascii String Bool Lia.
From PV Require Import Base.Bytes Base.U64 Base.Sexp AVM.Syntax AVM.Ops AVM.Machine AVM.Parse
  Comp.Assemble Comp.Constants Comp.ConstantsSpec Comp.ConstantsLit
  Proofs.LitLineProof Proofs.LitIntProof Proofs.LitBaseNProof Proofs.LitFinalProof Proofs.C18Text Proofs.StageELink Proofs.StageEText
  Proofs.ConstantsLitProof Proofs.ConstantsProof Proofs.ConstantsSim
  Proofs.ConstantsProgramMach Proofs.ConstantsProgramLink Proofs.ConstantsProgram.
Import ListNotations.
Local Open Scope string_scope.
Local Open Scope list_scope.

Lemma tmpl_split s : is_tmpl_name s = true -> exists r, s = ("TMPL_" ++ r)%string.
Proof.
  unfold is_tmpl_name. intros H.
  destruct s as [|c1 [|c2 [|c3 [|c4 [|c5 r]]]]]; cbn [String.prefix] in H;
    repeat match type of H with (if ?x then _ else _) = true => destruct x; [|discriminate H] end;
    try discriminate H.
  subst. exists r. reflexivity.
Qed.

Lemma tmpl_not_int s : is_tmpl_name s = true -> parse_int_arg s = None.
Proof. intros H. destruct (tmpl_split s H) as [r ->]. reflexivity. Qed.

Lemma tmpl_not_bytes s : is_tmpl_name s = true -> parse_bytes_arg [s] = None.
Proof. intros H. destruct (tmpl_split s H) as [r ->]. reflexivity. Qed.

Lemma id_subst s : subst_tok id_sigma s = s.
Proof. unfold subst_tok, id_sigma. destruct (is_tmpl_name s); reflexivity. Qed.

Lemma word_not_comment w : word w = true -> String.eqb w "//" = false.
Proof.
  intros H. destruct (String.eqb w "//") eqn:E; [|reflexivity].
  apply String.eqb_eq in E. subst w. discriminate H.
Qed.

(* a byte literal is ONE token of the assembler's tokeniser *)
Definition single_tok_instr (i : instr) : bool :=
  match kind_of (i_op i), i_args i with
  | KByte, [AStr s] => strs_eqb (tokens_of_line s) [s]
  | _, _ => true
  end.
Definition single_tok_comp (c : comp) : bool := match c with COp i => single_tok_instr i | _ => true end.
Definition single_tok (code : list comp) : bool := forallb single_tok_comp code.

(* without "//" among them, the printed arguments are the tokens the specification reads *)
Lemma arg_tokens_assemble : forall args parts, assemble_args args = Some parts ->
  (forall p, In p parts -> String.eqb p "//" = false) -> arg_tokens id_sigma args = Some parts.
Proof.
  induction args as [|a t IH]; intros parts A H; [exact A|].
  cbn [assemble_args] in A. destruct (assemble_arg a) as [x|] eqn:Ea; [|discriminate A].
  destruct (assemble_args t) as [r|]; [|discriminate A]. injection A as <-.
  cbn [arg_tokens]. rewrite (IH r eq_refl (fun p Hp => H p (or_intror Hp))).
  destruct a as [n|s|l|u|sb]; try discriminate Ea; injection Ea as <-; cbn [is_comment_arg arg_token];
    [reflexivity| |reflexivity].
  now rewrite (H s (or_introl eq_refl)), id_subst.
Qed.

Lemma agree_instr msel i :
  printable_instr msel i = true -> single_tok_instr i = true -> is_comment (i_op i) = false ->
  exists im, imms_of_args msel (i_op i) (i_args i) = Some im /\
             parsed_of id_sigma msel i = Some (mkP (i_op i) im).
Proof.
  destruct i as [o args]. cbn [i_op i_args]. intros H S C.
  destruct (printable_reading msel o args C H) as (parts & ts & im & A & I & Pr & R).
  exists im. split; [exact I|]. unfold parsed_of. cbn [i_op i_args].
  assert (E : ts = parts /\ forall p, In p parts -> String.eqb p "//" = false).
  { destruct R as [[W ->]|(s & -> & _ & T & _ & Hk)].
    - split; [reflexivity|]. intros p Hp. rewrite forallb_forall in W. apply word_not_comment, W, Hp.
    - injection A as <-.
      (* the literal is one token: a method signature always, a byte literal by [single_tok] *)
      assert (Ts : tokens_of_line s = [s]).
      { unfold single_tok_instr in S. cbn [i_op i_args] in S.
        destruct (kind_of o); try (rewrite T; apply Hk; discriminate). now apply strs_eqb_eq. }
      split; [congruence|]. intros p [<-|[]].
      destruct (String.eqb_spec s "//") as [->|]; [discriminate Ts|reflexivity]. }
  destruct E as [-> Hc]. now rewrite (arg_tokens_assemble args parts A Hc), Pr.
Qed.

(* hence the two statement functions agree on printable single-token components *)
Lemma agree_comp msel c : printable_comp msel c = true -> single_tok_comp c = true ->
  cstmt_of id_sigma msel c = stmt_of msel c.
Proof.
  destruct c as [i|l cm|v]; cbn [printable_comp single_tok_comp cstmt_of stmt_of]; intros H S; try reflexivity.
  change (comment_op (i_op i)) with (is_comment (i_op i)). destruct (is_comment (i_op i)) eqn:C; [reflexivity|].
  destruct (agree_instr msel i H S C) as (im & I & Pr). now rewrite I, Pr.
Qed.

Definition wordy_arg (a : arg) : bool := match a with AInt _ => true | AStr s => word s | _ => false end.
Definition nonl_str (s : string) : Prop := no_nl (list_ascii_of_string s).
Definition nonl_arg (a : arg) : Prop := match a with AInt _ => True | AStr s => nonl_str s | _ => False end.

Lemma assemble_args_app : forall a b,
  assemble_args (a ++ b) =
  match assemble_args a, assemble_args b with Some x, Some y => Some (x ++ y) | _, _ => None end.
Proof.
  induction a as [|x t IH]; intros b.
  - cbn [app assemble_args]. destruct (assemble_args b); reflexivity.
  - cbn [app assemble_args]. rewrite IH.
    destruct (assemble_arg x); destruct (assemble_args t); destruct (assemble_args b); reflexivity.
Qed.

Lemma assemble_nonl : forall args, Forall nonl_arg args ->
  exists parts, assemble_args args = Some parts /\ Forall nonl_str parts.
Proof.
  induction args as [|a t IH]; intros H; [exists []; split; [reflexivity|constructor]|].
  inversion H as [|? ? Ha Ht]; subst. destruct (IH Ht) as (parts & A & N).
  destruct a as [n|s|l|u|sb]; try contradiction; cbn [assemble_args assemble_arg]; rewrite A.
  - exists (N_to_dec n :: parts). split; [reflexivity|]. constructor; [apply word_no_nl, dec_word|exact N].
  - exists (s :: parts). split; [reflexivity|]. constructor; [exact Ha|exact N].
Qed.

Lemma wordy_tokens : forall pre, forallb wordy_arg pre = true ->
  exists ws, assemble_args pre = Some ws /\ forallb word ws = true /\
    arg_tokens id_sigma pre = Some ws /\
    forall orig, arg_tokens id_sigma (pre ++ AStr "//" :: orig) = Some ws.
Proof.
  induction pre as [|a t IH]; intros H.
  - exists []. repeat split.
  - cbn [forallb] in H. apply andb_true_iff in H as [Ha Ht]. destruct (IH Ht) as (ws & A & W & T & T').
    destruct a as [n|s|l|u|sb]; try discriminate Ha.
    + exists (N_to_dec n :: ws). cbn [assemble_args assemble_arg forallb app arg_tokens is_comment_arg arg_token].
      rewrite A, W, T, dec_word. repeat split. intros orig. now rewrite T'.
    + cbn [wordy_arg] in Ha.
      exists (s :: ws). cbn [assemble_args assemble_arg forallb app arg_tokens is_comment_arg arg_token].
      rewrite A, W, T, Ha, (word_not_comment s Ha), id_subst. repeat split. intros orig. now rewrite T'.
Qed.

Lemma tokens_tail : forall ws, forallb word ws = true ->
  forall parts, tokens_of_line (concat_sep " " (ws ++ "//" :: parts)) = ws.
Proof.
  induction ws as [|w t IH]; intros H parts.
  - cbn [app]. destruct parts as [|y r]; [reflexivity|].
    change (concat_sep " " ("//" :: y :: r)) with ("//" ++ (" " ++ concat_sep " " (y :: r)))%string.
    apply tokens_comment_line.
  - cbn [forallb] in H. apply andb_true_iff in H as [Hw Ht].
    cbn [app]. destruct (t ++ "//" :: parts) as [|y r] eqn:E; [destruct t; discriminate E|].
    change (concat_sep " " (w :: y :: r)) with (w ++ " " ++ concat_sep " " (y :: r))%string.
    rewrite tokens_cons by exact Hw. rewrite <- E, IH by exact Ht. reflexivity.
Qed.

Lemma wordy_line msel o pre tail :
  comment_op o = false -> forallb wordy_arg pre = true ->
  (tail = [] \/ exists orig, tail = AStr "//" :: orig /\ Forall nonl_arg orig) ->
  exists line, assemble_instr (mkI o (pre ++ tail)) = Some line /\ nonl_str line /\
    forall ss, cstmt_of id_sigma msel (COp (mkI o (pre ++ tail))) = Some ss -> line_stmts msel line = Some ss.
Proof.
  intros C Hpre Htail.
  destruct (wordy_tokens pre Hpre) as (ws & A & W & T & T').
  pose proof (opc_name_word o C) as Wn.
  assert (W1 : forallb word (opc_name o :: ws) = true) by (cbn [forallb]; now rewrite Wn, W).
  assert (Fin : forall line, tokens_of_line line = opc_name o :: ws ->
            arg_tokens id_sigma (pre ++ tail) = Some ws ->
            forall ss, cstmt_of id_sigma msel (COp (mkI o (pre ++ tail))) = Some ss ->
            line_stmts msel line = Some ss).
  { intros line Tk At ss Hs. cbn [cstmt_of i_op] in Hs. rewrite C in Hs.
    unfold parsed_of in Hs. cbn [i_op i_args] in Hs. rewrite At in Hs.
    destruct (parse_stmt msel (opc_name o :: ws)) as [[[p|l|v]|]|] eqn:Pr; try discriminate Hs.
    injection Hs as <-.
    exact (line_one msel line (opc_name o :: ws) (Some (SInstr p)) Tk (words_no_semi _ W1) Pr). }
  unfold assemble_instr. cbn [i_op i_args].
  destruct Htail as [->|(orig & -> & Ho)].
  - rewrite app_nil_r in *. rewrite A. eexists. split; [reflexivity|]. split.
    + apply (words_no_nl _ W1).
    + intros ss Hs. apply Fin; try assumption.
      apply tokens_words; [discriminate|exact W1].
  - destruct (assemble_nonl orig Ho) as (parts & Ao & No).
    rewrite assemble_args_app, A. cbn [assemble_args assemble_arg]. rewrite Ao.
    eexists. split; [reflexivity|]. split.
    + apply concat_sep_no_nl. constructor; [apply word_no_nl, Wn|]. apply Forall_app. split.
      * apply Forall_forall. intros w Hin. rewrite forallb_forall in W. apply word_no_nl, W, Hin.
      * constructor; [|exact No]. repeat constructor; intros E; discriminate E.
    + intros ss Hs. apply Fin; try assumption; [|apply T'].
      change (opc_name o :: ws ++ "//" :: parts) with ((opc_name o :: ws) ++ "//" :: parts).
      apply tokens_tail. exact W1.
Qed.

Notation reads_back msel := (StageEText.reads_back msel (cstmt_of id_sigma msel)).

(* C01's class (with one-token byte literals) *)
Lemma reads_back_printable msel c : printable_comp msel c = true -> single_tok_comp c = true -> reads_back msel c.
Proof.
  intros H S. destruct (comp_lines msel c H) as (item & ls & A & NE & I & N & ss0 & S0 & P0).
  exists item, ls. repeat (split; [assumption|]).
  intros ss Hs. rewrite (agree_comp msel c H S), S0 in Hs. injection Hs as <-. exact P0.
Qed.

Lemma reads_back_wordy msel o pre tail :
  comment_op o = false -> forallb wordy_arg pre = true ->
  (tail = [] \/ exists orig, tail = AStr "//" :: orig /\ Forall nonl_arg orig) ->
  reads_back msel (COp (mkI o (pre ++ tail))).
Proof.
  intros C Hp Ht. destruct (wordy_line msel o pre tail C Hp Ht) as (line & A & N & R).
  exists line, [line]. cbn [assemble_comp]. split; [exact A|]. split; [discriminate|]. split; [reflexivity|].
  split; [constructor; [exact N|constructor]|]. intros ss Hs. rewrite lines_stmts_one. exact (R ss Hs).
Qed.

Lemma reads_back_assembles msel code : Forall (reads_back msel) code -> exists lines, assemble_all code = Some lines.
Proof.
  intros H. destruct (reads_back_all msel _ (cstmts_of id_sigma msel) eq_refl (fun _ _ => eq_refl) code H) as (items & ? & A & _).
  now exists items.
Qed.

(* the program the assembler builds from the text `#pragma version v` + code *)
Lemma text_program msel v code lines ss :
  Forall (reads_back msel) code -> assemble_all (CPragma v :: code) = Some lines ->
  cstmts_of id_sigma msel code = Some ss ->
  parse_program msel (program_text lines) = clink id_sigma msel v code.
Proof.
  intros H A Hs.
  assert (Hp : reads_back msel (CPragma v)) by (apply reads_back_printable; reflexivity).
  assert (S1 : cstmts_of id_sigma msel (CPragma v :: code) = Some (SPragma v :: ss)).
  { cbn [cstmts_of cstmt_of]. rewrite Hs. reflexivity. }
  unfold parse_program.
  rewrite (text_reads msel _ (cstmts_of id_sigma msel) eq_refl (fun _ _ => eq_refl) (CPragma v :: code) lines
             ltac:(discriminate) (Forall_cons _ Hp H) A _ S1).
  unfold clink. rewrite Hs. reflexivity.
Qed.

Lemma hex_wc c : BaseN.is_hex c = true -> wc c = true.
Proof. revert c. apply ascii_impl. vm_compute. reflexivity. Qed.

Lemma hex_word b : word (hex_spelling b) = true.
Proof.
  unfold word, hex_spelling, bytes_to_hex.
  assert (W : wordl (list_ascii_of_string ("0x" ++ string_of_list_ascii (hex_of_bytes b))) = true).
  { apply wc_wordl. cbn [append list_ascii_of_string forallb].
    rewrite los_sol, <- hex_lower_hex, (forallb_impl _ _ hex_wc _ (hex_lower_is_hex b)). reflexivity. }
  rewrite W. reflexivity.
Qed.

Definition plain_key (k : ckey) : bool := match k with KTmpl _ => false | _ => true end.

Lemma key_arg_wordy kd k : plain_key k = true -> wordy_arg (key_arg kd k) = true.
Proof. destruct kd, k as [n|b|s]; intros H; try discriminate H; try reflexivity; apply (hex_word b). Qed.

Lemma key_args_wordy kd ks : Forall (fun k => plain_key k = true) ks ->
  forallb wordy_arg (map (key_arg kd) ks) = true.
Proof.
  induction 1 as [|k t Hk _ IH]; [reflexivity|]. cbn [map forallb]. now rewrite IH, (key_arg_wordy kd k Hk).
Qed.

Lemma load_kind_shape kd idx orig : exists o pre,
  load_kind kd idx orig = mkI o (pre ++ cmt orig) /\ comment_op o = false /\ forallb wordy_arg pre = true.
Proof.
  destruct kd; destruct idx as [|[|[|[|idx]]]].
  5,10,15: eexists _, [AInt _]; repeat split.
  all: eexists _, []; repeat split.
Qed.

Section Shape.
Variable addr_hash : bytes -> bytes.
Variable sig_hash : string -> bytes.
Variable msel : list (string * bytes).

(* a printable constant site is never a placeholder, and its arguments are free of line feeds *)
Lemma printable_site msel' i k :
  printable_instr msel' i = true -> single_tok_instr i = true -> no_addr_template_site (COp i) ->
  is_const_instr i = true -> extract_key addr_hash sig_hash i = Some k ->
  plain_key k = true /\ Forall nonl_arg (i_args i).
Proof.
  intros H S Na C X. destruct i as [o args].
  destruct (const_site_args _ _ _ _ X) as [(n & Ho & Ha)|(s & Ha)]; cbn [i_op i_args] in *; subst.
  { cbn in X. injection X as <-. split; [reflexivity|]. repeat constructor. }
  destruct (const_ops _ _ C) as [->|[->|[->| ->]]];
    unfold printable_instr, single_tok_instr, extract_key in *; cbn [i_op i_args no_addr_template_site kind_of] in *.
  - (* int *)
    apply andb_true_iff in H as [Hw Hp]. cbn [extract_int] in X.
    destruct (is_tmpl_name s) eqn:T; [rewrite (tmpl_not_int s T) in Hp; discriminate Hp|].
    destruct (assoc_str s int_enum_values) as [n|]; [|discriminate X]. injection X as <-.
    split; [reflexivity|]. constructor; [apply word_no_nl, Hw|constructor].
  - (* byte *)
    apply andb_true_iff in H as [Hn Hp]. apply strs_eqb_eq in S. rewrite S in Hp.
    destruct (is_tmpl_name s) eqn:T; [rewrite (tmpl_not_bytes s T) in Hp; discriminate Hp|].
    destruct (extract_bytes_kind s k X T) as [b ->].
    split; [reflexivity|]. constructor; [apply no_nlb_spec, Hn|constructor].
  - (* addr *)
    apply andb_true_iff in H as [H Hd]. apply andb_true_iff in H as [Hw Hl].
    cbn [extract_addr] in X. rewrite Na in X.
    destruct s as [|c s']; [discriminate Hl|].
    destruct (decode_address addr_hash (list_ascii_of_string (String c s'))) as [key|]; [|discriminate X].
    injection X as <-. split; [reflexivity|]. constructor; [apply word_no_nl, Hw|constructor].
  - (* method *)
    apply andb_true_iff in H as [H Hp]. apply andb_true_iff in H as [Hn Ht].
    cbn [extract_method] in X.
    destruct (list_ascii_of_string s) as [|q l']; [discriminate X|].
    destruct (Ascii.eqb q """" && last_is """" (q :: l')); [|discriminate X]. injection X as <-.
    split; [reflexivity|]. constructor; [apply no_nlb_spec, Hn|constructor].
Qed.
End Shape.

Lemma forall2_right {A B} (R : A -> B -> Prop) (Q : B -> Prop) l1 l2 :
  Forall2 R l1 l2 -> (forall a b, In a l1 -> R a b -> Q b) -> Forall Q l2.
Proof.
  induction 1 as [|a b l1 l2 Hab _ IH]; intros H; constructor.
  - apply (H a b); [now left|exact Hab].
  - apply IH. intros a' b' Hin. apply H. now right.
Qed.

Lemma agree_list msel : forall code, printable msel code = true -> single_tok code = true ->
  cstmts_of id_sigma msel code = stmts_of msel code.
Proof.
  induction code as [|c t IH]; intros H S; [reflexivity|].
  unfold printable in H. unfold single_tok in S. cbn [forallb] in H, S.
  apply andb_true_iff in H as [Hc Ht]. apply andb_true_iff in S as [Sc St].
  cbn [cstmts_of stmts_of]. rewrite (agree_comp msel c Hc Sc), (IH Ht St). reflexivity.
Qed.

Lemma printable_reads_back msel code : printable msel code = true -> single_tok code = true ->
  Forall (reads_back msel) code.
Proof.
  intros H S. unfold printable in H. unfold single_tok in S. rewrite forallb_forall in H, S.
  apply Forall_forall. intros c Hin. apply reads_back_printable; [apply H|apply S]; exact Hin.
Qed.

Section TextTheorem.
Variable addr_hash : bytes -> bytes.
Variable sig_hash : string -> bytes.
Variable msel : list (string * bytes).
Hypothesis Hmsel : msel_consistent sig_hash msel.

(* every line of the output reads back *)
Lemma out_reads_back ops out :
  create_constant_blocks addr_hash sig_hash ops = Some out ->
  printable msel ops = true -> single_tok ops = true -> input_ok id_sigma msel ops ->
  Forall (reads_back msel) out.
Proof.
  intros Hc Hp Hs Hok.
  destruct (ccb_inv addr_hash sig_hash ops out Hc) as (iks & fb & body & -> & _ & Hrw & Hik & Hbk).
  pose proof Hp as Hp'. pose proof Hs as Hs'. unfold printable in Hp'. unfold single_tok in Hs'.
  rewrite forallb_forall in Hp', Hs'. unfold input_ok in Hok. rewrite Forall_forall in Hok.
  assert (Site : forall i k, In (COp i) ops -> is_const_instr i = true ->
                   extract_key addr_hash sig_hash i = Some k -> plain_key k = true /\ Forall nonl_arg (i_args i)).
  { intros i k Hin Hci Hx. destruct (Hok _ Hin) as (_ & Hna & _).
    exact (printable_site addr_hash sig_hash msel i k (Hp' _ Hin) (Hs' _ Hin) Hna Hci Hx). }
  assert (Pk : forall kd ks, kd <> CKNone -> (forall k, In k ks -> has_site addr_hash sig_hash ops kd k) ->
                 Forall (fun k => plain_key k = true) ks).
  { intros kd ks Hkd Hks. apply Forall_forall. intros k Hk. destruct (Hks k Hk) as (i & Hin & Hki & Hx).
    apply (Site i k Hin); [|exact Hx]. unfold is_const_instr. rewrite Hki. destruct kd; congruence. }
  apply Forall_app. split.
  - assert (Ri : reads_back msel (COp (mkI O_intcblock (map int_key_arg iks)))).
    { rewrite <- (app_nil_r (map int_key_arg iks)).
      apply reads_back_wordy; [reflexivity|apply (key_args_wordy CKInt), (Pk CKInt); [discriminate|exact Hik]|now left]. }
    assert (Rb : reads_back msel (COp (mkI O_bytecblock (map bytes_key_arg (byte_block_of (sort_desc fb)))))).
    { rewrite <- (app_nil_r (map bytes_key_arg _)).
      apply reads_back_wordy; [reflexivity|apply (key_args_wordy CKBytes), (Pk CKBytes); [discriminate|exact Hbk]|now left]. }
    unfold block_prologue. destruct iks; destruct (byte_block_of (sort_desc fb)); cbn [app]; repeat constructor; assumption.
  - apply (forall2_right _ _ _ _ Hrw). intros c c' Hin Hr.
    destruct c as [i|l cm|pv];
      try (cbn in Hr; injection Hr as <-; apply reads_back_printable; [apply Hp'|apply Hs']; exact Hin).
    apply rewrite_comp_inv in Hr.
    destruct (is_const_instr i) eqn:Hci; [|subst c'; apply reads_back_printable; [apply Hp'|apply Hs']; exact Hin].
    destruct Hr as (k & Hx & Hr). destruct (Site i k Hin Hci Hx) as [Hk Hnl].
    assert (Tl : cmt (i_args i) = [] \/ exists orig, cmt (i_args i) = AStr "//" :: orig /\ Forall nonl_arg orig)
      by (right; exists (i_args i); split; [reflexivity|exact Hnl]).
    destruct Hr as [->|(idx & -> & _)].
    + apply (reads_back_wordy msel _ [key_arg _ k]); [now destruct (const_kind (i_op i))| |exact Tl].
      cbn [forallb]. now rewrite (key_arg_wordy _ k Hk).
    + destruct (load_kind_shape (const_kind (i_op i)) idx (i_args i)) as (o' & pre & -> & Co & Wp).
      now apply reads_back_wordy.
Qed.

Theorem constants_text_equiv v ops out lines P :
  create_constant_blocks addr_hash sig_hash ops = Some out ->
  printable msel ops = true -> single_tok ops = true ->
  input_ok id_sigma msel ops -> no_block_ops ops = true -> indexes_encodable out = true ->
  assemble_all (CPragma v :: ops) = Some lines ->
  parse_program msel (program_text lines) = Some P ->
  exists lines' P',
    assemble_all (CPragma v :: out) = Some lines' /\
    parse_program msel (program_text lines') = Some P' /\
    exists pro body ib bb,
      out = pro ++ body /\
      blocks_after id_sigma msel pro [] [] = Some (ib, bb) /\
      Forall2 (site_ok id_sigma msel ib bb) ops body /\
      pr_version P' = pr_version P /\
      (forall cx st k,
         run (k + List.length pro) cx P' (init_mach st) =
         run k cx P' (mkM (List.length pro) [] [] false ib bb st)) /\
      (forall st, lockrel (List.length pro) ib bb (init_mach st) (mkM (List.length pro) [] [] false ib bb st)) /\
      (forall cx m m', lockrel (List.length pro) ib bb m m' ->
         match step cx P m, step cx P' m' with
         | Running a, Running a' => lockrel (List.length pro) ib bb a a'
         | Done v a, Done v' a' => v' = v /\ lockrel (List.length pro) ib bb a a'
         | _, _ => False
         end) /\
      (forall cx st k,
         run_sim (List.length pro) ib bb (run k cx P (init_mach st)) (run (k + List.length pro) cx P' (init_mach st))).
Proof.
  intros Hc Hp Hs Hok Hnb Hie A HP.
  (* the pseudo-op text *)
  pose proof (printable_reads_back msel ops Hp Hs) as RB0.
  destruct (lines_roundtrip msel ops Hp) as (_ & _ & ss0 & _ & _ & _ & _ & _ & S0 & _).
  rewrite <- (agree_list msel ops Hp Hs) in S0.
  rewrite (text_program msel v ops lines ss0 RB0 A S0) in HP.
  (* the text with assembled constants *)
  destruct (constants_link_total addr_hash sig_hash id_sigma msel Hmsel ops out v P Hc Hok Hnb HP) as [P' HP'].
  pose proof (out_reads_back ops out Hc Hp Hs Hok) as RB1.
  assert (RBp : reads_back msel (CPragma v)) by (apply reads_back_printable; reflexivity).
  destruct (reads_back_assembles msel (CPragma v :: out) (Forall_cons _ RBp RB1)) as [lines' A'].
  assert (S1 : exists ss1, cstmts_of id_sigma msel out = Some ss1).
  { unfold clink in HP'. destruct (cstmts_of id_sigma msel out) as [ss1|]; [eexists; reflexivity|discriminate HP']. }
  destruct S1 as [ss1 S1].
  exists lines', P'. split; [exact A'|]. split; [rewrite (text_program msel v out lines' ss1 RB1 A' S1); exact HP'|].
  exact (constants_program_equiv addr_hash sig_hash id_sigma msel Hmsel ops out v P P' Hc Hok Hnb Hie HP HP').
Qed.
End TextTheorem.
