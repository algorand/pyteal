(* Proofs/HistoryEvents.v — lemmas about the global-state machine Hist/Events.v (property C11). *)
From Coq Require Import NArith List Bool Lia.
From PV Require Import Hist.Events.
Import ListNotations.
Local Open Scope N_scope.

Scheme ev_mut := Induction for ev Sort Prop
with evs_mut := Induction for evs Sort Prop.
Combined Scheme ev_evs_ind from ev_mut, evs_mut.

(* starting from other counter values only renumbers what is handed out *)

Lemma shift_set_marker a b g p : set_marker (shift_st a b g) p = shift_st a b (set_marker g p).
Proof. reflexivity. Qed.

Lemma alloc_slot_shift a b g : alloc_slot (shift_st a b g) = shift_res a b (alloc_slot g).
Proof. unfold alloc_slot, shift_res, shift_st; cbn. do 2 f_equal. lia. Qed.

Lemma run_shift_both (m : mode) (a b : N) :
  (forall e g, run_ev m e (shift_st a b g) = shift_res a b (run_ev m e g)) /\
  (forall es g, run_evs m es (shift_st a b g) = shift_res a b (run_evs m es g)).
Proof.
  apply ev_evs_ind; try reflexivity.
  - (* EAlloc *) exact (alloc_slot_shift a b).
  - (* EReserved *) intros n g. cbn. destruct (n <? NUM_SLOTS); reflexivity.
  - (* EAbi *) intros g. cbn [run_ev shift_st g_marker].
    destruct (g_marker g) as [[t n]|]; [|exact (alloc_slot_shift a b g)].
    destruct (n + 1 <=? MAX_FRAME_LOCAL_VARS); [reflexivity | exact (alloc_slot_shift a b g)].
  - (* EDefSub *) intros g. unfold run_ev, shift_res, shift_st; cbn. do 2 f_equal. lia.
  - (* ECtx *) intros p body IH g. cbn [run_ev]. rewrite shift_set_marker, IH.
    cbn [shift_res r_raised r_st r_tr].
    destruct (r_raised (run_evs m body (set_marker g p))); destruct m; reflexivity.
  - (* EProbe *) intros body IH g. cbn [run_ev]. rewrite IH. cbn [shift_res r_raised r_st r_tr].
    destruct (r_raised (run_evs m body g)); reflexivity.
  - (* EClean *) intros body IH g. cbn [run_ev]. rewrite IH. reflexivity.
  - (* ECatch *) intros body IH g. cbn [run_ev]. rewrite IH. reflexivity.
  - (* ECons *) intros e IHe es IHes g. cbn [run_evs]. rewrite IHe. cbn [shift_res r_raised r_st r_tr].
    destruct (r_raised (run_ev m e g)); [reflexivity|].
    rewrite IHes. unfold shift_res. cbn [r_raised r_st r_tr]. rewrite map_app. reflexivity.
Qed.

Lemma run_evs_shift m a b es g : run_evs m es (shift_st a b g) = shift_res a b (run_evs m es g).
Proof. apply run_shift_both. Qed.

(* no event tree ever leaves a counter below where it found it *)

Lemma run_monotone_both (m : mode) :
  (forall e g, g_slot g <= g_slot (r_st (run_ev m e g)) /\ g_sub g <= g_sub (r_st (run_ev m e g))) /\
  (forall es g, g_slot g <= g_slot (r_st (run_evs m es g)) /\ g_sub g <= g_sub (r_st (run_evs m es g))).
Proof.
  apply ev_evs_ind; try (intros g; cbn; lia).
  - (* EReserved *) intros n g; cbn; destruct (n <? NUM_SLOTS); cbn; lia.
  - (* EAbi *) intros g; cbn; destruct (g_marker g) as [[t n]|]; [destruct (n + 1 <=? MAX_FRAME_LOCAL_VARS)|]; cbn; lia.
  - (* ECtx *) intros p body IH g. cbn [run_ev]. specialize (IH (set_marker g p)).
    destruct (r_raised (run_evs m body (set_marker g p))); destruct m; exact IH.
  - (* EProbe *) intros body IH g. cbn [run_ev]. specialize (IH g).
    destruct (r_raised (run_evs m body g)); cbn [r_st set_slot g_slot g_sub]; lia.
  - (* EClean *) intros body IH g. specialize (IH g). cbn [run_ev r_st set_slot g_slot g_sub]. lia.
  - (* ECatch *) intros body IH g. exact (IH g).
  - (* ECons *) intros e IHe es IHes g. cbn [run_evs]. specialize (IHe g).
    destruct (r_raised (run_ev m e g)); [exact IHe|].
    specialize (IHes (r_st (run_ev m e g))). cbn [r_st]. lia.
Qed.

Lemma run_evs_monotone m es g :
  g_slot g <= g_slot (r_st (run_evs m es g)) /\ g_sub g <= g_sub (r_st (run_evs m es g)).
Proof. apply run_monotone_both. Qed.

(* a probe that completes rewinds the slot counter exactly; the router's cleaning context always does *)
Lemma probe_rewinds m body g :
  r_raised (run_ev m (EProbe body) g) = false -> g_slot (r_st (run_ev m (EProbe body) g)) = g_slot g.
Proof. cbn [run_ev]. destruct (r_raised (run_evs m body g)) eqn:E; cbn; [rewrite E; discriminate | reflexivity]. Qed.

Lemma clean_rewinds m body g : g_slot (r_st (run_ev m (EClean body) g)) = g_slot g.
Proof. reflexivity. Qed.

Lemma history_monotone m h : forall g,
  g_slot g <= g_slot (run_history m h g) /\ g_sub g <= g_sub (run_history m h g).
Proof.
  induction h as [|op t IH]; intros g; cbn [run_history]; [lia|].
  pose proof (run_evs_monotone m op g) as H1. specialize (IH (r_st (run_evs m op g))). lia.
Qed.

(* with try/finally the marker is restored whatever happens inside (the Proto it names; an ABI value
   created while it is set lengthens that Proto's list of locals) *)
Lemma marker_fixed_both :
  (forall e g, marker_tag (r_st (run_ev Fixed e g)) = marker_tag g) /\
  (forall es g, marker_tag (r_st (run_evs Fixed es g)) = marker_tag g).
Proof.
  apply ev_evs_ind; try reflexivity.
  - (* EReserved *) intros n g; cbn; destruct (n <? NUM_SLOTS); reflexivity.
  - (* EAbi *) intros g; unfold marker_tag; cbn; destruct (g_marker g) as [[t n]|] eqn:E;
      [destruct (n + 1 <=? MAX_FRAME_LOCAL_VARS)|]; cbn; rewrite ?E; reflexivity.
  - (* ECtx *) intros p body IH g. cbn [run_ev]. destruct (r_raised (run_evs Fixed body (set_marker g p))); reflexivity.
  - (* EProbe *) intros body IH g. cbn [run_ev]. destruct (r_raised (run_evs Fixed body g)); cbn; apply IH.
  - (* EClean *) intros body IH g. cbn. apply IH.
  - (* ECatch *) intros body IH g. cbn. apply IH.
  - (* ECons *) intros e IHe es IHes g. cbn [run_evs]. destruct (r_raised (run_ev Fixed e g)); [apply IHe|].
    cbn. rewrite IHes. apply IHe.
Qed.

Lemma marker_tag_none g : marker_tag g = None <-> g_marker g = None.
Proof. unfold marker_tag. destruct (g_marker g); cbn; split; congruence. Qed.

Lemma marker_fixed_none es g : g_marker g = None -> g_marker (r_st (run_evs Fixed es g)) = None.
Proof. intros H. apply marker_tag_none. rewrite (proj2 marker_fixed_both). apply marker_tag_none. exact H. Qed.

Lemma marker_restored_fixed_proof (es : evs) (g : gst) :
  marker_tag (r_st (run_evs Fixed es g)) = marker_tag g /\
  (g_marker g = None -> g_marker (r_st (run_evs Fixed es g)) = None).
Proof. split; [apply marker_fixed_both | apply marker_fixed_none]. Qed.

Lemma ctx_raised m p body g :
  r_raised (run_ev m (ECtx p body) g) = r_raised (run_evs m body (set_marker g p)).
Proof.
  cbn [run_ev]. destruct (r_raised (run_evs m body (set_marker g p))) eqn:E; destruct m; cbn; congruence.
Qed.

Lemma probe_raised m body g :
  r_raised (run_ev m (EProbe body) g) = r_raised (run_evs m body g).
Proof. cbn [run_ev]. destruct (r_raised (run_evs m body g)) eqn:E; cbn; congruence. Qed.

Lemma cons_raised m e es g :
  r_raised (run_evs m (ECons e es) g) =
  if r_raised (run_ev m e g) then true else r_raised (run_evs m es (r_st (run_ev m e g))).
Proof. cbn [run_evs]. destruct (r_raised (run_ev m e g)) eqn:E; cbn; congruence. Qed.

(* when nothing raises and nothing is swallowed the two semantics coincide *)
Lemma modes_agree_both :
  (forall e g, no_catch e = true -> r_raised (run_ev Faithful e g) = false ->
               run_ev Fixed e g = run_ev Faithful e g) /\
  (forall es g, no_catch_s es = true -> r_raised (run_evs Faithful es g) = false ->
               run_evs Fixed es g = run_evs Faithful es g).
Proof.
  apply ev_evs_ind; try reflexivity.
  - (* ECtx *) intros p body IH g Hc Hr. rewrite ctx_raised in Hr. cbn [run_ev]. rewrite (IH _ Hc Hr), Hr. reflexivity.
  - (* EProbe *) intros body IH g Hc Hr. rewrite probe_raised in Hr. cbn [run_ev]. rewrite (IH _ Hc Hr), Hr. reflexivity.
  - (* EClean *) intros body IH g Hc Hr. cbn [run_ev]. rewrite (IH _ Hc Hr). reflexivity.
  - (* ECatch *) intros body _ g Hc. discriminate Hc.
  - (* ECons *) intros e IHe es IHes g Hc Hr. apply andb_true_iff in Hc as [Hc1 Hc2]. rewrite cons_raised in Hr.
    destruct (r_raised (run_ev Faithful e g)) eqn:E; [discriminate Hr|].
    cbn [run_evs]. rewrite (IHe _ Hc1 E), E, (IHes _ Hc2 Hr). reflexivity.
Qed.

(* the code as it is restores the marker when no exception escapes and none is swallowed *)
Lemma marker_faithful_both :
  (forall e g, no_catch e = true -> r_raised (run_ev Faithful e g) = false ->
               marker_tag (r_st (run_ev Faithful e g)) = marker_tag g) /\
  (forall es g, no_catch_s es = true -> r_raised (run_evs Faithful es g) = false ->
               marker_tag (r_st (run_evs Faithful es g)) = marker_tag g).
Proof.
  split; intros x g Hc Hr.
  - rewrite <- (proj1 modes_agree_both x g Hc Hr). apply marker_fixed_both.
  - rewrite <- (proj2 modes_agree_both x g Hc Hr). apply marker_fixed_both.
Qed.

(* whether an exception escapes does not depend on the state or on the mode *)
Lemma raised_indep_both :
  (forall e m1 m2 g1 g2, r_raised (run_ev m1 e g1) = r_raised (run_ev m2 e g2)) /\
  (forall es m1 m2 g1 g2, r_raised (run_evs m1 es g1) = r_raised (run_evs m2 es g2)).
Proof.
  apply ev_evs_ind; try reflexivity.
  - (* EReserved *) intros n m1 m2 g1 g2; cbn; destruct (n <? NUM_SLOTS); reflexivity.
  - (* EAbi *) intros m1 m2 g1 g2; cbn; destruct (g_marker g1) as [[t1 n1]|], (g_marker g2) as [[t2 n2]|];
      try destruct (n1 + 1 <=? MAX_FRAME_LOCAL_VARS); try destruct (n2 + 1 <=? MAX_FRAME_LOCAL_VARS); reflexivity.
  - (* ECtx *) intros p body IH m1 m2 g1 g2. rewrite !ctx_raised. apply IH.
  - (* EProbe *) intros body IH m1 m2 g1 g2. rewrite !probe_raised. apply IH.
  - (* EClean *) intros body IH m1 m2 g1 g2. apply IH.
  - (* ECons *) intros e IHe es IHes m1 m2 g1 g2. rewrite !cons_raised, (IHe m1 m2 g1 g2).
    destruct (r_raised (run_ev m2 e g2)); [reflexivity | apply IHes].
Qed.

Lemma history_marker_fixed h : forall g, g_marker g = None -> g_marker (run_history Fixed h g) = None.
Proof.
  induction h as [|op t IH]; intros g Hg; cbn [run_history]; [exact Hg|].
  apply IH. apply marker_fixed_none. exact Hg.
Qed.

(* a reachable state with the marker clear is the initial state with both counters moved up *)
Lemma history_is_shift m (h : list evs) :
  let g := run_history m h init_gst in
  g_marker g = None -> g = shift_st (g_slot g - NUM_SLOTS) (g_sub g) init_gst.
Proof.
  intros g Hm. pose proof (proj1 (history_monotone m h init_gst)) as Hs. fold g in Hs.
  destruct g as [s u mk]. cbn [g_slot g_marker init_gst] in *. subst mk.
  unfold shift_st, init_gst. cbn [g_slot g_sub g_marker]. f_equal; lia.
Qed.

(* whatever happened before, as long as the marker is clear, running [p] hands out the
   identifiers of a fresh process plus a constant per counter *)
Lemma history_only_shifts_gen m (h : list evs) (p : evs) :
  let g := run_history m h init_gst in
  g_marker g = None ->
  run_evs m p g = shift_res (g_slot g - NUM_SLOTS) (g_sub g) (run_evs m p init_gst).
Proof. intros g Hm. subst g. rewrite (history_is_shift m h Hm) at 1. apply run_evs_shift. Qed.

(* the shift is a strictly monotone renumbering *)
Lemma shift_strictly_monotone (d x y : N) : x < y -> x + d < y + d.
Proof. lia. Qed.
