(* Proofs/LitIntProof.v — C13: decimal printing of an Int literal and the assembler's reading of it. *)
From Coq Require Import List Arith NArith ZArith Ascii String Bool Lia.
From PV Require Import Base.Sexp AVM.Parse Lit.BaseN.
From PV Require Export Proofs.TextFacts.
From PV Require Import Proofs.LitLineProof.
Import ListNotations.
Local Open Scope N_scope.

Lemma parse_int_arg_dec_big n : 18446744073709551616 <= n -> parse_int_arg (N_to_dec n) = None.
Proof.
  intros H. unfold parse_int_arg. rewrite parse_uint_dec.
  apply N.ltb_ge in H. now rewrite H.
Qed.

Lemma int_line_roundtrip msel n : n < 18446744073709551616 ->
  parse_stmt msel (tokens_of_line ("int " ++ N_to_dec n)) = push_int n.
Proof.
  intros H. rewrite tokens_int by (apply N_to_dec_nonempty || apply N_to_dec_digits).
  rewrite parse_stmt_int, parse_int_arg_dec by assumption. reflexivity.
Qed.

Lemma int_line_spec z :
  int_line z = if ((0 <=? z) && (z <? 18446744073709551616))%Z
               then Some ("int " ++ N_to_dec (Z.to_N z))%string else None.
Proof. reflexivity. Qed.

Lemma int_line_accepts z line : int_line z = Some line ->
  exists n, z = Z.of_N n /\ n < 18446744073709551616 /\ line = ("int " ++ N_to_dec n)%string.
Proof.
  unfold int_line. destruct ((0 <=? z) && (z <? 18446744073709551616))%Z eqn:E; [|discriminate].
  intros [= <-]. apply andb_true_iff in E as [E1 E2]. apply Z.leb_le in E1. apply Z.ltb_lt in E2.
  exists (Z.to_N z). repeat split; [now rewrite Z2N.id | lia].
Qed.

Lemma int_line_rejects z : int_line z = None <-> (z < 0 \/ 18446744073709551616 <= z)%Z.
Proof.
  unfold int_line. destruct (Z.leb_spec 0 z) as [L|L]; destruct (Z.ltb_spec z 18446744073709551616) as [U|U];
    cbn [andb]; split; intros H; try discriminate H; try reflexivity; lia.
Qed.

Lemma half_bound n f : 10 <= n -> n < 2 ^ N.of_nat (S f) -> n / 10 < 2 ^ N.of_nat f.
Proof.
  intros H10 H. rewrite Nat2N.inj_succ, N.pow_succ_r' in H.
  apply N.div_lt_upper_bound; [discriminate|]. lia.
Qed.

(* The printed text has no leading zero (so an assembler that reads a leading 0 as an octal or
   0x/0b/0o prefix, as Go's ParseUint with base 0 does, still reads the decimal value). *)
Lemma dec_digits_head f : forall n acc, 0 < n -> n < 2 ^ N.of_nat f ->
  exists d t, dec_digits (S f) n acc = ascii_of_N (48 + d) :: t /\ 0 < d /\ d < 10.
Proof.
  induction f as [|f IH]; intros n acc Hp H.
  - cbn in H. lia.
  - cbn [dec_digits]. pose proof (N.mod_lt n 10 ltac:(discriminate)) as Hm.
    destruct (N.ltb_spec n 10) as [L|L].
    + exists (n mod 10), acc. rewrite N.mod_small by assumption. repeat split; assumption.
    + apply IH; [|now apply half_bound].
      apply N.div_str_pos. lia.
Qed.

Lemma N_to_dec_no_leading_zero n : 0 < n ->
  exists d t, list_ascii_of_string (N_to_dec n) = ascii_of_N (48 + d) :: t /\ 0 < d /\ d < 10.
Proof.
  intros H. rewrite N_to_dec_list. apply dec_digits_head; [exact H|].
  rewrite N2Nat.id. apply N.size_gt.
Qed.

Lemma N_to_dec_zero : N_to_dec 0 = "0"%string.
Proof. reflexivity. Qed.

Example int_example : parse_stmt [] (tokens_of_line "int 18446744073709551615") = push_int 18446744073709551615.
Proof. vm_compute. reflexivity. Qed.
