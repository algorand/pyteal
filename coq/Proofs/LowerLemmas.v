(* Proofs/LowerLemmas.v — what [Proofs/LowerCorrect.v] is stated with: [tgt], the meaning of an
   outcome of [denote] on the block graph, and [lw_ok], the specification of a lowering function
   against an evaluator.  The lemmas about them are in CallX/LowerLemmas.v, for the semantics with
   a call oracle; [tgt_lift] and [tgt_le] carry a statement over. *)
From Coq Require Import List Arith NArith String Bool Lia.
From PV Require Import Base.Bytes AVM.Syntax AVM.Machine Src.Expr Src.Denote
  Comp.Blocks Comp.Lower Comp.GraphSem Proofs.LowerFrame Proofs.OracleTransfer.
From PV Require CallX.LowerLemmas.
Import ListNotations.

Section Correct.
  Variable env : denv.

  Notation star := (star env).

  Lemma star_mono G G' c c' : gincl G G' -> star G c c' -> star G' c c'.
  Proof.
    intros Hi S. apply star_lift. apply (CallX.LowerLemmas.star_mono (lift env) G G' c c' Hi).
    apply star_lift. exact S.
  Qed.

  (* what an outcome means on the graph, from configuration c0, for a fragment whose normal exit is k *)
  Definition tgt (G : bgraph) (c0 : gconf) (k : option id) (c : lctx) (r : dout) : Prop :=
    match r with
    | DNorm s st => star G c0 (cont_conf k s st)
    | DBrk s st => star G c0 (cont_conf (l_brk c) s st)
    | DCont s st => star G c0 (cont_conf (l_cont c) s st)
    | DRet s st => star G c0 (GRet s st)
    | DExit v st => star G c0 (GExit v st)
    | DEnd s st => star G c0 (GEnd s st)
    | DFail => star G c0 GFail
    | DFuel => True
    | DUnsup _ => True
    end.

  Lemma do_op_shape o imms stk st :
    match do_op env o imms stk st with DNorm _ _ | DFail | DUnsup _ => True | _ => False end.
  Proof. exact (OracleTransfer.do_op_shape env o imms stk st). Qed.

  Lemma gincl_refl G : gincl G G.
  Proof. intros i b H; exact H. Qed.

  (* specification of a single-expression lowering function against an evaluator *)
  Definition lw_ok (lw : expr -> option id -> graph -> (id * id) * graph)
             (den : expr -> list value -> mstate -> dout) (c : lctx) (e : expr) : Prop :=
    forall k g s en g', wf g -> lw e k g = ((s, en), g') ->
    forall G, gincl (g_blk g') G -> forall stk st, tgt G (GAt s stk st) k c (den e stk st).
End Correct.

Lemma tgt_lift e G c0 k c r : CallX.LowerLemmas.tgt (lift e) G c0 k c r <-> tgt e G c0 k c r.
Proof. destruct r; cbn; try apply star_lift; tauto. Qed.

(* no claim is made about an unsupported outcome, so a claim survives going down in [le] *)
Lemma tgt_le e G c0 k c r1 r2 : le r1 r2 -> tgt e G c0 k c r2 -> tgt e G c0 k c r1.
Proof. intros [->|[o ->]] H; [exact H|exact Logic.I]. Qed.
