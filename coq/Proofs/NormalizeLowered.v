(* Proofs/NormalizeLowered.v — the NormalizeBlocks theorems instantiated on the graphs that lowering
   produces: for a routine lowered from the empty graph (no continuation, no enclosing loop), the
   sequence of compile_one — addIncoming, validateTree, NormalizeBlocks, validateTree — raises no
   AssertionError (C20) and preserves behaviour (C01) with NO side condition on the graph; the only
   condition left is syntactic, on the recipe: its start block must not be a loop head
   ([head_loop e = false]; compile_one wraps a root loop in a Seq, whose start is a fresh block).
   Proved in CallX/NormalizeLowered.v. *)
From Coq Require Import List Arith NArith String Bool Lia.
From PV Require Import Base.Bytes AVM.Syntax AVM.Machine Src.Expr Src.Denote
  Comp.Blocks Comp.Lower Comp.Passes Comp.GraphSem Comp.SimCheck Comp.Compile
  Proofs.LowerFrame Proofs.LowerShape Proofs.OracleTransfer.
From PV Require CallX.NormalizeLowered.
Import ListNotations.

Theorem lowered_normalize_correct env o c e s en g0 g' s' :
  l_brk c = None -> l_cont c = None ->
  head_loop e = false ->
  lower o c e None empty_graph = ((s, en), g0) ->
  normalize (fst (add_incoming g0 s)) s = (g', s') ->
  equiv_from env (g_blk g0) s (g_blk g') s'.
Proof.
  intros B C HL E N. apply equiv_from_lift.
  exact (CallX.NormalizeLowered.lowered_normalize_correct (lift env) o c e s en g0 g' s' B C HL E N).
Qed.

Theorem lowered_tree_valid o c e s en g0 g' s' :
  l_brk c = None -> l_cont c = None ->
  lower o c e None empty_graph = ((s, en), g0) ->
  normalize (fst (add_incoming g0 s)) s = (g', s') ->
  validate_tree (fst (add_incoming g0 s)) s = true /\ validate_tree g' s' = true.
Proof. exact (CallX.NormalizeLowered.lowered_tree_valid o c e s en g0 g' s'). Qed.

(* the roots compile_one builds when the routine does not end in a return *)
Lemma head_loop_seq es : head_loop (ESeq es) = false.
Proof. reflexivity. Qed.

(* the root compile_one hands to the lowering: compileSubroutine's implicit Return (the same
   function as [with_implicit_return] of Src/Denote.v) *)
Definition root_ast (ast0 : expr) : expr :=
  if has_return ast0 then ast0
  else match type_of ast0 with
       | TNone => ESeq [ast0; EReturn None]
       | _ => EReturn (Some ast0)
       end.

(* compile_one itself (a routine without deferred expression, i.e. every routine except an
   ABI-returning subroutine): once PyTeal's own checks pass, the routine compiles — neither
   validateTree assertion fires — to the normalised graph, and that graph computes what the lowered
   graph computes *)
Theorem compile_one_tree_checks_pass o sub ast0 :
  (match sub with Some r => r_deferred r | None => None end) = None ->
  check_expr o (option_map r_ret sub) false (root_ast ast0) = None ->
  has_bad_continue false (root_ast ast0) = false ->
  exists cr, compile_one o sub ast0 = COk cr /\
    let pm := match sub with Some r => param_instr o r | None => main_param end in
    let '((s, _), g0) := lower o (mkL (option_map r_ret sub) None None pm) (root_ast ast0) None empty_graph in
    normalize (fst (add_incoming g0 s)) s = (cr_graph cr, cr_start cr) /\
    (head_loop (root_ast ast0) = false ->
     forall env, equiv_from env (g_blk g0) s (g_blk (cr_graph cr)) (cr_start cr)).
Proof.
  intros D Ck Bc.
  destruct (CallX.NormalizeLowered.compile_one_tree_checks_pass o sub ast0 D Ck Bc) as (cr & E & H).
  exists cr. split; [exact E|]. cbv zeta in *.
  change (CallX.NormalizeLowered.root_ast ast0) with (root_ast ast0) in H.
  destruct (lower o _ (root_ast ast0) None empty_graph) as [[s en] g0]. destruct H as [N Q].
  split; [exact N|]. intros HL env. apply equiv_from_lift. exact (Q HL (lift env)).
Qed.

(* the syntactic condition is about a real situation: a bare loop as the root has an edge into its
   start block (compile_one never lowers one: has_return of a loop is false, so it is wrapped) *)
Definition opts0 : copts := mkOpts 6 true false false (fun _ => 0%N) (fun _ _ => 0%N).
Definition ctx0 : lctx := mkL None None None (fun _ => mkI O_err []).
Definition one : expr := EOp O_int [AInt 1] TUint [].

Example root_loop_has_edge_into_start :
  let '((s, _), g) := lower opts0 ctx0 (EWhile one (EOp O_pop [] TNone [one])) None empty_graph in
  existsb (fun p => mem_id s (out_of g p)) (seq 0 (g_next g)) = true.
Proof. exact CallX.NormalizeLowered.root_loop_has_edge_into_start. Qed.

Example wrapped_loop_has_none :
  let '((s, _), g) := lower opts0 ctx0 (ESeq [EWhile one (EOp O_pop [] TNone [one]); EReturn None]) None empty_graph in
  existsb (fun p => mem_id s (out_of g p)) (seq 0 (g_next g)) = false.
Proof. exact CallX.NormalizeLowered.wrapped_loop_has_none. Qed.
