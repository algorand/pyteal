(* Proofs/StageECompose.v — stage E, part 3: from the source semantics to [Machine.run] on the parsed TEXT.
   Composition of: C01_routine_end_to_end_assigned (source semantics -> flattened, slot-assigned instruction
   list), the label prefixing of flattenSubroutines for a main-only program, the text round trip (StageEText)
   and the machine bridge (linking: StageELink; the run bridge of the list semantics: CallMachineSim). *)
From Coq Require Import List Arith NArith Ascii String Bool Lia.
From Coq Require FinFun.
From PV Require Import AVM.Syntax AVM.Machine AVM.Parse Src.Denote Comp.Lower Comp.Passes Comp.LinearSem
  Comp.Compile Comp.Assemble Proofs.LowerCorrect Proofs.LowerShape Proofs.NormalizeLowered Proofs.FlattenCorrect
  Proofs.EndToEndGlue Proofs.EndToEnd Proofs.SlotCompose Proofs.SlotComposeAssign Proofs.SlotComposeFinal
  Proofs.StageELink Proofs.StageEText Proofs.CallMachineSim.
Import ListNotations.
Local Open Scope list_scope.
Local Open Scope string_scope.

(* flattenSubroutines puts main_ / <sub>_ in front of every label: the list semantics does not see it *)
Definition pfx_arg (pre : string) (a : arg) : arg :=
  match a with ALbl l => ALbl (pre ++ l) | _ => a end.

Lemma prefix_labels_op pre i : prefix_labels pre (COp i) = COp (rewrite_instr (pfx_arg pre) i).
Proof. reflexivity. Qed.

Lemma eqb_prefix pre a b : String.eqb (pre ++ a) (pre ++ b) = String.eqb a b.
Proof. induction pre as [|c pre IH]; cbn; [reflexivity|]. now rewrite Ascii.eqb_refl. Qed.

Lemma find_label_prefix pre l : forall code,
  find_label (pre ++ l) (map (prefix_labels pre) code) = find_label l code.
Proof.
  induction code as [|c t IH]; [reflexivity|].
  destruct c as [i|l' cm|v]; cbn [map prefix_labels find_label]; rewrite ?IH; try reflexivity.
  rewrite eqb_prefix. reflexivity.
Qed.

(* label references occur only where the linear semantics looks for them *)
Definition not_lbl (a : arg) : bool := match a with ALbl _ => false | _ => true end.
Definition lbl_regular (i : instr) : bool :=
  match jump_of i with Some _ => true | None => forallb not_lbl (i_args i) end.

Lemma jump_of_rw pre i :
  jump_of (rewrite_instr (pfx_arg pre) i) =
  match jump_of i with Some (k, l) => Some (k, pre ++ l) | None => None end.
Proof.
  destruct i as [o args]. unfold jump_of. cbn [rewrite_instr i_op i_args].
  destruct o; try reflexivity; destruct args as [|[n|s|l|u|sb] [|a2 r]]; reflexivity.
Qed.

Lemma map_pfx_id pre args : forallb not_lbl args = true -> map (pfx_arg pre) args = args.
Proof.
  induction args as [|a t IH]; intros H; [reflexivity|].
  cbn [forallb] in H. apply andb_true_iff in H as [Ha Ht]. cbn [map]. rewrite IH by exact Ht.
  destruct a; try reflexivity. discriminate Ha.
Qed.

Lemma lbl_regular_rw pre i : lbl_regular (rewrite_instr (pfx_arg pre) i) = lbl_regular i.
Proof.
  unfold lbl_regular. rewrite jump_of_rw. destruct (jump_of i) as [[k l]|]; [reflexivity|].
  cbn [rewrite_instr i_args]. induction (i_args i) as [|a t IH]; [reflexivity|].
  cbn [map forallb]. rewrite IH. destruct a; reflexivity.
Qed.

Lemma lstep_prefix env pre code :
  (forall i, In (COp i) code -> lbl_regular i = true) ->
  forall c, lstep env (map (prefix_labels pre) code) c = lstep env code c.
Proof.
  intros Reg c. destruct c as [pc stk st| | | | |]; try reflexivity.
  cbn [lstep]. rewrite nth_error_map.
  destruct (nth_error code pc) as [[i|l cm|v]|] eqn:En; cbn [option_map]; try reflexivity.
  rewrite prefix_labels_op. f_equal. specialize (Reg i (nth_error_In _ _ En)).
  unfold lstep_op. cbn [rewrite_instr i_op]. rewrite jump_of_rw.
  unfold lbl_regular in Reg.
  destruct (jump_of i) as [[k l]|] eqn:Ej.
  - unfold goto. rewrite find_label_prefix. reflexivity.
  - cbn [rewrite_instr i_args]. rewrite (map_pfx_id pre _ Reg). reflexivity.
Qed.

Lemma lstar_ext env c1 c2 : (forall c, lstep env c1 c = lstep env c2 c) ->
  forall a b, lstar env c1 a b -> lstar env c2 a b.
Proof.
  intros E a b H. induction H as [c|c c' c'' S1 _ IH]; [apply lstar_refl|].
  rewrite E in S1. exact (lstar_step _ _ _ _ _ S1 IH).
Qed.

Lemma lstar_prefix env pre code :
  (forall i, In (COp i) code -> lbl_regular i = true) ->
  forall c c', lstar env (map (prefix_labels pre) code) c c' <-> lstar env code c c'.
Proof.
  intros Reg c c'. pose proof (lstep_prefix env pre code Reg) as E. split.
  - apply lstar_ext. exact E.
  - apply lstar_ext. intros d. symmetry. apply E.
Qed.

(* a pragma in front shifts every position by one *)
Lemma find_label_pragma v l code : find_label l (CPragma v :: code) = option_map S (find_label l code).
Proof. reflexivity. Qed.

(* the components compile_components returns for a main-only program whose routine flattens to [code] *)
Definition main_comps (version : N) (code : list comp) : list comp :=
  CPragma version :: map (prefix_labels "main_") code.

Lemma jump_of_nonbranch o args : is_branch o = false -> jump_of (mkI o args) = None.
Proof. unfold jump_of. cbn [i_op i_args]. destruct o; intros H; try discriminate H; reflexivity. Qed.

Lemma kind_nonbranch o : kind_of o <> KBranch -> is_branch o = false.
Proof. destruct o; intros H; try reflexivity; exfalso; apply H; reflexivity. Qed.

Lemma printable_regular msel i : printable_instr msel i = true -> lbl_regular i = true.
Proof.
  destruct i as [o args]. unfold printable_instr, lbl_regular. cbn [i_op i_args].
  destruct (kind_of o) eqn:K; intros H;
    try (rewrite (jump_of_nonbranch o args (kind_nonbranch o ltac:(rewrite K; discriminate)))).
  1,8: revert H; apply forallb_impl; intros [n|s|l|u|sb] Ha; try discriminate Ha; reflexivity.
  1-4: destruct args as [|[n|s|l|u|sb] [|a2 r]]; try discriminate H; reflexivity.
  - destruct args as [|[n|s|l|u|sb] [|a2 r]]; try discriminate H.
    + unfold jump_of. cbn [i_op i_args]. destruct o; reflexivity.
    + apply andb_true_iff in H as [_ Hb]. unfold jump_of. cbn [i_op i_args].
      destruct o; try discriminate Hb; reflexivity.
  - discriminate H.
Qed.

Lemma printable_code_regular msel pre code :
  printable msel (map (prefix_labels pre) code) = true ->
  forall i, In (COp i) code -> lbl_regular i = true.
Proof.
  intros H i Hin. unfold printable in H. rewrite forallb_forall in H.
  specialize (H (prefix_labels pre (COp i)) (in_map _ _ _ Hin)). rewrite prefix_labels_op in H.
  cbn [printable_comp] in H. apply printable_regular in H. rewrite lbl_regular_rw in H. exact H.
Qed.

Lemma labels_of_app a b : labels_of (a ++ b)%list = (labels_of a ++ labels_of b)%list.
Proof.
  induction a as [|c a IH]; [reflexivity|]. destruct c as [i|l cm|v]; cbn [app labels_of]; rewrite IH; reflexivity.
Qed.

Lemma labels_of_ops code : labels_of (map COp code) = [].
Proof. induction code as [|i t IH]; [reflexivity|]. exact IH. Qed.

Lemma labels_of_In l : forall code, In l (labels_of code) -> exists c, In (CLabel l c) code.
Proof.
  induction code as [|c t IH]; intros H; [destruct H|].
  destruct c as [i|l' cm|v]; cbn [labels_of] in H.
  - destruct (IH H) as [c Hc]. exists c. right. exact Hc.
  - destruct H as [->|H]; [exists cm; left; reflexivity|]. destruct (IH H) as [c Hc]. exists c. right. exact Hc.
  - destruct (IH H) as [c Hc]. exists c. right. exact Hc.
Qed.

Lemma emit_labels_nodup codes refs : forall i, NoDup (labels_of (flatten_emit codes refs i)).
Proof.
  induction codes as [|code t IH]; intros i; [constructor|].
  rewrite emit_cons, !labels_of_app, labels_of_ops, app_nil_r.
  unfold lab. destruct (mem_nat i refs); [|exact (IH (S i))].
  cbn [labels_of app]. constructor; [|exact (IH (S i))].
  intros Hin. destruct (labels_of_In _ _ Hin) as [c Hc].
  destruct (emit_labels t refs (S i) _ c Hc) as (k & Hk & E). apply label_of_inj in E. lia.
Qed.

Lemma flatten_labels_nodup g blocks code : flatten_blocks g blocks = Some code -> NoDup (labels_of code).
Proof.
  unfold flatten_blocks. destruct (flatten_collect g blocks 0 blocks) as [[codes refs]|]; [|discriminate].
  intros E. injection E as <-. apply emit_labels_nodup.
Qed.

Lemma labels_of_prefix pre code : labels_of (map (prefix_labels pre) code) = map (append pre) (labels_of code).
Proof.
  induction code as [|c t IH]; [reflexivity|].
  destruct c as [i|l cm|v]; cbn [map prefix_labels labels_of]; rewrite IH; reflexivity.
Qed.

Lemma append_inj pre a b : (pre ++ a)%string = (pre ++ b)%string -> a = b.
Proof. intros H. apply String.eqb_eq. rewrite <- (eqb_prefix pre). apply String.eqb_eq. exact H. Qed.

Lemma main_comps_nodup version code : NoDup (labels_of code) -> NoDup (labels_of (main_comps version code)).
Proof.
  intros H. unfold main_comps. cbn [labels_of]. rewrite labels_of_prefix.
  apply FinFun.Injective_map_NoDup; [intros a b; apply append_inj|exact H].
Qed.

Definition no_pragma (code : list comp) : bool :=
  forallb (fun c => match c with CPragma _ => false | _ => true end) code.

Lemma emit_no_pragma codes refs : forall i, no_pragma (flatten_emit codes refs i) = true.
Proof.
  induction codes as [|code t IH]; intros i; [reflexivity|].
  rewrite emit_cons. unfold no_pragma. rewrite !forallb_app. fold (no_pragma (flatten_emit t refs (S i))). rewrite IH.
  unfold lab. destruct (mem_nat i refs); cbn [forallb andb];
    (rewrite andb_true_r; induction code as [|x r IHr]; [reflexivity|exact IHr]).
Qed.

Lemma flatten_no_pragma g blocks code : flatten_blocks g blocks = Some code -> no_pragma code = true.
Proof.
  unfold flatten_blocks. destruct (flatten_collect g blocks 0 blocks) as [[codes refs]|]; [|discriminate].
  intros E. injection E as <-. apply emit_no_pragma.
Qed.

Lemma prefix_no_pragma pre code : no_pragma code = true -> no_pragma (map (prefix_labels pre) code) = true.
Proof.
  unfold no_pragma. induction code as [|c t IH]; [reflexivity|]. cbn [map forallb].
  intros H. apply andb_true_iff in H as [Hc Ht]. rewrite (IH Ht). destruct c; try discriminate Hc; reflexivity.
Qed.

Lemma version_of_no_pragma code v : no_pragma code = true -> version_of code v = v.
Proof.
  unfold no_pragma. induction code as [|c t IH]; [reflexivity|]. cbn [forallb]. intros H.
  apply andb_true_iff in H as [Hc Ht]. destruct c; try discriminate Hc; exact (IH Ht).
Qed.

Lemma pragma_version msel version L P :
  no_pragma L = true -> link msel (CPragma version :: L) = Some P -> pr_version P = version.
Proof. intros N LK. rewrite (link_version _ _ _ LK). exact (version_of_no_pragma L version N). Qed.

(* a printable list with pairwise different labels prints, and the assembler reads the linked program from the text *)
Lemma printed_links msel code :
  printable msel code = true -> code <> [] -> NoDup (labels_of code) ->
  exists lines P,
    assemble_all code = Some lines /\ parse_program msel (program_text lines) = Some P /\ link msel code = Some P.
Proof.
  intros PR NE ND.
  destruct (lines_roundtrip msel code PR) as (lines & lss & ss & A & _ & _ & _ & _ & HS & _).
  destruct (link_total msel code ss HS ND) as [P LK].
  exists lines, P. split; [exact A|]. split; [|exact LK].
  rewrite (text_links msel code lines PR NE A). exact LK.
Qed.

(* From a halting run of the flattened list of a main routine to the verdict of Machine.run on the program
   the assembler reads from the printed text. *)
Theorem main_text_runs msel version code :
  let comps := main_comps version code in
  NoDup (labels_of code) -> no_pragma code = true ->
  printable msel comps = true -> targets_ok comps = true ->
  exists lines P,
    assemble_all comps = Some lines /\
    parse_program msel (program_text lines) = Some P /\ link msel comps = Some P /\ pr_version P = version /\
    forall env, e_msel env = msel ->
    forall st h v,
      lstar env code (LAt 0 [] st) h -> verdict_of h = Some v ->
      stack_bounded env code (LAt 0 [] st) ->
      exists n m', (forall k, n <= k -> run k (e_ctx env) P (init_mach st) = (v, m')) /\ final_ok h m'.
Proof.
  intros comps ND NP PR TG.
  destruct (printed_links msel comps PR ltac:(discriminate) (main_comps_nodup version code ND))
    as (lines & P & A & PP & LK).
  exists lines, P. split; [exact A|]. split; [exact PP|]. split; [exact LK|].
  split; [exact (pragma_version msel version _ P (prefix_no_pragma _ _ NP) LK)|].
  intros env Em st h v H V B.
  assert (Reg : forall i, In (COp i) code -> lbl_regular i = true).
  { apply (printable_code_regular msel "main_"). unfold comps, main_comps, printable in PR. cbn [forallb] in PR. exact PR. }
  subst msel.
  (* the pragma is not an instruction: P is a linked program for the prefixed list, which runs as [code] does *)
  refine (bridge_linked env _ P (link_pragma_linked _ _ _ _ LK) (targets_ok_pragma _ _ TG) 0 [] st h _ v
            (proj2 (lstar_prefix env "main_" code Reg _ _) H) (rel_init _ st) V _).
  intros pc stk' st' H'. exact (B pc stk' st' (proj1 (lstar_prefix env "main_" code Reg _ _) H')).
Qed.

(* the verdict a source outcome stands for: what Machine.run must answer *)
Definition verdict_of_dout (r : dout) : option verdict :=
  match halt_of r with Some h => verdict_of h | None => None end.

Lemma verdict_of_dout_spec :
  (forall n st, verdict_of_dout (DExit (VI n) st) = Some (if (n =? 0)%N then VReject else VApprove)) /\
  (forall b st, verdict_of_dout (DExit (VB b) st) = Some VFail) /\
  verdict_of_dout DFail = Some VFail /\
  (forall s st, verdict_of_dout (DRet s st) = Some VFail) /\
  (forall s st, verdict_of_dout (DNorm s st) = Some (end_verdict s)) /\
  (forall s st, verdict_of_dout (DEnd s st) = Some (end_verdict s)) /\
  verdict_of_dout DFuel = None /\ (forall o, verdict_of_dout (DUnsup o) = None).
Proof. repeat split. Qed.

(* the machine state at the verdict carries the state the source semantics ends in *)
Definition state_ok (r : dout) (m : mach) : Prop :=
  match r with
  | DExit v st => m_st m = st /\ hd_error (m_stack m) = Some v
  | DNorm s st | DBrk s st | DCont s st | DEnd s st | DRet s st => m_st m = st /\ m_stack m = s
  | _ => True
  end.

(* THE composition: source semantics -> text -> Machine.run, main routine of a main-only program *)
Theorem routine_text_end_to_end o ast0 cr p crs crs' locals asg msel :
  compile_one o None ast0 = COk cr ->
  head_loop (root_ast ast0) = false ->
  In cr crs ->
  assign_slots p crs = COk (crs', locals, asg) ->
  requested_valid p (all_slots crs) ->
  let cr' := rw_routine (look_of asg) cr in
  forall order code,
  sort_blocks (cr_graph cr') (cr_start cr') (cr_end cr') = Some order ->
  flatten_blocks (cr_graph cr') order = Some code ->
  let comps := main_comps (o_version o) code in
  printable msel comps = true -> targets_ok comps = true ->
  exists lines P,
    assemble_all comps = Some lines /\
    parse_program msel (program_text lines) = Some P /\ pr_version P = o_version o /\
    forall env, consistent env (routine_ctx o None) -> e_msel env = msel ->
    forall fuel st v,
      let r := denote (with_asg env (look_of asg)) fuel (root_ast ast0) [] st in
      verdict_of_dout r = Some v ->
      stack_bounded env code (LAt 0 [] st) ->
      exists n m', (forall k, n <= k -> run k (e_ctx env) P (init_mach st) = (v, m')) /\ state_ok r m'.
Proof.
  intros E HL Hin HA HV cr' order code HS HF comps PR TG.
  destruct (routine_end_to_end_assigned o None ast0 cr p crs crs' locals asg eq_refl E HL Hin HA HV) as [_ T].
  destruct (T order code HS HF) as (_ & _ & T').
  destruct (main_text_runs msel (o_version o) code (flatten_labels_nodup _ _ _ HF) (flatten_no_pragma _ _ _ HF) PR TG)
    as (lines & P & A & PP & _ & PV & Run).
  exists lines, P. split; [exact A|]. split; [exact PP|]. split; [exact PV|].
  intros env Hc Em fuel st v r V B.
  unfold verdict_of_dout in V. destruct (halt_of r) as [h|] eqn:Hh; [|discriminate V].
  destruct (T' env Hc fuel [] st h Hh) as [H _].
  destruct (Run env Em st h v H V B) as (n & m' & Hrun & Hfin).
  exists n, m'. split; [exact Hrun|].
  destruct r; cbn in Hh; try discriminate Hh; injection Hh as <-; exact Hfin.
Qed.
