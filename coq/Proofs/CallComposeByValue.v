(* Proofs/CallComposeByValue.v — property C02: the BY-VALUE reading of calls.
   [denote_c] (Src/DenoteCall.v): the callee runs on a stack of its own with its parameters bound to the
   argument VALUES, the caller gets the returned value on top of what it held.
   [denote_k] (Proofs/CallComposeMain.v; what the linked code computes): the arguments are stored into the
   parameters' slots, the callee runs on the caller's stack, [EParam i] loads slot i.
   [by_value_sim]: for programs whose call graph is acyclic (rank), whose parameters are by-value, whose
   bodies reach parameter slots only through EParam and use no raw/dynamic scratch access, and whose routines
   return exactly their result ([disciplined]), every NON-FAILING run of [denote_c] (with no restoring of
   callee slots: [ce_locals = []]) is a run of [denote_k] for all larger fuels and depths: same control
   outcome, same stack on top of the untouched rest, states equal outside the parameter slots, the
   parameter slots of the current routine (and of every routine of at least its rank) unchanged. *)
From Coq Require Import List Arith NArith String Bool Lia.
From PV Require Import Base.Bytes AVM.Syntax AVM.Ops AVM.Machine Src.Expr Src.Denote Src.DenoteCall
  Comp.Blocks Comp.Lower Comp.Passes Comp.Compile Comp.WideRatio
  Proofs.LowerShape Proofs.NormalizeLowered Proofs.SlotComposeAssign
  CallX.Denote CallX.DoOp Proofs.CallComposeLink Proofs.CallComposeMain Proofs.CallComposeSpillPass
  Proofs.CallComposeBind Proofs.ExecOpFacts Proofs.CallComposeFrame Proofs.DenoteRel.
Import ListNotations.
Local Open Scope list_scope.

Definition good (r : dout) : Prop := match r with DFail | DFuel | DUnsup _ => False | _ => True end.

Definition lift (r : dout) (rest : list value) (st : mstate) : dout :=
  match r with
  | DNorm s _ => DNorm (s ++ rest) st
  | DBrk s _ => DBrk (s ++ rest) st
  | DCont s _ => DCont (s ++ rest) st
  | DRet s _ => DRet (s ++ rest) st
  | DEnd s _ => DEnd (s ++ rest) st
  | DExit v _ => DExit v st
  | other => other
  end.

Definition st_of (r : dout) : option mstate :=
  match r with
  | DNorm _ st | DBrk _ st | DCont _ st | DRet _ st | DEnd _ st | DExit _ st => Some st
  | _ => None
  end.

Definition same_rest (a b : mstate) : Prop :=
  s_global a = s_global b /\ s_local a = s_local b /\ s_boxes a = s_boxes b /\
  s_itxn a = s_itxn b /\ s_last_itxn a = s_last_itxn b /\ s_trace a = s_trace b.

Lemma with_sc_same st k : same_rest st k -> k = with_sc (s_scratch k) st.
Proof. destruct st, k. unfold same_rest, with_sc. cbn. intros (-> & -> & -> & -> & -> & ->). reflexivity. Qed.

Lemma same_rest_with_sc sc st : same_rest st (with_sc sc st).
Proof. repeat split. Qed.

Section ByValue.
  Variable o : copts.
  Hypothesis Hfp : o_use_fp o = false.
  Variable cx : ctx.
  Variable look : N -> N.
  Variable msel : list (string * bytes).
  Variable subs : list routine.
  Variable rank : N -> nat.
  Variable PL : list N.                       (* the slot objects that are parameter slots *)

  Definition envC : Src.Denote.denv := Src.Denote.mkEnv cx look msel subs false main_param.
  Definition ceC : cenv := mkCEnv envC (fun _ => []).

  (* the scratch numbers of parameter slots *)
  Definition Pn (n : N) : Prop := In n (map look PL).
  (* a slot object whose number is not a parameter slot's *)
  Definition free (u : N) : bool := negb (mem_N (look u) (map look PL)).

  Definition params_ok : Prop :=
    (forall r b s, In r subs -> In (b, s) (r_params r) -> b = false /\ In s PL) /\
    (forall r, In r subs -> NoDup (map look (map snd (r_params r)))) /\
    (forall r r' p p', In r subs -> In r' subs -> In p (r_params r) -> In p' (r_params r') ->
                       look (snd p) = look (snd p') -> rank (r_id r) = rank (r_id r')).

  Definition arg_ok (a : arg) : bool := match a with ASlot u => free u | _ => true end.

  Definition op_ok (op : opc) (imms : list arg) : bool :=
    match slot_access op imms with
    | Some (_, u) => free u
    | None => negb (scratch_op op) && forallb arg_ok imms
    end.

  Fixpoint okb (k : nat) (e : expr) {struct e} : bool :=
    match e with
    | EOp op imms _ a => op_ok op imms && forallb (okb k) a
    | ENary op _ a => op_ok op [] && forallb (okb k) a
    | ESeq es => forallb (okb k) es
    | EIf c th el => okb k c && okb k th && match el with Some x => okb k x | None => true end
    | ECond arms => forallb (fun a => okb k (fst a) && okb k (snd a)) arms
    | EWhile c b => okb k c && okb k b
    | EFor i c s b => okb k i && okb k c && okb k s && okb k b
    | EBreak | EContinue => true
    | EAssert conds _ => forallb (okb k) conds
    | EReturn None => true
    | EReturn (Some v) => okb k v
    | EExit v => okb k v
    | EMulti op imms a outs => op_ok op imms && forallb (okb k) a && forallb free outs
    | ECall g _ a => forallb (okb k) a &&
                     match find_routine subs g with Some r => Nat.ltb (rank (r_id r)) k | None => true end
    | EWide ns ds => forallb (okb k) ns && forallb (okb k) ds
    | EParam _ => true
    end.

  Definition bodies_ok : Prop := forall r, In r subs -> okb (rank (r_id r)) (body_with_return r) = true.

  (* a routine returns exactly its result *)
  Definition disciplined : Prop :=
    forall r f argv st s' st', In r subs ->
      denote_c ceC f (Some r) argv (body_with_return r) [] st = DRet s' st' ->
      match r_ret r with TNone => s' = [] | _ => exists v, s' = [v] end.

  Hypothesis HP : params_ok.
  Hypothesis HB : bodies_ok.
  Hypothesis HD : disciplined.

  Definition Rel (stK stC : mstate) : Prop :=
    same_rest stC stK /\ forall n, ~ Pn n -> scratch_get (s_scratch stK) n = scratch_get (s_scratch stC) n.

  (* the parameter slots of routines of rank >= k are untouched *)
  Definition Keeps (k : nat) (st st' : mstate) : Prop :=
    forall r p, In r subs -> (k <= rank (r_id r))%nat -> In p (r_params r) ->
      scratch_get (s_scratch st') (look (snd p)) = scratch_get (s_scratch st) (look (snd p)).

  Lemma Keeps_refl k st : Keeps k st st.
  Proof. intros r p _ _ _. reflexivity. Qed.
  Lemma Keeps_trans k a b c : Keeps k a b -> Keeps k b c -> Keeps k a c.
  Proof. intros H1 H2 r p Hr Hk Hp. rewrite (H2 r p Hr Hk Hp). exact (H1 r p Hr Hk Hp). Qed.
  Lemma Keeps_mono k k' a b : (k <= k')%nat -> Keeps k a b -> Keeps k' a b.
  Proof. intros L H r p Hr Hk Hp. exact (H r p Hr ltac:(lia) Hp). Qed.

  (* the current routine's parameters hold its arguments *)
  Definition Bound (cur : option routine) (args : list value) (st : mstate) : Prop :=
    match cur with
    | None => args = []
    | Some r => List.length args = List.length (r_params r) /\
                forall i p, nth_error (r_params r) i = Some p ->
                            nth_error args i = Some (scratch_get (s_scratch st) (look (snd p)))
    end.

  Definition cur_ok (k : nat) (cur : option routine) : Prop :=
    match cur with None => True | Some r => In r subs /\ (k <= rank (r_id r))%nat end.

  Lemma Bound_keeps k cur args st st' : cur_ok k cur -> Keeps k st st' -> Bound cur args st -> Bound cur args st'.
  Proof.
    destruct cur as [r|]; [|intros _ _ H; exact H]. intros [Hr Hk] HK [Hl Hb]. split; [exact Hl|].
    intros i p Hp. rewrite (HK r p Hr Hk (nth_error_In _ _ Hp)). exact (Hb i p Hp).
  Qed.

  Definition RelO (stK : mstate) (r : dout) : Prop :=
    match st_of r with Some stC => Rel stK stC | None => True end.

  (* the simulation statement for one evaluation *)
  Definition SimR (k : nat) (rest : list value) (stK : mstate) (rC rK : dout) : Prop :=
    good rC -> exists stK', rK = lift rC rest stK' /\ RelO stK' rC /\ Keeps k stK stK'.

  (* an outcome against the same outcome on the longer stack, in a related state *)
  Lemma sim_same k rest stK rC : RelO stK rC -> SimR k rest stK rC (lift rC rest stK).
  Proof. intros R _. exists stK. split; [reflexivity|]. split; [exact R|apply Keeps_refl]. Qed.

  Lemma sim_bad k rest stK rC rK : ~ good rC -> SimR k rest stK rC rK.
  Proof. intros H G. destruct (H G). Qed.

  Lemma SimR_start k rest stK0 stK rC rK : Keeps k stK0 stK -> SimR k rest stK rC rK -> SimR k rest stK0 rC rK.
  Proof.
    intros K0 H G. destruct (H G) as (stK' & E & R & K). exists stK'. split; [exact E|]. split; [exact R|].
    exact (Keeps_trans _ _ _ _ K0 K).
  Qed.

  Definition KeepsP (st st' : mstate) : Prop :=
    forall n, Pn n -> scratch_get (s_scratch st') n = scratch_get (s_scratch st) n.

  Lemma params_Pn r p : In r subs -> In p (r_params r) -> Pn (look (snd p)).
  Proof.
    intros Hr Hp. destruct p as [b s]. destruct HP as (H1 & _). destruct (H1 r b s Hr Hp) as [_ Ps].
    apply in_map. exact Ps.
  Qed.

  Lemma KeepsP_Keeps k st st' : KeepsP st st' -> Keeps k st st'.
  Proof. intros H r p Hr _ Hp. apply H. exact (params_Pn r p Hr Hp). Qed.

  Lemma notP_notPn u : free u = true -> ~ Pn (look u).
  Proof.
    unfold free, Pn. intros Hu Hin. apply negb_true_iff in Hu.
    assert (mem_N (look u) (map look PL) = true) by (apply SpillProof.mem_N_In; exact Hin). congruence.
  Qed.

  Lemma envk_old cur orc op imms stk st :
    call_target op imms = None ->
    do_op (envk o cx look msel subs cur orc) op imms stk st = Src.Denote.do_op envC op imms stk st.
  Proof.
    intros H. rewrite (do_op_old _ _ _ stk st H). apply old_do_op_irrel; reflexivity.
  Qed.

  (* The simulation from a fixed starting state stK0 is a relation between outcomes that the control
     combinators preserve (Proofs/DenoteRel.v).  It relates two continuations ([SimK]) when they take a stack
     and the same stack on top of [rest], in related states reached from stK0, to related outcomes. *)
  Section Sim.
    Variable k : nat.
    Variables (rest : list value) (stK0 : mstate).

    Definition Rs (s : list value) (stC : mstate) (s' : list value) (stK : mstate) : Prop :=
      s' = s ++ rest /\ Rel stK stC /\ Keeps k stK0 stK.

    Definition SimK (fC fK : list value -> mstate -> dout) : Prop := Rk Rs (SimR k rest stK0) fC fK.

    Lemma SimK_intro fC fK :
      (forall s stC stK, Rel stK stC -> Keeps k stK0 stK -> SimR k rest stK (fC s stC) (fK (s ++ rest) stK)) ->
      SimK fC fK.
    Proof. intros H s stC s' stK (-> & R & K). exact (SimR_start _ _ _ _ _ _ K (H s stC stK R K)). Qed.

    Lemma SimK_start fC fK stk stC : SimK fC fK -> Rel stK0 stC -> SimR k rest stK0 (fC stk stC) (fK (stk ++ rest) stK0).
    Proof. intros H R. apply H. split; [reflexivity|]. split; [exact R|apply Keeps_refl]. Qed.

    Lemma sim_ctl rC rK kN kN' kB kB' kC kC' : SimR k rest stK0 rC rK ->
      SimK kN kN' -> SimK kB kB' -> SimK kC kC' -> SimR k rest stK0 (ctl rC kN kB kC) (ctl rK kN' kB' kC').
    Proof.
      intros H KN KB KC G. destruct rC as [s stC|s stC|s stC| | | | | |]; cbn [ctl] in G |- *.
      1-3: destruct (H Logic.I) as (stK1 & -> & R & K).
      1: exact (KN s stC _ stK1 (conj eq_refl (conj R K)) G).
      1: exact (KB s stC _ stK1 (conj eq_refl (conj R K)) G).
      1: exact (KC s stC _ stK1 (conj eq_refl (conj R K)) G).
      1-3: destruct (H G) as (stK' & -> & RK); exists stK'; split; [reflexivity|exact RK].
      all: destruct G.
    Qed.

    Lemma sim_sel yC yK nC nK : SimK yC yK -> SimK nC nK -> SimK (sel yC nC) (sel yK nK).
    Proof.
      intros Hy Hn s stC s' stK (-> & R & K). destruct s as [|v s1]; [intros []|]. cbn [sel branch app].
      destruct (truthy v) as [[|]|]; [apply Hy|apply Hn|intros []]; (split; [reflexivity|split; assumption]).
    Qed.

    (* a constructor that keeps stack and state *)
    Lemma SimK_same (c : list value -> mstate -> dout) :
      (forall s st, st_of (c s st) = Some st) -> (forall s st stK, lift (c s st) rest stK = c (s ++ rest) stK) ->
      SimK c c.
    Proof.
      intros Hs Hl. apply SimK_intro. intros s stC stK R _. rewrite <- (Hl s stC stK). apply sim_same. unfold RelO. rewrite Hs. exact R.
    Qed.

    Lemma SimK_ret : SimK DRet DRet.
    Proof. apply SimK_same; reflexivity. Qed.

    (* ending the program with the value on top *)
    Lemma SimK_exit : SimK (fun s st => match s with r :: _ => DExit r st | [] => DFail end)
                           (fun s st => match s with r :: _ => DExit r st | [] => DFail end).
    Proof.
      apply SimK_intro. intros [|v s] stC stK R _; [apply sim_bad; intros []|]. exact (sim_same k rest stK (DExit v stC) R).
    Qed.

    Lemma sim_respects : respects Rs (SimR k rest stK0).
    Proof.
      split; [exact sim_ctl|exact sim_sel|apply SimK_same; reflexivity..|apply sim_bad; intros []|intros r; apply sim_bad; intros []].
    Qed.

    Lemma sim_bind rC rK fC fK : SimR k rest stK0 rC rK -> SimK fC fK -> SimR k rest stK0 (bind rC fC) (bind rK fK).
    Proof. exact (bind_rel Rs _ sim_respects rC rK fC fK). Qed.

    Lemma sim_branch rC rK yC yK nC nK : SimR k rest stK0 rC rK -> SimK yC yK -> SimK nC nK ->
      SimR k rest stK0 (branch rC yC nC) (branch rK yK nK).
    Proof. exact (branch_rel Rs _ sim_respects rC rK yC yK nC nK). Qed.

    Lemma sim_hdr rC rK fC fK : SimR k rest stK0 rC rK -> SimK fC fK -> SimR k rest stK0 (hdr rC fC) (hdr rK fK).
    Proof. exact (hdr_rel Rs _ sim_respects rC rK fC fK). Qed.

    (* one operation *)
    Variable cur : option routine.
    Variable args : list value.
    Hypothesis Hcur : cur_ok k cur.
    Variable orc : N -> list value -> mstate -> callres.
    Let envK := envk o cx look msel subs cur orc.

    Lemma SimK_op op imms : op_ok op imms = true -> SimK (Src.Denote.do_op envC op imms) (do_op envK op imms).
    Proof.
      intros Ok. apply SimK_intro. intros stk stC stK [SR SC] _ G.
      destruct (call_target op imms) as [f|] eqn:CT.
      { destruct (call_target_inv _ _ _ CT) as [-> ->]. destruct G. }
      unfold envK. rewrite (envk_old cur orc op imms _ stK CT). unfold Src.Denote.do_op in *. unfold op_ok in Ok.
      change (Src.Denote.e_asg envC) with look in *. change (Src.Denote.e_ctx envC) with cx in *.
      destruct (slot_access op imms) as [[[|] u]|] eqn:SA.
      - (* load of a variable *)
        exists stK. cbn [lift app].
        rewrite (SC _ (notP_notPn u Ok)). split; [reflexivity|]. split; [split; assumption|apply Keeps_refl].
      - (* store to a variable *)
        destruct stk as [|v r]; [destruct G|]. cbn [app].
        exists (set_scratch stK (look u) v). cbn [lift]. split; [reflexivity|]. split.
        + split; [exact SR|]. intros n Hn. rewrite !scratch_get_set, (SC n Hn). reflexivity.
        + apply KeepsP_Keeps. intros n Hn. rewrite scratch_get_set.
          destruct (N.eqb_spec n (look u)) as [->|Ne]; [destruct (notP_notPn u Ok Hn)|reflexivity].
      - apply andb_prop in Ok. destruct Ok as [So _]. apply negb_true_iff in So.
        destruct (Src.Denote.args_to_imms envC op imms) as [im|]; [|destruct G].
        destruct (exec_op cx op im stk stC) as [s' stC'| | |] eqn:E; try destruct G.
        + destruct (exec_op_frame cx op im stk stC s' stC' So E) as [Esc Fr].
          rewrite (with_sc_same stC stK SR), (Fr (s_scratch stK) rest).
          exists (with_sc (s_scratch stK) stC'). cbn [lift]. split; [reflexivity|]. split.
          * split; [apply same_rest_with_sc|]. intros n Hn. cbn [with_sc s_scratch]. rewrite Esc. exact (SC n Hn).
          * apply KeepsP_Keeps. intros n _. reflexivity.
        + destruct (is_err op); destruct G.
    Qed.

    Lemma SimK_stores l : forallb free l = true -> SimK (Src.Denote.den_stores envC l) (den_stores envK l).
    Proof.
      induction l as [|u t IH]; cbn [forallb Src.Denote.den_stores den_stores]; intros Ok; [exact (rel_norm _ _ sim_respects)|].
      apply andb_prop in Ok. intros s stC s' stK R.
      apply sim_bind; [exact (SimK_op O_store [ASlot u] (proj1 Ok) _ _ _ _ R)|exact (IH (proj2 Ok))].
    Qed.

    Lemma SimK_ops ops : forallb (fun i => op_ok (i_op i) (i_args i)) ops = true ->
      SimK (Src.Denote.den_ops envC ops) (den_ops envK ops).
    Proof.
      induction ops as [|i t IH]; cbn [forallb Src.Denote.den_ops den_ops]; intros Ok; [exact (rel_norm _ _ sim_respects)|].
      apply andb_prop in Ok. intros s stC s' stK R.
      apply sim_bind; [exact (SimK_op _ _ (proj1 Ok) _ _ _ _ R)|exact (IH (proj2 Ok))].
    Qed.

    (* the list-shaped evaluators, for a related pair of single-expression evaluators *)
    Variable denC denK : expr -> list value -> mstate -> dout.

    Definition SimDen : Prop :=
      forall e, okb k e = true -> forall stk stC rest stK, Rel stK stC -> Bound cur args stK ->
        SimR k rest stK (denC e stk stC) (denK e (stk ++ rest) stK).

    Hypothesis HS : SimDen.
    Hypothesis B0 : Bound cur args stK0.

    Lemma SimK_den e : okb k e = true -> SimK (denC e) (denK e).
    Proof.
      intros Ok. apply SimK_intro. intros s stC stK R K.
      exact (HS e Ok s stC rest stK R (Bound_keeps k cur args _ _ Hcur K B0)).
    Qed.

    (* the evaluators built on denC / denK alone are instances of Proofs/DenoteRel.v *)
    Definition Re (e e' : expr) : Prop := e' = e /\ okb k e = true.

    Lemma Re_den e e' : Re e e' -> SimK (denC e) (denK e').
    Proof. intros [-> Ok]. exact (SimK_den e Ok). Qed.

    Lemma Re_all es : forallb (okb k) es = true -> Forall2 Re es es.
    Proof.
      induction es as [|e t IH]; intros Ok; [constructor|]. cbn [forallb] in Ok. apply andb_prop in Ok.
      constructor; [split; [reflexivity|exact (proj1 Ok)]|exact (IH (proj2 Ok))].
    Qed.

    Lemma SimK_list es : forallb (okb k) es = true -> SimK (den_list denC es) (den_list denK es).
    Proof.
      intros Ok. exact (den_list_rel Rs _ sim_respects denC denK Re Re_den es es (Re_all es Ok)).
    Qed.

    Lemma SimK_cond arms : forallb (fun a => okb k (fst a) && okb k (snd a)) arms = true ->
      SimK (den_cond denC arms) (den_cond denK arms).
    Proof.
      intros Ok.
      assert (F : Forall2 (fun a a' => Re (fst a) (fst a') /\ Re (snd a) (snd a')) arms arms).
      { induction arms as [|a t IH]; [constructor|]. cbn [forallb] in Ok. apply andb_prop in Ok. destruct Ok as [Oa Ot].
        apply andb_prop in Oa. constructor; [|exact (IH Ot)]. split; (split; [reflexivity|apply Oa]). }
      exact (den_cond_rel Rs _ sim_respects denC denK Re Re_den arms arms F).
    Qed.

    Lemma SimK_asserts conds : forallb (okb k) conds = true -> SimK (den_asserts denC conds) (den_asserts denK conds).
    Proof.
      intros Ok.
      exact (den_asserts_rel Rs _ sim_respects denC denK Re Re_den conds conds (Re_all conds Ok)).
    Qed.

    (* loops: the by-value side ends within nC iterations; the other side may be given more *)
    Lemma SimK_while c body : okb k c = true -> okb k body = true ->
      forall nC nK, (nC <= nK)%nat -> SimK (den_while denC nC c body) (den_while denK nK c body).
    Proof.
      intros Oc Ob.
      exact (den_while_rel Rs _ sim_respects denC denK Re Re_den c c body body (conj eq_refl Oc) (conj eq_refl Ob)).
    Qed.

    Lemma SimK_for c stp body : okb k c = true -> okb k stp = true -> okb k body = true ->
      forall nC nK, (nC <= nK)%nat -> SimK (den_for denC nC c stp body) (den_for denK nK c stp body).
    Proof.
      intros Oc Os Ob.
      exact (den_for_rel Rs _ sim_respects denC denK Re Re_den
               c c stp stp body body (conj eq_refl Oc) (conj eq_refl Os) (conj eq_refl Ob)).
    Qed.

    (* the evaluators that also run operations *)
    Lemma SimK_nary_rest op l : op_ok op [] = true -> forallb (okb k) l = true ->
      SimK (Src.Denote.den_nary_rest envC denC op l) (den_nary_rest envK denK op l).
    Proof.
      intros Oo. induction l as [|e t IH]; cbn [forallb Src.Denote.den_nary_rest den_nary_rest]; intros Ok; [exact (rel_norm _ _ sim_respects)|].
      apply andb_prop in Ok. intros s stC s' stK R.
      apply sim_bind; [exact (SimK_den e (proj1 Ok) _ _ _ _ R)|]. intros s1 stC1 s1' stK1 R1.
      apply sim_bind; [exact (SimK_op op [] Oo _ _ _ _ R1)|exact (IH (proj2 Ok))].
    Qed.

    Lemma SimK_wide_rest l : forallb (okb k) l = true ->
      SimK (Src.Denote.den_wide_rest envC denC l) (den_wide_rest envK denK l).
    Proof.
      induction l as [|e t IH]; cbn [forallb Src.Denote.den_wide_rest den_wide_rest]; intros Ok; [exact (rel_norm _ _ sim_respects)|].
      apply andb_prop in Ok. intros s stC s' stK R.
      apply sim_bind; [exact (SimK_den e (proj1 Ok) _ _ _ _ R)|]. intros s1 stC1 s1' stK1 R1.
      apply sim_bind; [exact (SimK_ops mul_step_ops eq_refl _ _ _ _ R1)|exact (IH (proj2 Ok))].
    Qed.

    Lemma SimK_factors l : forallb (okb k) l = true ->
      SimK (Src.Denote.den_factors envC denC l) (den_factors envK denK l).
    Proof.
      intros Ok s stC s' stK R. destruct l as [|f0 [|f1 t]]; cbn [forallb Src.Denote.den_factors den_factors] in *.
      - exact (rel_norm _ _ sim_respects _ _ _ _ R).
      - apply andb_prop in Ok.
        apply sim_bind; [exact (SimK_ops [I1 O_int 0] eq_refl _ _ _ _ R)|exact (SimK_den f0 (proj1 Ok))].
      - apply andb_prop in Ok. destruct Ok as [O0 Ok]. apply andb_prop in Ok.
        apply sim_bind; [exact (SimK_den f0 O0 _ _ _ _ R)|]. intros s1 stC1 s1' stK1 R1.
        apply sim_bind; [exact (SimK_den f1 (proj1 Ok) _ _ _ _ R1)|]. intros s2 stC2 s2' stK2 R2.
        apply sim_bind; [exact (SimK_ops [I0 O_mulw] eq_refl _ _ _ _ R2)|exact (SimK_wide_rest t (proj2 Ok))].
    Qed.
  End Sim.

  (* the declaration body against the body with its implicit return *)
  Lemma last_app {A B} (d : B) (g : A -> B) l b :
    (fix last (l : list A) : B := match l with [] => d | [x] => g x | _ :: t => last t end) (l ++ [b]) = g b.
  Proof.
    induction l as [|x t IH]; [reflexivity|]. cbn [app].
    destruct (t ++ [b]) as [|y u] eqn:E; [destruct t; discriminate E|]. exact IH.
  Qed.

  Lemma last_has_return l b : has_return (ESeq (l ++ [b])) = has_return b.
  Proof. exact (last_app false has_return l b). Qed.

  Lemma last_type_of l b : type_of (ESeq (l ++ [b])) = type_of b.
  Proof. exact (last_app TNone type_of l b). Qed.

  Lemma denote_return env f e stk st :
    denote env (S f) (EReturn (Some e)) stk st =
    bind (denote env f e stk st)
         (fun s1 st1 => if e_in_sub env then DRet s1 st1 else match s1 with r0 :: _ => DExit r0 st1 | [] => DFail end).
  Proof. reflexivity. Qed.

  Lemma denote_seq env f es stk st : denote env (S f) (ESeq es) stk st = den_list (denote env f) es stk st.
  Proof. reflexivity. Qed.

  Lemma root_decl_eq env r m3 (argv R : list value) st :
    List.length argv = List.length (r_params r) ->
    denote env (S (S (S m3))) (root_ast (decl_body o r)) (rev argv ++ R) st =
    denote env (S (S m3)) (body_with_return r) R (bind_rev env (map snd (rev (r_params r))) (rev argv) st).
  Proof.
    intros Hl. unfold root_ast, body_with_return.
    assert (E1 : has_return (decl_body o r) = has_return (r_body r)) by (unfold decl_body; rewrite Hfp; apply last_has_return).
    assert (E2 : type_of (decl_body o r) = type_of (r_body r)) by (unfold decl_body; rewrite Hfp; apply last_type_of).
    rewrite E1, E2. destruct (has_return (r_body r)).
    - exact (decl_body_binds o env Hfp r (S m3) argv R st Hl).
    - (* a value type: the body becomes the operand of a Return; TNone: a Return is appended *)
      destruct (type_of (r_body r)); rewrite ?denote_return, ?denote_seq; cbn [den_list];
        rewrite (decl_body_binds o env Hfp r m3 argv R st Hl); reflexivity.
  Qed.

  Lemma same_rest_trans a b c : same_rest a b -> same_rest b c -> same_rest a c.
  Proof. intros (A1 & A2 & A3 & A4 & A5 & A6) (B1 & B2 & B3 & B4 & B5 & B6). repeat split; congruence. Qed.

  Lemma same_rest_bind env slots : forall vals st, same_rest st (bind_rev env slots vals st).
  Proof.
    induction slots as [|s t IH]; intros [|v tv] st; try (repeat split; fail).
    apply (same_rest_trans st (set_scratch st (e_asg env s) v)); [repeat split|apply IH].
  Qed.

  Section BindParams.
    Variable cur0 : option routine.
    Variable orc : N -> list value -> mstate -> callres.
    Let env := envk o cx look msel subs cur0 orc.
    Variable r : routine.
    Hypothesis Hr : In r subs.
    Variable argv : list value.
    Hypothesis Hl : List.length argv = List.length (r_params r).

    Definition bound_state (st : mstate) : mstate := bind_rev env (map snd (rev (r_params r))) (rev argv) st.

    Lemma in_bound_slots n : In n (map (e_asg env) (map snd (rev (r_params r)))) -> exists p, In p (r_params r) /\ n = look (snd p).
    Proof.
      intros H. apply in_map_iff in H. destruct H as (s & <- & Hs). apply in_map_iff in Hs. destruct Hs as (p & <- & Hp).
      exists p. split; [apply in_rev; exact Hp|reflexivity].
    Qed.

    Lemma Rel_bind stK stC : Rel stK stC -> Rel (bound_state stK) stC.
    Proof.
      intros [SR SC]. split; [exact (same_rest_trans _ _ _ SR (same_rest_bind env _ _ stK))|].
      intros n Hn. unfold bound_state. rewrite bind_rev_other; [exact (SC n Hn)|].
      intros H. destruct (in_bound_slots n H) as (p & Hp & ->). exact (Hn (params_Pn r p Hr Hp)).
    Qed.

    Lemma Keeps_bind k st : (rank (r_id r) < k)%nat -> Keeps k st (bound_state st).
    Proof.
      intros Lk r' p' Hr' Hk' Hp'. unfold bound_state. apply bind_rev_other.
      intros H. destruct (in_bound_slots _ H) as (p & Hp & E).
      destruct HP as (_ & _ & H3). pose proof (H3 r' r p' p Hr' Hr Hp' Hp E). lia.
    Qed.

    Lemma Bound_bind st : Bound (Some r) argv (bound_state st).
    Proof.
      split; [exact Hl|]. intros i p Hp.
      assert (Li : (i < List.length (r_params r))%nat) by (apply nth_error_Some; rewrite Hp; discriminate).
      destruct (nth_error argv i) as [v|] eqn:Ea; [|apply nth_error_None in Ea; lia].
      f_equal. symmetry. destruct HP as (_ & H2 & _). exact (bound_param env r argv st i p v Hl (H2 r Hr) Hp Ea).
    Qed.
  End BindParams.

  Lemma forallb_rev {A} (f : A -> bool) l : forallb f l = true -> forallb f (rev l) = true.
  Proof.
    intros H. rewrite forallb_forall in *. intros x Hx. apply H. apply in_rev. exact Hx.
  Qed.

  Lemma find_routine_in g r : find_routine subs g = Some r -> In r subs.
  Proof. unfold find_routine. intros H. exact (proj1 (find_some _ _ H)). Qed.

  Definition callK (n : nat) := call_k o cx look msel subs idW n.
  Definition envK (cur : option routine) (n : nat) : denv := envk o cx look msel subs cur (callK n).

  Theorem by_value_sim : forall f k cur args, cur_ok k cur ->
    forall n f', (f + 3 <= n)%nat -> (f <= f')%nat ->
    SimDen k cur args (denote_c ceC f cur args) (denote (envK cur n) f').
  Proof.
    induction f as [|f0 IH]; intros k cur args Hcur n f' Hn Hf e Ok stk stC rest stK0 R0 B.
    { apply sim_bad. intros []. }
    destruct f' as [|f0']; [lia|].
    assert (HS : SimDen k cur args (denote_c ceC f0 cur args) (denote (envK cur n) f0')).
    { apply IH; [exact Hcur|lia|lia]. }
    set (denC := denote_c ceC f0 cur args) in *. set (denK := denote (envK cur n) f0') in *.
    (* from here on: every state is one reached from stK0 *)
    pose proof (SimK_den k rest stK0 cur args Hcur denC denK HS B) as Den.
    pose proof (SimK_list k rest stK0 cur args Hcur denC denK HS B) as Lst.
    pose proof (SimK_factors k rest stK0 cur args Hcur (callK n) denC denK HS B) as Fac.
    pose proof (SimK_op k rest stK0 cur (callK n)) as Op.
    apply (SimK_start k rest stK0 (denote_c ceC (S f0) cur args e) (denote (envK cur n) (S f0') e)); [|exact R0].
    clear stk stC R0. intros stk stC stk' stK R.
    destruct e; cbn [denote_c denote]; fold denC; fold denK; change (ce_env ceC) with envC; cbn [okb] in Ok.
    - (* EOp *)
      apply andb_prop in Ok. apply sim_bind; [exact (Lst _ (proj2 Ok) _ _ _ _ R)|exact (Op _ _ (proj1 Ok))].
    - (* ENary *)
      apply andb_prop in Ok. destruct Ok as [Oo Oa]. destruct args0 as [|a1 ta]; [exact (rel_norm _ _ (sim_respects k rest stK0) _ _ _ _ R)|].
      cbn [forallb] in Oa. apply andb_prop in Oa.
      apply sim_bind; [exact (Den a1 (proj1 Oa) _ _ _ _ R)|].
      exact (SimK_nary_rest k rest stK0 cur args Hcur (callK n) denC denK HS B o0 ta Oo (proj2 Oa)).
    - (* ESeq *)
      exact (Lst _ Ok _ _ _ _ R).
    - (* EIf *)
      rewrite !andb_true_iff in Ok. destruct Ok as [[Oc Ot] Oel].
      apply sim_branch; [exact (Den e1 Oc _ _ _ _ R)|exact (Den e2 Ot)|].
      destruct el as [x|]; [exact (Den x Oel)|exact (rel_norm _ _ (sim_respects k rest stK0))].
    - (* ECond *)
      exact (SimK_cond k rest stK0 cur args Hcur denC denK HS B _ Ok _ _ _ _ R).
    - (* EWhile *)
      apply andb_prop in Ok.
      exact (SimK_while k rest stK0 cur args Hcur denC denK HS B e1 e2 (proj1 Ok) (proj2 Ok) f0 f0' ltac:(lia) _ _ _ _ R).
    - (* EFor *)
      rewrite !andb_true_iff in Ok. destruct Ok as [[[Oi Oc] Os] Ob].
      apply sim_hdr; [exact (Den e1 Oi _ _ _ _ R)|].
      exact (SimK_for k rest stK0 cur args Hcur denC denK HS B e2 e3 e4 Oc Os Ob f0 f0' ltac:(lia)).
    - (* EBreak *)
      exact (rel_brk _ _ (sim_respects k rest stK0) _ _ _ _ R).
    - (* EContinue *)
      exact (rel_cont _ _ (sim_respects k rest stK0) _ _ _ _ R).
    - (* EAssert *)
      exact (SimK_asserts k rest stK0 cur args Hcur denC denK HS B _ Ok _ _ _ _ R).
    - (* EReturn: a subroutine hands its stack back, the main routine ends the program *)
      destruct v as [x|].
      + apply sim_bind; [exact (Den x Ok _ _ _ _ R)|]. destruct cur; [apply SimK_ret|apply SimK_exit].
      + destruct cur; [exact (SimK_ret _ _ _ _ _ _ _ R)|exact (SimK_exit _ _ _ _ _ _ _ R)].
    - (* EExit *)
      apply sim_bind; [exact (Den e Ok _ _ _ _ R)|apply SimK_exit].
    - (* EMulti *)
      rewrite !andb_true_iff in Ok. destruct Ok as [[Op' Oa] Oo].
      apply sim_bind; [exact (Lst _ Oa _ _ _ _ R)|]. intros s1 stC1 s1' stK1 R1.
      apply sim_bind; [exact (Op _ _ Op' _ _ _ _ R1)|].
      exact (SimK_stores k rest stK0 cur (callK n) (rev outs) (forallb_rev _ _ Oo)).
    - (* ECall *)
      apply andb_prop in Ok. destruct Ok as [Oa Og].
      apply sim_bind; [exact (Lst _ Oa _ _ _ _ R)|].
      apply SimK_intro. intros s1 stC1 stK1 R1 K1.
      change (Src.Denote.e_subs envC) with subs.
      destruct (find_routine subs sub) as [r|] eqn:Fr; [|apply sim_bad; intros []].
      apply Nat.ltb_lt in Og. pose proof (find_routine_in sub r Fr) as Hr.
      set (np := List.length (r_params r)) in *.
      destruct (Nat.ltb_spec (List.length s1) np) as [Ls|Ls]; [apply sim_bad; intros []|].
      set (argv := rev (firstn np s1)). set (rest1 := skipn np s1).
      assert (Hl : List.length argv = np) by (unfold argv; rewrite rev_length, firstn_length; lia).
      assert (Es1 : s1 ++ rest = rev argv ++ (rest1 ++ rest)).
      { unfold argv, rest1. rewrite rev_involutive, app_assoc, firstn_skipn. reflexivity. }
      (* the code side: the call instruction, the declaration body, the body *)
      destruct n as [|m]; [lia|]. destruct m as [|[|[|m3]]]; try lia.
      set (m := S (S (S m3))) in *.
      rewrite do_op_call. cbn [envK envk e_call]. unfold callK at 1. cbn [call_k]. rewrite Fr.
      unfold idW at 1. fold (callK m). fold (envK (Some r) m).
      rewrite Es1. unfold m at 2. rewrite (root_decl_eq (envK (Some r) m) r m3 argv (rest1 ++ rest) stK1 Hl).
      change (bind_rev _ _ _ stK1) with (bound_state (Some r) (callK m) r argv stK1).
      (* the induction hypothesis for the callee *)
      assert (HSr : SimDen (rank (r_id r)) (Some r) argv (denote_c ceC f0 (Some r) argv) (denote (envK (Some r) m) (S (S m3)))).
      { apply IH; [split; [exact Hr|lia]|unfold m; lia|unfold m in *; lia]. }
      pose proof (HSr (body_with_return r) (HB r Hr) [] stC1 (rest1 ++ rest)
                      (bound_state (Some r) (callK m) r argv stK1)
                      (Rel_bind (Some r) (callK m) r Hr argv stK1 stC1 R1)
                      (Bound_bind (Some r) (callK m) r Hr argv Hl stK1)) as HC.
      cbn [app] in HC.
      pose proof (Keeps_bind (Some r) (callK m) r Hr argv Hl k stK1 Og) as KB.
      change (ce_locals ceC (r_id r)) with (@nil N). cbn [restore_slots fold_left].
      destruct (denote_c ceC f0 (Some r) argv (body_with_return r) [] stC1) as [| | |s' st'|v st'| | | |] eqn:EC;
        try (apply sim_bad; intros []; fail).
      all: destruct (HC Logic.I) as (stK' & -> & Rb & Kb); cbn [lift of_callres]; cbn [RelO st_of] in Rb;
        pose proof (Keeps_trans _ _ _ _ KB (Keeps_mono _ _ _ _ (Nat.lt_le_incl _ _ Og) Kb)) as KK.
      + (* the callee returned: its result, if any, on top of what lay below the arguments *)
        pose proof (HD r f0 argv stC1 s' st' Hr EC) as Disc.
        destruct (r_ret r); [destruct Disc as (v & ->)..|subst s'].
        all: intros _; exists stK'; cbn [lift app]; split; [reflexivity|]; split; [exact Rb|exact KK].
      + (* the callee ended the program *)
        intros _. exists stK'. cbn [lift]. split; [reflexivity|]. split; [exact Rb|exact KK].
    - (* EWide *)
      apply andb_prop in Ok.
      apply sim_bind; [exact (Fac ns (proj1 Ok) _ _ _ _ R)|]. intros s1 stC1 s1' stK1 R1.
      apply sim_bind; [exact (Fac ds (proj2 Ok) _ _ _ _ R1)|exact (SimK_ops k rest stK0 cur (callK n) combine_ops eq_refl)].
    - (* EParam *)
      destruct R as (-> & R & K).
      destruct (nth_N args i) as [v|] eqn:En; [|apply sim_bad; intros []].
      unfold nth_N in En. destruct (N.ltb i (N.of_nat (List.length args))); [|discriminate En].
      destruct cur as [rc|].
      + destruct (Bound_keeps k (Some rc) args _ _ Hcur K B) as [Bl Bn].
        assert (Li : (N.to_nat i < List.length (r_params rc))%nat) by (rewrite <- Bl; apply nth_error_Some; rewrite En; discriminate).
        destruct (nth_error (r_params rc) (N.to_nat i)) as [[b slot]|] eqn:Ep; [|apply nth_error_None in Ep; lia].
        pose proof (Bn _ _ Ep) as Ev. rewrite En in Ev. injection Ev as Ev. cbn [snd] in Ev.
        intros _. exists stK. split; [|split; [exact R|exact K]].
        cbn [envK envk e_param]. unfold param_instr. rewrite Ep, Hfp. cbn [andb i_op i_args].
        rewrite do_op_load, Ev. reflexivity.
      + cbn [Bound] in B. subst args. destruct (N.to_nat i); discriminate En.
  Qed.
End ByValue.

Lemma Rel_refl look PL st : Rel look PL st st.
Proof. split; [repeat split|]. intros n _. reflexivity. Qed.

Theorem by_value_main o (Hfp : o_use_fp o = false) cx look msel subs rank PL :
  params_ok look subs rank PL -> bodies_ok look subs rank PL -> disciplined cx look msel subs ->
  forall k e, okb look subs rank PL k e = true ->
  forall f st v stC', denote_c (ceC cx look msel subs) f None [] e [] st = DExit v stC' ->
  forall n f', (f + 3 <= n)%nat -> (f <= f')%nat ->
  exists st', denote_k o cx look msel subs idW n None f' e [] st = DExit v st' /\ Rel look PL st' stC'.
Proof.
  intros HP HB HD k e Ok f st v stC' HC n f' Hn Hf.
  pose proof (by_value_sim o Hfp cx look msel subs rank PL HP HB HD f k None [] Logic.I n f' Hn Hf e Ok [] st [] st
                (Rel_refl look PL st) eq_refl) as S.
  rewrite HC in S. destruct (S Logic.I) as (st' & E & R & _). exists st'. split; [exact E|exact R].
Qed.
