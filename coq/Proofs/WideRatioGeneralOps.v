(* Proofs/WideRatioGeneralOps.v — C16 for arbitrary factors: the glue operations of
   WideRatio (int 0, mulw, the 8-op multiply step, the 6-op combine) executed by the SOURCE
   semantics ([den_ops] / [do_op], Src/Denote.v) are exactly their pure stack semantics
   ([run_pure], Comp/WideRatio.v): they never touch the state, and they either succeed with the
   [run_pure] stack or FAIL (never "unsupported", never an exit).  This is what lets the arithmetic
   lemmas of Proofs/WideRatioProof.v (stated on [run_pure]) be reused for [denote]. *)
From Coq Require Import List NArith Lia Bool.
From PV Require Import Base.Bytes Base.U64 AVM.Syntax AVM.Ops AVM.Machine Src.Expr Src.Denote
  Comp.WideRatio Proofs.WideRatioProof.
Import ListNotations.
Local Open Scope N_scope.

(* outcome of a pure op list lifted to the evaluator's outcome type *)
Definition lift (r : option (list value)) (st : mstate) : dout :=
  match r with Some s => DNorm s st | None => DFail end.

Definition is_aint (a : arg) : bool := match a with AInt _ => true | _ => false end.

(* the opcodes WideRatio itself emits (besides [int]) *)
Definition glue_op (o : opc) : bool :=
  match o with
  | O_uncover | O_dig | O_mul | O_cover | O_mulw | O_add | O_swap
  | O_divmodw | O_pop | O_logic_not | O_assert_ => true
  | _ => false
  end.

(* integer immediates are passed to the machine unchanged, and are no variable access *)
Lemma aint_args env o args : forallb is_aint args = true ->
  slot_access o args = None /\
  exists im, args_to_imms env o args = Some im /\ imms_to_args im = args.
Proof.
  intros H. split.
  - destruct args as [|[] [|]]; try reflexivity. discriminate H.
  - induction args as [|[n| | | |] t IH]; try discriminate H; [exists []; auto|].
    destruct (IH H) as (im & E1 & E2). exists (IInt n :: im).
    cbn [args_to_imms arg_to_imm imms_to_args]. rewrite E1, E2. auto.
Qed.

(* a glue opcode is a pure opcode on EVERY stack: wrong shape / wrong type panics *)
Lemma glue_not_pnot o args s : glue_op o = true -> exec_pure o args s <> PNot.
Proof.
  intros G E. apply diff_true_false. rewrite <- G. clear G. revert E.
  destruct o; try reflexivity; cbn [exec_pure]; unfold oki, okbool.
  all: repeat match goal with |- context [match ?x with _ => _ end] => destruct x end; discriminate.
Qed.

(* an operation with integer immediates that is pure on this stack: the source semantics runs it
   as [exec_pure] does and leaves the state alone *)
Lemma do_op_pure env o args s st : forallb is_aint args = true -> exec_pure o args s <> PNot ->
  do_op env o args s st = match exec_pure o args s with POk s' => DNorm s' st | _ => DFail end.
Proof.
  intros Ha NP. destruct (aint_args env o args Ha) as (Sl & im & E1 & E2).
  unfold do_op. rewrite Sl, E1. unfold exec_op. rewrite E2.
  destruct (exec_pure o args s); [reflexivity|reflexivity|contradiction].
Qed.

Lemma do_op_int env n s st :
  do_op env O_int [AInt n] s st = if n <? U64 then DNorm (VI n :: s) st else DFail.
Proof.
  rewrite do_op_pure; cbn [exec_pure]; unfold oki, fits64.
  all: destruct (n <? U64); (reflexivity || discriminate).
Qed.

Lemma den_int0 env s st : den_ops env [I1 O_int 0] s st = DNorm (VI 0 :: s) st.
Proof. cbn [den_ops I1 i_op i_args]. rewrite do_op_int. reflexivity. Qed.

Definition glue_instr (i : instr) : bool := forallb is_aint (i_args i) && glue_op (i_op i).

Lemma den_ops_glue env ops : forallb glue_instr ops = true ->
  forall s st, den_ops env ops s st = lift (run_pure ops s) st.
Proof.
  induction ops as [|i t IH]; intros H s st; cbn [den_ops run_pure lift]; [reflexivity|].
  cbn [forallb] in H. apply andb_true_iff in H as [Hi Ht]. apply andb_true_iff in Hi as [Ha Ho].
  rewrite do_op_pure by (exact Ha || exact (glue_not_pnot _ _ _ Ho)).
  destruct (exec_pure (i_op i) (i_args i) s); cbn [bind]; try reflexivity.
  apply IH; exact Ht.
Qed.

Lemma lift_app a b s st :
  lift (run_pure (a ++ b) s) st = bind (lift (run_pure a s) st) (fun s1 st1 => lift (run_pure b s1) st1).
Proof. rewrite run_pure_app. destruct (run_pure a s); reflexivity. Qed.

(* the glue never produces anything but a normal outcome or a failure *)
Lemma lift_shape r st : match lift r st with DNorm _ st' => st' = st | DFail => True | _ => False end.
Proof. destruct r; cbn [lift]; auto. Qed.
