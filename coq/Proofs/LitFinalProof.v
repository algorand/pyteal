(* Proofs/LitFinalProof.v — C13: every literal constructor, end to end: the model's line, read by
   the assembler model, is the instruction that pushes the literal's specified value. *)
From Coq Require Import List Arith NArith ZArith Ascii String Bool Lia.
From PV Require Import Base.Bytes AVM.Syntax AVM.Machine AVM.Parse Lit.Escape Lit.BaseN Lit.RFC4648 Lit.Spec
  Proofs.TextFacts Proofs.LitEscapeProof Proofs.LitLineProof Proofs.LitBaseNProof Proofs.LitIntProof.
Import ListNotations.
Local Open Scope string_scope.
Local Open Scope list_scope.

Definition reads_as (msel : list (string * bytes)) (line : string) (b : bytes) : Prop :=
  parse_stmt msel (tokens_of_line line) = push_bytes b.

Lemma bytes_utf8_ok msel u : exists line, bytes_line (BUtf8 u) = Some line /\ reads_as msel line u.
Proof. exists (byte_line u). split; [reflexivity | apply escape_roundtrip_stmt]. Qed.

Lemma hex_lower_is_hex b : forallb is_hex (hex_lower b) = true.
Proof.
  apply valid16_chars. rewrite valid16_spec, hex_lower_decodes. reflexivity.
Qed.

Lemma byte_reads msel payload b :
  tokens_of_line ("byte " ++ payload) = ["byte"; payload] -> parse_bytes_arg [payload] = Some (b, []) ->
  reads_as msel ("byte " ++ payload) b.
Proof. unfold reads_as. intros -> P. now rewrite parse_stmt_byte, P. Qed.

Lemma byte_hex_reads msel (h : string) b :
  forallb is_hex (list_ascii_of_string h) = true ->
  b16_decode (list_ascii_of_string h) = Some b ->
  reads_as msel ("byte " ++ "0x" ++ h)%string b.
Proof.
  intros Hc Hd. apply byte_reads; [now apply tokens_hex|]. now rewrite parse_bytes_arg_0x, b16_is_asm, Hd.
Qed.

Lemma bytes_raw_ok msel b : exists line, bytes_line (BRaw b) = Some line /\ reads_as msel line b.
Proof.
  eexists. split; [reflexivity|]. apply byte_hex_reads; rewrite los_sol.
  - apply hex_lower_is_hex.
  - apply hex_lower_decodes.
Qed.

(* Bytes(base, text): the validator accepts exactly the texts the specification decodes, and what
   is then printed reads back as the value *)
Lemma bytes_base_ok msel (valid : bool) (dec : option bytes) payload :
  valid = is_some dec -> (forall b, dec = Some b -> reads_as msel ("byte " ++ payload) b) ->
  match dec with
  | Some b => exists line, option_map (append "byte ") (if valid then Some payload else None) = Some line /\
                           reads_as msel line b
  | None => option_map (append "byte ") (if valid then Some payload else None) = None
  end.
Proof. intros -> R. destruct dec as [b|]; [|reflexivity]. eexists. split; [reflexivity | now apply R]. Qed.

Lemma bytes_base16_ok msel v :
  match b16_decode (list_ascii_of_string (drop_0x v)) with
  | Some b => exists line, bytes_line (BBase "base16" v) = Some line /\ reads_as msel line b
  | None => bytes_line (BBase "base16" v) = None
  end.
Proof.
  unfold bytes_line, bytes_payload, valid_base16. cbn [String.eqb Ascii.eqb Bool.eqb]. rewrite strip0x_spec.
  apply bytes_base_ok; [apply valid16_spec|]. intros b D. apply byte_hex_reads; [|exact D].
  apply valid16_chars. now rewrite valid16_spec, D.
Qed.

Lemma bytes_base32_ok msel v :
  match b32_decode (list_ascii_of_string v) with
  | Some b => exists line, bytes_line (BBase "base32" v) = Some line /\ reads_as msel line b
  | None => bytes_line (BBase "base32" v) = None
  end.
Proof.
  unfold bytes_line, bytes_payload, valid_base32. cbn [String.eqb Ascii.eqb Bool.eqb].
  apply bytes_base_ok; [apply valid32_spec|]. intros b D. apply byte_reads.
  - apply tokens_base32, valid32_chars. now rewrite valid32_spec, D.
  - now rewrite parse_bytes_arg_base32, <- (sol_los v), (b32_asm_spec _ _ D).
Qed.

Lemma bytes_base64_ok msel v :
  match b64_decode (list_ascii_of_string v) with
  | Some b => exists line, bytes_line (BBase "base64" v) = Some line /\ reads_as msel line b
  | None => bytes_line (BBase "base64" v) = None
  end.
Proof.
  unfold bytes_line, bytes_payload, valid_base64. cbn [String.eqb Ascii.eqb Bool.eqb].
  apply bytes_base_ok; [apply valid64_spec|]. intros b D. apply byte_reads.
  - apply tokens_base64, valid64_chars. now rewrite valid64_spec, D.
  - now rewrite parse_bytes_arg_base64, <- (sol_los v), (b64_asm_spec _ _ D).
Qed.

(* all forms of Bytes at once, against the specification [bytes_value] *)
Lemma bytes_literal_correct msel a :
  match bytes_value a with
  | Some b => exists line, bytes_line a = Some line /\ reads_as msel line b
  | None => bytes_line a = None
  end.
Proof.
  destruct a as [u | b | base v]; cbn [bytes_value].
  - apply bytes_utf8_ok.
  - apply bytes_raw_ok.
  - destruct (String.eqb_spec base "base16") as [->|N16]; [apply bytes_base16_ok|].
    destruct (String.eqb_spec base "base32") as [->|N32]; [apply bytes_base32_ok|].
    destruct (String.eqb_spec base "base64") as [->|N64]; [apply bytes_base64_ok|].
    unfold bytes_line, bytes_payload.
    apply String.eqb_neq in N16, N32, N64. now rewrite N16, N32, N64.
Qed.

Lemma int_literal_correct msel z :
  match int_value z with
  | Some n => exists line, int_line z = Some line /\ parse_stmt msel (tokens_of_line line) = push_int n
  | None => int_line z = None
  end.
Proof.
  unfold int_value, int_line.
  destruct ((0 <=? z) && (z <? 18446744073709551616))%Z eqn:E; [|reflexivity].
  eexists. split; [reflexivity|]. apply int_line_roundtrip.
  apply andb_true_iff in E as [E1 E2]. apply Z.leb_le in E1. apply Z.ltb_lt in E2. lia.
Qed.

Lemma q32_len a b c d e f g h : List.length (q32 a b c d e f g h) = 5%nat.
Proof. reflexivity. Qed.

(* a text of 8q+2 characters decodes to 5q+1 bytes *)
Lemma b32_len_2 s : forall q b, List.length s = (8 * q + 2)%nat -> b32_decode s = Some b ->
  List.length b = (5 * q + 1)%nat.
Proof.
  induction s as [s L | g l G IH] using (chunk_ind 7); intros q b HL H.
  - assert (q = 0%nat) by lia. subst q.
    destruct s as [|a [|a' [|x s]]]; try discriminate HL. cbn [b32_decode b32_tail] in H.
    rewrite g32_2_vals in H. destruct (digit_vals v32 [a; a']) as [vals|] eqn:D; [|discriminate H].
    injection H as <-. now rewrite decode_bits_length, (digit_vals_length _ _ _ D).
  - rewrite app_length, G in HL. destruct q as [|q]; [lia|]. rewrite b32_decode_group in H by exact G.
    destruct (digit_vals v32 g) as [vals|] eqn:D.
    + destruct (b32_decode l) as [b'|] eqn:El; [|discriminate H]. injection H as <-.
      rewrite app_length, (IH q b'), decode_bits_length, (digit_vals_length _ _ _ D), G by (lia || reflexivity).
      cbn. lia.
    + destruct g as [|c1 [|c2 [|c3 [|c4 [|c5 [|c6 [|c7 [|c8 [|]]]]]]]]]; try discriminate G.
      destruct l; [cbn in HL; lia | discriminate H].
Qed.

Lemma addr_literal_reads msel s line :
  addr_line s = Some line ->
  exists b, b32_decode (list_ascii_of_string s) = Some b /\ List.length b = 36%nat /\
            parse_stmt msel (tokens_of_line line) = push_addr (firstn 32 b).
Proof.
  unfold addr_line, valid_address. destruct (String.length s =? 58)%nat eqn:L; [|discriminate].
  cbn [andb]. unfold valid_base32. destruct (valid_base32_l (list_ascii_of_string s)) eqn:V; [|discriminate].
  intros [= <-]. pose proof V as V'. rewrite valid32_spec in V'.
  destruct (b32_decode (list_ascii_of_string s)) as [b|] eqn:D; [|discriminate V'].
  apply Nat.eqb_eq in L. exists b. split; [reflexivity|]. split.
  - apply (b32_len_2 (list_ascii_of_string s) 7 b); [now rewrite los_length | exact D].
  - change (String "a" (String "d" (String "d" (String "r" (String " " s))))) with ("addr " ++ s)%string.
    rewrite tokens_addr.
    + rewrite parse_stmt_addr, L. cbn [Nat.eqb].
      rewrite <- (sol_los s), (b32_asm_spec _ _ D). reflexivity.
    + intros ->. discriminate L.
    + now apply valid32_chars.
Qed.

Lemma addr_rejects_shape s :
  addr_line s = None <-> (String.length s <> 58%nat \/ b32_decode (list_ascii_of_string s) = None).
Proof.
  unfold addr_line, valid_address, valid_base32. rewrite valid32_spec.
  destruct (Nat.eqb_spec (String.length s) 58) as [L|L]; cbn [andb].
  - destruct (b32_decode (list_ascii_of_string s)); cbn [is_some]; split; intros H; try discriminate H; try reflexivity.
    + destruct H as [H|H]; [now elim H | discriminate H].
    + now right.
  - split; [now left | reflexivity].
Qed.

(* The checksum is never looked at: whatever the hash function is, some accepted address has a
   checksum different from the hash of its key (two accepted texts with the same key and
   different checksums). *)
Definition addr_w1 : string := "AAAAAAAAAAAAAAAAAAAAAAAAAAAAAAAAAAAAAAAAAAAAAAAAAAAAAAAAAA".
Definition addr_w2 : string := "AAAAAAAAAAAAAAAAAAAAAAAAAAAAAAAAAAAAAAAAAAAAAAAAAAAAAAAAAE".

Lemma addr_checksum_unchecked (ck : bytes -> bytes) :
  exists s b, addr_line s <> None /\ b32_decode (list_ascii_of_string s) = Some b /\
              skipn 32 b <> ck (firstn 32 b).
Proof.
  assert (D1 : exists b1, b32_decode (list_ascii_of_string addr_w1) = Some b1 /\ firstn 32 b1 = repeat zero 32 /\
                          skipn 32 b1 = [zero; zero; zero; zero]) by (eexists; vm_compute; repeat split; reflexivity).
  assert (D2 : exists b2, b32_decode (list_ascii_of_string addr_w2) = Some b2 /\ firstn 32 b2 = repeat zero 32 /\
                          skipn 32 b2 = [zero; zero; zero; one]) by (eexists; vm_compute; repeat split; reflexivity).
  destruct D1 as (b1 & E1 & K1 & C1). destruct D2 as (b2 & E2 & K2 & C2).
  destruct (list_eq_dec Ascii.ascii_dec (ck (repeat zero 32)) [zero; zero; zero; zero]) as [E|E].
  - exists addr_w2, b2. split; [vm_compute; discriminate|]. split; [exact E2|].
    rewrite K2, C2, E. discriminate.
  - exists addr_w1, b1. split; [vm_compute; discriminate|]. split; [exact E1|].
    rewrite K1, C1. congruence.
Qed.

(* consequently the constructor does not implement the specification of an address *)
Lemma addr_spec_refuted (ck : bytes -> bytes) :
  exists s, addr_value ck s = None /\ addr_line s <> None.
Proof.
  destruct (addr_checksum_unchecked ck) as (s & b & A & D & C).
  exists s. split; [|exact A]. unfold addr_value. rewrite D.
  destruct (String.length s =? 58)%nat; [|reflexivity].
  destruct (bytes_eqb (skipn 32 b) (ck (firstn 32 b))) eqn:E; [|reflexivity].
  exfalso. apply C. clear - E. revert E. generalize (ck (firstn 32 b)). generalize (skipn 32 b).
  induction l as [|x l IH]; intros [|y l'] E; try discriminate E; [reflexivity|].
  cbn in E. apply andb_true_iff in E as [E1 E2]. apply Ascii.eqb_eq in E1. subst. f_equal. now apply IH.
Qed.

Definition sigc (c : ascii) : bool := negb (Ascii.eqb c """") && negb (Ascii.eqb c "\").

Lemma sigc_run l : forallb sigc l = true -> str_run l false = true.
Proof.
  induction l as [|c l IH]; intros H; [reflexivity|].
  cbn [forallb] in H. apply andb_true_iff in H as [Hc Hl]. unfold sigc in Hc.
  apply andb_true_iff in Hc as [H1 H2]. apply negb_true_iff in H2.
  cbn [str_run]. now rewrite H2, H1, IH.
Qed.

Lemma parse_body_plain l : forallb sigc l = true -> parse_str_body (l ++ [dquote]) = Some l.
Proof.
  induction l as [|c l IH]; intros H; [reflexivity|].
  cbn [forallb] in H. apply andb_true_iff in H as [Hc Hl]. unfold sigc in Hc.
  apply andb_true_iff in Hc as [H1 H2]. apply negb_true_iff in H1, H2.
  cbn [app]. destruct (l ++ [dquote]) as [|x t] eqn:E; [now destruct l|].
  now rewrite parse_str_body_plain, IH by assumption.
Qed.

Lemma method_arg_list s : list_ascii_of_string (method_arg s) = dquote :: list_ascii_of_string s ++ [dquote].
Proof. unfold method_arg. cbn [list_ascii_of_string]. now rewrite los_app. Qed.

(* a signature without double quote and backslash is one token between its quotes *)
Lemma method_tokens s : forallb sigc (list_ascii_of_string s) = true ->
  tokens_of_line ("method " ++ method_arg s) = ["method"; method_arg s].
Proof.
  intros H. unfold tokens_of_line. rewrite los_app, method_arg_list.
  assert (P : forall rest acc, tok_line (list_ascii_of_string "method " ++ rest) [] false false false acc =
                               tok_line rest [] false false false ("method" :: acc)) by reflexivity.
  rewrite P. cbn [tok_line]. change (is_space dquote) with false. change (Ascii.eqb dquote """") with true. cbn iota.
  rewrite (str_run_keeps false _ (sigc_run _ H)). cbn [tok_line].
  change (Ascii.eqb dquote "\") with false. change (Ascii.eqb dquote """") with true. cbn iota.
  cbn [rev app]. f_equal. f_equal. unfold str_of. cbn [rev]. rewrite rev_app_distr, rev_involutive. cbn [rev app].
  rewrite <- method_arg_list. apply sol_los.
Qed.

Lemma method_literal_parses s : forallb sigc (list_ascii_of_string s) = true ->
  parse_string_literal (method_arg s) = Some (list_ascii_of_string s).
Proof.
  intros H. unfold parse_string_literal. rewrite method_arg_list.
  change (Ascii.eqb dquote """") with true. cbn iota. now apply parse_body_plain.
Qed.

(* ... and reaches the assembler as written *)
Lemma method_plain_ok msel s sel :
  forallb sigc (list_ascii_of_string s) = true ->
  alookup String.eqb s msel = Some sel ->
  parse_stmt msel (tokens_of_line ("method " ++ method_arg s)) = push_method sel.
Proof.
  intros H L. rewrite method_tokens, parse_stmt_method, method_literal_parses by exact H.
  unfold string_of_bytes. now rewrite sol_los, L.
Qed.

(* what the constructor accepts (after /repo ae4cf37) *)
Lemma method_line_accepts s line : method_line s = Some line ->
  line = ("method " ++ method_arg s)%string /\ s <> ""%string /\
  forallb sigc (list_ascii_of_string s) = true /\ no_nl (list_ascii_of_string s) = true.
Proof.
  unfold method_line. destruct s as [|c s]; [discriminate|].
  destruct (existsb sig_bad (list_ascii_of_string (String c s))) eqn:E; [discriminate|].
  intros [= <-]. split; [reflexivity|]. split; [discriminate|].
  assert (G1 : forall x, sig_bad x = false -> sigc x = true /\ negb (Ascii.eqb x (chr 10)) = true).
  { intros x Hx. unfold sig_bad in Hx. repeat (apply orb_false_iff in Hx as [Hx ?]).
    unfold sigc. change (chr 10) with "010"%char. unfold dquote, backslash in *.
    repeat match goal with X : Ascii.eqb x _ = false |- _ => rewrite X; clear X end. split; reflexivity. }
  assert (G : forall l, existsb sig_bad l = false -> forallb sigc l = true /\ no_nl l = true).
  { induction l as [|x l IH]; [split; reflexivity|]. cbn [existsb]. intros H.
    apply orb_false_iff in H as [Hx Hl]. destruct (IH Hl) as [I1 I2]. destruct (G1 x Hx) as [J1 J2].
    unfold no_nl in *. cbn [forallb]. now rewrite I1, I2, J1, J2. }
  now apply G.
Qed.

Lemma method_line_rejects s :
  method_line s = None <-> (s = ""%string \/ existsb sig_bad (list_ascii_of_string s) = true).
Proof.
  unfold method_line. destruct s as [|c s]; [split; [now left | reflexivity]|].
  destruct (existsb sig_bad (list_ascii_of_string (String c s))); split; intros H; try reflexivity;
    try discriminate H; [now right | destruct H as [H|H]; discriminate H].
Qed.

(* FULL statement: every accepted signature text is emitted as a line that the assembler reads as
   exactly one `method` instruction for exactly that text *)
Lemma method_literal_correct msel s line :
  method_line s = Some line ->
  tokens_of_line line = ["method"; method_arg s] /\
  parse_string_literal (method_arg s) = Some (list_ascii_of_string s) /\
  forall sel, alookup String.eqb s msel = Some sel ->
              parse_stmt msel (tokens_of_line line) = push_method sel.
Proof.
  intros H. destruct (method_line_accepts s line H) as (-> & _ & Hc & _).
  split; [now apply method_tokens|]. split; [now apply method_literal_parses|].
  intros sel L. now apply method_plain_ok.
Qed.

Lemma method_in_program msel (pre post s line : string) sel :
  method_line s = Some line -> alookup String.eqb s msel = Some sel ->
  statements_of_text msel (pre ++ nl ++ line ++ nl ++ post)%string =
  match statements_of_text msel pre, statements_of_text msel post with
  | Some x, Some y => Some (x ++ SInstr (mkP O_method_signature [IBytes sel]) :: y)
  | _, _ => None
  end.
Proof.
  intros H L. destruct (method_literal_correct msel s line H) as (T & _ & R).
  destruct (method_line_accepts s line H) as (E & _ & _ & NL).
  apply (program_with_line msel pre post line ["method"; method_arg s]);
    [| exact T | reflexivity | rewrite <- T; now apply R].
  subst line. apply no_lf_forallb. rewrite los_app, method_arg_list. unfold no_nl in NL.
  rewrite forallb_app. cbn [forallb]. now rewrite forallb_app, NL.
Qed.

(* the texts that broke the line before /repo ae4cf37 are rejected at construction *)
Definition sig_w1 : string := "a""b c()void".
Definition sig_w2 : string := "a"" ; int 1 ; byte ""b".
Lemma method_former_witnesses_rejected : method_line sig_w1 = None /\ method_line sig_w2 = None.
Proof. split; reflexivity. Qed.

Lemma method_rejects_empty : method_line "" = None.
Proof. reflexivity. Qed.

(* the statements in the form the property file quotes *)
Lemma escape_roundtrip b :
  tokens_of_line (byte_line b) = ["byte"; escape_str b] /\ parse_string_literal (escape_str b) = Some b.
Proof. split; [apply escape_tokens | apply parse_string_literal_escape]. Qed.

Lemma hex_roundtrip b : decode_hex0x ("0x" ++ string_of_list_ascii (hex_lower b)) = Some b.
Proof.
  rewrite decode_hex0x_0x, los_sol, b16_is_asm. apply hex_lower_decodes.
Qed.

Lemma base16_valid_decodes (s : string) :
  if valid_base16 s
  then exists b, b16_decode (list_ascii_of_string s) = Some b /\ decode_hex0x ("0x" ++ s) = Some b
  else b16_decode (list_ascii_of_string s) = None.
Proof.
  unfold valid_base16. rewrite valid16_spec.
  destruct (b16_decode (list_ascii_of_string s)) as [b|] eqn:D; cbn [is_some]; [|reflexivity].
  exists b. split; [reflexivity|]. now rewrite decode_hex0x_0x, b16_is_asm.
Qed.

Lemma base64_valid_decodes (s : string) :
  if valid_base64 s
  then exists b, b64_decode (list_ascii_of_string s) = Some b /\ decode_base64 s = Some b
  else b64_decode (list_ascii_of_string s) = None.
Proof.
  unfold valid_base64. rewrite valid64_spec.
  destruct (b64_decode (list_ascii_of_string s)) as [b|] eqn:D; cbn [is_some]; [|reflexivity].
  exists b. split; [reflexivity|]. rewrite <- (sol_los s). now apply b64_asm_spec.
Qed.

Lemma base32_valid_decodes (s : string) :
  if valid_base32 s
  then exists b, b32_decode (list_ascii_of_string s) = Some b /\ decode_base32 s = Some b
  else b32_decode (list_ascii_of_string s) = None.
Proof.
  unfold valid_base32. rewrite valid32_spec.
  destruct (b32_decode (list_ascii_of_string s)) as [b|] eqn:D; cbn [is_some]; [|reflexivity].
  exists b. split; [reflexivity|]. rewrite <- (sol_los s). now apply b32_asm_spec.
Qed.

Example bytes_examples :
  bytes_value (BBase "base64" "YWJj") = Some (list_ascii_of_string "abc") /\
  bytes_value (BBase "base32" "MFRGG") = Some (list_ascii_of_string "abc") /\
  bytes_value (BBase "base32" "MFRGG===") = Some (list_ascii_of_string "abc") /\
  bytes_value (BBase "base16" "0x616263") = Some (list_ascii_of_string "abc") /\
  bytes_value (BBase "base64" "YWJ") = None /\ bytes_value (BBase "base32" "MFRGG==") = None /\
  bytes_value (BBase "base16" "0x61626") = None /\
  bytes_line (BBase "base64" "YWJj") = Some "byte base64(YWJj)" /\
  valid_base64 "YR==" = true (* non-canonical pad bits are accepted, RFC 4648 3.5 *).
Proof. repeat split; reflexivity. Qed.

Example addr_example :
  addr_line addr_w1 = Some ("addr " ++ addr_w1)%string /\
  parse_stmt [] (tokens_of_line ("addr " ++ addr_w1)%string) = push_addr (repeat zero 32).
Proof. split; vm_compute; reflexivity. Qed.

Example method_example :
  parse_stmt [("add(uint64,uint64)uint64", [zero; one; zero; one])]
             (tokens_of_line ("method " ++ method_arg "add(uint64,uint64)uint64")) =
  push_method [zero; one; zero; one].
Proof. apply method_plain_ok; reflexivity. Qed.

Example method_separators_example :   (* VT, FF, FS..US stay inside the literal: only LF ends a TEAL line *)
  exists line, method_line (String "a" (String "011" (String "012" (String "028" (String "030" "b"))))) = Some line.
Proof. eexists. reflexivity. Qed.
