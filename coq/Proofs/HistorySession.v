(* Proofs/HistorySession.v — the session machine (Hist/Session.v): every step is a run of an event
   tree, so the event lemmas transfer; witnesses of the refuted statements (property C11). *)
From Coq Require Import NArith List Bool Lia Permutation.
From PV Require Import Hist.Events Hist.Assign Hist.Session Proofs.HistoryEvents Proofs.HistoryAssign Proofs.HistoryCompose.
Import ListNotations.
Local Open Scope N_scope.

Lemma step_is_run m st o :
  s_g (fst (step m st o)) =
    let g := r_st (run_evs m (fst (op_events st o)) (s_g st)) in
    match o with
    | OResetMarker => set_marker g None
    | OOpaque ds du dl =>
        mkG (g_slot g + ds) (g_sub g + du) (match g_marker g with Some (tg, n) => Some (tg, n + dl) | None => None end)
    | _ => g
    end.
Proof. unfold step. destruct (op_events st o) as [es t']. destruct o; reflexivity. Qed.

(* counters never go down, whatever the call and however it ends *)
Lemma step_monotone m st o :
  g_slot (s_g st) <= g_slot (s_g (fst (step m st o))) /\ g_sub (s_g st) <= g_sub (s_g (fst (step m st o))).
Proof.
  rewrite step_is_run. pose proof (run_evs_monotone m (fst (op_events st o)) (s_g st)) as H.
  destruct o; try exact H. cbn [g_slot g_sub]. lia.
Qed.

(* with try/finally in _frame_pointer_context the marker is clear after every call *)
Lemma step_marker_fixed st o :
  g_marker (s_g st) = None -> g_marker (s_g (fst (step Fixed st o))) = None.
Proof.
  intros Hm. rewrite step_is_run. pose proof (marker_fixed_none (fst (op_events st o)) (s_g st) Hm) as Hk.
  destruct o; try exact Hk; cbn [g_marker set_marker]; [reflexivity | rewrite Hk; reflexivity].
Qed.

Lemma session_marker_fixed ops : forall st,
  g_marker (s_g st) = None ->
  Forall (fun x => g_marker (fst x) = None) (run_session Fixed st ops).
Proof.
  induction ops as [|o rest IH]; intros st Hm; cbn [run_session]; [constructor|].
  pose proof (step_marker_fixed st o Hm) as H1.
  destruct (step Fixed st o) as [st' raised]. cbn [fst] in H1.
  constructor; [exact H1 | apply IH; exact H1].
Qed.

Lemma session_marker_fixed_init ops :
  Forall (fun x => g_marker (fst x) = None) (run_session Fixed init_sstate ops).
Proof. apply session_marker_fixed. reflexivity. Qed.

(* a subroutine with one argument whose body raises after one ScratchVar *)
Definition bad_spec : subspec := mkSpec [AVal] false [DVar; DRaise] false [].
(* define it; compile a program calling it at a frame-pointer version; then build abi.Uint64() in an
   unrelated main routine *)
Definition witness_ops : list op :=
  [ODefSub 1 bad_spec; OCompile [1] true false []; OBuild [DAbi]].

Lemma witness_session :
  map (fun x => (g_slot (fst x), g_marker (fst x), snd x)) (run_session Faithful init_sstate witness_ops) =
  [(256, None, false); (257, Some (1, 0), true); (257, Some (1, 1), false)].
Proof. vm_compute. reflexivity. Qed.

Lemma witness_session_fixed :
  map (fun x => (g_slot (fst x), g_marker (fst x), snd x)) (run_session Fixed init_sstate witness_ops) =
  [(256, None, false); (257, None, true); (258, None, false)].
Proof. vm_compute. reflexivity. Qed.

Lemma marker_restored_refuted_proof :
  exists (ops : list op) (g : gst) (raised : bool),
    last (run_session Faithful init_sstate ops) (init_gst, false) = (g, raised) /\ g_marker g <> None.
Proof.
  exists [ODefSub 1 bad_spec; OCompile [1] true false []]. eexists. eexists.
  split; [vm_compute; reflexivity | discriminate].
Qed.

(* the same at the level of programs: after that history the unrelated program [abi.Uint64()] has no
   scratch slot at all (it got a frame variable), in a fresh process it has one *)
Definition witness_history : list evs := [one (ECtx (Some (1, 0)) (one ERaise))].
Definition witness_program : program := mkP (one EAbi) [0%nat] [] 0 (fun _ => []) 0.

Lemma compile_history_independent_refuted_proof :
  exists (h : list evs) (p : program),
    calls_are_subs p (r_tr (run_evs Faithful (p_events p) init_gst)) /\
    ~ same_view (compile_view Faithful p (run_history Faithful h init_gst)) (compile_view Faithful p init_gst).
Proof.
  exists witness_history, witness_program. split.
  - intros n c H. destruct H.
  - intros [_ [H _]]. destruct (proj2 (H 0 0)) as [o [_ Ho]].
    + exists (mkSlot 0 256 false). split; [reflexivity|]. vm_compute. left; reflexivity.
    + vm_compute in Ho. exact Ho.
Qed.

(* two distinct slot objects with the same id: which one gets which number is decided by the
   iteration order of the set *)
Lemma assign_tie_order_dependent_proof :
  exists (all all' : list slotobj) (o : slotobj) (k : N),
    Permutation all all' /\ assigned (assign_slots all) o k /\ ~ assigned (assign_slots all') o k.
Proof.
  exists [mkSlot 0 256 false; mkSlot 1 256 false], [mkSlot 1 256 false; mkSlot 0 256 false], (mkSlot 0 256 false), 0.
  split; [apply perm_swap|]. split.
  - vm_compute. left; reflexivity.
  - vm_compute. intros [H|[H|[]]]; discriminate.
Qed.

(* Router.compile_program twice, scratch convention, methods echo(a, *, output) and add(a, b, *, output).
   First call: ids 256 257 for echo's decoded argument and output_temp, 258 259 for echo's declaration
   (evaluated by store_into while the AST is built, and cached), 260 261 262 for add's, 263 264 265 for
   add's declaration; the cleaning context rewinds to 256.  Second call: both declarations are cached,
   the build hands out 256..260 — 258 and 259 now name echo's cached declaration slots AND add's decoded
   arguments: live objects with equal ids (then C11_assign_tie_order_dependent applies). *)
Definition echo_spec : subspec := mkSpec [AAbi] true [] false [].
Definition add_spec : subspec := mkSpec [AAbi; AAbi] true [] false [].
Definition router_ops : list op :=
  [ODefSub 1 echo_spec; ODefSub 2 add_spec;
   ORouter [mkM 1 1 true; mkM 2 2 true] [] false []; ORouter [mkM 1 1 true; mkM 2 2 true] [] false []].

Lemma router_recompile_traces :
  run_session_tr Faithful init_sstate router_ops =
  [[TSub 0]; [TSub 1];
   [TSlot 256; TSlot 257; TSlot 258; TSlot 259; TSlot 260; TSlot 261; TSlot 262; TSlot 263; TSlot 264; TSlot 265];
   [TSlot 256; TSlot 257; TSlot 258; TSlot 259; TSlot 260]].
Proof. vm_compute. reflexivity. Qed.

Lemma router_recompile_reuses_cached_ids_proof :
  exists (ops : list op) (first second : list titem) (i : N),
    nth_error (run_session_tr Faithful init_sstate ops) 2 = Some first /\
    nth_error (run_session_tr Faithful init_sstate ops) 3 = Some second /\
    (* position 2 of the first build is echo's cached declaration; position 2 of the second is add's new argument *)
    nth_error first 2 = Some (TSlot i) /\ nth_error second 2 = Some (TSlot i).
Proof.
  exists router_ops. do 2 eexists. exists 258. rewrite router_recompile_traces.
  split; [reflexivity|]. split; [reflexivity|]. split; reflexivity.
Qed.

(* non-vacuity *)
Example shift_example :
  let h := [evs_of_list [EAlloc; EAlloc; EDefSub]; one (EProbe (evs_of_list [EAlloc; EAlloc]))] in
  let p := evs_of_list [EAlloc; EDefSub; EClean (one EAlloc); EAlloc] in
  g_marker (run_history Faithful h init_gst) = None /\
  r_tr (run_evs Faithful p init_gst) = [TSlot 256; TSub 0; TSlot 257; TSlot 257] /\
  r_tr (run_evs Faithful p (run_history Faithful h init_gst)) = [TSlot 258; TSub 1; TSlot 259; TSlot 259].
Proof. vm_compute. repeat split. Qed.

Example rename_example :
  let all := [mkSlot 0 300 false; mkSlot 1 7 true; mkSlot 2 256 false; mkSlot 3 0 true] in
  assign_slots all = AssignOk [(mkSlot 3 0 true, 0); (mkSlot 1 7 true, 7); (mkSlot 2 256 false, 1); (mkSlot 0 300 false, 2)] /\
  assign_slots (map (rename_slot (fun i => 3 * i + 1000)) all) =
    AssignOk [(mkSlot 3 0 true, 0); (mkSlot 1 7 true, 7); (mkSlot 2 1768 false, 1); (mkSlot 0 1900 false, 2)].
Proof. vm_compute. split; reflexivity. Qed.

Example order_example :
  (* main(9) calls 3 and 1; 1 calls 2; 3 calls 2; ids: 1->10, 2->5, 3->7 *)
  let key := fun o => match o with 1 => 10 | 2 => 5 | 3 => 7 | _ => 0 end in
  let calls := fun o => match o with 9 => [3; 1] | 1 => [2] | 3 => [2] | _ => [] end in
  corder 20 key calls 9 [] = [9; 3; 2; 1].
Proof. vm_compute. reflexivity. Qed.
