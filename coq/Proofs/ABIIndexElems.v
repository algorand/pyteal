(* Proofs/ABIIndexElems.v — relation between member types and member encodings; the encoding of a static
   type has exactly [static_len] bytes ([encode_static_len]). *)
From Coq Require Import List NArith Arith Ascii String Bool Lia.
From PV Require Import Base.Bytes ABI.Types ABI.Spec
  Proofs.ABISpecProof Proofs.ABIIndexBits Proofs.ABIIndexAsm.
Import ListNotations.
Local Open Scope N_scope.

(* kind of a member encoding w.r.t. (is bool, is dynamic, static length) of its type *)
Definition ekind (eb ed : bool) (len : N) (e : eenc) : Prop :=
  match e with
  | EB _ => eb = true
  | ES bs => eb = false /\ ed = false /\ blen bs = len
  | ED _ => eb = false /\ ed = true
  end.

Definition elem_rel (t : ty) (e : eenc) : Prop := ekind (is_bool t) (is_dynamic t) (static_len t) e.

(* what a member encoding is, by the kind of its type *)
Lemma elem_rel_bool : forall t e, elem_rel t e -> is_bool t = true -> exists b, e = EB b.
Proof.
  intros t e H Hb. unfold elem_rel in H. destruct e as [b|bs|bs]; cbn in H.
  - exists b; reflexivity.
  - destruct H; congruence.
  - destruct H; congruence.
Qed.

Lemma elem_rel_dyn : forall t e, elem_rel t e -> is_bool t = false -> is_dynamic t = true -> exists bs, e = ED bs.
Proof.
  intros t e H Hb Hd. unfold elem_rel in H. destruct e as [b|bs|bs]; cbn in H.
  - congruence.
  - destruct H as (_ & H & _); congruence.
  - exists bs; reflexivity.
Qed.

Lemma elem_rel_static : forall t e, elem_rel t e -> is_bool t = false -> is_dynamic t = false ->
    exists bs, e = ES bs /\ blen bs = static_len t.
Proof.
  intros t e H Hb Hd. unfold elem_rel in H. destruct e as [b|bs|bs]; cbn in H.
  - congruence.
  - exists bs. destruct H as (_ & _ & H). auto.
  - destruct H; congruence.
Qed.

Lemma enc_elem_kind : forall eb ed (enc : val -> option bytes) len v e,
    enc_elem eb ed enc v = Some e ->
    (ed = false -> forall bs, enc v = Some bs -> blen bs = len) ->
    ekind eb ed len e.
Proof.
  intros eb ed enc len v e H Hl. unfold enc_elem in H. destruct eb.
  - destruct v; try discriminate. injection H as <-. reflexivity.
  - apply option_map_some in H as [bs [Hb ->]]. destruct ed; cbn; auto.
Qed.

Lemma enc_all_kind : forall eb ed (enc : val -> option bytes) len vs es,
    enc_all (enc_elem eb ed enc) vs = Some es ->
    (ed = false -> forall v bs, In v vs -> enc v = Some bs -> blen bs = len) ->
    Forall (ekind eb ed len) es /\ List.length es = List.length vs.
Proof.
  intros eb ed enc len vs. induction vs as [|v r IH]; intros es H Hl; cbn in H.
  - injection H as <-. split; [constructor | reflexivity].
  - apply obind_some in H as [e [He H]]. apply option_map_some in H as [es' [H ->]].
    destruct (IH _ H) as [F L]; [intros E x bs Hin; apply Hl; [exact E | right; exact Hin]|].
    split; [|cbn; f_equal; exact L]. constructor; [|exact F].
    eapply enc_elem_kind; [exact He|]. intros E bs. apply Hl; [exact E | left; reflexivity].
Qed.

Lemma enc_all_nth : forall (f : val -> option eenc) vs es i v,
    enc_all f vs = Some es -> nth_error vs i = Some v ->
    exists e, nth_error es i = Some e /\ f v = Some e.
Proof.
  intros f vs. induction vs as [|x r IH]; intros es i v H Hn; [destruct i; discriminate|].
  cbn in H. apply obind_some in H as [e [He H]]. apply option_map_some in H as [es' [H ->]].
  destruct i as [|i]; cbn in *.
  - injection Hn as <-. exists e. auto.
  - eapply IH; eauto.
Qed.

Lemma head_len_bools : forall es run, Forall (ekind true false 1) es -> head_len es run = bool_seq_len (run + nlen es).
Proof.
  induction es as [|e r IH]; intros run F.
  - cbn. f_equal. unfold nlen. cbn. lia.
  - inversion F as [|? ? He Fr]; subst. destruct e as [b|bs|bs]; cbn in He.
    + cbn [head_len]. rewrite IH by exact Fr. f_equal. rewrite nlen_cons. lia.
    + destruct He; discriminate.
    + destruct He; discriminate.
Qed.

Lemma head_len_statics : forall len es run, Forall (ekind false false len) es ->
    head_len es run = bool_seq_len run + nlen es * len.
Proof.
  intros len. induction es as [|e r IH]; intros run F.
  - cbn. unfold nlen. cbn. lia.
  - inversion F as [|? ? He Fr]; subst. destruct e as [b|bs|bs]; cbn in He.
    + discriminate.
    + destruct He as (_ & _ & Hl). cbn [head_len]. rewrite IH by exact Fr. rewrite nlen_cons, Hl.
      change (bool_seq_len 0) with 0. lia.
    + destruct He; discriminate.
Qed.

Lemma head_len_dyns : forall len es run, Forall (ekind false true len) es ->
    head_len es run = bool_seq_len run + nlen es * 2.
Proof.
  intros len. induction es as [|e r IH]; intros run F.
  - cbn. unfold nlen. cbn. lia.
  - inversion F as [|? ? He Fr]; subst. destruct e as [b|bs|bs]; cbn in He.
    + discriminate.
    + destruct He as (_ & He & _). discriminate.
    + cbn [head_len]. rewrite IH by exact Fr. rewrite nlen_cons. change (bool_seq_len 0) with 0. lia.
Qed.

Lemma no_dyn_kind : forall eb len es, Forall (ekind eb false len) es -> no_dyn es = true.
Proof.
  induction es as [|e r IH]; intro F; [reflexivity|].
  inversion F as [|? ? He Fr]; subst. change (no_dyn (e :: r)) with (negb (is_ED e) && no_dyn r)%bool.
  rewrite (IH Fr), andb_true_r.
  destruct e; cbn in *; try reflexivity. destruct He; discriminate.
Qed.

Lemma assemble_static_len : forall es enc, assemble es = Some enc -> no_dyn es = true -> blen enc = head_len es 0.
Proof.
  intros es enc H Hn. rewrite (assemble_len _ _ H), (tails_of_no_dyn _ Hn). cbn. lia.
Qed.

Lemma enc_seq_rel : forall ts vs es,
    enc_seq (map (fun x => enc_elem (is_bool x) (is_dynamic x) (arc4_encode x)) ts) vs = Some es ->
    Forall (fun t => forall v bs, arc4_encode t v = Some bs -> is_dynamic t = false -> blen bs = static_len t) ts ->
    Forall2 elem_rel ts es.
Proof.
  induction ts as [|t r IH]; intros vs es H F; destruct vs as [|v vr]; cbn in H; try discriminate.
  - injection H as <-. constructor.
  - apply obind_some in H as [e [He H]]. apply option_map_some in H as [es' [H ->]].
    inversion F as [|? ? Ft Fr]; subst. constructor; [|eapply IH; eauto].
    eapply enc_elem_kind; [exact He|]. intros E bs Hb. eapply Ft; eauto.
Qed.

Lemma head_len_static_tuple : forall ts es run,
    Forall2 elem_rel ts es -> forallb (fun x => negb (is_dynamic x)) ts = true ->
    head_len es run = seq_static_len (map (fun x => (is_bool x, static_len x)) ts) run.
Proof.
  intros ts es run F. revert run. induction F as [|t e tr er He F IH]; intros run Hs; [reflexivity|].
  cbn in Hs. apply andb_true_iff in Hs as [Ht Hr]. apply negb_true_iff in Ht.
  cbn [map seq_static_len]. unfold elem_rel in He. destruct e as [b|bs|bs]; cbn in He.
  - rewrite He. cbn [head_len]. apply IH. exact Hr.
  - destruct He as (Hb & _ & Hl). rewrite Hb. cbn [head_len]. rewrite Hl, IH by exact Hr. reflexivity.
  - destruct He as (_ & Hd). congruence.
Qed.

Lemma no_dyn_static_tuple : forall ts es,
    Forall2 elem_rel ts es -> forallb (fun x => negb (is_dynamic x)) ts = true -> no_dyn es = true.
Proof.
  intros ts es F. induction F as [|t e tr er He F IH]; intro Hs; [reflexivity|].
  cbn in Hs. apply andb_true_iff in Hs as [Ht Hr]. apply negb_true_iff in Ht.
  change (no_dyn (e :: er)) with (negb (is_ED e) && no_dyn er)%bool.
  rewrite (IH Hr), andb_true_r. unfold elem_rel in He.
  destruct e; cbn in *; try reflexivity. destruct He; congruence.
Qed.

Lemma existsb_false_forallb : forall {A} (f : A -> bool) l, existsb f l = false -> forallb (fun x => negb (f x)) l = true.
Proof.
  induction l as [|x r IH]; intro H; [reflexivity|].
  cbn in *. apply orb_false_iff in H as [H1 H2]. rewrite H1, (IH H2). reflexivity.
Qed.

Lemma static_array_len : forall eb (enc : val -> option bytes) len n v bs,
    static_array_enc eb false enc n v = Some bs ->
    (forall x b, enc x = Some b -> blen b = len) ->
    blen bs = if eb then bool_seq_len n else n * len.
Proof.
  intros eb enc len n v bs H Hl. unfold static_array_enc in H.
  apply obind_some in H as [vs [Hv H]]. destruct (N.eqb_spec (N.of_nat (List.length vs)) n) as [En|]; [|discriminate].
  apply obind_some in H as [es [He Ha]].
  destruct (enc_all_kind eb false enc len vs es He) as [F L]; [intros _ x b _; apply Hl|].
  rewrite (assemble_static_len _ _ Ha) by (eapply no_dyn_kind; exact F).
  assert (Hn : nlen es = n) by (unfold nlen; rewrite L; exact En).
  destruct eb.
  - rewrite head_len_bools.
    + rewrite Hn. reflexivity.
    + eapply Forall_impl; [|exact F]. intros e Hk. destruct e; cbn in *; auto; destruct Hk; discriminate.
  - rewrite (head_len_statics len) by exact F. rewrite Hn. change (bool_seq_len 0) with 0. lia.
Qed.

Theorem encode_static_len : forall t v bs,
    arc4_encode t v = Some bs -> is_dynamic t = false -> blen bs = static_len t.
Proof.
  induction t as [| | n | | | e n IH | e IH | nm ts IH | n | | k | k] using ty_ind'; intros v bs H Hd;
    cbn [is_dynamic] in Hd; try discriminate; cbn [arc4_encode static_len] in *.
  - destruct v; cbn in H; try discriminate. injection H as <-. reflexivity.
  - apply uint_enc_len in H. exact H.
  - apply uint_enc_len in H. exact H.
  - apply (static_array_len false (uint_enc 8) 1) in H; [lia|].
    intros x b Hx. apply uint_enc_len in Hx. exact Hx.
  - rewrite Hd in H. apply (static_array_len (is_bool e) (arc4_encode e) (static_len e)) in H; [exact H|].
    intros x b Hx. eapply IH; eauto.
  - unfold tuple_enc in H. destruct v as [b|m|r|vs]; try discriminate.
    apply obind_some in H as [es [He Ha]].
    apply existsb_false_forallb in Hd.
    assert (F : Forall2 elem_rel ts es) by (eapply enc_seq_rel; eauto).
    rewrite (assemble_static_len _ _ Ha) by (eapply no_dyn_static_tuple; eauto).
    apply head_len_static_tuple; assumption.
  - apply (static_array_len false (uint_enc 8) 1) in H; [lia|].
    intros x b Hx. apply uint_enc_len in Hx. exact Hx.
Qed.

(* with the theorem: the member relation holds for every encodable tuple *)
Lemma tuple_rel : forall ts vs es,
    enc_seq (map (fun x => enc_elem (is_bool x) (is_dynamic x) (arc4_encode x)) ts) vs = Some es ->
    Forall2 elem_rel ts es.
Proof.
  intros ts vs es H. eapply enc_seq_rel; [exact H|].
  apply Forall_forall. intros t _ v bs. apply encode_static_len.
Qed.

Lemma array_kind : forall e vs es,
    enc_all (enc_elem (is_bool e) (is_dynamic e) (arc4_encode e)) vs = Some es ->
    Forall (elem_rel e) es /\ List.length es = List.length vs.
Proof.
  intros e vs es H. eapply enc_all_kind; [exact H|].
  intros Hd v bs _ Hb. eapply encode_static_len; eauto.
Qed.
