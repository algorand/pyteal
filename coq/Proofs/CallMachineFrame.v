(* Proofs/CallMachineFrame.v — property C02, the FRAME-POINTER calling convention on the reference machine.

   1. A frame rule for [AVM/Machine.v step] ([step_lift]): a step that the machine can make on an operand stack X
      with call stack [inner] is the same step on X ++ C with call stack [inner' ++ fs] for EVERY extension C below
      and EVERY outer call stack fs, where inner' is [inner] with the frame heights recorded by [proto] shifted by
      |C|; C and fs are untouched.  All instructions of the machine: every operation of [exec_op], b/bz/bnz,
      callsub, proto, retsub (with and without proto), frame_dig, frame_bury, the constant blocks and loads.
      ([dupn]/[popn] are operations of [exec_op].)
   2. Runs ([msteps_lift]).
   3. The call/return protocol ([fp_call_protocol]): [callsub l] to a callee that starts with [proto A R], whose
      body — run on the STRIPPED machine: operand stack = the A arguments only, call stack = the callee's frame
      only — reaches a [retsub] with R result cells at the frame pointer (anything above them: locals, temporaries),
      returns on the real machine to the instruction after the callsub with exactly [results ++ caller stack]:
      every caller cell and every outer frame untouched, the state/constant blocks those of the body's run.
      "The body respects the frame" is formalised as "its run exists on the stripped machine": there the caller's
      cells do not exist, so any attempt to pop, read or write below the argument area fails (and nothing is
      claimed).  Nested calls (with or without proto), loops and early exits inside the body are covered, because
      the frame rule is step-wise. *)
From Coq Require Import List Arith NArith String Bool Lia.
From PV Require Import AVM.Syntax AVM.Machine Proofs.ExecOpFacts Proofs.MachineStep Proofs.PrologueProof.
Import ListNotations.
Local Open Scope list_scope.

Definition shift_frame (d : nat) (f : frame) : frame :=
  mkFrame (f_ret f) (match f_proto f with Some (h, a, r) => Some (h + d, a, r) | None => None end).

(* the machine m with C below its operand stack and fs below its call stack *)
Definition lift (C : list value) (fs : list frame) (m : mach) : mach :=
  mkM (m_pc m) (m_stack m ++ C) (map (shift_frame (List.length C)) (m_calls m) ++ fs)
      (m_from_callsub m) (m_intc m) (m_bytec m) (m_st m).

(* what [proto] guarantees of the frames it creates: the arguments lie within the stack *)
Definition frame_wf (f : frame) : Prop :=
  match f_proto f with Some (h, a, _) => a <= h | None => True end.
Definition calls_wf (l : list frame) : Prop := Forall frame_wf l.

Lemma height_lift C fs m : height (lift C fs m) = height m + List.length C.
Proof. unfold height, lift. cbn [m_stack]. apply app_length. Qed.

Ltac caseH H :=
  match type of H with
  | context [match ?x with _ => _ end] =>
      destruct x eqn:?; try discriminate H;
      cbn [app map shift_frame f_proto f_ret] in *
  end.

Lemma step_lift cx p C fs m m' :
  step cx p m = Running m' -> calls_wf (m_calls m) -> height m + List.length C <= STACK_MAX ->
  step cx p (lift C fs m) = Running (lift C fs m') /\ calls_wf (m_calls m').
Proof.
  intros H WF Hh.
  assert (H1 : (STACK_MAX <? height m) = false) by (apply Nat.ltb_ge; lia).
  assert (H2 : (STACK_MAX <? height (lift C fs m)) = false) by (rewrite height_lift; apply Nat.ltb_ge; lia).
  unfold step in H |- *. rewrite H2. rewrite H1 in H. clear H1 H2.
  destruct m as [pc stk calls fcs intc bytec st].
  cbn [lift m_pc m_stack m_calls m_from_callsub m_intc m_bytec m_st] in *.
  destruct (nth_error (pr_code p) pc) as [i|].
  2:{ destruct stk as [|[n|b] [|? ?]]; discriminate H. }
  destruct i as [o im]. cbn [p_op p_imms] in *.
  destruct (exec_op cx o im stk st) as [s1 st1| | |] eqn:Ex.
  - rewrite (exec_op_frame_all _ _ _ _ _ _ _ C Ex). injection H as <-. split; [reflexivity|exact WF].
  - discriminate H.
  - (* the machine's own opcodes *)
    pose proof (exec_op_not_inv _ _ _ _ _ Ex) as Hc. rewrite (exec_op_ctl cx o im (stk ++ C) st Hc).
    destruct o; try discriminate Hc; cbn iota in H; try discriminate H.
    all: repeat caseH H.
    all: try (injection H as <-; split; [reflexivity|]; cbn [m_calls];
              first [ exact WF
                    | constructor; [exact Logic.I|exact WF]
                    | exact (Forall_inv_tail WF) ]).
    + (* retsub under proto: the R cells at the frame pointer, on top of the caller's cells *)
      pose proof (Forall_inv WF) as Hf. pose proof (Forall_inv_tail WF) as Hl.
      match goal with E : f_proto _ = Some _ |- _ => unfold frame_wf in Hf; rewrite E in Hf end.
      match goal with E : (_ <=? _) = true |- _ => apply Nat.leb_le in E; unfold height in E; cbn [m_stack] in E;
        rewrite height_lift; unfold height; cbn [m_stack];
        match goal with |- (if ?c then _ else _) = _ /\ _ =>
          assert (Ec : c = true) by (apply Nat.leb_le; lia); rewrite Ec end end.
      rewrite retsub_lift by exact Hf. injection H as <-. split; [reflexivity|exact Hl].
    + (* frame_dig *)
      pose proof (Forall_inv WF) as Hf.
      match goal with E : f_proto _ = Some _ |- _ => unfold frame_wf in Hf; rewrite E in Hf end.
      rewrite (frame_index_lift _ _ _ _ Hf).
      match goal with E : frame_index _ _ _ = Some _ |- _ => rewrite E end. cbn [option_map].
      rewrite from_bottom_lift.
      match goal with E : from_bottom _ _ = Some _ |- _ =>
        rewrite E; rewrite nth_error_app1 by (exact (from_bottom_lt _ _ _ E)) end.
      match goal with E : nth_error _ _ = Some _ |- _ => rewrite E end.
      injection H as <-. split; [reflexivity|exact WF].
    + (* frame_bury *)
      pose proof (Forall_inv WF) as Hf.
      match goal with E : f_proto _ = Some _ |- _ => unfold frame_wf in Hf; rewrite E in Hf end.
      rewrite (frame_index_lift _ _ _ _ Hf).
      match goal with E : frame_index _ _ _ = Some _ |- _ => rewrite E end. cbn [option_map].
      rewrite from_bottom_lift.
      match goal with E : from_bottom _ _ = Some _ |- _ =>
        rewrite E; rewrite list_update_app by (exact (from_bottom_lt _ _ _ E)) end.
      injection H as <-. split; [reflexivity|exact WF].
    + (* proto: the frame height recorded is the lifted height *)
      rewrite height_lift.
      match goal with E : (_ <=? _) = true |- _ => apply Nat.leb_le in E;
        match goal with |- (if ?c then _ else _) = _ /\ _ =>
          assert (Ec : c = true) by (apply Nat.leb_le; lia); rewrite Ec end;
        injection H as <-; split; [reflexivity|];
        constructor; [exact E|exact (Forall_inv_tail WF)] end.
  - discriminate H.
Qed.

(* n machine steps, every state on the way leaving d cells of headroom under the stack limit *)
Inductive msteps (cx : ctx) (p : program) (d : nat) : nat -> mach -> mach -> Prop :=
| ms_refl m : msteps cx p d 0 m m
| ms_step n m m1 m2 :
    height m + d <= STACK_MAX -> step cx p m = Running m1 -> msteps cx p d n m1 m2 ->
    msteps cx p d (S n) m m2.

Lemma msteps_trans cx p d : forall n1 n2 a b c,
  msteps cx p d n1 a b -> msteps cx p d n2 b c -> msteps cx p d (n1 + n2) a c.
Proof.
  intros n1 n2 a b c H. revert c. induction H as [m|n m m1 m2 Hh S1 _ IH]; intros c H2; [exact H2|].
  cbn [Nat.add]. eapply ms_step; [exact Hh|exact S1|]. apply IH. exact H2.
Qed.

Lemma msteps_one cx p d m m1 : height m + d <= STACK_MAX -> step cx p m = Running m1 -> msteps cx p d 1 m m1.
Proof. intros Hh S1. eapply ms_step; [exact Hh|exact S1|apply ms_refl]. Qed.

(* a run of n steps is what [Machine.run] does first *)
Lemma msteps_run cx p d : forall n m m', msteps cx p d n m m' ->
  forall k, run (n + k) cx p m = run k cx p m'.
Proof.
  intros n m m' H. induction H as [m|n m m1 m2 _ S1 _ IH]; intros k; [reflexivity|].
  cbn [Nat.add run]. rewrite S1. apply IH.
Qed.

(* the frame rule for runs *)
Theorem msteps_lift cx p C fs : forall n m m',
  msteps cx p (List.length C) n m m' -> calls_wf (m_calls m) ->
  msteps cx p 0 n (lift C fs m) (lift C fs m') /\ calls_wf (m_calls m').
Proof.
  intros n m m' H. induction H as [m|n m m1 m2 Hh S1 _ IH]; intros WF.
  - split; [apply ms_refl|exact WF].
  - destruct (step_lift cx p C fs m m1 S1 WF Hh) as [S1' WF1].
    destruct (IH WF1) as [H' WF2]. split; [|exact WF2].
    eapply ms_step; [|exact S1'|exact H']. rewrite height_lift. lia.
Qed.

(* the callee's frame and the machine right after [callsub l; proto A R], STRIPPED of the caller's cells C and
   of the caller's frames: operand stack = the arguments (last argument on top), frame pointer = A *)
Definition callee_frame (ret : nat) (A R : N) : frame :=
  mkFrame ret (Some (N.to_nat A, N.to_nat A, N.to_nat R)).
Definition callee_start (M : mach) (t : nat) (A R : N) (args : list value) : mach :=
  mkM (S t) (rev args) [callee_frame (S (m_pc M)) A R] false (m_intc M) (m_bytec M) (m_st M).

Theorem fp_call_protocol cx p (M : mach) (l : string) (t : nat) (A R : N)
        (args C : list value) (n : nat) (mb' : mach) (above rs args' : list value) (imms : list imm) :
  (* the call site, the callee's entry, the arguments on top of the caller's cells *)
  nth_error (pr_code p) (m_pc M) = Some (mkP O_callsub [IName l]) ->
  label_pc p l = Some t ->
  nth_error (pr_code p) t = Some (mkP O_proto [IInt A; IInt R]) ->
  m_stack M = rev args ++ C -> List.length args = N.to_nat A ->
  height M <= STACK_MAX ->
  (* the body: n steps on the stripped machine, ending at a retsub in the callee's own frame with the R result
     cells at the frame pointer, above the (possibly overwritten) argument cells *)
  msteps cx p (List.length C) n (callee_start M t A R args) mb' ->
  m_calls mb' = [callee_frame (S (m_pc M)) A R] ->
  nth_error (pr_code p) (m_pc mb') = Some (mkP O_retsub imms) ->
  m_stack mb' = above ++ rs ++ rev args' -> List.length args' = N.to_nat A -> List.length rs = N.to_nat R ->
  height mb' + List.length C <= STACK_MAX ->
  (* the real machine: callsub, proto, the body, retsub *)
  msteps cx p 0 (2 + n + 1) M
    (mkM (S (m_pc M)) (rs ++ C) (m_calls M) false (m_intc mb') (m_bytec mb') (m_st mb')).
Proof.
  intros Hc Hl Hp Hst Hlen Hh Hbody Hcalls Hret Hst' Hlen' HR Hh'.
  assert (HM : height M = N.to_nat A + List.length C).
  { unfold height. rewrite Hst, app_length, rev_length, Hlen. reflexivity. }
  destruct (callsub_proto_steps cx p M l t A R Hc Hl Hp Hh ltac:(lia)) as [S1 S2].
  cbv zeta in S1, S2.
  (* after callsub + proto the machine is the lifted start of the body *)
  assert (E0 : mkM (S t) (m_stack M) (mkFrame (S (m_pc M)) (Some (height M, N.to_nat A, N.to_nat R)) :: m_calls M)
                   false (m_intc M) (m_bytec M) (m_st M)
               = lift C (m_calls M) (callee_start M t A R args)).
  { unfold lift, callee_start, callee_frame. cbn [m_pc m_stack m_calls m_from_callsub m_intc m_bytec m_st map app
      shift_frame f_ret f_proto]. rewrite Hst, HM. reflexivity. }
  rewrite E0 in S2.
  assert (WF0 : calls_wf (m_calls (callee_start M t A R args))).
  { constructor; [|constructor]. unfold frame_wf, callee_frame. cbn. lia. }
  destruct (msteps_lift cx p C (m_calls M) n _ _ Hbody WF0) as [Hbody' _].
  (* the final retsub on the lifted machine *)
  assert (S3 : step cx p (lift C (m_calls M) mb') =
               Running (mkM (S (m_pc M)) (rs ++ C) (m_calls M) false (m_intc mb') (m_bytec mb') (m_st mb'))).
  { apply (retsub_fp_general cx p (lift C (m_calls M) mb') (S (m_pc M)) (m_calls M) (N.to_nat A) (N.to_nat R)
             imms above rs args' C).
    - unfold lift. cbn [m_calls]. rewrite Hcalls. unfold callee_frame.
      cbn [map app shift_frame f_ret f_proto]. rewrite app_length, rev_length, Hlen'. reflexivity.
    - unfold lift. cbn [m_stack]. rewrite Hst', <- !app_assoc. reflexivity.
    - exact Hlen'.
    - exact HR.
    - rewrite height_lift. exact Hh'.
    - exact Hret. }
  eapply (msteps_trans cx p 0 (2 + n) 1); [|refine (msteps_one cx p 0 _ _ _ S3); rewrite height_lift; lia].
  eapply (msteps_trans cx p 0 2 n); [|exact Hbody'].
  eapply ms_step; [lia|exact S1|].
  eapply ms_step; [|exact S2|apply ms_refl]. unfold height in *. cbn [m_stack]. lia.
Qed.

(* the same, read off [Machine.run]: the rest of the program runs from the return point *)
Corollary fp_call_protocol_run cx p (M : mach) (l : string) (t : nat) (A R : N)
        (args C : list value) (n : nat) (mb' : mach) (above rs args' : list value) (imms : list imm) :
  nth_error (pr_code p) (m_pc M) = Some (mkP O_callsub [IName l]) ->
  label_pc p l = Some t ->
  nth_error (pr_code p) t = Some (mkP O_proto [IInt A; IInt R]) ->
  m_stack M = rev args ++ C -> List.length args = N.to_nat A ->
  height M <= STACK_MAX ->
  msteps cx p (List.length C) n (callee_start M t A R args) mb' ->
  m_calls mb' = [callee_frame (S (m_pc M)) A R] ->
  nth_error (pr_code p) (m_pc mb') = Some (mkP O_retsub imms) ->
  m_stack mb' = above ++ rs ++ rev args' -> List.length args' = N.to_nat A -> List.length rs = N.to_nat R ->
  height mb' + List.length C <= STACK_MAX ->
  forall k, run (2 + n + 1 + k) cx p M =
            run k cx p (mkM (S (m_pc M)) (rs ++ C) (m_calls M) false (m_intc mb') (m_bytec mb') (m_st mb')).
Proof.
  intros Hc Hl Hp Hst Hlen Hh Hbody Hcalls Hret Hst' Hlen' HR Hh' k.
  apply (msteps_run cx p 0).
  exact (fp_call_protocol cx p M l t A R args C n mb' above rs args' imms
           Hc Hl Hp Hst Hlen Hh Hbody Hcalls Hret Hst' Hlen' HR Hh').
Qed.

(* an executable form of [msteps], for examples *)
Fixpoint nsteps (cx : ctx) (p : program) (d : nat) (n : nat) (m : mach) : option mach :=
  match n with
  | O => Some m
  | S k =>
      if (height m + d <=? STACK_MAX) then
        match step cx p m with Running m1 => nsteps cx p d k m1 | Done _ _ => None end
      else None
  end.

Lemma nsteps_sound cx p d : forall n m m', nsteps cx p d n m = Some m' -> msteps cx p d n m m'.
Proof.
  induction n as [|k IH]; intros m m' H; cbn [nsteps] in H.
  - injection H as <-. apply ms_refl.
  - destruct (height m + d <=? STACK_MAX) eqn:Eh; [|discriminate H]. apply Nat.leb_le in Eh.
    destruct (step cx p m) as [m1|v m1] eqn:S1; [|discriminate H].
    eapply ms_step; [exact Eh|exact S1|exact (IH m1 m' H)].
Qed.
