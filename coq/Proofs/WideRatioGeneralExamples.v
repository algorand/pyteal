(* Proofs/WideRatioGeneralExamples.v — the hypotheses of the general C16 theorems are satisfiable:
   WideRatio with a COMPOUND third factor (Int 3 + Int 4), with a RUN-TIME third factor (Txn.fee),
   with a factor that fails (1 / 0) and one that exits; source semantics and lowered graph. *)
From Coq Require Import List NArith String Bool.
From PV Require Import Base.Bytes Base.U64 AVM.Syntax AVM.Ops AVM.Machine Src.Expr Src.Denote
  Comp.Blocks Comp.WideRatio Comp.Lower Comp.GraphSem
  Proofs.LowerFrame Proofs.LowerLemmas Proofs.LowerCorrect
  Proofs.WideRatioProof Proofs.WideRatioGeneralOps Proofs.WideRatioGeneral Proofs.WideRatioGeneralGraph.
Import ListNotations.
Local Open Scope N_scope.
Local Open Scope string_scope.

Lemma cons_ne {A} (x : A) l : x :: l <> [].
Proof. discriminate. Qed.

Definition wx_txn : txn := mkTxn [("Fee", VI 1000)] [] [] 0.
Definition wx_ctx : ctx := mkCtx true [wx_txn] 0 [] [] 0.
Definition wx_env : denv := mkEnv wx_ctx (fun n => n) [] [] false (fun _ => mkI O_err []).
Definition wx_st : mstate := init_state [] [] [].
Definition wx_opts : copts := mkOpts 6 true false false (fun _ => 0) (fun _ _ => 0).
Definition wx_lctx : lctx := mkL None None None (fun _ => mkI O_err []).

Definition x_sum34 : expr := ENary O_add TUint [x_int 3; x_int 4].
Definition x_fee : expr := EOp O_txn [AStr "Fee"] TUint [].
Definition x_div0 : expr := EOp O_div [] TUint [x_int 1; x_int 0].
Definition x_exit : expr := EExit (x_int 1).

(* WideRatio([Int 10, Int 20, Int 3 + Int 4], [Int 7]) *)
Definition wx_compound : expr := EWide [x_int 10; x_int 20; x_sum34] [x_int 7].
(* WideRatio([Int 2^63, Int 4, Txn.fee], [Int 2^40, Int 1000]) : running product 2^65 * 1000 needs the high word *)
Definition wx_runtime : expr :=
  EWide [x_int 9223372036854775808; x_int 4; x_fee] [x_int 1099511627776; x_int 1000].

Lemma wx_eval_sum34 f st : forall s, denote wx_env (S (S f)) x_sum34 s st = DNorm (VI 7 :: s) st.
Proof. intros s. reflexivity. Qed.
Lemma wx_eval_fee f st : forall s, denote wx_env (S f) x_fee s st = DNorm (VI 1000 :: s) st.
Proof. intros s. reflexivity. Qed.

Lemma wx_evalF_compound_num :
  eval_factors wx_env 2 [x_int 10; x_int 20; x_sum34] wx_st [10; 20; 7] wx_st.
Proof.
  apply (evalF_cons _ _ _ _ 10 wx_st); [reflexivity|intros s; reflexivity|].
  apply (evalF_cons _ _ _ _ 20 wx_st); [reflexivity|intros s; reflexivity|].
  apply (evalF_cons _ _ _ _ 7 wx_st); [reflexivity|apply wx_eval_sum34|constructor].
Qed.
Lemma wx_evalF_compound_den : eval_factors wx_env 2 [x_int 7] wx_st [7] wx_st.
Proof. apply (eval_factors_consts wx_env 1 [7]). repeat constructor. Qed.

(* the general theorem applies, and gives 10 * 20 * (3 + 4) / 7 = 200 *)
Example wide_ratio_general_compound :
  denote wx_env 3 wx_compound [] wx_st = DNorm [VI 200] wx_st.
Proof.
  unfold wx_compound.
  rewrite (wide_ratio_general wx_env 2 _ _ [10; 20; 7] [7] [] wx_st wx_st wx_st
             (cons_ne _ _) (cons_ne _ _) wx_evalF_compound_num wx_evalF_compound_den).
  vm_compute. reflexivity.
Qed.

(* ... and is what the evaluator computes *)
Example wide_ratio_general_compound_computed :
  denote wx_env 3 wx_compound [] wx_st = DNorm [VI 200] wx_st.
Proof. vm_compute. reflexivity. Qed.

Lemma wx_evalF_runtime_num :
  eval_factors wx_env 1 [x_int 9223372036854775808; x_int 4; x_fee] wx_st [9223372036854775808; 4; 1000] wx_st.
Proof.
  apply (evalF_cons _ _ _ _ 9223372036854775808 wx_st); [reflexivity|intros s; reflexivity|].
  apply (evalF_cons _ _ _ _ 4 wx_st); [reflexivity|intros s; reflexivity|].
  apply (evalF_cons _ _ _ _ 1000 wx_st); [reflexivity|apply wx_eval_fee|constructor].
Qed.
Lemma wx_evalF_runtime_den :
  eval_factors wx_env 1 [x_int 1099511627776; x_int 1000] wx_st [1099511627776; 1000] wx_st.
Proof. apply (eval_factors_consts wx_env 0 [1099511627776; 1000]). repeat constructor. Qed.

(* 2^63 * 4 * fee / (2^40 * 1000) = 2^25 with fee = 1000; the numerator 2^65 * 1000 does not fit 64 bits *)
Example wide_ratio_general_runtime :
  denote wx_env 2 wx_runtime [VI 5] wx_st = DNorm [VI 33554432; VI 5] wx_st.
Proof.
  unfold wx_runtime.
  rewrite (wide_ratio_general wx_env 1 _ _ _ _ [VI 5] wx_st wx_st wx_st
             (cons_ne _ _) (cons_ne _ _) wx_evalF_runtime_num wx_evalF_runtime_den).
  vm_compute. reflexivity.
Qed.

(* never-wraps applies to the compound example: its factors are uint64-valued in every environment *)
Lemma wx_uint_valued_compound env :
  Forall (uint_valued env) [x_int 10; x_int 20; x_sum34] /\ Forall (uint_valued env) [x_int 7].
Proof.
  split; repeat constructor; try apply uint_valued_int.
  apply uint_valued_nary; [reflexivity|apply uint_valued_int|repeat constructor; apply uint_valued_int].
Qed.

Example wide_ratio_never_wraps_compound :
  exists nvals dvals,
    denote wx_env 3 wx_compound [] wx_st = DNorm [VI (prod nvals / prod dvals)] wx_st /\
    running_ok 1 nvals = true /\ running_ok 1 dvals = true /\ prod dvals <> 0%N.
Proof.
  destruct (wx_uint_valued_compound wx_env) as [Un Ud].
  destruct (wide_ratio_never_wraps wx_env 3 _ _ [] wx_st _ _ (cons_ne _ _) (cons_ne _ _) Un Ud
              wide_ratio_general_compound_computed)
    as (f & nvals & dvals & stm & _ & _ & _ & R1 & R2 & Nz & _ & E).
  exists nvals, dvals. rewrite <- E.
  split; [exact wide_ratio_general_compound_computed|]. repeat split; assumption.
Qed.

(* a factor that fails: WideRatio([Int 10, Int 20, Int 1 / Int 0], [Int 7]) fails *)
Example wide_ratio_factor_fails :
  denote wx_env 3 (EWide [x_int 10; x_int 20; x_div0] [x_int 7]) [] wx_st = DFail.
Proof.
  assert (Hpre : eval_factors wx_env 2 [x_int 10; x_int 20] wx_st [10; 20] wx_st)
    by (apply (eval_factors_consts wx_env 1 [10; 20]); repeat constructor).
  destruct (wide_ratio_abrupt_num wx_env 2 [x_int 10; x_int 20] x_div0 [] [x_int 7] [] wx_st [10; 20] wx_st
              (fun _ => DFail) Hpre (fun s => eq_refl) (fun _ => Logic.I)) as (acc & E).
  exact E.
Qed.

(* a factor that exits the program: the WideRatio has that outcome, no number is produced *)
Example wide_ratio_factor_exits :
  denote wx_env 4 (EWide [x_int 10; x_int 20] [x_int 3; x_exit]) [] wx_st = DExit (VI 1) wx_st.
Proof.
  assert (Hn : eval_factors wx_env 3 [x_int 10; x_int 20] wx_st [10; 20] wx_st)
    by (apply (eval_factors_consts wx_env 2 [10; 20]); repeat constructor).
  assert (Hpre : eval_factors wx_env 3 [x_int 3] wx_st [3] wx_st)
    by (apply (eval_factors_consts wx_env 2 [3]); repeat constructor).
  destruct (wide_ratio_abrupt_den wx_env 3 [x_int 10; x_int 20] [x_int 3] x_exit [] [] wx_st [10; 20] wx_st [3] wx_st
              (fun _ => DExit (VI 1) wx_st) (cons_ne _ _) Hn Hpre (fun s => eq_refl) (fun _ => Logic.I))
    as (acc & E).
  exact E.
Qed.

(* an overflowing running product fails even though every factor evaluates: 2^64-1 squared times (3+4) *)
Example wide_ratio_general_overflow :
  denote wx_env 3 (EWide [x_int MAXU64; x_int MAXU64; x_sum34] [x_int 1]) [] wx_st = DFail.
Proof. vm_compute. reflexivity. Qed.

Definition wx_lowered := lower wx_opts wx_lctx wx_compound None empty_graph.

Lemma wx_consistent : consistent wx_env wx_lctx.
Proof. split; [reflexivity|intros i; reflexivity]. Qed.

Example wide_ratio_general_graph_compound :
  star wx_env (g_blk (snd wx_lowered)) (GAt (fst (fst wx_lowered)) [] wx_st) (GEnd [VI 200] wx_st).
Proof.
  pose proof (wide_ratio_general_graph wx_env wx_opts wx_lctx wx_consistent
                [x_int 10; x_int 20; x_sum34] [x_int 7] None empty_graph
                (fst (fst wx_lowered)) (snd (fst wx_lowered)) (snd wx_lowered) wf_empty
                ltac:(unfold wx_lowered, wx_compound; destruct (lower _ _ _ _ _) as [[? ?] ?]; reflexivity)
                (g_blk (snd wx_lowered)) (fun i b H => H)
                2 [10; 20; 7] [7] [] wx_st wx_st wx_st
                (cons_ne _ _) (cons_ne _ _) wx_evalF_compound_num wx_evalF_compound_den) as T.
  exact T.
Qed.

(* the compound factor's code is IN the graph: running the graph executes 12 blocks *)
Example wide_ratio_graph_compound_run :
  grun 40 wx_env (g_blk (snd wx_lowered)) (GAt (fst (fst wx_lowered)) [] wx_st) = GEnd [VI 200] wx_st.
Proof. vm_compute. reflexivity. Qed.
