(* Proofs/ABISpecProof.v — the ARC-4 spec (ABI/Spec.v) through its characterising lemmas: what an encoder
   returns when it returns (uint16 prefixes, uintN, one member, T[N] and T[]), only well-typed values encode,
   byte strings at address / string / byte[n] / byte[] encode to the raw bytes (with the uint16 length prefix
   for the dynamic ones), decoding is sound.  Re-exports the byte-string library. *)
From Coq Require Import List NArith Ascii String Bool Lia.
From PV Require Import Base.Bytes ABI.Types ABI.Spec.
From PV Require Export Proofs.BytesFacts.
Import ListNotations.
Local Open Scope N_scope.

Lemma obind_some : forall {A B} (o : option A) (f : A -> option B) b,
    obind o f = Some b -> exists a, o = Some a /\ f a = Some b.
Proof. intros A B [a|] f b H; simpl in H; [exists a; auto | discriminate]. Qed.

Lemma option_map_some : forall {A B} (f : A -> B) o b, option_map f o = Some b -> exists a, o = Some a /\ b = f a.
Proof. intros A B f [a|] b H; simpl in H; [exists a; split; congruence | discriminate]. Qed.

Lemma is_bool_true : forall t, is_bool t = true -> t = TBool.
Proof. destruct t; simpl; congruence. Qed.

Lemma u16_ok : forall n, n < 65536 -> u16 n = Some (be_encode 2 n).
Proof. intros n H. unfold u16. apply N.ltb_lt in H. rewrite H. reflexivity. Qed.

Lemma u16_len : forall n b, u16 n = Some b -> blen b = 2 /\ b = be_encode 2 n /\ n < 65536.
Proof.
  intros n b H. unfold u16 in H. destruct (N.ltb_spec n 65536); [|discriminate].
  assert (b = be_encode 2 n) by congruence. subst b. rewrite be_encode_len. auto.
Qed.

Lemma pyteal_bits_cases : forall bits, pyteal_uint_bits bits = true -> bits = 8 \/ bits = 16 \/ bits = 32 \/ bits = 64.
Proof.
  intros bits H. unfold pyteal_uint_bits in H.
  repeat (apply orb_true_iff in H as [H|H]); apply N.eqb_eq in H; auto.
Qed.

Lemma pyteal_bits_valid : forall bits, pyteal_uint_bits bits = true -> valid_uint_bits bits = true.
Proof. intros bits H. destruct (pyteal_bits_cases bits H) as [-> | [-> | [-> | ->]]]; reflexivity. Qed.

Lemma uint_enc_inv : forall bits v bs, uint_enc bits v = Some bs ->
    exists n, v = VUint n /\ n < 2 ^ bits /\ bs = be_encode (N.to_nat (bits / 8)) n.
Proof.
  intros bits v bs H. destruct v as [b|n|r|vs]; cbn in H; try discriminate.
  destruct (valid_uint_bits bits); cbn [andb] in H; [|discriminate].
  destruct (N.ltb_spec n (2 ^ bits)); [|discriminate]. exists n. repeat split; auto. congruence.
Qed.

Lemma uint_enc_len : forall bits v bs, uint_enc bits v = Some bs -> blen bs = bits / 8.
Proof.
  intros bits v bs H. apply uint_enc_inv in H as (n & _ & _ & ->). rewrite be_encode_len. apply N2Nat.id.
Qed.

Lemma bool_seq_len_0 : bool_seq_len 0 = 0.
Proof. reflexivity. Qed.

Lemma bool_seq_len_bounds : forall n, n <= 8 * bool_seq_len n < n + 8.
Proof.
  intro n. unfold bool_seq_len.
  pose proof (N.mul_div_le (n + 7) 8 ltac:(discriminate)).
  pose proof (N.mul_succ_div_gt (n + 7) 8 ltac:(discriminate)). lia.
Qed.

Lemma bool_seq_len_add8 : forall n, bool_seq_len (8 + n) = 1 + bool_seq_len n.
Proof.
  intro n. unfold bool_seq_len. replace (8 + n + 7) with (n + 7 + 1 * 8) by lia.
  rewrite N.div_add by discriminate. lia.
Qed.

Lemma enc_elem_bool_inv : forall ed enc v e, enc_elem true ed enc v = Some e -> exists b, v = VBool b /\ e = EB b.
Proof. intros ed enc v e H. destruct v; try discriminate H. injection H as <-. eauto. Qed.

Lemma enc_elem_nonbool_inv : forall ed enc v e, enc_elem false ed enc v = Some e ->
    exists bs, enc v = Some bs /\ e = (if ed then ED bs else ES bs).
Proof.
  intros ed enc v e H. unfold enc_elem in H. destruct (enc v) as [bs|]; [|discriminate H].
  injection H as <-. exists bs. destruct ed; auto.
Qed.

Lemma enc_seq_nth : forall (fs : list (val -> option eenc)) vs es i f v,
    enc_seq fs vs = Some es -> nth_error fs i = Some f -> nth_error vs i = Some v ->
    exists e, nth_error es i = Some e /\ f v = Some e.
Proof.
  induction fs as [|g r IH]; intros vs es i f v H Hf Hv; [destruct i; discriminate|].
  destruct vs as [|x vr]; [destruct i; discriminate|].
  cbn in H. apply obind_some in H as [e [He H]]. apply option_map_some in H as [es' [H ->]].
  destruct i as [|i]; cbn in *.
  - injection Hf as <-. injection Hv as <-. exists e. auto.
  - eapply IH; eauto.
Qed.

Lemma enc_seq_length : forall (fs : list (val -> option eenc)) vs es,
    enc_seq fs vs = Some es -> List.length es = List.length fs /\ List.length vs = List.length fs.
Proof.
  induction fs as [|g r IH]; intros vs es H; destruct vs as [|x vr]; cbn in H; try discriminate.
  - injection H as <-. auto.
  - apply obind_some in H as [e [He H]]. apply option_map_some in H as [es' [H ->]].
    destruct (IH _ _ H). cbn. auto.
Qed.

(* encodable implies well-typed *)
Lemma uint_enc_ok : forall bits v bs, uint_enc bits v = Some bs -> uint_ok bits v = true.
Proof.
  intros bits v bs H. destruct v as [b|n|r|vs]; simpl in *; try discriminate.
  destruct (valid_uint_bits bits && (n <? 2 ^ bits))%bool; [reflexivity | discriminate].
Qed.

Lemma enc_elem_ok : forall eb ed (enc : val -> option bytes) (ok : val -> bool) v e,
    (eb = true -> forall b, ok (VBool b) = true) ->
    (forall x bs, enc x = Some bs -> ok x = true) ->
    enc_elem eb ed enc v = Some e -> ok v = true.
Proof.
  intros eb ed enc ok v e Hb Henc H. destruct eb.
  - apply enc_elem_bool_inv in H as (b & -> & _). apply Hb; reflexivity.
  - apply enc_elem_nonbool_inv in H as (bs & H & _). eapply Henc; eauto.
Qed.

Lemma enc_all_ok : forall (f : val -> option eenc) (ok : val -> bool) vs es,
    (forall x e, f x = Some e -> ok x = true) -> enc_all f vs = Some es -> forallb ok vs = true.
Proof.
  intros f ok vs; induction vs as [|v r IH]; intros es Hf H; simpl in *; [reflexivity|].
  apply obind_some in H as [e [He H]]. apply option_map_some in H as [es' [H _]].
  rewrite (Hf _ _ He), (IH _ Hf H). reflexivity.
Qed.

(* T[N] and T[] are the tuple of their elements, T[] behind the element count *)
Lemma static_array_enc_inv : forall eb ed enc n v bs, static_array_enc eb ed enc n v = Some bs ->
    exists vs es, elems_of v = Some vs /\ N.of_nat (List.length vs) = n /\
                  enc_all (enc_elem eb ed enc) vs = Some es /\ assemble es = Some bs.
Proof.
  intros eb ed enc n v bs H. unfold static_array_enc in H. apply obind_some in H as [vs [Hv H]].
  destruct (N.eqb_spec (N.of_nat (List.length vs)) n); [|discriminate].
  apply obind_some in H as [es [Hes Ha]]. exists vs, es. auto.
Qed.

Lemma dyn_array_enc_inv : forall eb ed enc v bs, dyn_array_enc eb ed enc v = Some bs ->
    exists vs es body, elems_of v = Some vs /\ N.of_nat (List.length vs) < 65536 /\
                       enc_all (enc_elem eb ed enc) vs = Some es /\ assemble es = Some body /\
                       bs = be_encode 2 (N.of_nat (List.length vs)) ++ body.
Proof.
  intros eb ed enc v bs H. unfold dyn_array_enc in H. apply obind_some in H as [vs [Hv H]].
  apply obind_some in H as [p [Hp H]]. apply u16_len in Hp as (_ & -> & Hlt).
  apply obind_some in H as [body [H E]]. injection E as <-.
  apply obind_some in H as [es [Hes Ha]]. exists vs, es, body. auto.
Qed.

Lemma static_array_enc_ok : forall eb ed enc ok n v bs,
    (eb = true -> forall b, ok (VBool b) = true) ->
    (forall x bs, enc x = Some bs -> ok x = true) ->
    static_array_enc eb ed enc n v = Some bs -> static_array_ok ok n v = true.
Proof.
  intros eb ed enc ok n v bs Hb Henc H.
  apply static_array_enc_inv in H as (vs & es & Hv & Hn & Hes & _).
  unfold static_array_ok. rewrite Hv. apply N.eqb_eq in Hn. rewrite Hn.
  eapply enc_all_ok; [|exact Hes]. intros x e. apply enc_elem_ok; assumption.
Qed.

Lemma dyn_array_enc_ok : forall eb ed enc ok v bs,
    (eb = true -> forall b, ok (VBool b) = true) ->
    (forall x bs, enc x = Some bs -> ok x = true) ->
    dyn_array_enc eb ed enc v = Some bs -> dyn_array_ok ok v = true.
Proof.
  intros eb ed enc ok v bs Hb Henc H.
  apply dyn_array_enc_inv in H as (vs & es & body & Hv & Hn & Hes & _).
  unfold dyn_array_ok. rewrite Hv. apply N.ltb_lt in Hn. rewrite Hn.
  eapply enc_all_ok; [|exact Hes]. intros x e. apply enc_elem_ok; assumption.
Qed.

Theorem encode_typed : forall t v bs, arc4_encode t v = Some bs -> val_has_type t v = true.
Proof.
  induction t as [| | n | | | e n IH | e IH | nm ts IH | n | | k | k] using ty_ind'; intros v bs H; simpl in *;
    try discriminate.
  - destruct v; simpl in H; try discriminate; reflexivity.
  - eapply uint_enc_ok; eauto.
  - eapply uint_enc_ok; eauto.
  - eapply static_array_enc_ok; [| |exact H]; [discriminate | apply uint_enc_ok].
  - eapply dyn_array_enc_ok; [| |exact H]; [discriminate | apply uint_enc_ok].
  - eapply static_array_enc_ok; [| |exact H]; [|exact IH].
    intros Hb b. apply is_bool_true in Hb; subst; reflexivity.
  - eapply dyn_array_enc_ok; [| |exact H]; [|exact IH].
    intros Hb b. apply is_bool_true in Hb; subst; reflexivity.
  - unfold tuple_enc in H. destruct v as [b|n|r|vs]; try discriminate. simpl.
    apply obind_some in H as [es [H _]]. clear bs. revert vs es H.
    induction IH as [|t r Ht _ IHr]; intros [|x vr] es H; simpl in *; try discriminate; try reflexivity.
    apply obind_some in H as [e [He H]]. apply option_map_some in H as [es' [H _]].
    rewrite (IHr _ _ H), andb_true_r.
    eapply enc_elem_ok; [| |exact He]; [|exact Ht].
    intros Hb b. apply is_bool_true in Hb; subst; reflexivity.
  - eapply static_array_enc_ok; [| |exact H]; [discriminate | apply uint_enc_ok].
  - eapply dyn_array_enc_ok; [| |exact H]; [discriminate | apply uint_enc_ok].
Qed.

Lemma uint8_enc_byte : forall c, uint_enc 8 (byte_val c) = Some [c].
Proof.
  intro c. unfold byte_val, uint_enc.
  assert (H : (b2n c <? 2 ^ 8) = true) by (apply N.ltb_lt; apply b2n_lt).
  rewrite H. change (valid_uint_bits 8) with true. cbn [andb N.div]. change (N.to_nat (8 / 8)) with 1%nat.
  cbn [be_encode app]. rewrite n2b_b2n. reflexivity.
Qed.

Lemma enc_all_bytes : forall bs,
    enc_all (enc_elem false false (uint_enc 8)) (map byte_val bs) = Some (map (fun c => ES [c]) bs).
Proof.
  induction bs as [|c r IH]; [reflexivity|].
  cbn [map enc_all enc_elem]. rewrite uint8_enc_byte, IH. reflexivity.
Qed.

Lemma head_len_bytes : forall bs, head_len (map (fun c => ES [c]) bs) 0 = blen bs.
Proof.
  induction bs as [|c r IH]; [reflexivity|].
  cbn [map head_len]. rewrite IH. unfold blen, bool_seq_len. cbn [List.length].
  change ((0 + 7) / 8) with 0. rewrite Nat2N.inj_succ. change (N.of_nat 1) with 1. lia.
Qed.

Lemma asm_bytes : forall bs off, asm (map (fun c => ES [c]) bs) [] off = Some (bs, []).
Proof.
  induction bs as [|c r IH]; intro off; simpl; [reflexivity|]. rewrite IH. reflexivity.
Qed.

Lemma assemble_bytes : forall bs, assemble (map (fun c => ES [c]) bs) = Some bs.
Proof. intro bs. unfold assemble. rewrite asm_bytes. simpl. rewrite app_nil_r. reflexivity. Qed.

(* byte[n] / address, byte[] / string on a byte string: the raw bytes, behind the uint16 length for the
   dynamic ones *)
Lemma static_bytes_enc_spec : forall n bs,
    static_array_enc false false (uint_enc 8) n (VBytes bs) = if blen bs =? n then Some bs else None.
Proof.
  intros n bs. unfold static_array_enc. cbn [elems_of obind]. rewrite map_length. fold (blen bs).
  destruct (blen bs =? n); [|reflexivity]. rewrite enc_all_bytes. apply assemble_bytes.
Qed.

Lemma dyn_bytes_enc_spec : forall bs,
    dyn_array_enc false false (uint_enc 8) (VBytes bs) =
    if blen bs <? 65536 then Some (be_encode 2 (blen bs) ++ bs) else None.
Proof.
  intro bs. unfold dyn_array_enc, u16. cbn [elems_of obind]. rewrite map_length. fold (blen bs).
  destruct (blen bs <? 65536); [|reflexivity]. cbn [obind]. rewrite enc_all_bytes. cbn [obind].
  rewrite assemble_bytes. reflexivity.
Qed.

(* the two spellings of a byte list mean the same wherever a list of elements is expected *)
Lemma elems_of_bytes : forall bs, elems_of (VBytes bs) = elems_of (VList (map byte_val bs)).
Proof. reflexivity. Qed.

(* decoding is sound by construction: an accepted byte string is the encoding of the result *)
Theorem decode_sound : forall t bs v, arc4_decode t bs = Some v -> arc4_encode t v = Some bs.
Proof.
  intros t bs v H. unfold arc4_decode in H.
  apply obind_some in H as [v' [_ H]].
  destruct (arc4_encode t v') as [bs'|] eqn:E; [|discriminate H].
  destruct (bytes_eqb bs' bs) eqn:Eb; [|discriminate H].
  injection H as <-. apply bytes_eqb_eq in Eb. congruence.
Qed.

(* hence every decoded value is well-typed *)
Corollary decode_typed : forall t bs v, arc4_decode t bs = Some v -> val_has_type t v = true.
Proof. intros t bs v H. eapply encode_typed. apply decode_sound. exact H. Qed.
