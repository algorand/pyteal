(* Proofs/CallPartial.v — C02: (a) the bridge between the straight-line semantics [Comp.SpillSem] and
   the reference machine [AVM.Machine.step]: every step of [srun] that is not the abstract call is a
   machine step; (b) [call_correct_partial]: on the machine, a call of a routine compiled with the
   scratch convention whose body is straight-line code returns the body's value on top of the caller's
   operands, the arguments are gone, parameter i was bound to argument i. *)
From Coq Require Import String.
From Coq Require Import Arith NArith Bool Lia List.
From PV Require Import AVM.Syntax AVM.Ops AVM.Machine Comp.SpillSem Proofs.ExecOpFacts Proofs.SpillProof
  Proofs.PrologueProof Proofs.MachineStep.
Import ListNotations.
Notation length := List.length.

(* the machine's scratch space as a function *)
Definition sc_of (st : mstate) : scratch := fun n => scratch_get (s_scratch st) n.

Lemma sc_of_set st i v n : sc_of (set_scratch st i v) n = supd (sc_of st) i v n.
Proof. apply scratch_get_set. Qed.

Section Mach.
Variable cx : ctx.
Variable p : program.

(* n machine steps, all of them [Running] *)
Fixpoint msteps (n : nat) (m : mach) : option mach :=
  match n with
  | O => Some m
  | S k => match step cx p m with Running m' => msteps k m' | Done _ _ => None end
  end.

Lemma msteps_add a b m :
  msteps (a + b) m = match msteps a m with Some m' => msteps b m' | None => None end.
Proof.
  revert m; induction a as [|a IH]; intros m; cbn [Nat.add msteps]; [reflexivity|].
  destruct (step cx p m); auto.
Qed.

(* a straight-line segment: every instruction is executed by [exec_op] (no control flow) *)
Fixpoint mrun (seg : list pinstr) (stk : list value) (st : mstate) : option (list value * mstate) :=
  match seg with
  | [] => Some (stk, st)
  | i :: t =>
      if (STACK_MAX <? length stk)%nat then None else
      match exec_op cx (p_op i) (p_imms i) stk st with
      | OOk stk' st' => mrun t stk' st'
      | _ => None
      end
  end.

Lemma mrun_app s1 s2 stk st :
  mrun (s1 ++ s2) stk st = match mrun s1 stk st with Some (stk', st') => mrun s2 stk' st' | None => None end.
Proof.
  revert stk st; induction s1 as [|i s1 IH]; intros stk st; cbn [app mrun]; [reflexivity|].
  destruct (STACK_MAX <? length stk)%nat; [reflexivity|].
  destruct (exec_op cx (p_op i) (p_imms i) stk st); auto.
Qed.

Definition seg_at (pc : nat) (seg : list pinstr) : Prop :=
  forall j i, nth_error seg j = Some i -> nth_error (pr_code p) (pc + j) = Some i.

Lemma seg_at_tail pc i t : seg_at pc (i :: t) -> seg_at (S pc) t.
Proof. intros H j x Hx. specialize (H (S j) x Hx). rewrite Nat.add_succ_r in H. exact H. Qed.

Lemma seg_at_app_r pc s1 s2 : seg_at pc (s1 ++ s2) -> seg_at (pc + length s1) s2.
Proof.
  intros H j x Hx. rewrite <- Nat.add_assoc. apply H.
  rewrite nth_error_app2 by lia. replace (length s1 + j - length s1)%nat with j by lia. exact Hx.
Qed.

Lemma mrun_steps seg : forall pc stk st calls fcs intc bytec stk' st',
  seg_at pc seg -> mrun seg stk st = Some (stk', st') ->
  msteps (length seg) (mkM pc stk calls fcs intc bytec st)
  = Some (mkM (pc + length seg) stk' calls (match seg with [] => fcs | _ => false end) intc bytec st').
Proof.
  induction seg as [|i t IH]; intros pc stk st calls fcs intc bytec stk' st' Hseg Hrun.
  - cbn [mrun] in Hrun. injection Hrun as <- <-. cbn [length msteps]. rewrite Nat.add_0_r. reflexivity.
  - cbn [mrun] in Hrun. cbn [length msteps].
    pose proof (Hseg 0%nat i eq_refl) as Hi. rewrite Nat.add_0_r in Hi. destruct i as [o im]. cbn [p_op p_imms] in Hrun.
    destruct (STACK_MAX <? length stk)%nat eqn:Eh; [discriminate|]. apply Nat.ltb_ge in Eh.
    destruct (exec_op cx o im stk st) as [stk1 st1| | |] eqn:Ex; try discriminate.
    rewrite (step_op cx p (mkM pc stk calls fcs intc bytec st) Eh o im stk1 st1 Hi Ex). cbn [m_pc m_calls m_intc m_bytec].
    rewrite (IH (S pc) stk1 st1 calls false intc bytec stk' st' (seg_at_tail pc _ t Hseg) Hrun).
    replace (S pc + length t)%nat with (pc + S (length t))%nat by lia.
    destruct t; reflexivity.
Qed.

Lemma imms_to_args_ints ns : imms_to_args (map IInt ns) = map AInt ns.
Proof. induction ns as [|n ns IH]; cbn [map imms_to_args]; [reflexivity|]. rewrite IH. reflexivity. Qed.

(* an opcode that both semantics hand to [exec_pure] *)
Lemma spure_is_exec_op callee na o ns stk st stk' m' :
  sstep callee na (COp (mkI o (map AInt ns))) stk (sc_of st) = Some (stk', m') ->
  sstep callee na (COp (mkI o (map AInt ns))) stk (sc_of st)
  = match exec_pure o (map AInt ns) stk with POk s => Some (s, sc_of st) | _ => None end ->
  exists st', exec_op cx o (map IInt ns) stk st = OOk stk' st' /\ forall n, sc_of st' n = m' n.
Proof.
  intros H E. rewrite E in H. unfold exec_op. rewrite imms_to_args_ints.
  destruct (exec_pure o (map AInt ns) stk) as [s| |]; try discriminate H.
  injection H as <- <-. exists st. split; reflexivity.
Qed.

Lemma sstep_is_exec_op callee na (o : opc) (ns : list N) stk (st : mstate) stk' m' :
  o <> O_callsub ->
  sstep callee na (COp (mkI o (map AInt ns))) stk (sc_of st) = Some (stk', m') ->
  exists st', exec_op cx o (map IInt ns) stk st = OOk stk' st' /\ forall n, sc_of st' n = m' n.
Proof.
  intros Hno H.
  destruct o; try exact (spure_is_exec_op callee na _ ns stk st stk' m' H eq_refl).
  - (* load *)
    cbn [sstep i_op i_args] in H. destruct ns as [|n [|? ?]]; try discriminate. cbn [map] in *.
    change (exec_op cx O_load [IInt n] stk st)
      with (if (n <? 256)%N then OOk (scratch_get (s_scratch st) n :: stk) st else OFail).
    destruct (n <? 256)%N; [|discriminate]. injection H as <- <-.
    exists st. split; [reflexivity|intros k; reflexivity].
  - (* store *)
    cbn [sstep i_op i_args] in H. destruct ns as [|n [|? ?]]; try discriminate;
      destruct stk as [|v r]; try discriminate. cbn [map] in *.
    change (exec_op cx O_store [IInt n] (v :: r) st)
      with (if (n <? 256)%N then OOk r (set_scratch st n v) else OFail).
    destruct (n <? 256)%N; [|discriminate]. injection H as <- <-.
    exists (set_scratch st n v). split; [reflexivity|]. intros k. apply sc_of_set.
  - exfalso. apply Hno. reflexivity.
Qed.

Definition mbind (rs : list N) (vs : list value) (st : mstate) : mstate :=
  fold_left (fun acc sv => set_scratch acc (fst sv) (snd sv)) (combine rs vs) st.

Lemma bind_slots_ext rs : forall vs m1 m2, (forall n, m1 n = m2 n) ->
  forall n, bind_slots rs vs m1 n = bind_slots rs vs m2 n.
Proof.
  induction rs as [|s rs IH]; intros [|v vs] m1 m2 H n; try apply H.
  unfold bind_slots in *. cbn [combine fold_left fst snd]. apply IH.
  intros k. unfold supd. destruct (N.eqb k s); [reflexivity|apply H].
Qed.

Lemma sc_of_mbind rs : forall vs st n, sc_of (mbind rs vs st) n = bind_slots rs vs (sc_of st) n.
Proof.
  induction rs as [|s rs IH]; intros [|v vs] st n; try reflexivity.
  unfold mbind, bind_slots in *. cbn [combine fold_left fst snd]. rewrite IH.
  apply bind_slots_ext. intros k. apply sc_of_set.
Qed.

Definition store_instr (s : N) : pinstr := mkP O_store [IInt s].

Lemma mrun_stores rs : Forall slot_ok rs -> forall vs X st,
  length vs = length rs -> (length (vs ++ X) <= STACK_MAX)%nat ->
  mrun (map store_instr rs) (vs ++ X) st = Some (X, mbind rs vs st).
Proof.
  induction 1 as [|s t Hs _ IH]; intros [|v vs] X st Hl Hh; try discriminate; [reflexivity|].
  change (map store_instr (s :: t)) with (mkP O_store [IInt s] :: map store_instr t).
  cbn [mrun app].
  replace (STACK_MAX <? length (v :: vs ++ X))%nat with false by (symmetry; apply Nat.ltb_ge; exact Hh).
  cbn [p_op p_imms].
  change (exec_op cx O_store [IInt s] (v :: vs ++ X) st)
    with (if (s <? 256)%N then OOk (vs ++ X) (set_scratch st s v) else OFail).
  replace (s <? 256)%N with true by (symmetry; apply N.ltb_lt; exact Hs).
  rewrite IH; [reflexivity|cbn [length] in Hl; lia|cbn [app length] in Hh; lia].
Qed.

(* the state after the prologue has parameter i bound to argument i *)
Lemma mbind_params slots args st : NoDup slots -> length args = length slots ->
  forall i s v, nth_error slots i = Some s -> nth_error args i = Some v ->
    sc_of (mbind (rev slots) (rev args) st) s = v.
Proof.
  intros Hnd Hl i s v Hi Hv. rewrite sc_of_mbind. exact (proj1 (bind_rev_params slots args _ Hnd Hl) i s v Hi Hv).
Qed.

(* PARTIAL.  What is proved: on the reference machine, for a routine laid out as the scratch
   convention prescribes — [store slot_(n-1); ...; store slot_0; body; retsub] — whose body is
   straight-line code (every instruction executed by [exec_op]) that leaves one value [result] on the
   stack it started on once its parameters are bound, the call [callsub l] with the arguments on top of
   the caller's operands [Sk] comes back to the instruction after the call with [result :: Sk], the
   call stack unchanged, in exactly 2 + #params + #body steps.
   Beyond this theorem.  Bodies with control flow, nested and recursive calls, and the link from the source
   semantics to the machine: C02_program_text_calls_{nonrecursive,recursive,by_value}_partial
   (Props/C02_machine.v), for whole compiled programs under the scratch convention, with hypotheses on the
   emitted list that are not derived from the pipeline.  The frame-pointer convention on the machine:
   [fp_call_protocol] (Proofs/CallMachineFrame.v), which composes [callsub_proto_steps], [retsub_fp_general]
   and the frame rule for any body that runs on the stripped machine.
   Open: no theorem connects a subroutine compiled with the frame-pointer convention to the source semantics
   (proto / frame_dig / frame_bury are outside [printable] and [pstep]). *)
Theorem call_correct_partial :
  forall (m : mach) (l : string) (t : nat) (slots : list N) (args Sk : list value)
         (body : list pinstr) (imms : list imm) (result : value) (st2 : mstate),
    nth_error (pr_code p) (m_pc m) = Some (mkP O_callsub [IName l]) ->
    label_pc p l = Some t ->
    seg_at t (map store_instr (rev slots) ++ body) ->
    nth_error (pr_code p) (t + length slots + length body) = Some (mkP O_retsub imms) ->
    m_stack m = rev args ++ Sk -> length args = length slots ->
    Forall slot_ok slots ->
    (height m <= STACK_MAX)%nat -> (S (length Sk) <= STACK_MAX)%nat ->
    mrun body Sk (mbind (rev slots) (rev args) (m_st m)) = Some (result :: Sk, st2) ->
    msteps (2 + length slots + length body) m
    = Some (mkM (S (m_pc m)) (result :: Sk) (m_calls m) false (m_intc m) (m_bytec m) st2).
Proof.
  intros m l t slots args Sk body imms result st2 Hc Hl Hseg Hret Hst Hlen Hs Hh HSk Hbody.
  replace (2 + length slots + length body)%nat with (1 + (length (map store_instr (rev slots) ++ body) + 1))%nat
    by (rewrite app_length, map_length, rev_length; lia).
  rewrite msteps_add. cbn [msteps].
  (* callsub *)
  rewrite (step_callsub cx p m Hh l Hc), Hl.
  (* prologue ++ body *)
  rewrite msteps_add.
  assert (Hrun : mrun (map store_instr (rev slots) ++ body) (m_stack m) (m_st m) = Some (result :: Sk, st2)).
  { rewrite mrun_app, Hst, mrun_stores.
    - exact Hbody.
    - apply Forall_rev. exact Hs.
    - rewrite !rev_length. exact Hlen.
    - unfold height in Hh. rewrite Hst in Hh. exact Hh. }
  rewrite (mrun_steps _ t (m_stack m) (m_st m) _ true (m_intc m) (m_bytec m) _ _ Hseg Hrun).
  (* retsub *)
  cbn [msteps]. erewrite step_retsub; [reflexivity|exact HSk|]. cbn [m_pc].
  rewrite app_length, map_length, rev_length, Nat.add_assoc. exact Hret.
Qed.

(* the same, with the body's behaviour given as a function of the argument values: whenever the body
   computes [f args] from any state in which parameter i holds argument i, the call returns [f args] *)
Corollary call_correct_partial_fun :
  forall (f : list value -> value)
         (m : mach) (l : string) (t : nat) (slots : list N) (args Sk : list value)
         (body : list pinstr) (imms : list imm),
    nth_error (pr_code p) (m_pc m) = Some (mkP O_callsub [IName l]) ->
    label_pc p l = Some t ->
    seg_at t (map store_instr (rev slots) ++ body) ->
    nth_error (pr_code p) (t + length slots + length body) = Some (mkP O_retsub imms) ->
    m_stack m = rev args ++ Sk -> length args = length slots ->
    NoDup slots -> Forall slot_ok slots ->
    (height m <= STACK_MAX)%nat -> (S (length Sk) <= STACK_MAX)%nat ->
    (forall st1,
        (forall i s v, nth_error slots i = Some s -> nth_error args i = Some v -> sc_of st1 s = v) ->
        exists st2, mrun body Sk st1 = Some (f args :: Sk, st2)) ->
    exists st2,
      msteps (2 + length slots + length body) m
      = Some (mkM (S (m_pc m)) (f args :: Sk) (m_calls m) false (m_intc m) (m_bytec m) st2).
Proof.
  intros f m l t slots args Sk body imms Hc Hl Hseg Hret Hst Hlen Hnd Hs Hh HSk Hbody.
  destruct (Hbody (mbind (rev slots) (rev args) (m_st m))
                  (mbind_params slots args (m_st m) Hnd Hlen)) as [st2 H2].
  exists st2. eapply call_correct_partial; eassumption.
Qed.

End Mach.
