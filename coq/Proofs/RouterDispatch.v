(* Proofs/RouterDispatch.v — lemmas for property C08 about Router/Dispatch.v. *)
From Coq Require Import List NArith Bool.
From PV Require Import Base.Bytes Router.Dispatch Proofs.BytesFacts.
Import ListNotations.

Lemma oc_eqb_eq : forall a b, oc_eqb a b = true <-> a = b.
Proof. intros [] []; cbn; split; intro H; try reflexivity; discriminate. Qed.

Lemma cc_eqb_eq : forall a b, cc_eqb a b = true <-> a = b.
Proof. intros [] []; cbn; split; intro H; try reflexivity; discriminate. Qed.

Lemma eval_or_nil : forall c, eval_c (EOr []) c = Some false.
Proof. reflexivity. Qed.

Lemma eval_or_cons : forall x t c,
  eval_c (EOr (x :: t)) c =
  match eval_c x c, eval_c (EOr t) c with
  | Some a, Some b => Some (a || b)
  | _, _ => None
  end.
Proof. reflexivity. Qed.

Lemma run_cond_nil : forall c, run_prog (PCond []) c = Fails.
Proof. reflexivity. Qed.

Lemma run_cond_cons : forall a t c,
  run_prog (PCond (a :: t)) c =
  match eval_c (fst a) c with
  | None => Fails
  | Some true => run_prog (snd a) c
  | Some false => run_prog (PCond t) c
  end.
Proof. reflexivity. Qed.

(* MethodConfig.approval_cond means "the CallConfig of the call's OnCompletion allows its status" *)
Definition pair_allows (c : call) (p : call_config * on_complete) : bool :=
  oc_eqb (c_oc c) (snd p) && cc_allows (fst p) (c_create c).

Lemma eval_or_pairs : forall (ps : list (call_config * on_complete)) c,
  eval_c (EOr (flat_map cond_of_pair ps)) c = Some (existsb (pair_allows c) ps).
Proof.
  induction ps as [|[cc o] ps IH]; intro c; [reflexivity|].
  cbn [flat_map existsb]. unfold cond_of_pair at 1, pair_allows at 1. cbn [fst snd].
  destruct cc; cbn [cc_cond app cc_allows].
  - rewrite IH. now rewrite andb_false_r.
  - rewrite eval_or_cons, IH. reflexivity.
  - rewrite eval_or_cons, IH. reflexivity.
  - rewrite eval_or_cons, IH. cbn [eval_c]. now rewrite andb_true_r.
Qed.

Lemma config_pair_In : forall m o, o <> ClearState -> In (mc_get m o, o) (config_oc_pairs m).
Proof. intros m o Ho. destruct o; try congruence; cbn; tauto. Qed.

(* the two short cuts of approval_cond: every OnCompletion carries the same CallConfig *)
Lemma all_pairs_get : forall m o cc,
  o <> ClearState -> forallb (fun p => cc_eqb (fst p) cc) (config_oc_pairs m) = true -> mc_get m o = cc.
Proof.
  intros m o cc Ho H. rewrite forallb_forall in H.
  apply cc_eqb_eq. exact (H _ (config_pair_In m o Ho)).
Qed.

Lemma approval_cond_sound : forall m c,
  c_oc c <> ClearState ->
  acond_holds (approval_cond m) c = Some (cc_allows (mc_get m (c_oc c)) (c_create c)).
Proof.
  intros m c Hoc. unfold approval_cond.
  destruct (forallb (fun p => cc_eqb (fst p) NEVER) (config_oc_pairs m)) eqn:Hn.
  - now rewrite (all_pairs_get m _ _ Hoc Hn).
  - destruct (forallb (fun p => cc_eqb (fst p) ALL) (config_oc_pairs m)) eqn:Ha.
    + now rewrite (all_pairs_get m _ _ Hoc Ha).
    + cbn [acond_holds]. rewrite eval_or_pairs. f_equal.
      unfold config_oc_pairs, pair_allows. cbn [existsb fst snd].
      destruct (c_oc c); try congruence; cbn [mc_get oc_eqb oc_code N.eqb Pos.eqb andb orb];
        rewrite ?orb_false_r; reflexivity.
Qed.

(* approval_cond is the int 0 exactly for the configurations on which is_never() holds, which
   add_method_handler refuses *)
Lemma approval_cond_zero : forall m,
  mc_post_init_ok m = true -> (approval_cond m = AC0 <-> mc_is_never m = true).
Proof.
  intros m Hp. unfold mc_post_init_ok in Hp.
  (* is_never also looks at clear_state, which __post_init__ has forced to NEVER *)
  assert (Hn : mc_is_never m = forallb (fun p => cc_eqb (fst p) NEVER) (config_oc_pairs m)).
  { unfold mc_is_never, mc_astuple, config_oc_pairs. cbn [forallb fst]. now rewrite Hp. }
  rewrite Hn. unfold approval_cond.
  destruct (forallb _ (config_oc_pairs m)); [tauto|].
  destruct (forallb _ (config_oc_pairs m)); split; discriminate.
Qed.

Definition node_of (t : bytes * acond * handler) : cexpr * prog :=
  to_cond_node (fst (fst t)) (snd (fst t)) (snd t).

Definition method_outcome (ms : list method) (a0 : bytes) (o : on_complete) (cr : bool) : outcome :=
  match find (fun m => bytes_eqb a0 (m_sel m)) ms with
  | Some m => if cc_allows (mc_get (m_cfg m) o) cr then RunsHandler (m_handler m) else Fails
  | None => Fails
  end.

(* registered methods never take the "skip on 0" branch of add_method_to_ast *)
Lemma add_method_ok : forall m,
  method_ok m = true -> add_method_to_ast m = [(m_sel m, approval_cond (m_cfg m), m_handler m)].
Proof.
  intros m H. unfold method_ok in H. apply andb_true_iff in H. destruct H as [Hpi Hnn].
  apply negb_true_iff in Hnn. unfold add_method_to_ast.
  destruct (approval_cond (m_cfg m)) eqn:Hac; try reflexivity.
  apply (approval_cond_zero _ Hpi) in Hac. congruence.
Qed.

Lemma node_body_run : forall t c,
  run_prog (snd (node_of t)) c =
  match acond_holds (snd (fst t)) c with Some true => RunsHandler (snd t) | _ => Fails end.
Proof. intros [[s [| |e]] h] c; reflexivity. Qed.

Lemma method_arms_run : forall ms a0 rest o cr,
  o <> ClearState ->
  forallb method_ok ms = true ->
  run_prog (PCond (map node_of (methods_with_conds ms))) (mkCall (a0 :: rest) o cr) = method_outcome ms a0 o cr.
Proof.
  induction ms as [|m ms IH]; intros a0 rest o cr Ho Hok; [reflexivity|].
  cbn [forallb] in Hok. apply andb_true_iff in Hok. destruct Hok as [Hm Hms].
  unfold methods_with_conds. cbn [flat_map]. fold (methods_with_conds ms).
  rewrite (add_method_ok m Hm). cbn [app map]. rewrite run_cond_cons, node_body_run.
  unfold method_outcome. cbn [find fst snd node_of to_cond_node eval_c c_args].
  destruct (bytes_eqb a0 (m_sel m)); [|now apply IH].
  rewrite (approval_cond_sound (m_cfg m) (mkCall (a0 :: rest) o cr) Ho). cbn [c_oc c_create].
  destruct (cc_allows (mc_get (m_cfg m) o) cr); reflexivity.
Qed.

Lemma method_arms_nil : forall ms,
  forallb method_ok ms = true -> methods_with_conds ms = [] -> ms = [].
Proof.
  intros [|m ms] Hok H; [reflexivity|exfalso].
  cbn [forallb] in Hok. apply andb_true_iff in Hok. destruct Hok as [Hm _].
  unfold methods_with_conds in H. cbn [flat_map] in H. rewrite (add_method_ok m Hm) in H. discriminate.
Qed.

Definition bare_outcome (a : oc_action) (cr : bool) : outcome :=
  match oca_action a with
  | Some h => if cc_allows (oca_cc a) cr then RunsHandler h else Fails
  | None => Fails
  end.

Lemma bare_body_run : forall a c,
  oca_post_init_ok a = true -> run_prog (bare_cond_body a) c = bare_outcome a (c_create c).
Proof.
  intros [act cc] c Hok. unfold oca_post_init_ok in Hok. cbn [oca_action oca_cc] in Hok.
  unfold bare_cond_body, bare_outcome. cbn [oca_action oca_cc].
  destruct act as [h|]; [|reflexivity].
  destruct cc; cbn in Hok; try discriminate; cbn; destruct (c_create c); reflexivity.
Qed.

Lemma empty_action_none : forall a, oca_is_empty a = true -> oca_action a = None.
Proof.
  intros [[h|] cc] H; [discriminate|reflexivity].
Qed.

Lemma ba_get_In : forall b o, In (ba_get b o) (ba_aslist b).
Proof. intros b o. destruct o; cbn; tauto. Qed.

(* the bare-call Cond runs the first non-empty action registered for the call's OnCompletion *)
Lemma bare_arms_find : forall ps c,
  run_prog (PCond (flat_map bare_arm_of ps)) c =
  match find (fun p => oc_eqb (c_oc c) (fst p) && negb (oca_is_empty (snd p))) ps with
  | Some p => run_prog (bare_cond_body (snd p)) c
  | None => Fails
  end.
Proof.
  induction ps as [|[o a] ps IH]; intro c; [reflexivity|].
  cbn [flat_map find fst snd]. unfold bare_arm_of at 1. cbn [fst snd].
  destruct (oca_is_empty a); cbn [app negb].
  - rewrite andb_false_r. apply IH.
  - rewrite run_cond_cons, andb_true_r. cbn [fst snd eval_c].
    destruct (oc_eqb (c_oc c) o); [reflexivity|apply IH].
Qed.

Lemma bare_arms_run : forall b c,
  forallb oca_post_init_ok (ba_aslist b) = true ->
  c_oc c <> ClearState ->
  run_prog (PCond (flat_map bare_arm_of (oc_action_pair b))) c = bare_outcome (ba_get b (c_oc c)) (c_create c).
Proof.
  intros b c Hok Hoc. rewrite bare_arms_find.
  (* oc_action_pair holds each OnCompletion once, with its action *)
  assert (Hf : find (fun p => oc_eqb (c_oc c) (fst p) && negb (oca_is_empty (snd p))) (oc_action_pair b) =
               if oca_is_empty (ba_get b (c_oc c)) then None else Some (c_oc c, ba_get b (c_oc c))).
  { unfold oc_action_pair.
    destruct (c_oc c); try congruence; cbn [find fst snd ba_get oc_eqb oc_code N.eqb Pos.eqb andb];
      destruct (oca_is_empty _); reflexivity. }
  rewrite Hf. destruct (oca_is_empty (ba_get b (c_oc c))) eqn:He.
  - unfold bare_outcome. now rewrite (empty_action_none _ He).
  - rewrite forallb_forall in Hok. apply bare_body_run, Hok, ba_get_In.
Qed.

Lemma ba_is_empty_pairs : forall b,
  ba_init_ok b = true ->
  ba_is_empty b = forallb (fun p => oca_is_empty (snd p)) (oc_action_pair b).
Proof.
  intros b H. unfold ba_init_ok in H. apply andb_true_iff in H. destruct H as [_ H].
  unfold ba_is_empty, ba_aslist, oc_action_pair. cbn [forallb snd]. rewrite H.
  destruct (oca_is_empty (ba_no_op b)), (oca_is_empty (ba_opt_in b)), (oca_is_empty (ba_close_out b)),
    (oca_is_empty (ba_update_application b)), (oca_is_empty (ba_delete_application b)); reflexivity.
Qed.

Lemma bare_empty_actions : forall b o, ba_is_empty b = true -> oca_action (ba_get b o) = None.
Proof.
  intros b o He. unfold ba_is_empty in He. rewrite forallb_forall in He.
  apply empty_action_none, He, ba_get_In.
Qed.

Definition nothing_registered (r : router_cfg) : bool :=
  ba_is_empty (r_bare r) && match r_methods r with [] => true | _ :: _ => false end.

Definition expected_outcome (r : router_cfg) (c : call) : outcome :=
  match allowed r c with
  | Some h => RunsHandler h
  | None => if nothing_registered r then Rejects else Fails
  end.

Lemma cfg_ok_inv : forall r,
  cfg_ok r = true ->
  ba_init_ok (r_bare r) = true /\ forallb method_ok (r_methods r) = true /\ sels_distinct (r_methods r) = true.
Proof. intros r H. unfold cfg_ok in H. rewrite !andb_true_iff in H. tauto. Qed.

Lemma allowed_method_outcome : forall r a0 rest o cr,
  nothing_registered r = false ->
  method_outcome (r_methods r) a0 o cr = expected_outcome r (mkCall (a0 :: rest) o cr).
Proof.
  intros r a0 rest o cr Hn. unfold method_outcome, expected_outcome, allowed. cbn [c_args c_oc c_create].
  rewrite Hn.
  destruct (find (fun m => bytes_eqb a0 (m_sel m)) (r_methods r)) as [m|]; [|reflexivity].
  destruct (cc_allows (mc_get (m_cfg m) o) cr); reflexivity.
Qed.

Theorem dispatch_exact : forall r c,
  cfg_ok r = true -> c_oc c <> ClearState -> dispatch r c = expected_outcome r c.
Proof.
  intros [b cl ms] [args o cr] Hok Hoc. cbn [c_oc] in Hoc.
  apply cfg_ok_inv in Hok. cbn [r_bare r_methods] in Hok. destruct Hok as (Hb & Hms & _).
  pose proof Hb as Hoca. unfold ba_init_ok in Hoca. apply andb_true_iff in Hoca. destruct Hoca as [Hoca _].
  unfold dispatch, approval_program, program_construction. cbn [r_bare r_methods].
  fold node_of.
  unfold bare_calls_of, approval_construction. rewrite <- (ba_is_empty_pairs b Hb).
  destruct (ba_is_empty b) eqn:He; cbn [negb app].
  - (* no bare action registered *)
    destruct (map node_of (methods_with_conds ms)) as [|n ns] eqn:Hm.
    + apply map_eq_nil in Hm. apply (method_arms_nil ms Hms) in Hm. subst ms.
      unfold expected_outcome, nothing_registered, allowed. cbn [r_bare r_methods c_args c_oc c_create find].
      rewrite He. cbn [andb run_prog].
      destruct args; [|reflexivity].
      now rewrite (bare_empty_actions b o He).
    + destruct args as [|a0 rest].
      * (* a bare call reaches the first method arm: txna ApplicationArgs 0 fails *)
        rewrite run_cond_cons.
        assert (Hn : exists s p, n = (EArg0Eq s, p)).
        { destruct (methods_with_conds ms) as [|t ts]; [discriminate|].
          cbn [map] in Hm. injection Hm as Hn _. subst n. unfold node_of, to_cond_node. eauto. }
        destruct Hn as (s & p & ->). cbn [fst eval_c c_args].
        unfold expected_outcome, nothing_registered, allowed. cbn [r_bare r_methods c_args c_oc c_create].
        rewrite (bare_empty_actions b o He).
        destruct ms; [discriminate Hm|]. now rewrite andb_false_r.
      * rewrite <- Hm. rewrite (method_arms_run ms a0 rest o cr Hoc Hms).
        apply (allowed_method_outcome (mkRouter b cl ms)).
        unfold nothing_registered. cbn [r_bare r_methods].
        destruct ms; [discriminate Hm|]. now rewrite andb_false_r.
  - (* bare arm first *)
    rewrite run_cond_cons. cbn [fst snd eval_c c_args].
    destruct args as [|a0 rest].
    + rewrite (bare_arms_run b (mkCall [] o cr) Hoca Hoc). cbn [c_oc c_create].
      unfold bare_outcome, expected_outcome, nothing_registered, allowed.
      cbn [r_bare r_methods c_args c_oc c_create]. rewrite He. cbn [andb].
      destruct (oca_action (ba_get b o)); [|reflexivity].
      destruct (cc_allows (oca_cc (ba_get b o)) cr); reflexivity.
    + rewrite (method_arms_run ms a0 rest o cr Hoc Hms).
      apply (allowed_method_outcome (mkRouter b cl ms)).
      unfold nothing_registered. cbn [r_bare]. now rewrite He.
Qed.

Theorem router_dispatch_correct_lemma : forall r c,
  cfg_ok r = true -> c_oc c <> ClearState ->
  (forall h, dispatch r c = RunsHandler h <-> allowed r c = Some h) /\
  (allowed r c = None -> dispatch r c = Rejects \/ dispatch r c = Fails).
Proof.
  intros r c Hok Hoc. rewrite (dispatch_exact r c Hok Hoc). unfold expected_outcome.
  destruct (allowed r c) as [h'|]; split.
  - intro h. split; intro H; [injection H as ->; reflexivity|injection H as ->; reflexivity].
  - discriminate.
  - intro h. destruct (nothing_registered r); split; discriminate.
  - intros _. destruct (nothing_registered r); auto.
Qed.

Theorem router_rejects_iff_empty_lemma : forall r c,
  cfg_ok r = true -> c_oc c <> ClearState ->
  (dispatch r c = Rejects <-> nothing_registered r = true).
Proof.
  intros r c Hok Hoc. rewrite (dispatch_exact r c Hok Hoc). unfold expected_outcome.
  destruct (allowed r c) as [h|] eqn:Ha.
  - split; [discriminate|]. intro Hn. exfalso.
    unfold nothing_registered in Hn. apply andb_true_iff in Hn. destruct Hn as [He Hm].
    unfold allowed in Ha. destruct (c_args c).
    + rewrite (bare_empty_actions _ (c_oc c) He) in Ha. discriminate.
    + destruct (r_methods r); [discriminate Ha|discriminate Hm].
  - destruct (nothing_registered r); split; congruence.
Qed.

Lemma existsb_bytes_In : forall s l, existsb (bytes_eqb s) l = true <-> In s l.
Proof.
  intros s l. rewrite existsb_exists. split.
  - intros (x & Hx & He). apply bytes_eqb_eq in He. now subst.
  - intro H. exists s. split; [assumption|apply bytes_eqb_refl].
Qed.

Lemma distinct_from_spec : forall ms seen,
  distinct_from seen ms = true <->
  (NoDup (map m_sel ms) /\ forall m, In m ms -> ~ In (m_sel m) seen).
Proof.
  induction ms as [|m ms IH]; intro seen; cbn [distinct_from map].
  - split; [intros _; split; [constructor|intros m []]|reflexivity].
  - rewrite andb_true_iff, negb_true_iff, IH, NoDup_cons_iff. split.
    + intros (Hn & Hnd & Hall). split; [split; [|assumption]|].
      * intro Hin. apply in_map_iff in Hin. destruct Hin as (m' & He & Hin').
        apply (Hall m' Hin'). left. now symmetry.
      * intros m' [<-|Hin'].
        -- intro Hin. apply existsb_bytes_In in Hin. congruence.
        -- intro Hin. apply (Hall m' Hin'). now right.
    + intros ((Hni & Hnd) & Hall). split; [|split; [assumption|]].
      * destruct (existsb (bytes_eqb (m_sel m)) seen) eqn:E; [|reflexivity].
        apply existsb_bytes_In in E. exfalso. apply (Hall m); [now left|assumption].
      * intros m' Hin' [He|Hin].
        -- apply Hni. rewrite He. now apply in_map.
        -- apply (Hall m'); [now right|assumption].
Qed.

Lemma sels_distinct_NoDup : forall ms, sels_distinct ms = true <-> NoDup (map m_sel ms).
Proof.
  intro ms. unfold sels_distinct. rewrite distinct_from_spec. split; [tauto|].
  intro H. split; [assumption|]. intros m _ [].
Qed.

Lemma NoDup_sel_inj : forall ms m m',
  NoDup (map m_sel ms) -> In m ms -> In m' ms -> m_sel m = m_sel m' -> m = m'.
Proof.
  induction ms as [|x ms IH]; intros m m' Hnd Hin Hin' He; [destruct Hin|].
  cbn [map] in Hnd. apply NoDup_cons_iff in Hnd. destruct Hnd as [Hni Hnd].
  destruct Hin as [<-|Hin], Hin' as [<-|Hin'].
  - reflexivity.
  - exfalso. apply Hni. rewrite He. now apply in_map.
  - exfalso. apply Hni. rewrite <- He. now apply in_map.
  - now apply IH.
Qed.

(* the functional specification agrees with the relational one *)
Theorem allowed_iff_rel_lemma : forall r c h,
  cfg_ok r = true -> (allowed r c = Some h <-> allowed_rel r c h).
Proof.
  intros r c h Hok.
  apply cfg_ok_inv in Hok. destruct Hok as (_ & _ & Hdis).
  apply sels_distinct_NoDup in Hdis.
  unfold allowed, allowed_rel. destruct (c_args c) as [|a0 rest].
  - split.
    + intro H. right. destruct (oca_action (ba_get (r_bare r) (c_oc c))) as [h'|]; [|discriminate].
      destruct (cc_allows (oca_cc (ba_get (r_bare r) (c_oc c))) (c_create c)); [|discriminate].
      injection H as ->. auto.
    + intros [(m & a & rest & _ & Habs & _)|(_ & Ha & Hc)]; [discriminate|].
      now rewrite Ha, Hc.
  - split.
    + intro H. left.
      destruct (find (fun m => bytes_eqb a0 (m_sel m)) (r_methods r)) as [m|] eqn:Hf; [|discriminate].
      apply find_some in Hf. destruct Hf as [Hin He]. apply bytes_eqb_eq in He.
      destruct (cc_allows (mc_get (m_cfg m) (c_oc c)) (c_create c)) eqn:Hc; [|discriminate].
      injection H as <-. exists m, a0, rest. auto.
    + intros [(m & a & rest' & Hin & Hargs & Ha & Hc & ->)|(Habs & _)]; [|discriminate].
      injection Hargs as <- <-. subst a0.
      destruct (find (fun m0 => bytes_eqb (m_sel m) (m_sel m0)) (r_methods r)) as [m'|] eqn:Hf.
      * apply find_some in Hf. destruct Hf as [Hin' He]. apply bytes_eqb_eq in He.
        assert (m = m') by (eapply NoDup_sel_inj; eauto). subst m'. now rewrite Hc.
      * exfalso. apply (find_none _ _ Hf) in Hin. now rewrite bytes_eqb_refl in Hin.
Qed.

Theorem clear_program_correct_lemma : forall r c,
  dispatch_clear r c = match clear_allowed r with Some h => RunsHandler h | None => Rejects end.
Proof.
  intros r c. unfold dispatch_clear, clear_program, clear_allowed. destruct (r_clear r); reflexivity.
Qed.

Lemma selector_registered_existsb : forall s ms, selector_registered s ms = existsb (bytes_eqb s) (map m_sel ms).
Proof.
  intros s ms. unfold selector_registered. induction ms as [|m ms IH]; [reflexivity|].
  cbn [existsb map]. now rewrite IH.
Qed.

Lemma add_methods_spec : forall ms r r',
  add_methods r ms = RegOk r' <->
  (forallb method_ok ms = true /\ distinct_from (map m_sel (r_methods r)) ms = true /\
   r' = mkRouter (r_bare r) (r_clear r) (r_methods r ++ ms)).
Proof.
  induction ms as [|m ms IH]; intros r r'; cbn [add_methods forallb distinct_from].
  - rewrite app_nil_r. destruct r as [b cl l]. cbn. split.
    + intro H. injection H as <-. auto.
    + intros (_ & _ & ->). reflexivity.
  - unfold add_method_handler at 1. unfold method_ok at 1.
    destruct (mc_post_init_ok (m_cfg m)); cbn [negb andb].
    2: { split; [discriminate|]. intros (H & _). discriminate. }
    destruct (mc_is_never (m_cfg m)); cbn [negb andb].
    1: { split; [discriminate|]. intros (H & _). discriminate. }
    rewrite selector_registered_existsb.
    destruct (existsb (bytes_eqb (m_sel m)) (map m_sel (r_methods r))) eqn:Ereg; cbn [negb andb].
    1: { split; [discriminate|]. intros (_ & H & _). discriminate. }
    rewrite IH. cbn [r_bare r_clear r_methods]. rewrite <- app_assoc. cbn [app].
    assert (Hd : distinct_from (map m_sel (r_methods r ++ [m])) ms = distinct_from (m_sel m :: map m_sel (r_methods r)) ms).
    { apply eq_true_iff_eq. rewrite !distinct_from_spec.
      split; intros (Hnd & Hall); (split; [assumption|]); intros m' Hin' Hin; apply (Hall m' Hin').
      - rewrite map_app. apply in_or_app. destruct Hin as [<-|Hin]; [right; now left|now left].
      - rewrite map_app in Hin. apply in_app_or in Hin. destruct Hin as [Hin|[<-|[]]]; [now right|now left]. }
    rewrite Hd. tauto.
Qed.

Definition reg_method_ok (m : method) : Prop :=
  mc_clear_state (m_cfg m) = NEVER /\ mc_is_never (m_cfg m) = false.

(* [register] accepts exactly the well-formed configurations and returns them as given *)
Lemma register_spec : forall b cl ms r,
  register b cl ms = RegOk r <-> cfg_ok (mkRouter b cl ms) = true /\ r = mkRouter b cl ms.
Proof.
  intros b cl ms r. unfold register, router_init, cfg_ok, ba_init_ok. cbn [r_bare r_methods].
  destruct (forallb oca_post_init_ok (ba_aslist b)); cbn [negb andb].
  2: { split; [discriminate|]. intros (H & _). discriminate. }
  destruct (oca_is_empty (ba_clear_state b)); cbn [negb andb].
  2: { split; [discriminate|]. intros (H & _). discriminate. }
  rewrite add_methods_spec, andb_true_iff. cbn [r_bare r_clear r_methods map app]. tauto.
Qed.

Theorem registration_lemma : forall b cl ms r,
  register b cl ms = RegOk r <->
  (ba_init_ok b = true /\ Forall reg_method_ok ms /\ NoDup (map m_sel ms) /\ r = mkRouter b cl ms).
Proof.
  intros b cl ms r. rewrite register_spec. unfold cfg_ok. cbn [r_bare r_methods].
  rewrite !andb_true_iff, sels_distinct_NoDup, forallb_forall, Forall_forall.
  assert (Hm : forall m, method_ok m = true <-> reg_method_ok m).
  { intro m. unfold method_ok, reg_method_ok, mc_post_init_ok.
    rewrite andb_true_iff, negb_true_iff, cc_eqb_eq. tauto. }
  split.
  - intros (((H0 & H1) & H2) & H3). split; [exact H0|]. split; [|split; assumption].
    intros m Hin. apply Hm. now apply H1.
  - intros (H0 & H1 & H2 & H3). split; [|exact H3]. split; [split; [exact H0|] | exact H2].
    intros m Hin. apply Hm. now apply H1.
Qed.

Lemma register_ok_cfg_ok : forall b cl ms r, register b cl ms = RegOk r -> cfg_ok r = true.
Proof. intros b cl ms r H. apply register_spec in H as [H ->]. exact H. Qed.

(* which error: a never-executed method and a re-registered selector are refused with the matching error
   (for a router whose earlier registrations succeeded) *)
Lemma add_never_rejected : forall r m,
  mc_post_init_ok (m_cfg m) = true -> mc_is_never (m_cfg m) = true ->
  add_method_handler r m = RegErr ErrNeverExecuted.
Proof. intros r m H1 H2. unfold add_method_handler. now rewrite H1, H2. Qed.

Lemma add_duplicate_rejected : forall r m m',
  mc_post_init_ok (m_cfg m) = true -> mc_is_never (m_cfg m) = false ->
  In m' (r_methods r) -> m_sel m' = m_sel m ->
  add_method_handler r m = RegErr ErrReRegistering.
Proof.
  intros r m m' H1 H2 Hin He. unfold add_method_handler. rewrite H1, H2. cbn [negb].
  assert (selector_registered (m_sel m) (r_methods r) = true) as ->; [|reflexivity].
  unfold selector_registered. apply existsb_exists. exists m'. split; [assumption|].
  rewrite He. apply bytes_eqb_refl.
Qed.
