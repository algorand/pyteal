(* Proofs/NormalizeExamples.v — concrete graphs: non-vacuity of the hypotheses of the
   NormalizeBlocks theorems (loop, diamond, chain of empty blocks), and the refutations
   (witnesses found by running the model; each was confirmed on the real compiler, see
   design_notes/C01_normalize.md). *)
From Coq Require Import List Arith NArith String Bool Lia.
From PV Require Import Base.Bytes AVM.Syntax AVM.Machine Src.Expr Src.Denote
  Comp.Blocks Comp.Lower Comp.Passes Comp.GraphSem Comp.SimCheck
  Proofs.LowerFrame Proofs.NormalizeSem Proofs.NormalizeGraph Proofs.IncomingProof Proofs.NormalizeCorrect.
Import ListNotations.

(* a graph from a list of blocks, ids = positions, no incoming lists yet (as lowering leaves it) *)
Definition mk_graph (bs : list block) : graph :=
  mkG (fun i => nth_error bs i) (fun _ => []) (List.length bs).

Lemma wf_mk_graph bs : wf (mk_graph bs).
Proof. intros i L. cbn in *. apply nth_error_None. exact L. Qed.

Lemma mk_graph_inc bs b : g_inc (mk_graph bs) b = [].
Proof. reflexivity. Qed.

Definition op (o : opc) : instr := mkI o [].
Definition with_incoming (g : graph) (s : id) : graph := fst (add_incoming g s).

Lemma wf_with_incoming g s : wf g -> (forall b, NoDup (g_inc g b)) -> wf (with_incoming g s).
Proof.
  intros W Z i L. destruct (add_incoming_covers g s W Z) as (B & N & _).
  unfold with_incoming in *. rewrite B. apply W. rewrite <- N. exact L.
Qed.

Lemma wf_with_incoming_mk bs s : wf (with_incoming (mk_graph bs) s).
Proof. apply wf_with_incoming; [apply wf_mk_graph|intros b; constructor]. Qed.

Lemma inc_exact_with_incoming_mk bs s : inc_exact (with_incoming (mk_graph bs) s) s.
Proof. apply (add_incoming_exact (mk_graph bs) s (wf_mk_graph bs)). reflexivity. Qed.

(* graphs are compared on the allocated ids *)
Definition view (g : graph) : list (option block * list id) :=
  map (fun i => (g_blk g i, g_inc g i)) (seq 0 (g_next g)).

(* Seq(While(c).Do(body), Return): an EMPTY start block, then the loop head with two predecessors *)
Definition g_loop_first : graph :=
  mk_graph [ BSimple [] (Some 1);
             BCond [op O_dup] (Some 2) (Some 3);
             BSimple [op O_pop] (Some 1);
             BSimple [op O_return_] None ].

(* something first, then the loop: op ; While(c).Do(body) ; Return *)
Definition g_loop : graph :=
  mk_graph [ BSimple [op O_dup] (Some 1);
             BSimple [] (Some 2);
             BCond [op O_dup] (Some 3) (Some 4);
             BSimple [op O_pop] (Some 2);
             BSimple [] (Some 5);
             BSimple [op O_return_] None ].

(* If(c).Then(a).Else(b) ; Return — a diamond with an empty join block *)
Definition g_diamond : graph :=
  mk_graph [ BSimple [op O_dup] (Some 1);
             BCond [] (Some 2) (Some 3);
             BSimple [op O_pop] (Some 4);
             BSimple [op O_dup] (Some 4);
             BSimple [] (Some 5);
             BSimple [op O_return_] None ].

(* a chain of empty blocks *)
Definition g_chain : graph :=
  mk_graph [ BSimple [op O_dup] (Some 1);
             BSimple [] (Some 2);
             BSimple [] (Some 3);
             BSimple [] (Some 4);
             BSimple [op O_return_] None ].

(* op ; If(c).Then(Seq()) ; While(c).Do(body) ; Return — the If's then-branch and its end block are
   both empty, and the end block cannot be merged into the loop head *)
Definition g_if_empty_then_loop : graph :=
  mk_graph [ BSimple [op O_dup] (Some 1);
             BCond [op O_dup] (Some 2) (Some 3);
             BSimple [] (Some 3);
             BSimple [] (Some 4);
             BCond [op O_dup] (Some 5) (Some 6);
             BSimple [op O_pop] (Some 4);
             BSimple [op O_return_] None ].

(* an empty block that is its own successor *)
Definition g_empty_self_loop : graph :=
  mk_graph [ BSimple [op O_dup] (Some 1);
             BSimple [] (Some 1) ].

(* non-vacuity: the certificate holds and the pass really rewrites the graph *)
Example cert_loop : norm_cert (with_incoming g_loop 0) 0 = true.
Proof. vm_compute. reflexivity. Qed.
Example cert_diamond : norm_cert (with_incoming g_diamond 0) 0 = true.
Proof. vm_compute. reflexivity. Qed.
Example cert_chain : norm_cert (with_incoming g_chain 0) 0 = true.
Proof. vm_compute. reflexivity. Qed.

Example normalize_loop :
  let '(g', s') := normalize (with_incoming g_loop 0) 0 in
  (s', map fst (view g')) =
  (1, [ Some (BSimple [op O_dup] (Some 1));
        Some (BSimple [op O_dup] (Some 2));
        Some (BCond [op O_dup] (Some 3) (Some 5));
        Some (BSimple [op O_pop] (Some 2));
        Some (BSimple [] (Some 5));
        Some (BSimple [op O_return_] None) ]).
Proof. vm_compute. reflexivity. Qed.

Example normalize_chain :
  let '(g', s') := normalize (with_incoming g_chain 0) 0 in
  (s', g_blk g' s') = (4, Some (BSimple [op O_dup; op O_return_] None)).
Proof. vm_compute. reflexivity. Qed.

Example normalize_diamond :
  let '(g', s') := normalize (with_incoming g_diamond 0) 0 in
  (s', map fst (view g')) =
  (1, [ Some (BSimple [op O_dup] (Some 1));
        Some (BCond [op O_dup] (Some 2) (Some 3));
        Some (BSimple [op O_pop] (Some 5));
        Some (BSimple [op O_dup] (Some 5));
        Some (BSimple [] (Some 5));
        Some (BSimple [op O_return_] None) ]).
Proof. vm_compute. reflexivity. Qed.

(* the hypotheses of [normalize_correct] are satisfiable together, with a graph the pass changes *)
Example normalize_correct_nonvacuous :
  exists g s, wf g /\ cond_full g /\ inc_covers g s /\ g_inc g s = [] /\
              g_blk (fst (normalize g s)) <> g_blk g.
Proof.
  exists (with_incoming g_loop 0), 0.
  assert (W : wf (with_incoming g_loop 0)) by apply wf_with_incoming_mk.
  pose proof (norm_pre_check_sound _ W (eq_refl : norm_pre_check (with_incoming g_loop 0) = true)) as P.
  split; [exact W|]. split; [intros i b E; exact (proj1 (P i b E))|].
  split.
  - apply cov_of_tree_valid. apply (validate_tree_iff _ _ W). vm_compute. reflexivity.
  - split; [vm_compute; reflexivity|].
    intros H. apply (f_equal (fun f => f 1)) in H. vm_compute in H. discriminate.
Qed.

(* C20: the defects of pyteal's code before /repo 39fa261, whose three hunks are taken one by one *)
(* (1) the code before the commit ([normalize_pinned]): an empty start block in front of a loop head *)
Theorem normalize_pinned_keeps_tree_valid_refuted :
  exists g s,
    wf g /\ inc_exact g s /\ norm_cert_pinned g s = true /\ validate_tree g s = true /\
    (let '(g', s') := normalize_pinned g s in validate_tree g' s') = false.
Proof.
  exists (with_incoming g_loop_first 0), 0.
  split; [apply wf_with_incoming_mk|]. split; [apply inc_exact_with_incoming_mk|].
  repeat split; vm_compute; reflexivity.
Qed.

(* the first hunk (start = outgoing[0]) cures that witness ... *)
Example normalize_startfix_cures_loop_first :
  (let '(g', s') := normalize_startfix (with_incoming g_loop_first 0) 0 in validate_tree g' s') = true.
Proof. vm_compute. reflexivity. Qed.

(* (2) ... but not this one: replaceOutgoing re-points only ONE branch of a conditional block whose
   two branches have both been redirected to the same empty block *)
Theorem normalize_startfix_keeps_tree_valid_refuted :
  exists g s,
    wf g /\ inc_exact g s /\ norm_cert_pinned g s = true /\ validate_tree g s = true /\
    (let '(g', s') := normalize_startfix g s in validate_tree g' s') = false /\
    (let '(g', s') := normalize_pinned g s in validate_tree g' s') = false.
Proof.
  exists (with_incoming g_if_empty_then_loop 0), 0.
  split; [apply wf_with_incoming_mk|]. split; [apply inc_exact_with_incoming_mk|].
  repeat split; vm_compute; reflexivity.
Qed.

Example normalize_noskip_cures_if_empty :
  (let '(g', s') := normalize_noskip (with_incoming g_if_empty_then_loop 0) 0 in validate_tree g' s') = true.
Proof. vm_compute. reflexivity. Qed.

(* (3) with both hunks, the only remaining counterexamples contain an empty block that is its own
   successor (never produced by lowering: every PyTeal loop has a conditional block) *)
Theorem normalize_noskip_keeps_tree_valid_refuted :
  exists g s,
    wf g /\ inc_exact g s /\ validate_tree g s = true /\
    (let '(g', s') := normalize_noskip g s in validate_tree g' s') = false.
Proof.
  exists (with_incoming g_empty_self_loop 0), 0.
  split; [apply wf_with_incoming_mk|]. split; [apply inc_exact_with_incoming_mk|].
  repeat split; vm_compute; reflexivity.
Qed.

Example normalize_on_witnesses :
  (let '(g', s') := normalize (with_incoming g_loop_first 0) 0 in validate_tree g' s') = true /\
  (let '(g', s') := normalize (with_incoming g_if_empty_then_loop 0) 0 in validate_tree g' s') = true /\
  (let '(g', s') := normalize (with_incoming g_empty_self_loop 0) 0 in validate_tree g' s') = true.
Proof. repeat split; vm_compute; reflexivity. Qed.

Theorem repairs_on_witnesses :
  (let '(g', s') := normalize_startfix (with_incoming g_loop_first 0) 0 in validate_tree g' s') = true /\
  (let '(g', s') := normalize_noskip (with_incoming g_if_empty_then_loop 0) 0 in validate_tree g' s') = true /\
  (let '(g', s') := normalize (with_incoming g_loop_first 0) 0 in validate_tree g' s') = true /\
  (let '(g', s') := normalize (with_incoming g_if_empty_then_loop 0) 0 in validate_tree g' s') = true /\
  (let '(g', s') := normalize (with_incoming g_empty_self_loop 0) 0 in validate_tree g' s') = true.
Proof.
  split; [exact normalize_startfix_cures_loop_first|]. split; [exact normalize_noskip_cures_if_empty|].
  exact normalize_on_witnesses.
Qed.

(* C01: the side conditions are needed *)
Definition env0 : denv :=
  mkEnv (mkCtx true [] 0 [] [] 0) (fun x => x) [] [] false (fun _ => mkI O_err []).
Definition st0 : mstate := init_state [] [] [].

Lemma star_det_halting env G c0 c1 c2 :
  star env G c0 c1 -> halting c1 -> star env G c0 c2 -> halting c2 -> c1 = c2.
Proof.
  induction 1 as [c|c0 c1' c1 E S1 IH]; intros H1 S2 H2.
  - symmetry. eapply star_halting; eauto.
  - inversion S2 as [|a b d E2 S2']; subst.
    + rewrite gstep_halting in E by exact H2. discriminate.
    + rewrite E in E2. injection E2 as E2. subst b. apply IH; assumption.
Qed.

Lemma grun_star env G fuel : forall c, star env G c (grun fuel env G c).
Proof.
  induction fuel as [|f IH]; intros c; cbn [grun]; [apply star_refl|].
  destruct (gstep env G c) as [c'|] eqn:E; [|apply star_refl].
  eapply star_step; [exact E|apply IH].
Qed.

Lemma runs_differ env G s G' s' stk st n m c c' :
  grun n env G (GAt s stk st) = c -> grun m env G' (GAt s' stk st) = c' ->
  halting c -> halting c' -> c <> c' -> ~ equiv_from env G s G' s'.
Proof.
  intros E E' H H' N Q. apply N.
  pose proof (grun_star env G n (GAt s stk st)) as S. rewrite E in S. apply (Q stk st c H) in S.
  pose proof (grun_star env G' m (GAt s' stk st)) as S'. rewrite E' in S'.
  exact (star_det_halting _ _ _ _ _ S H S' H').
Qed.

(* (a) pyteal before /repo 39fa261 (the [elif] replacement): a conditional block whose two branches are the same
   block: pass 1 re-points one branch only, the merged predecessor stays reachable and its ops run
   twice.  The code since that commit is correct on this graph ([normalize_correct] has no such hypothesis). *)
Definition g_double_edge : graph :=
  mk_graph [ BCond [] (Some 1) (Some 1);
             BSimple [op O_pop] (Some 2);
             BSimple [op O_return_] None ].

Theorem normalize_pinned_double_edge_refuted :
  exists g s,
    wf g /\ cond_full g /\ inc_covers g s /\ g_inc g s = [] /\ validate_tree g s = true /\
    let '(g', s') := normalize_pinned g s in
    ~ equiv_from env0 (g_blk g) s (g_blk g') s'.
Proof.
  exists (with_incoming g_double_edge 0), 0.
  assert (W : wf (with_incoming g_double_edge 0)) by apply wf_with_incoming_mk.
  assert (V : validate_tree (with_incoming g_double_edge 0) 0 = true) by (vm_compute; reflexivity).
  split; [exact W|]. split; [apply cond_full_check_sound; [exact W|vm_compute; reflexivity]|].
  split; [apply cov_of_tree_valid; apply (validate_tree_iff _ _ W); exact V|].
  split; [vm_compute; reflexivity|]. split; [exact V|].
  destruct (normalize_pinned (with_incoming g_double_edge 0) 0) as [g' s'] eqn:E.
  vm_compute in E. injection E as E1 E2. subst g' s'.
  apply (runs_differ env0 _ _ _ _ [VI 0; VI 7; VI 9] st0 5 5 (GExit (VI 9) st0) GFail);
    [vm_compute; reflexivity|vm_compute; reflexivity|exact Logic.I|exact Logic.I|discriminate].
Qed.

(* (b) CURRENT code: the hypothesis [g_inc g s = []] of [normalize_correct] is needed — a start block
   with an incoming edge whose source gets merged into it: the merged ops run before the start block's
   own ops on entry *)
Definition g_start_with_pred : graph :=
  mk_graph [ BSimple [op O_pop] (Some 1);
             BSimple [op O_return_] (Some 0) ].

Theorem normalize_start_with_pred_refuted :
  exists g s,
    wf g /\ cond_full_check g = true /\ inc_covers g s /\ validate_tree g s = true /\
    let '(g', s') := normalize g s in
    ~ equiv_from env0 (g_blk g) s (g_blk g') s'.
Proof.
  exists (with_incoming g_start_with_pred 0), 0.
  assert (W : wf (with_incoming g_start_with_pred 0)) by apply wf_with_incoming_mk.
  assert (V : validate_tree (with_incoming g_start_with_pred 0) 0 = true) by (vm_compute; reflexivity).
  split; [exact W|]. split; [vm_compute; reflexivity|].
  split; [apply cov_of_tree_valid; apply (validate_tree_iff _ _ W); exact V|]. split; [exact V|].
  destruct (normalize (with_incoming g_start_with_pred 0) 0) as [g' s'] eqn:E.
  vm_compute in E. injection E as E1 E2. subst g' s'.
  apply (runs_differ env0 _ _ _ _ [VI 7; VI 9] st0 5 5 (GExit (VI 9) st0) (GExit (VI 7) st0));
    [vm_compute; reflexivity|vm_compute; reflexivity|exact Logic.I|exact Logic.I|discriminate].
Qed.
