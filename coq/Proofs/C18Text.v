(* Proofs/C18Text.v — C18, text level: what the assembler's tokeniser reads of comment lines, of
   subroutine labels and of the subroutine header "\n// name\nlabel:"; str.splitlines() never leaves a
   line break inside a line. *)
From Coq Require Import List Arith NArith Ascii String Bool Lia.
From PV Require Import Base.Sexp AVM.Syntax AVM.Parse Comp.Assemble Comp.Compile Comp.Annotate.
From PV Require Export Proofs.TextFacts.
Import ListNotations.
Local Open Scope string_scope.

Lemma sol_app a b : string_of_list_ascii (a ++ b)%list = string_of_list_ascii a ++ string_of_list_ascii b.
Proof. induction a as [|c a IH]; cbn; [reflexivity|]. now rewrite IH. Qed.

Definition no_break (l : list ascii) : Prop := Forall (fun c => is_linebreak c = false) l.

Lemma splitlines_l_no_break_n : forall n s cur,
  List.length s <= n -> no_break cur ->
  Forall (fun ln => no_break (list_ascii_of_string ln)) (splitlines_l s cur).
Proof.
  induction n as [|n IH]; intros s cur Hn Hc; destruct s as [|c t]; cbn [splitlines_l]; cbn [List.length] in Hn; try lia.
  - destruct cur as [|a cur']; [constructor|].
    constructor; [|constructor]. unfold line_of. rewrite los_sol. apply Forall_rev. exact Hc.
  - destruct cur as [|a cur']; [constructor|].
    constructor; [|constructor]. unfold line_of. rewrite los_sol. apply Forall_rev. exact Hc.
  - destruct (is_linebreak c) eqn:Eb.
    + constructor.
      * unfold line_of. rewrite los_sol. apply Forall_rev. exact Hc.
      * destruct t as [|c2 t2]; [apply IH; [cbn; lia|constructor]|].
        cbn [List.length] in Hn.
        destruct (Ascii.eqb c (ascii_of_N 13) && Ascii.eqb c2 (ascii_of_N 10)); apply IH; try constructor; cbn [List.length]; lia.
    + apply IH; [lia|]. constructor; assumption.
Qed.

Lemma splitlines_l_no_break : forall s cur,
  no_break cur ->
  Forall (fun ln => no_break (list_ascii_of_string ln)) (splitlines_l s cur).
Proof. intros s cur. apply (splitlines_l_no_break_n (List.length s)). lia. Qed.

Theorem splitlines_no_break : forall text ln,
  In ln (splitlines text) -> no_break (list_ascii_of_string ln).
Proof.
  intros text ln H. unfold splitlines in H.
  pose proof (splitlines_l_no_break (list_ascii_of_string text) [] (Forall_nil _)) as F.
  rewrite Forall_forall in F. apply F. exact H.
Qed.

Definition newline : ascii := chr 10.
(* [TextFacts.no_lf] *)
Definition no_nl (l : list ascii) : Prop := Forall (fun c => c <> newline) l.

Lemma linebreak_nl : is_linebreak newline = true.
Proof. reflexivity. Qed.

Lemma no_break_no_nl l : no_break l -> no_nl l.
Proof.
  intros H. induction H as [|c l Hc _ IH]; constructor; [|exact IH].
  intros ->. rewrite linebreak_nl in Hc. discriminate.
Qed.

(* CommentExpr's constructor check (no \n, no \r) always passes on the lines Comment() produces *)
Theorem comment_lines_accepted : forall text ln,
  In ln (splitlines text) ->
  Forall (fun c => c <> chr 10 /\ c <> chr 13) (list_ascii_of_string ln).
Proof.
  intros text ln H. pose proof (splitlines_no_break text ln H) as F.
  induction F as [|c l Hc _ IH]; constructor; [|exact IH].
  split; intros ->; vm_compute in Hc; discriminate.
Qed.

(* a line that starts with // yields no token, whatever follows *)
Lemma tokens_comment_line : forall rest, tokens_of_line ("//" ++ rest) = [].
Proof. intros rest. reflexivity. Qed.

Lemma assemble_comment_op : forall ln, assemble_instr (mkI O_comment [AStr ln]) = Some ("// " ++ ln).
Proof. intros ln. reflexivity. Qed.

(* characters that simply extend the current token outside strings: [TextFacts.ordinary] *)
Definition plain (c : ascii) : bool :=
  negb (is_space c) && negb (Ascii.eqb c """") && negb (Ascii.eqb c "/") &&
  negb (Ascii.eqb c "(") && negb (Ascii.eqb c ")") && negb (Ascii.eqb c ";").

Definition label_char (c : ascii) : bool := is_alnum c || Ascii.eqb c "_".

(* label characters are ordinary for the tokeniser, and begin neither a pragma nor a comment *)
Lemma label_char_spec c : label_char c = true ->
  plain c = true /\ Ascii.eqb c "#" = false /\ Ascii.eqb c "/" = false /\ c <> newline.
Proof.
  intros H. assert (S : plain c && negb (Ascii.eqb c "#") && negb (Ascii.eqb c "/") && negb (Ascii.eqb c newline) = true).
  { revert c H. apply ascii_impl. vm_compute. reflexivity. }
  apply andb_true_iff in S as [S N3]. apply andb_true_iff in S as [S N2]. apply andb_true_iff in S as [S N1].
  split; [exact S|]. split; [now apply negb_true_iff|]. split; [now apply negb_true_iff|].
  intros ->. discriminate N3.
Qed.

Lemma colon_plain : plain ":" = true.
Proof. reflexivity. Qed.

Lemma sanitize_chars : forall name, forallb label_char (list_ascii_of_string (sanitize name)) = true.
Proof.
  intros name. unfold sanitize. rewrite los_sol.
  induction (list_ascii_of_string name) as [|c l IH]; [reflexivity|].
  cbn [filter]. destruct (is_alnum c) eqn:E; [|exact IH].
  cbn [forallb]. unfold label_char at 1. rewrite E. exact IH.
Qed.

Lemma digit_label_char c : is_digit c = true -> label_char c = true.
Proof. revert c. apply ascii_impl. vm_compute. reflexivity. Qed.

Lemma N_to_dec_chars : forall n, forallb label_char (list_ascii_of_string (N_to_dec n)) = true.
Proof. intros n. exact (forallb_impl _ _ digit_label_char _ (N_to_dec_digits n)). Qed.

(* every subroutine label consists of [A-Za-z0-9_] only, whatever the name *)
Theorem sub_label_chars : forall name i,
  forallb label_char (list_ascii_of_string (sub_label name i)) = true.
Proof.
  intros name i. unfold sub_label. rewrite !los_app, !forallb_app.
  rewrite sanitize_chars, N_to_dec_chars. reflexivity.
Qed.

Lemma sub_label_nonempty : forall name i, list_ascii_of_string (sub_label name i) <> [].
Proof.
  intros name i. unfold sub_label. rewrite !los_app. cbn.
  destruct (list_ascii_of_string (sanitize name)); discriminate.
Qed.

Lemma substring_all : forall s, substring 0 (String.length s) s = s.
Proof. induction s as [|c s IH]; cbn; [reflexivity|]. now rewrite IH. Qed.

Lemma ends_with_colon_app : forall l, l <> "" -> ends_with_colon (l ++ ":") = Some l.
Proof.
  intros l Hne. unfold ends_with_colon. rewrite slen_app. cbn [String.length].
  replace (String.length l + 1 - 1)%nat with (String.length l) by lia.
  assert (L : (1 <? String.length l + 1)%nat = true).
  { apply Nat.ltb_lt. destruct l; [congruence|cbn; lia]. }
  rewrite L, substring_skip. cbn. rewrite substring_take. reflexivity.
Qed.

Lemma eqb_pragma_false : forall c s, Ascii.eqb c "#" = false -> String.eqb (String c s) "#pragma" = false.
Proof. intros c s H. cbn. now rewrite H. Qed.

Theorem label_line_statement : forall msel l,
  l <> "" -> forallb label_char (list_ascii_of_string l) = true ->
  tokens_of_line (l ++ ":") = [l ++ ":"] /\
  parse_stmt msel [l ++ ":"] = Some (Some (SLabel l)).
Proof.
  intros msel l Hne Hc. split.
  - apply tokens_one_word; [|now destruct l]. apply ordinary_word.
    rewrite los_app, forallb_app. cbn. rewrite andb_true_r.
    revert Hc. apply forallb_impl. intros c Hc. apply (label_char_spec c Hc).
  - unfold parse_stmt.
    destruct l as [|c l']; [congruence|].
    cbn [append]. rewrite eqb_pragma_false.
    2:{ cbn in Hc. apply andb_prop in Hc. apply (label_char_spec c), Hc. }
    change (String c (l' ++ ":")) with (String c l' ++ ":").
    rewrite ends_with_colon_app by discriminate. reflexivity.
Qed.

Lemma forallb_label_no_nl l : forallb label_char l = true -> no_nl l.
Proof.
  intros H. rewrite forallb_forall in H. apply Forall_forall. intros c Hin.
  apply (label_char_spec c). apply H. exact Hin.
Qed.

Fixpoint join_nl (ls : list string) : string :=
  match ls with
  | [] => ""
  | [x] => x
  | x :: t => x ++ nl ++ join_nl t
  end.

Definition is_comment_line (ln : string) : bool :=
  match ln with String a (String b _) => Ascii.eqb a "/" && Ascii.eqb b "/" | _ => false end.

Lemma split_lines_join : forall ls, ls <> [] ->
  Forall (fun ln => no_nl (list_ascii_of_string ln)) ls ->
  split_lines (list_ascii_of_string (join_nl ls)) [] = ls.
Proof.
  induction ls as [|x t IH]; intros Hne H; [congruence|].
  inversion H as [|? ? Hx Ht]; subst.
  destruct t as [|y t'].
  - cbn [join_nl]. rewrite split_lines_no_lf by exact Hx. now rewrite app_nil_r, str_of_rev, sol_los.
  - change (join_nl (x :: y :: t')) with (x ++ nl ++ join_nl (y :: t')).
    rewrite !los_app. change (list_ascii_of_string nl) with [newline]. cbn [app].
    rewrite split_lines_app_lf by exact Hx. rewrite app_nil_r, str_of_rev, sol_los.
    rewrite IH; [reflexivity|discriminate|exact Ht].
Qed.

Lemma comment_line_tokens : forall ln, is_comment_line ln = true -> tokens_of_line ln = [].
Proof.
  intros ln H. unfold is_comment_line in H.
  destruct ln as [|a [|b r]]; try discriminate.
  apply andb_prop in H. destruct H as [Ha Hb].
  apply Ascii.eqb_eq in Ha. apply Ascii.eqb_eq in Hb. subst. reflexivity.
Qed.

Lemma parse_stmts_drop_comments : forall msel ls,
  parse_stmts msel (flat_map (fun ln => split_semis (tokens_of_line ln) []) ls) =
  parse_stmts msel (flat_map (fun ln => split_semis (tokens_of_line ln) [])
                             (filter (fun ln => negb (is_comment_line ln)) ls)).
Proof.
  intros msel ls. induction ls as [|x t IH]; [reflexivity|].
  cbn [flat_map filter]. destruct (is_comment_line x) eqn:E; cbn [negb].
  - rewrite (comment_line_tokens x E). cbn [split_semis rev app parse_stmts].
    change (parse_stmt msel []) with (@Some (option stmt) None). rewrite IH.
    match goal with |- match ?p with _ => _ end = _ => destruct p; reflexivity end.
  - cbn [flat_map].
    generalize (split_semis (tokens_of_line x) []) as ss. intros ss.
    induction ss as [|s ss IHs]; [exact IH|].
    cbn [app parse_stmts]. rewrite IHs. reflexivity.
Qed.

(* a text of lines without line feed is read line by line *)
Lemma statements_of_join msel ls : ls <> [] -> Forall (fun ln => no_nl (list_ascii_of_string ln)) ls ->
  statements_of_text msel (join_nl ls) =
  parse_stmts msel (flat_map (fun ln => split_semis (tokens_of_line ln) []) ls).
Proof. intros Hne H. unfold statements_of_text. now rewrite split_lines_join. Qed.

(* a program text read line by line: deleting every line that starts with // (what comment ops, and
   the // name line of a subroutine header, assemble to) does not change the statements *)
Theorem comment_lines_invisible : forall msel ls,
  ls <> [] -> Forall (fun ln => no_nl (list_ascii_of_string ln)) ls ->
  let kept := filter (fun ln => negb (is_comment_line ln)) ls in
  statements_of_text msel (join_nl ls) = statements_of_text msel (join_nl kept).
Proof.
  intros msel ls Hne H kept. rewrite statements_of_join, parse_stmts_drop_comments by assumption. fold kept.
  destruct kept as [|k kt] eqn:Ek; [reflexivity|].
  rewrite statements_of_join; [reflexivity | discriminate|].
  rewrite <- Ek. unfold kept. apply Forall_forall. intros x Hin.
  apply filter_In in Hin. rewrite Forall_forall in H. apply H. apply Hin.
Qed.

(* every line Comment(text) produces assembles to such a line *)
Theorem comment_op_line : forall text ln, In ln (splitlines text) ->
  exists s, assemble_instr (mkI O_comment [AStr ln]) = Some s /\
            is_comment_line s = true /\ no_nl (list_ascii_of_string s).
Proof.
  intros text ln H. exists ("// " ++ ln). split; [reflexivity|]. split; [reflexivity|].
  rewrite los_app. apply Forall_app. split.
  - repeat (constructor; [intros X; vm_compute in X; discriminate|]). constructor.
  - apply no_break_no_nl. exact (splitlines_no_break text ln H).
Qed.

(* the subroutine header (TealLabel.assemble since /repo 3627216):
   "\n" ++ one "// line\n" per line of name.splitlines() (or one empty line) ++ "label:" *)
Definition header_lines (name : string) : list string :=
  match splitlines name with [] => [""] | ls => ls end.

Definition header_text (name lbl : string) : string := nl ++ label_comment name ++ lbl ++ ":".

Lemma assemble_sub_header : forall name i,
  assemble_comp (sub_header name i) = Some (header_text name (sub_label name i)).
Proof. reflexivity. Qed.

Lemma concat_cons a l : String.concat "" (a :: l) = a ++ String.concat "" l.
Proof.
  destruct l; cbn [String.concat]; [|reflexivity]. induction a as [|c a IH]; cbn; [reflexivity | now rewrite <- IH].
Qed.

Lemma join_cons x l : l <> [] -> join_nl (x :: l) = x ++ nl ++ join_nl l.
Proof. destruct l; [congruence|reflexivity]. Qed.

Lemma concat_comment_join ls last :
  String.concat "" (map (fun ln => "// " ++ ln ++ nl) ls) ++ last =
  join_nl (map (fun ln => "// " ++ ln) ls ++ [last]).
Proof.
  induction ls as [|x t IH]; [reflexivity|].
  cbn [map]. rewrite concat_cons, sapp_assoc, IH.
  cbn [app]. rewrite join_cons.
  - cbn [append]. rewrite sapp_assoc. reflexivity.
  - destruct (map (fun ln => "// " ++ ln) t); discriminate.
Qed.

Lemma header_lines_no_nl name : Forall (fun ln => no_nl (list_ascii_of_string ln)) (header_lines name).
Proof.
  unfold header_lines. destruct (splitlines name) as [|l ls] eqn:E.
  - constructor; [constructor|constructor].
  - apply Forall_forall. intros ln Hin. apply no_break_no_nl. apply (splitlines_no_break name). rewrite E. exact Hin.
Qed.

Lemma filter_comment_lines ls :
  filter (fun ln => negb (is_comment_line ln)) (map (fun ln => "// " ++ ln) ls) = [].
Proof. induction ls as [|x t IH]; [reflexivity|]. cbn [map filter]. exact IH. Qed.

(* the label line: no line feed, not a comment line, one statement *)
Lemma label_line msel lbl : lbl <> "" -> forallb label_char (list_ascii_of_string lbl) = true ->
  no_nl (list_ascii_of_string (lbl ++ ":")) /\ is_comment_line (lbl ++ ":") = false /\
  parse_stmts msel (split_semis (tokens_of_line (lbl ++ ":")) []) = Some [SLabel lbl].
Proof.
  intros Hne Hl. destruct (label_line_statement msel lbl Hne Hl) as [T P]. repeat split.
  - rewrite los_app. apply Forall_app. split; [apply forallb_label_no_nl; exact Hl|].
    constructor; [intros X; discriminate X|constructor].
  - destruct lbl as [|c l']; [congruence|]. cbn in Hl. apply andb_prop in Hl. destruct Hl as [Hc _].
    cbn [append is_comment_line]. destruct (l' ++ ":"); [reflexivity|].
    now rewrite (proj1 (proj2 (proj2 (label_char_spec c Hc)))).
  - rewrite T.
    assert (Hsemi : String.eqb (lbl ++ ":") ";" = false)
      by (destruct lbl as [|c [|d l']]; [congruence | |]; cbn; now destruct (Ascii.eqb c ";")).
    cbn [split_semis]. rewrite Hsemi. cbn [split_semis rev app parse_stmts]. now rewrite P.
Qed.

(* the header as lines: an empty line, one comment line per line of the name, the label line;
   read line by line they give exactly one statement, the label *)
Lemma header_lines_statement msel name lbl :
  lbl <> "" -> forallb label_char (list_ascii_of_string lbl) = true ->
  let ls := "" :: map (fun ln => "// " ++ ln) (header_lines name) ++ [lbl ++ ":"] in
  header_text name lbl = join_nl ls /\
  Forall (fun ln => no_nl (list_ascii_of_string ln)) ls /\
  parse_stmts msel (flat_map (fun ln => split_semis (tokens_of_line ln) []) ls) = Some [SLabel lbl].
Proof.
  intros Hne Hl ls. destruct (label_line msel lbl Hne Hl) as (NL & NC & P). split; [|split].
  - unfold header_text, label_comment. fold (header_lines name). rewrite concat_comment_join.
    unfold ls. rewrite join_cons; [reflexivity|]. destruct (map _ (header_lines name)); discriminate.
  - constructor; [constructor|]. apply Forall_app. split; [|constructor; [exact NL|constructor]].
    apply Forall_forall. intros x Hin. apply in_map_iff in Hin. destruct Hin as (ln & <- & Hln).
    pose proof (header_lines_no_nl name) as F. rewrite Forall_forall in F. specialize (F ln Hln).
    change (list_ascii_of_string ("// " ++ ln)) with ("/"%char :: "/"%char :: " "%char :: list_ascii_of_string ln).
    repeat (constructor; [intros X; discriminate X|]). exact F.
  - rewrite parse_stmts_drop_comments.
    unfold ls. cbn [filter is_comment_line negb]. rewrite filter_app, filter_comment_lines. cbn [app filter]. rewrite NC.
    cbn [negb flat_map]. change (tokens_of_line "") with (@nil string). rewrite app_nil_r.
    cbn [split_semis app rev parse_stmts]. change (parse_stmt msel []) with (@Some (option stmt) None). now rewrite P.
Qed.

(* for EVERY name: the header reads as exactly one statement, the label *)
Theorem header_single_statement : forall msel name lbl,
  lbl <> "" -> forallb label_char (list_ascii_of_string lbl) = true ->
  statements_of_text msel (header_text name lbl) = Some [SLabel lbl].
Proof.
  intros msel name lbl Hne Hl. destruct (header_lines_statement msel name lbl Hne Hl) as (-> & N & P).
  now rewrite statements_of_join.
Qed.

Theorem sub_header_single_statement : forall msel name i,
  statements_of_text msel (header_text name (sub_label name i)) = Some [SLabel (sub_label name i)].
Proof.
  intros msel name i. apply header_single_statement; [|apply sub_label_chars].
  intros E. apply (sub_label_nonempty name i). rewrite E. reflexivity.
Qed.

(* before /repo 3627216 this name injected `int 0; return`; under TealLabel.assemble it reads as comments only *)
Definition evil_name : string := "foo" ++ nl ++ "int 0" ++ nl ++ "return".

Example evil_name_header :
  header_text evil_name (sub_label evil_name 0) =
    nl ++ "// foo" ++ nl ++ "// int 0" ++ nl ++ "// return" ++ nl ++ "fooint0return_0:" /\
  statements_of_text [] (header_text evil_name (sub_label evil_name 0)) = Some [SLabel "fooint0return_0"].
Proof. split; vm_compute; reflexivity. Qed.
