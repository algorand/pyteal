(* Proofs/LitGoTokProof.v — C13, side theorems for the previous-character variant of the
   tokeniser (Lit/GoTok.v): the escaped literal is still one token when it ends its line — for
   EVERY byte string — and when followed by a comment provided its last byte is not a
   backslash; with a trailing backslash and a comment the variant keeps reading. *)
From Coq Require Import List NArith Ascii String Bool Lia.
From PV Require Import Base.Bytes AVM.Parse Lit.Escape Lit.GoTok Proofs.TextFacts Proofs.LitEscapeProof.
Import ListNotations.
Local Open Scope string_scope.
Local Open Scope list_scope.

(* inside a string the variant leaves only at a double quote that no backslash precedes: [u] has
   none, when the character before it is a backslash ([pb]) or not *)
Fixpoint go_run (u : list ascii) (pb : bool) : bool :=
  match u with
  | [] => true
  | c :: t => (negb (Ascii.eqb c """") || pb) && go_run t (Ascii.eqb c "\")
  end.

Lemma go_run_tok ib u : forall t cur acc, go_run u (prev_is_backslash cur) = true ->
  go_tok_line (u ++ t) cur true ib acc = go_tok_line t (rev u ++ cur) true ib acc.
Proof.
  induction u as [|c u IH]; intros t cur acc H; [reflexivity|].
  cbn [go_run] in H. apply andb_true_iff in H as [Hc Hu]. cbn [app go_tok_line rev]. rewrite <- app_assoc.
  replace (Ascii.eqb c """" && negb (prev_is_backslash cur)) with false
    by (destruct (Ascii.eqb c """"), (prev_is_backslash cur); (reflexivity || discriminate Hc)).
  now apply IH.
Qed.

Lemma esc_byte_go_run c : go_run (esc_byte c) false = true.
Proof. revert c. apply ascii_forall. vm_compute. reflexivity. Qed.

Lemma go_run_mono u : go_run u false = true -> forall pb, go_run u pb = true.
Proof. destruct u as [|c u]; [reflexivity|]. cbn [go_run]. intros H pb. destruct (Ascii.eqb c """"); [discriminate H | exact H]. Qed.

Lemma go_body b : forall rest cur ib acc,
  go_tok_line (escape_body b ++ rest) cur true ib acc =
  go_tok_line rest (rev (escape_body b) ++ cur) true ib acc.
Proof.
  induction b as [|c b IH]; intros rest cur ib acc; [reflexivity|].
  unfold escape_body in *. cbn [flat_map].
  rewrite <- app_assoc, go_run_tok, IH, rev_app_distr, <- app_assoc by apply go_run_mono, esc_byte_go_run.
  reflexivity.
Qed.

Lemma go_byte_prefix rest acc :
  go_tok_line (list_ascii_of_string "byte " ++ rest) [] false false acc =
  go_tok_line rest [] false false ("byte" :: acc).
Proof. reflexivity. Qed.

(* after `byte ` and the opening quote and the body: at the closing quote *)
Lemma go_to_closing b rest acc :
  go_tok_line (list_ascii_of_string (byte_line b) ++ rest) [] false false acc =
  go_tok_line (dquote :: rest) (rev (escape_body b) ++ [dquote]) true false ("byte" :: acc).
Proof.
  unfold byte_line. rewrite los_app, <- app_assoc, go_byte_prefix, list_of_escape_str.
  unfold escape_list. cbn [app go_tok_line].
  change (is_space dquote) with false. change (Ascii.eqb dquote """") with true. cbn iota.
  rewrite <- app_assoc, go_body. reflexivity.
Qed.

(* (1) alone on its line: whatever the variant decides at the closing quote, the line ends there *)
Lemma go_escape_tokens b : go_tokens_of_line (byte_line b) = ["byte"; escape_str b].
Proof.
  unfold go_tokens_of_line.
  rewrite <- (app_nil_r (list_ascii_of_string (byte_line b))), go_to_closing.
  cbn [go_tok_line].
  assert (E : str_of (dquote :: rev (escape_body b) ++ [dquote]) = escape_str b).
  { unfold str_of, escape_str, escape_list. cbn [rev]. rewrite rev_app_distr, rev_involutive. reflexivity. }
  destruct (Ascii.eqb dquote """" && negb (prev_is_backslash (rev (escape_body b) ++ [dquote])));
    cbn [go_tok_line rev app]; rewrite E; reflexivity.
Qed.

(* the last character of the escaped body is a backslash only if the last byte is one *)
Lemma unit_last_not_backslash c :
  Ascii.eqb c "\" = false -> forall cur, prev_is_backslash (rev (esc_byte c) ++ cur) = false.
Proof.
  assert (S : forall c, negb (Ascii.eqb c "\") = true ->
              match rev (esc_byte c) with p :: _ => negb (Ascii.eqb p "\") | [] => false end = true)
    by (apply ascii_impl; vm_compute; reflexivity).
  intros H cur. apply negb_true_iff, S in H.
  destruct (rev (esc_byte c)); [discriminate H | now apply negb_true_iff in H].
Qed.

Definition ends_with_backslash (b : bytes) : bool :=
  match rev b with c :: _ => Ascii.eqb c "\" | [] => false end.

Lemma body_last b : ends_with_backslash b = false ->
  prev_is_backslash (rev (escape_body b) ++ [dquote]) = false.
Proof.
  unfold ends_with_backslash.
  destruct (rev b) as [|c r] eqn:E.
  - apply (f_equal (@rev ascii)) in E. rewrite rev_involutive in E. subst b. reflexivity.
  - apply (f_equal (@rev ascii)) in E. rewrite rev_involutive in E. subst b. cbn [rev].
    intros H. unfold escape_body. rewrite flat_map_app. cbn [flat_map]. rewrite app_nil_r, rev_app_distr, <- app_assoc.
    now apply unit_last_not_backslash.
Qed.

(* (2) followed by a comment: fine unless the string ends with a backslash *)
Lemma go_escape_tokens_comment b (cmt : string) :
  ends_with_backslash b = false ->
  go_tokens_of_line (byte_line b ++ " //" ++ cmt)%string = ["byte"; escape_str b].
Proof.
  intros H. unfold go_tokens_of_line. rewrite los_app, go_to_closing.
  cbn [go_tok_line]. rewrite (body_last b H). change (Ascii.eqb dquote """") with true. cbn [andb negb].
  cbn [append list_ascii_of_string go_tok_line]. change (is_space " ") with true. cbn iota.
  assert (E : str_of (dquote :: rev (escape_body b) ++ [dquote]) = escape_str b).
  { unfold str_of, escape_str, escape_list. cbn [rev]. rewrite rev_app_distr, rev_involutive. reflexivity. }
  rewrite E. destruct (escape_str_not_kw b) as (E1 & E2 & _). rewrite E1, E2. cbn [orb].
  cbn [go_tok_line]. change (is_space "/") with false. reflexivity.
Qed.

(* (3) the difference: a string ending in a backslash, then a comment *)
Lemma go_comment_after_backslash_differs :
  exists b cmt,
    tokens_of_line (byte_line b ++ " //" ++ cmt)%string = ["byte"; escape_str b] /\
    go_tokens_of_line (byte_line b ++ " //" ++ cmt)%string <> ["byte"; escape_str b].
Proof.
  exists ["\"%char], "x". split; [reflexivity | vm_compute; discriminate].
Qed.
