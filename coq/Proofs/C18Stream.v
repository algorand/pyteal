(* Proofs/C18Stream.v — C18, instruction stream: where annotations DO change the compiled stream on
   the faithful model (refutations with witnesses, by computation on compile_components), what Nonce
   adds to the block graph, and the part of the pipeline for which comment ops are provably inert. *)
From Coq Require Import List Arith NArith Ascii String Bool Lia.
From PV Require Import AVM.Syntax Src.Expr Comp.Blocks Comp.Lower Comp.Passes Comp.Assemble Comp.Compile
  Comp.Annotate Extract.WireExpr Proofs.C18Sem Proofs.C18Commute.
Import ListNotations.
Local Open Scope string_scope.

(* options as the harness resolves them: PyTeal's own op table for version checks *)
Definition opts (version : N) (opt_slots : bool) : copts :=
  mkOpts version true opt_slots false gen_minv gen_field_minv.

Definition EInt (n : N) : expr := EOp O_int [AInt n] TUint [].
Definition fee_lt_3 : expr := EOp O_lt [] TUint [EOp O_txn [AStr "Fee"] TUint []; EInt 3].
Definition approve : expr := EExit (EInt 1).
Definition mkp (main : expr) (subs : list routine) : prog := mkProgram main subs [].

Definition stream_eq (o : copts) (p p' : prog) : option bool :=
  match compile_components o gen_modes p, compile_components o gen_modes p' with
  | COk a, COk b => Some (alpha_eqb a b)
  | _, _ => None
  end.

(* (A) a Comment wrapping an expression whose lowering is empty: the block is no longer elided *)
Definition wA_plain : prog := mkp (ESeq [EIf fee_lt_3 (ESeq []) None; approve]) [].
Definition wA_annot : prog := mkp (ESeq [EIf fee_lt_3 (annot_comment "hi" (ESeq [])) None; approve]) [].

Lemma wA_related : arel_prog wA_plain wA_annot.
Proof.
  split; [|split; [constructor|reflexivity]]. cbn [p_main wA_plain wA_annot mkp].
  apply ar_seq. apply ars_cons.
  - apply ar_if; [apply arel_refl|apply arel_comment].
  - apply arel_seq_refl. repeat constructor; apply arel_refl.
Qed.

Lemma wA_streams_differ : stream_eq (opts 6 false) wA_plain wA_annot = Some false.
Proof. vm_compute. reflexivity. Qed.

(* the two outputs, for the record *)
Lemma wA_outputs :
  compile_model (opts 6 false) gen_modes wA_plain =
    COk ["#pragma version 6"; "txn Fee"; "int 3"; "<"; "bnz main_l1"; "main_l1:"; "int 1"; "return"] /\
  compile_model (opts 6 false) gen_modes wA_annot =
    COk ["#pragma version 6"; "txn Fee"; "int 3"; "<"; "bz main_l2"; "// hi"; "main_l2:"; "int 1"; "return"].
Proof. split; vm_compute; reflexivity. Qed.

(* (B) a comment between a store and the load of the same variable disables the slot optimiser *)
Definition slotx : N := 300.
Definition wB_plain : prog :=
  mkp (ESeq [EOp O_store [ASlot slotx] TNone [EOp O_txn [AStr "Fee"] TUint []];
             EReturn (Some (EOp O_load [ASlot slotx] TUint []))]) [].
Definition wB_annot : prog :=
  mkp (ESeq [EOp O_store [ASlot slotx] TNone [EOp O_txn [AStr "Fee"] TUint []];
             EReturn (Some (annot_comment "c" (EOp O_load [ASlot slotx] TUint [])))]) [].

Lemma wB_related : arel_prog wB_plain wB_annot.
Proof.
  split; [|split; [constructor|reflexivity]]. cbn [p_main wB_plain wB_annot mkp].
  apply ar_seq. apply ars_cons; [apply arel_refl|]. apply ars_cons; [|apply ars_nil].
  apply ar_return. apply arel_comment.
Qed.

Lemma wB_streams_differ : stream_eq (opts 9 true) wB_plain wB_annot = Some false.
Proof. vm_compute. reflexivity. Qed.

Lemma wB_streams_equal_unoptimised : stream_eq (opts 9 false) wB_plain wB_annot = Some true.
Proof. vm_compute. reflexivity. Qed.

Lemma wB_outputs :
  compile_model (opts 9 true) gen_modes wB_plain = COk ["#pragma version 9"; "txn Fee"; "return"] /\
  compile_model (opts 9 true) gen_modes wB_annot =
    COk ["#pragma version 9"; "txn Fee"; "store 0"; "// c"; "load 0"; "return"].
Proof. split; vm_compute; reflexivity. Qed.

(* (C) a stand-alone Comment after a final Return hides has_return: the subroutine gets a second,
   dead retsub; in the main routine the program no longer compiles *)
Definition pop1 : expr := EOp O_pop [] TNone [EInt 1].
Definition subC (body : expr) : routine := mkRoutine 0 "f" TNone [] body None.
Definition mainC : expr := ESeq [ECall 0 TNone []; approve].
Definition wC_plain : prog := mkp mainC [subC (ESeq [pop1; EReturn None])].
Definition wC_annot : prog := mkp mainC [subC (ESeq [pop1; EReturn None; annot_comment0 "done"])].

Lemma wC_related : arel_prog wC_plain wC_annot.
Proof.
  split; [apply arel_refl|]. split; [|reflexivity].
  constructor; try reflexivity; [|constructor]. cbn [r_body subC].
  exact (arel_seq_insert "done" [pop1; EReturn None] []).
Qed.

Lemma wC_streams_differ : stream_eq (opts 6 false) wC_plain wC_annot = Some false.
Proof. vm_compute. reflexivity. Qed.

Lemma wC_outputs :
  compile_model (opts 6 false) gen_modes wC_plain =
    COk ["#pragma version 6"; "callsub f_0"; "int 1"; "return"; nl ++ "// f" ++ nl ++ "f_0:"; "int 1"; "pop"; "retsub"] /\
  compile_model (opts 6 false) gen_modes wC_annot =
    COk ["#pragma version 6"; "callsub f_0"; "int 1"; "return"; nl ++ "// f" ++ nl ++ "f_0:"; "int 1"; "pop"; "retsub"; "// done"; "retsub"].
Proof. split; vm_compute; reflexivity. Qed.

Definition wC_main_plain : prog := mkp (ESeq [pop1; approve]) [].
Definition wC_main_annot : prog := mkp (ESeq [pop1; approve; annot_comment0 "end"]) [].

Lemma wC_main_related : arel_prog wC_main_plain wC_main_annot.
Proof.
  split; [|split; [constructor|reflexivity]].
  exact (arel_seq_insert "end" [pop1; approve] []).
Qed.

Lemma wC_main_outputs :
  compile_model (opts 6 false) gen_modes wC_main_plain = COk ["#pragma version 6"; "int 1"; "pop"; "int 1"; "return"] /\
  compile_model (opts 6 false) gen_modes wC_main_annot = CErr ErrCompile.
Proof. split; vm_compute; reflexivity. Qed.

(* the statement "annotations leave the stream unchanged" is false of the faithful model *)
Theorem annotation_stream_refuted_witnesses :
  exists o p p', arel_prog p p' /\ stream_eq o p p' = Some false.
Proof. exists (opts 6 false), wA_plain, wA_annot. split; [exact wA_related|exact wA_streams_differ]. Qed.

(* Nonce adds exactly: an empty Seq start block, a block [byte lit], a block [pop], chained in
   front of the child's unchanged fragment *)
Theorem nonce_lowering : forall o c lit e k g,
  lower o c (annot_nonce lit e) k g =
  let '((s, en), g1) := lower o c e k g in
  let '(popb, g2) := add_block g1 (BSimple [mkI O_pop []] (Some s)) in
  let '(byteb, g3) := add_block g2 (BSimple [mkI O_byte [AStr lit]] (Some popb)) in
  let '(st, g4) := add_block g3 (BSimple [] (Some byteb)) in
  ((st, en), g4).
Proof.
  intros o c lit e k g. unfold annot_nonce. cbn [lower lower_chain].
  destruct (lower o c e k g) as [[s en] g1]. cbn [or_some or_else].
  unfold I. reflexivity.
Qed.

(* the partial invariance theorem of Proofs/C18Commute.v is not vacuous, and its side condition is
   exactly what witness (A) violates *)
Definition lowered (e : expr) : graph * id * id :=
  let '((s, en), g) := lower (opts 6 false) (mkL None None None main_param) e None empty_graph in
  let '(g1, _) := add_incoming g s in (g1, s, en).

Definition ex_clean_prog : expr :=
  ESeq [annot_comment "note" pop1; EIf fee_lt_3 (annot_comment "why" pop1) None;
        EWhile fee_lt_3 (ESeq [annot_comment0 "body"; pop1]); approve].

Lemma ex_clean :
  let '(g, s, en) := lowered ex_clean_prog in
  normalize_clean g s = true /\
  routine_code (strip_graph g) s en = option_map strip_comps (routine_code g s en) /\
  option_map (fun l => Nat.leb 12 (List.length l)) (routine_code g s en) = Some true.
Proof. vm_compute. repeat split; reflexivity. Qed.

Lemma wA_side_condition_fails :
  let '(g, s, _) := lowered (p_main wA_annot) in normalize_clean g s = false.
Proof. vm_compute. reflexivity. Qed.
