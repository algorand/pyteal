(* Proofs/ABILayoutProof.v — the ARC-4 spec of ABI/Spec.v factors through the layout normal form:
   dynamic-ness, static length, well-typedness and the encoding of a value depend on [canon t] only. *)
From Coq Require Import List NArith Ascii String Bool Lia.
From PV Require Import Base.Bytes ABI.Types ABI.Spec ABI.Layout.
Import ListNotations.

Lemma is_bool_canon : forall t, lis_bool (canon t) = is_bool t.
Proof. destruct t; reflexivity. Qed.

Lemma existsb_map_ext : forall {A B} (f : A -> bool) (g : B -> bool) (h : A -> B) l,
    Forall (fun x => g (h x) = f x) l -> existsb g (map h l) = existsb f l.
Proof.
  intros A B f g h l H; induction H as [|x r Hx _ IH]; simpl; [reflexivity|]. rewrite Hx, IH; reflexivity.
Qed.

Theorem is_dynamic_canon : forall t, layout_dyn (canon t) = is_dynamic t.
Proof.
  induction t as [| | n | | | e n IH | e IH | nm ts IH | n | | k | k] using ty_ind'; simpl;
    try reflexivity; try exact IH.
  apply existsb_map_ext; exact IH.
Qed.

Theorem static_len_canon : forall t, layout_slen (canon t) = static_len t.
Proof.
  induction t as [| | n | | | e n IH | e IH | nm ts IH | n | | k | k] using ty_ind'; simpl;
    try reflexivity.
  - rewrite is_bool_canon, IH; reflexivity.
  - rewrite map_map. f_equal.
    induction IH as [|x r Hx _ IHr]; simpl; [reflexivity|].
    rewrite is_bool_canon, Hx, IHr; reflexivity.
  - (* StaticBytes n : n * (8 / 8) *)
    change (8 / 8)%N with 1%N. apply N.mul_1_r.
Qed.

Lemma forallb_ext_all : forall {A} (f g : A -> bool) l, (forall x, f x = g x) -> forallb f l = forallb g l.
Proof. intros A f g l H; induction l as [|x r IH]; simpl; [reflexivity|]. rewrite H, IH; reflexivity. Qed.

Lemma static_array_ok_ext : forall f g n v, (forall x, f x = g x) -> static_array_ok f n v = static_array_ok g n v.
Proof. intros f g n v H; unfold static_array_ok. destruct (elems_of v); [|reflexivity]. rewrite (forallb_ext_all f g l H); reflexivity. Qed.

Lemma dyn_array_ok_ext : forall f g v, (forall x, f x = g x) -> dyn_array_ok f v = dyn_array_ok g v.
Proof. intros f g v H; unfold dyn_array_ok. destruct (elems_of v); [|reflexivity]. rewrite (forallb_ext_all f g l H); reflexivity. Qed.

Lemma tuple_ok_canon : forall (F : ty -> val -> bool) (G : layout -> val -> bool) ts v,
    Forall (fun t => forall x, G (canon t) x = F t x) ts ->
    tuple_ok (map G (map canon ts)) v = tuple_ok (map F ts) v.
Proof.
  intros F G ts v H; unfold tuple_ok. destruct v as [b|n|bs|vs]; try reflexivity.
  revert vs; induction H as [|t r Ht _ IH]; intros [|x vr]; simpl; try reflexivity.
  rewrite Ht, IH; reflexivity.
Qed.

Theorem has_type_canon : forall t v, layout_has_type (canon t) v = val_has_type t v.
Proof.
  induction t as [| | n | | | e n IH | e IH | nm ts IH | n | | k | k] using ty_ind'; intro v; simpl;
    try reflexivity.
  - apply static_array_ok_ext; exact IH.
  - apply dyn_array_ok_ext; exact IH.
  - apply tuple_ok_canon; exact IH.
Qed.

Lemma enc_elem_ext : forall eb ed f g v, (forall x, f x = g x) -> enc_elem eb ed f v = enc_elem eb ed g v.
Proof. intros eb ed f g v H; unfold enc_elem. destruct eb; [reflexivity|]. rewrite H; reflexivity. Qed.

Lemma enc_all_ext : forall f g vs, (forall x, f x = g x) -> enc_all f vs = enc_all g vs.
Proof. intros f g vs H; induction vs as [|v r IH]; simpl; [reflexivity|]. rewrite H, IH; reflexivity. Qed.

Lemma static_array_enc_ext : forall eb ed f g n v,
    (forall x, f x = g x) -> static_array_enc eb ed f n v = static_array_enc eb ed g n v.
Proof.
  intros eb ed f g n v H; unfold static_array_enc. destruct (elems_of v) as [vs|]; [|reflexivity]. simpl.
  rewrite (enc_all_ext (enc_elem eb ed f) (enc_elem eb ed g) vs (fun x => enc_elem_ext eb ed f g x H)). reflexivity.
Qed.

Lemma dyn_array_enc_ext : forall eb ed f g v,
    (forall x, f x = g x) -> dyn_array_enc eb ed f v = dyn_array_enc eb ed g v.
Proof.
  intros eb ed f g v H; unfold dyn_array_enc. destruct (elems_of v) as [vs|]; [|reflexivity]. simpl.
  rewrite (enc_all_ext (enc_elem eb ed f) (enc_elem eb ed g) vs (fun x => enc_elem_ext eb ed f g x H)). reflexivity.
Qed.

Lemma enc_seq_canon : forall (F : ty -> val -> option bytes) (G : layout -> val -> option bytes) ts vs,
    Forall (fun t => forall x, G (canon t) x = F t x) ts ->
    enc_seq (map (fun l => enc_elem (lis_bool l) (layout_dyn l) (G l)) (map canon ts)) vs =
    enc_seq (map (fun t => enc_elem (is_bool t) (is_dynamic t) (F t)) ts) vs.
Proof.
  intros F G ts vs H; revert vs; induction H as [|t r Ht _ IH]; intros [|x vr]; simpl; try reflexivity.
  rewrite is_bool_canon, is_dynamic_canon, IH.
  rewrite (enc_elem_ext (is_bool t) (is_dynamic t) (G (canon t)) (F t) x Ht). reflexivity.
Qed.

(* the encoding depends on the layout only *)
Theorem encode_canon : forall t v, layout_encode (canon t) v = arc4_encode t v.
Proof.
  induction t as [| | n | | | e n IH | e IH | nm ts IH | n | | k | k] using ty_ind'; intro v; simpl;
    try reflexivity.
  - rewrite is_bool_canon, is_dynamic_canon. apply static_array_enc_ext; exact IH.
  - rewrite is_bool_canon, is_dynamic_canon. apply dyn_array_enc_ext; exact IH.
  - unfold tuple_enc. destruct v as [b|n|bs|vs]; try reflexivity.
    rewrite (enc_seq_canon arc4_encode layout_encode ts vs IH). reflexivity.
Qed.

(* consequences: two types with the same layout are indistinguishable on the wire *)
Theorem same_layout_same_descr : forall a b, canon a = canon b ->
    is_dynamic a = is_dynamic b /\ static_len a = static_len b.
Proof.
  intros a b H. rewrite <- !is_dynamic_canon, <- !static_len_canon, H. split; reflexivity.
Qed.

Theorem same_layout_same_values : forall a b, canon a = canon b ->
    forall v, val_has_type a v = val_has_type b v.
Proof. intros a b H v. rewrite <- !has_type_canon, H. reflexivity. Qed.

Theorem same_layout_same_encoding : forall a b, canon a = canon b ->
    forall v, arc4_encode a v = arc4_encode b v.
Proof. intros a b H v. rewrite <- !encode_canon, H. reflexivity. Qed.

Lemma layout_eqb_refl : forall l, layout_eqb l l = true.
Proof.
  induction l as [| n | e n IH | e IH | ls IH | | k] using layout_ind'; simpl; try reflexivity.
  - apply N.eqb_refl.
  - rewrite IH, N.eqb_refl; reflexivity.
  - exact IH.
  - induction IH as [|x r Hx _ IHr]; [reflexivity|]. rewrite Hx; exact IHr.
  - destruct k; reflexivity.
Qed.

Lemma layout_eqb_sound : forall a b, layout_eqb a b = true -> a = b.
Proof.
  induction a as [| n | e n IH | e IH | ls IH | | k] using layout_ind'; intros b H; destruct b; simpl in H;
    try discriminate; try reflexivity.
  - apply N.eqb_eq in H; congruence.
  - apply andb_true_iff in H as [H1 H2]. apply IH in H1. apply N.eqb_eq in H2. congruence.
  - apply IH in H; congruence.
  - f_equal. revert elems H. induction IH as [|x r Hx _ IHr]; intros [|y r2] H; try discriminate; try reflexivity.
    apply andb_true_iff in H as [Ha Hb]. apply Hx in Ha. apply IHr in Hb. congruence.
  - destruct k, k0; simpl in H; congruence.
Qed.

Theorem layout_eqb_eq : forall a b, layout_eqb a b = true <-> a = b.
Proof. intros a b; split; [apply layout_eqb_sound | intros ->; apply layout_eqb_refl]. Qed.
