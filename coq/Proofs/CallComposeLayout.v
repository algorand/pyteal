(* Proofs/CallComposeLayout.v — property C02: [flatten_subroutines] lays the routines out as
   Proofs/CallComposeLink.v assumes: the main routine's code at offset 0 with prefix "main_", every
   subroutine's code directly behind its entry label with prefix "<entry label>_", routine references
   resolved to entry labels ([fs_res]). *)
From Coq Require Import List Arith NArith String Bool Lia.
From PV Require Import Base.Bytes Base.Sexp AVM.Syntax AVM.Machine Src.Expr Src.Denote Src.DenoteCall
  Comp.Blocks Comp.Lower Comp.Passes Comp.GraphSem Comp.LinearSem Comp.LinkedSem Comp.Compile
  Proofs.SlotCompose CallX.Denote Proofs.CallComposeLink.
Import ListNotations.
Local Open Scope string_scope.
Local Open Scope list_scope.

(* the local definitions of flatten_subroutines, named *)
Definition fs_ids (frs : list flat_routine) : list N :=
  sort_dedup (flat_map (fun fr => match fr_sub fr with Some r => [r_id r] | None => [] end) frs).

Definition fs_label (frs : list flat_routine) (r : routine) : string :=
  (sanitize (r_name r) ++ "_" ++ N_to_dec (N.of_nat (index_N (r_id r) (fs_ids frs) 0)))%string.

Definition fs_find (frs : list flat_routine) (i : N) : option flat_routine :=
  find (fun fr => match fr_sub fr with Some r => N.eqb (r_id r) i | None => false end) frs.

Definition fs_sub_of (frs : list flat_routine) (i : N) : option routine :=
  match fs_find frs i with Some fr => fr_sub fr | None => None end.

(* routine id -> entry label *)
Definition fs_res (frs : list flat_routine) (i : N) : option string :=
  match fs_sub_of frs i with Some r => Some (fs_label frs r) | None => None end.

Definition fs_resolve (frs : list flat_routine) (c : comp) : comp :=
  match c with
  | COp i => COp (rewrite_instr (fun a => match a with
                                          | ASub s => match fs_sub_of frs s with Some r => AStr (fs_label frs r) | None => a end
                                          | _ => a end) i)
  | other => other
  end.

Definition fs_main (frs : list flat_routine) : list comp :=
  flat_map (fun fr => match fr_sub fr with
                      | None => map (prefix_labels "main_") (map (fs_resolve frs) (fr_ops fr))
                      | Some _ => [] end) frs.

Definition fs_unit (frs : list flat_routine) (i : N) : list comp :=
  match fs_find frs i with
  | Some fr =>
      match fr_sub fr with
      | Some r =>
          let lbl := fs_label frs r in
          CLabel lbl (Some (r_name r)) :: map (prefix_labels (lbl ++ "_")%string) (map (fs_resolve frs) (fr_ops fr))
      | None => []
      end
  | None => []
  end.

Lemma flatten_subroutines_eq frs :
  flatten_subroutines frs = fs_main frs ++ flat_map (fs_unit frs) (fs_ids frs).
Proof. reflexivity. Qed.

(* prefixing after resolving is the link transformation *)
Lemma link_comp_eq frs pre c : prefix_labels pre (fs_resolve frs c) = link_comp (fs_res frs) pre c.
Proof.
  destruct c as [i|l cm|v]; try reflexivity.
  cbn [fs_resolve prefix_labels link_comp]. f_equal. unfold rewrite_instr. cbn [i_op i_args]. f_equal.
  rewrite map_map. apply map_ext. intros a. unfold link_arg, fs_res.
  destruct a as [n|s|l|u|sb]; try reflexivity.
  destruct (fs_sub_of frs sb); reflexivity.
Qed.

Lemma link_code_eq frs pre code :
  map (prefix_labels pre) (map (fs_resolve frs) code) = map (link_comp (fs_res frs) pre) code.
Proof. rewrite map_map. apply map_ext. intros c. apply link_comp_eq. Qed.

Lemma placed_mid (A B : list comp) res pre code :
  placed (A ++ map (link_comp res pre) code ++ B) (List.length A) res pre code.
Proof.
  intros pc c H. rewrite nth_error_app2 by lia. replace (List.length A + pc - List.length A) with pc by lia.
  rewrite nth_error_app1 by (rewrite map_length; apply nth_error_Some; rewrite H; discriminate).
  rewrite nth_error_map, H. reflexivity.
Qed.

(* the compiled subroutines, in the order of the component list *)
Definition fs_subs (frs : list flat_routine) : list routine :=
  flat_map (fun fr => match fr_sub fr with Some r => [r] | None => [] end) frs.

Lemma find_routine_fs frs f r : find_routine (fs_subs frs) f = Some r ->
  r_id r = f /\ exists fr, fs_find frs f = Some fr /\ fr_sub fr = Some r.
Proof.
  unfold find_routine, fs_subs, fs_find. induction frs as [|fr t IH]; intros H; [discriminate H|].
  cbn [flat_map find] in *. destruct (fr_sub fr) as [r0|] eqn:E.
  - cbn [app find] in H. destruct (N.eqb (r_id r0) f) eqn:Q.
    + injection H as <-. split; [apply N.eqb_eq; exact Q|]. exists fr. split; [reflexivity|exact E].
    + exact (IH H).
  - cbn [app] in H. exact (IH H).
Qed.

Lemma fs_find_in frs f fr : fs_find frs f = Some fr -> In fr frs.
Proof. unfold fs_find. intros H. exact (proj1 (find_some _ _ H)). Qed.

Lemma fs_ids_in frs fr r : In fr frs -> fr_sub fr = Some r -> In (r_id r) (fs_ids frs).
Proof.
  intros Hin E. unfold fs_ids. apply in_sort_dedup'. apply in_flat_map. exists fr. split; [exact Hin|].
  rewrite E. left. reflexivity.
Qed.

Theorem flatten_layout_sub frs f r :
  find_routine (fs_subs frs) f = Some r ->
  r_id r = f /\
  exists fr e,
    In fr frs /\ fr_sub fr = Some r /\
    fs_res frs f = Some (fs_label frs r) /\
    nth_error (flatten_subroutines frs) e = Some (CLabel (fs_label frs r) (Some (r_name r))) /\
    placed (flatten_subroutines frs) (S e) (fs_res frs) (fs_label frs r ++ "_")%string (fr_ops fr).
Proof.
  intros H. destruct (find_routine_fs frs f r H) as [Eid (fr & Ff & Es)]. split; [exact Eid|].
  pose proof (fs_find_in frs f fr Ff) as Hin.
  pose proof (fs_ids_in frs fr r Hin Es) as Hid. rewrite Eid in Hid.
  destruct (in_split _ _ Hid) as (a & b & Eids).
  assert (EU : fs_unit frs f = CLabel (fs_label frs r) (Some (r_name r)) ::
                 map (link_comp (fs_res frs) (fs_label frs r ++ "_")%string) (fr_ops fr)).
  { unfold fs_unit. rewrite Ff, Es. cbv zeta. rewrite link_code_eq. reflexivity. }
  set (A := fs_main frs ++ flat_map (fs_unit frs) a).
  assert (EL : flatten_subroutines frs =
               (A ++ [CLabel (fs_label frs r) (Some (r_name r))]) ++
               map (link_comp (fs_res frs) (fs_label frs r ++ "_")%string) (fr_ops fr) ++ flat_map (fs_unit frs) b).
  { rewrite flatten_subroutines_eq, Eids, flat_map_app. cbn [flat_map]. rewrite EU. unfold A.
    rewrite <- !app_assoc. reflexivity. }
  exists fr, (List.length A). split; [exact Hin|]. split; [exact Es|]. split.
  { unfold fs_res, fs_sub_of. rewrite Ff, Es. reflexivity. }
  split.
  - rewrite EL, <- app_assoc. rewrite nth_error_app2 by lia. rewrite Nat.sub_diag. reflexivity.
  - rewrite EL. replace (S (List.length A)) with (List.length (A ++ [CLabel (fs_label frs r) (Some (r_name r))])).
    + apply placed_mid.
    + rewrite app_length. cbn [List.length]. lia.
Qed.

Lemma flat_map_main_head (g : flat_routine -> list comp) frs mainfr rest :
  frs = mainfr :: rest -> fr_sub mainfr = None -> Forall (fun fr => fr_sub fr <> None) rest ->
  flat_map (fun fr => match fr_sub fr with None => g fr | Some _ => [] end) frs = g mainfr.
Proof.
  intros -> Em Hr. cbn [flat_map]. rewrite Em, <- app_nil_r. f_equal.
  induction Hr as [|x t Hx _ IH]; [reflexivity|]. cbn [flat_map]. destruct (fr_sub x); [exact IH|destruct (Hx eq_refl)].
Qed.

Theorem flatten_layout_main frs mainfr rest :
  frs = mainfr :: rest -> fr_sub mainfr = None -> Forall (fun fr => fr_sub fr <> None) rest ->
  placed (flatten_subroutines frs) 0 (fs_res frs) "main_" (fr_ops mainfr).
Proof.
  intros E Em Hr. rewrite flatten_subroutines_eq.
  replace (fs_main frs) with (map (link_comp (fs_res frs) "main_") (fr_ops mainfr));
    [exact (placed_mid [] _ (fs_res frs) "main_" (fr_ops mainfr))|].
  rewrite <- link_code_eq. symmetry.
  exact (flat_map_main_head (fun fr => map (prefix_labels "main_") (map (fs_resolve frs) (fr_ops fr))) frs mainfr rest E Em Hr).
Qed.
