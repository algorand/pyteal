(* Proofs/LatePassTotal.v — the passes AFTER compile_one never fail on a compiled routine (C20):
     sortBlocks     finds the end block ("End block not present" is never raised),
     flattenBlocks  finds every block it lists defined, every conditional block with both branches
                    and every jump target in the list (none of its assertions / KeyErrors fires),
   for every recipe the lowering handles (If/Cond/While/For/Break/Continue/Assert/Return/...), and the
   composition with the tree-validity half (Proofs/NormalizeLowered.v): once PyTeal's own checks pass,
   one routine goes all the way to a flat instruction list, and [routine_end_to_end_total] is the C01
   end-to-end theorem (Proofs/EndToEnd.v) without its two "the late passes succeeded" hypotheses.

   One side condition on the recipe: no Cond without arms ([nec], Proofs/LatePassTotalReach.v) — the
   constructor Cond() raises TealInputError, [check_expr] models __teal__ only.  It is necessary
   ([sort_needs_cond_arms] in Proofs/LatePassTotalExamples.v). *)
From Coq Require Import List Arith NArith String Bool Lia.
From PV Require Import Base.Bytes AVM.Syntax AVM.Machine Src.Expr Src.Denote Src.WellTyped
  Comp.Blocks Comp.Lower Comp.Passes Comp.GraphSem Comp.LinearSem Comp.SimCheck Comp.Compile
  Proofs.LowerFrame Proofs.LowerLemmas Proofs.LowerCorrect Proofs.LowerShape
  Proofs.NormalizeSem Proofs.NormalizeGraph Proofs.IncomingProof Proofs.NormalizeCorrect
  Proofs.NormalizeLowered Proofs.FlattenCorrect
  Proofs.EndToEndExits Proofs.EndToEndGlue Proofs.EndToEnd Proofs.EndToEndTyped
  Proofs.LatePassTotalReach Proofs.LatePassTotalNorm Proofs.SortCorrect.
Import ListNotations.

Local Notation reach := SortCorrect.reach.

(* sortBlocks fails in one way only: the end block is not among the blocks found from the start *)
Theorem sort_blocks_total g start end_ :
  wf g -> reach g start end_ -> exists order, sort_blocks g start end_ = Some order.
Proof.
  intros W R. unfold sort_blocks. fold (dfs_order g start).
  destruct (dfs_order_spec g start W) as (_ & Rs & _).
  assert (M : mem_id end_ (dfs_order g start) = true) by (apply SortCorrect.mem_id_In, Rs, R).
  rewrite M. eauto.
Qed.

Theorem sort_blocks_none_iff g start end_ :
  wf g -> (sort_blocks g start end_ = None <-> ~ reach g start end_).
Proof.
  intros W. unfold sort_blocks. fold (dfs_order g start).
  destruct (dfs_order_spec g start W) as (_ & Rs & _).
  destruct (mem_id end_ (dfs_order g start)) eqn:M.
  - split; [discriminate|]. intros N. exfalso. apply N, Rs, SortCorrect.mem_id_In, M.
  - split; [|reflexivity]. intros _ R. apply Rs, SortCorrect.mem_id_In in R. congruence.
Qed.

(* flattenBlocks: what each listed block has to satisfy *)
Definition flat_ready (g : graph) (blocks : list id) (b : id) : Prop :=
  exists bb, g_blk g b = Some bb /\ full_b bb /\ forall x, In x (outgoing bb) -> In x blocks.

Lemma flatten_one_total g blocks i b :
  flat_ready g blocks b -> exists r, flatten_one g blocks i b = Some r.
Proof.
  intros (bb & E & F & C). unfold flatten_one. rewrite E.
  destruct (is_terminal bb); [eauto|].
  destruct bb as [ops [nx|]|ops [t|] [fl|]]; cbn [full_b] in F;
    try (exfalso; apply (proj1 F); reflexivity); try (exfalso; apply (proj2 F); reflexivity); [| |].
  - destruct (index_of_In nx blocks 0 (C nx (or_introl eq_refl))) as (ni & Ni). rewrite Ni.
    destruct (Nat.eqb ni (S i)); eauto.
  - eauto.
  - destruct (index_of_In t blocks 0 (C t (or_introl eq_refl))) as (ti & Ti).
    destruct (index_of_In fl blocks 0 (C fl (or_intror (or_introl eq_refl)))) as (fi & Fi).
    rewrite Ti, Fi. destruct (Nat.eqb fi (S i)); [eauto|]. destruct (Nat.eqb ti (S i)); eauto.
Qed.

Lemma flatten_collect_total g blocks : forall rest i,
  (forall b, In b rest -> flat_ready g blocks b) ->
  exists r, flatten_collect g blocks i rest = Some r.
Proof.
  induction rest as [|b t IH]; intros i H; cbn [flatten_collect]; [eauto|].
  destruct (flatten_one_total g blocks i b (H b (or_introl eq_refl))) as ([code refs] & E1).
  destruct (IH (S i) (fun x Hx => H x (or_intror Hx))) as ([codes refs'] & E2).
  rewrite E1, E2. eauto.
Qed.

Theorem flatten_blocks_total g blocks :
  (forall b, In b blocks -> flat_ready g blocks b) -> exists code, flatten_blocks g blocks = Some code.
Proof.
  intros H. unfold flatten_blocks.
  destruct (flatten_collect_total g blocks blocks 0 H) as ([codes refs] & E). rewrite E. eauto.
Qed.

(* the converse (flattenBlocks succeeded => listed blocks defined, closed) is [flatten_closed] *)

(* a graph in which everything reachable from the start is defined and full flattens in sort order *)
Theorem sort_flatten_total g start end_ :
  wf g -> cond_full g -> dclosed g -> g_blk g start <> None -> reach g start end_ ->
  exists order code, sort_blocks g start end_ = Some order /\ flatten_blocks g order = Some code.
Proof.
  intros W F D Ds R.
  destruct (sort_blocks_total g start end_ W R) as (order & HS). exists order.
  destruct (sort_blocks_complete g start end_ order W HS) as (_ & Ro & _).
  destruct (flatten_blocks_total g order) as (code & HF); [|eauto].
  intros b Hb. apply Ro in Hb.
  pose proof (dclosed_reach_defined g start b D Ds Hb) as Db.
  destruct (g_blk g b) as [bb|] eqn:Eb; [|congruence].
  exists bb. split; [exact Eb|]. split; [exact (F b bb Eb)|].
  intros x Hx. apply Ro. eapply reach_step; [exact Hb|]. unfold out_of. rewrite Eb. exact Hx.
Qed.

Lemma blk_eq_gext g g' : g_blk g' = g_blk g -> gext g g'.
Proof. intros B i b E. rewrite B. exact E. Qed.

Theorem compiled_late_facts o sub ast0 cr :
  (match sub with Some r => r_deferred r | None => None end) = None ->
  compile_one o sub ast0 = COk cr ->
  nec (root_ast ast0) = true ->
  wf (cr_graph cr) /\ cond_full (cr_graph cr) /\ late_inv (cr_end cr) (cr_graph cr) (cr_start cr).
Proof.
  intros D E Hn. destruct (compile_one_inv o sub ast0 cr D E) as (Ck & Hb & s & g0 & EL & EN).
  set (c := routine_ctx o sub) in *. set (e := root_ast ast0) in *.
  assert (P : ctx_ok c empty_graph) by (split; exact Logic.I).
  pose proof (lower_ok o e c None empty_graph _ good_empty P Logic.I EL) as X. cbn [fst snd] in X.
  destruct X as ((Cl & F0 & Z0) & _ & Ls & _).
  pose proof (frame_wf _ _ (lower_frame o e c None empty_graph (s, cr_end cr) g0 wf_empty EL)) as W0.
  destruct (lower_root_reach o c e s (cr_end cr) g0 eq_refl eq_refl Ck Hb Hn EL) as [R0 Dn].
  pose proof (lower_root_exits o c e s (cr_end cr) g0 eq_refl eq_refl Ck Hb EL) as [X1 X2].
  assert (ZN : forall b, NoDup (g_inc g0 b)) by (intros b; rewrite Z0; constructor).
  destruct (add_incoming_covers g0 s W0 ZN) as (B1 & N1 & C1 & ND1 & _).
  set (g1 := fst (add_incoming g0 s)) in *.
  assert (F1 : cond_full g1) by (intros i b Eb; rewrite B1 in Eb; exact (F0 i b Eb)).
  destruct (normalize_shape _ _ _ _ F1 EN) as [N3 D3].
  destruct (normalize_tinv _ _ _ _ F1 C1 ND1 EN) as (F3 & _ & _).
  assert (L1 : late_inv (cr_end cr) g1 s).
  { split; [|split; [|split]].
    - split; [intros i bb Ei; rewrite B1 in Ei; exact (X1 i bb Ei)|rewrite B1; exact X2].
    - eapply gext_reach; [apply blk_eq_gext; exact B1|exact R0].
    - intros p x I. unfold out_of in I. rewrite B1. apply Dn. rewrite B1 in I.
      destruct (g_blk g0 p) as [b|] eqn:Eb; [|destruct I]. exact (Cl p b x Eb I).
    - rewrite B1. apply Dn. exact Ls. }
  split; [|split; [exact F3|exact (normalize_late_inv _ _ _ _ _ EN L1)]].
  intros i L. apply D3. rewrite B1. apply W0. unfold id in *. rewrite <- N1, <- N3. exact L.
Qed.

Theorem sort_total o sub ast0 cr :
  (match sub with Some r => r_deferred r | None => None end) = None ->
  compile_one o sub ast0 = COk cr ->
  nec (root_ast ast0) = true ->
  exists order, sort_blocks (cr_graph cr) (cr_start cr) (cr_end cr) = Some order.
Proof.
  intros D E Hn. destruct (compiled_late_facts o sub ast0 cr D E Hn) as (W & _ & _ & R & _).
  exact (sort_blocks_total _ _ _ W R).
Qed.

Theorem late_passes_total o sub ast0 cr :
  (match sub with Some r => r_deferred r | None => None end) = None ->
  compile_one o sub ast0 = COk cr ->
  nec (root_ast ast0) = true ->
  exists order code,
    sort_blocks (cr_graph cr) (cr_start cr) (cr_end cr) = Some order /\
    flatten_blocks (cr_graph cr) order = Some code.
Proof.
  intros D E Hn. destruct (compiled_late_facts o sub ast0 cr D E Hn) as (W & F & _ & R & Dc & Ds).
  exact (sort_flatten_total _ _ _ W F Dc Ds R).
Qed.

(* flattenBlocks succeeds on whatever order sortBlocks returned *)
Theorem flatten_total o sub ast0 cr order :
  (match sub with Some r => r_deferred r | None => None end) = None ->
  compile_one o sub ast0 = COk cr ->
  nec (root_ast ast0) = true ->
  sort_blocks (cr_graph cr) (cr_start cr) (cr_end cr) = Some order ->
  exists code, flatten_blocks (cr_graph cr) order = Some code.
Proof.
  intros D E Hn HS. destruct (late_passes_total o sub ast0 cr D E Hn) as (order' & code & HS' & HF).
  rewrite HS in HS'. injection HS' as <-. eauto.
Qed.

(* from PyTeal's own checks to the instruction list of the routine *)
Theorem routine_compiles_total o sub ast0 :
  (match sub with Some r => r_deferred r | None => None end) = None ->
  check_expr o (option_map r_ret sub) false (root_ast ast0) = None ->
  has_bad_continue false (root_ast ast0) = false ->
  nec (root_ast ast0) = true ->
  exists cr order code,
    compile_one o sub ast0 = COk cr /\
    sort_blocks (cr_graph cr) (cr_start cr) (cr_end cr) = Some order /\
    flatten_blocks (cr_graph cr) order = Some code.
Proof.
  intros D Ck Hb Hn.
  destruct (compile_one_tree_checks_pass o sub ast0 D Ck Hb) as (cr & E & _).
  destruct (late_passes_total o sub ast0 cr D E Hn) as (order & code & HS & HF).
  exists cr, order, code. auto.
Qed.

Lemma nec_root ast0 : nec ast0 = true -> nec (root_ast ast0) = true.
Proof.
  intros H. unfold root_ast. destruct (has_return ast0); [exact H|].
  destruct (type_of ast0); cbn [nec forallb]; rewrite ?H; reflexivity.
Qed.

Lemma forallb_app' {A} (f : A -> bool) l1 l2 : forallb f l1 = true -> forallb f l2 = true -> forallb f (l1 ++ l2) = true.
Proof. intros H1 H2. rewrite forallb_app, H1, H2. reflexivity. Qed.

Lemma forallb_map_true {A B} (f : B -> bool) (h : A -> B) l : (forall a, f (h a) = true) -> forallb f (map h l) = true.
Proof. intros H. induction l as [|a t IH]; cbn; [reflexivity|]. rewrite H, IH. reflexivity. Qed.

(* the body compileSubroutine builds for a subroutine declaration adds parameter stores only *)
Lemma nec_decl_body o r : nec (r_body r) = true -> nec (root_ast (decl_body o r)) = true.
Proof.
  intros H. apply nec_root. unfold decl_body. destruct (o_use_fp o); cbn [nec].
  - cbn [app forallb nec]. apply forallb_app'.
    + apply forallb_map_true. intros [i [b sl]]. reflexivity.
    + cbn [forallb]. rewrite H. reflexivity.
  - apply forallb_app'.
    + apply forallb_map_true. intros [b sl]. reflexivity.
    + cbn [forallb]. rewrite H. reflexivity.
Qed.

Lemma forallb_and_l {A} (f h : A -> bool) l : forallb (fun a => f a && h a) l = true -> forallb f l = true.
Proof.
  intros H. apply forallb_forall. intros x Hx. rewrite forallb_forall in H. specialize (H x Hx).
  apply andb_prop in H. exact (proj1 H).
Qed.

(* the induction hypothesis on a list of sub-expressions, applied to all of them *)
Lemma forallb_Forall_impl {A I} (f : I -> A -> bool) (h : A -> bool) l :
  Forall (fun x => forall i, f i x = true -> h x = true) l -> forall i, forallb (f i) l = true -> forallb h l = true.
Proof.
  intros H i W. apply forallb_forall. intros x Hx. rewrite Forall_forall in H. rewrite forallb_forall in W.
  exact (H x Hx i (W x Hx)).
Qed.

(* every well-typed recipe (Src/WellTyped.v, the quantifier of C20) satisfies it *)
Lemma wt_nec fty e : forall il, well_typed fty il e = true -> nec e = true.
Proof.
  induction e using expr_ind'; intros il W; cbn [nec]; cbn [well_typed] in W; try reflexivity; try discriminate W.
  - (* EOp *)
    apply andb_prop in W. destruct W as [W _]. exact (forallb_Forall_impl _ _ _ H il W).
  - (* ENary *)
    repeat (apply andb_prop in W; destruct W as [W ?]). exact (forallb_Forall_impl _ _ _ H il W).
  - (* ESeq *)
    apply andb_prop in W. destruct W as [W _]. exact (forallb_Forall_impl _ _ _ H il W).
  - (* EIf *)
    repeat (apply andb_prop in W; destruct W as [W ?]).
    rewrite (IHe1 il W). match goal with Ht : well_typed fty il e2 = true |- _ => rewrite (IHe2 il Ht) end.
    destruct el as [x|]; [|reflexivity]. cbn [andb].
    match goal with Hx : well_typed fty il x && _ = true |- _ => apply andb_prop in Hx; destruct Hx as [Hx _];
      inversion H; subst; eauto end.
  - (* ECond *)
    destruct arms as [|[c0 v0] rest]; [discriminate W|]. cbn [andb].
    apply forallb_forall. intros a Ha. rewrite Forall_forall in H. destruct (H a Ha) as [Hc Hv].
    rewrite forallb_forall in W. specialize (W a Ha).
    repeat (apply andb_prop in W; destruct W as [W ?]).
    rewrite (Hc il W). match goal with Hs : well_typed fty il (snd a) = true |- _ => rewrite (Hv il Hs) end. reflexivity.
  - (* EWhile *)
    repeat (apply andb_prop in W; destruct W as [W ?]).
    rewrite (IHe1 true W). match goal with Hs : well_typed fty true e2 = true |- _ => rewrite (IHe2 true Hs) end. reflexivity.
  - (* EFor *)
    repeat (apply andb_prop in W; destruct W as [W ?]).
    rewrite (IHe1 true W).
    match goal with Hs : well_typed fty true e2 = true |- _ => rewrite (IHe2 true Hs) end.
    match goal with Hs : well_typed fty true e3 = true |- _ => rewrite (IHe3 true Hs) end.
    match goal with Hs : well_typed fty true e4 = true |- _ => rewrite (IHe4 true Hs) end. reflexivity.
  - (* EAssert *)
    apply andb_prop in W. destruct W as [_ W]. exact (forallb_Forall_impl _ _ _ H il (forallb_and_l _ _ _ W)).
  - (* EReturn *)
    destruct v as [x|]; [|reflexivity]. apply andb_prop in W. destruct W as [W _].
    inversion H; subst. eauto.
  - (* EExit *)
    apply andb_prop in W. destruct W as [W _]. eauto.
  - (* EWide *)
    destruct ns as [|n0 nr]; [discriminate W|]. destruct ds as [|d0 dr]; [discriminate W|].
    apply andb_prop in W. destruct W as [Wn Wd]. apply andb_true_intro.
    split; [exact (forallb_Forall_impl _ _ _ H il (forallb_and_l _ _ _ Wn))|exact (forallb_Forall_impl _ _ _ H0 il (forallb_and_l _ _ _ Wd))].
Qed.

Theorem wt_root_nec fty ast0 : well_typed fty false ast0 = true -> nec (root_ast ast0) = true.
Proof. intros W. apply nec_root. exact (wt_nec fty ast0 false W). Qed.

(* C01 end to end, without the "late passes succeeded" hypotheses *)
Theorem routine_end_to_end_total o sub ast0 cr :
  (match sub with Some r => r_deferred r | None => None end) = None ->
  compile_one o sub ast0 = COk cr ->
  head_loop (root_ast ast0) = false ->
  nec (root_ast ast0) = true ->
  exists order code,
    sort_blocks (cr_graph cr) (cr_start cr) (cr_end cr) = Some order /\
    flatten_blocks (cr_graph cr) order = Some code /\
    pos_of (cr_graph cr) order (cr_start cr) = 0 /\
    forall env, consistent env (routine_ctx o sub) ->
    forall fuel stk st h, halt_of (denote env fuel (root_ast ast0) stk st) = Some h ->
      lstar env code (LAt 0 stk st) h /\
      forall c2, lstar env code (LAt 0 stk st) c2 -> lfinal c2 = true -> c2 = h.
Proof.
  intros D E HL Hn.
  destruct (late_passes_total o sub ast0 cr D E Hn) as (order & code & HS & HF).
  exists order, code. split; [exact HS|]. split; [exact HF|].
  exact (routine_end_to_end o sub ast0 cr order code D E HL HS HF).
Qed.

(* from the checks alone: nothing about the pipeline's success is assumed *)
Theorem routine_checked_end_to_end o sub ast0 :
  (match sub with Some r => r_deferred r | None => None end) = None ->
  check_expr o (option_map r_ret sub) false (root_ast ast0) = None ->
  has_bad_continue false (root_ast ast0) = false ->
  head_loop (root_ast ast0) = false ->
  nec (root_ast ast0) = true ->
  exists cr order code,
    compile_one o sub ast0 = COk cr /\
    sort_blocks (cr_graph cr) (cr_start cr) (cr_end cr) = Some order /\
    flatten_blocks (cr_graph cr) order = Some code /\
    pos_of (cr_graph cr) order (cr_start cr) = 0 /\
    forall env, consistent env (routine_ctx o sub) ->
    forall fuel stk st h, halt_of (denote env fuel (root_ast ast0) stk st) = Some h ->
      lstar env code (LAt 0 stk st) h /\
      forall c2, lstar env code (LAt 0 stk st) c2 -> lfinal c2 = true -> c2 = h.
Proof.
  intros D Ck Hb HL Hn.
  destruct (compile_one_tree_checks_pass o sub ast0 D Ck Hb) as (cr & E & _).
  destruct (routine_end_to_end_total o sub ast0 cr D E HL Hn) as (order & code & H).
  exists cr, order, code. split; [exact E|exact H].
Qed.

(* subroutine bodies as compile_rec compiles them: the only condition is on the user's body *)
Theorem subroutine_end_to_end_total o r cr :
  r_deferred r = None ->
  compile_one o (Some r) (decl_body o r) = COk cr ->
  nec (r_body r) = true ->
  exists order code,
    sort_blocks (cr_graph cr) (cr_start cr) (cr_end cr) = Some order /\
    flatten_blocks (cr_graph cr) order = Some code /\
    pos_of (cr_graph cr) order (cr_start cr) = 0 /\
    forall env, consistent env (routine_ctx o (Some r)) ->
    forall fuel stk st h, halt_of (denote env fuel (root_ast (decl_body o r)) stk st) = Some h ->
      lstar env code (LAt 0 stk st) h /\
      forall c2, lstar env code (LAt 0 stk st) c2 -> lfinal c2 = true -> c2 = h.
Proof.
  intros D E Hn.
  exact (routine_end_to_end_total o (Some r) (decl_body o r) cr D E (decl_body_root_head_loop o r) (nec_decl_body o r Hn)).
Qed.

(* well-typed main routines: no side condition at all *)
Theorem main_end_to_end_well_typed_total fty o ast0 cr :
  well_typed fty false ast0 = true ->
  compile_one o None ast0 = COk cr ->
  exists order code,
    sort_blocks (cr_graph cr) (cr_start cr) (cr_end cr) = Some order /\
    flatten_blocks (cr_graph cr) order = Some code /\
    pos_of (cr_graph cr) order (cr_start cr) = 0 /\
    forall env, consistent env (routine_ctx o None) ->
    forall fuel stk st h, halt_of (denote env fuel (root_ast ast0) stk st) = Some h ->
      lstar env code (LAt 0 stk st) h /\
      forall c2, lstar env code (LAt 0 stk st) c2 -> lfinal c2 = true -> c2 = h.
Proof.
  intros W E.
  exact (routine_end_to_end_total o None ast0 cr eq_refl E (wt_root_head_loop fty ast0 W) (wt_root_nec fty ast0 W)).
Qed.
