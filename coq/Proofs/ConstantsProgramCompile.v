(* Proofs/ConstantsProgramCompile.v — C12, whole program: the texts the COMPILER MODEL prints.
   Comp/Compile.v has no assembleConstants option (copts has no such field; compile_model is the option-off
   pipeline).  [compile_model_constants] below is compileTeal's option-on path written over the same
   [compile_components]: version check (compiler.py: assembleConstants requires version >= 3), then
   createConstantBlocks on the flattened, verified component list (the list WITHOUT the pragma, which compileTeal
   prints itself in front), then assembly of every component. *)
From Coq Require Import List Arith NArith Ascii String Bool Lia.
From PV Require Import Base.Bytes Base.Sexp AVM.Syntax AVM.Machine AVM.Parse
  Src.Expr Comp.Lower Comp.Compile Comp.Assemble Comp.Constants Comp.ConstantsSpec
  Proofs.PipelineStages Proofs.C18Text Proofs.StageEText Proofs.ConstantsProof Proofs.ConstantsSim
  Proofs.ConstantsProgramMach Proofs.ConstantsProgramLink Proofs.ConstantsProgram Proofs.ConstantsProgramText.
Import ListNotations.
Local Open Scope string_scope.

Definition compile_model_constants (addr_hash : bytes -> bytes) (sig_hash : string -> bytes)
           (o : copts) (modes : opc -> bool * bool) (p : prog) : cres (list string) :=
  match compile_components o modes p with
  | CErr e => CErr e
  | COk (CPragma v :: comps) =>
      if (o_version o <? assemble_constants_min_version)%N then CErr ErrInput else
      match create_constant_blocks addr_hash sig_hash comps with
      | Some out =>
          match assemble_all (CPragma v :: out) with
          | Some lines => COk lines
          | None => CErr ErrInternal
          end
      | None => CErr ErrInternal           (* some extract*Value raised *)
      end
  | COk _ => CErr ErrInternal
  end.

(* compile_components always puts the pragma in front *)
Lemma compile_components_pragma o modes p cs :
  compile_components o modes p = COk cs -> exists comps, cs = CPragma (o_version o) :: comps.
Proof.
  rewrite compile_components_stages. intros H.
  destruct (negb _); [discriminate H|].
  apply cbind_ok in H as (crs & _ & H). apply cbind_ok in H as (crs1 & _ & H).
  apply cbind_ok in H as ([[crs2 locals] asg] & _ & H).
  unfold emit_stage in H. apply cbind_ok in H as (frs & _ & H). apply cbind_ok in H as (frs2 & _ & H).
  destruct (verify_ops _ _ _); [discriminate H|].
  injection H as <-. eexists. reflexivity.
Qed.

Section Compiled.
Variable addr_hash : bytes -> bytes.
Variable sig_hash : string -> bytes.
Variable msel : list (string * bytes).
Hypothesis Hmsel : msel_consistent sig_hash msel.

(* the two texts compile_model / compile_model_constants print for one program *)
Theorem constants_compiled_text_equiv o modes p lines comps out P :
  compile_model o modes p = COk lines ->
  compile_components o modes p = COk (CPragma (o_version o) :: comps) ->
  (assemble_constants_min_version <= o_version o)%N ->
  create_constant_blocks addr_hash sig_hash comps = Some out ->
  printable msel comps = true -> single_tok comps = true ->
  input_ok id_sigma msel comps -> no_block_ops comps = true -> indexes_encodable out = true ->
  parse_program msel (program_text lines) = Some P ->
  exists lines' P',
    compile_model_constants addr_hash sig_hash o modes p = COk lines' /\
    parse_program msel (program_text lines') = Some P' /\
    exists pro body ib bb,
      out = (pro ++ body)%list /\
      blocks_after id_sigma msel pro [] [] = Some (ib, bb) /\
      Forall2 (site_ok id_sigma msel ib bb) comps body /\
      pr_version P' = pr_version P /\
      (forall cx st k,
         run (k + List.length pro) cx P' (init_mach st) =
         run k cx P' (mkM (List.length pro) [] [] false ib bb st)) /\
      (forall cx m m', lockrel (List.length pro) ib bb m m' ->
         match step cx P m, step cx P' m' with
         | Running a, Running a' => lockrel (List.length pro) ib bb a a'
         | Done v a, Done v' a' => v' = v /\ lockrel (List.length pro) ib bb a a'
         | _, _ => False
         end) /\
      (forall cx st k,
         run_sim (List.length pro) ib bb (run k cx P (init_mach st)) (run (k + List.length pro) cx P' (init_mach st))).
Proof.
  intros Hm Hcc Hv Hc Hp Hs Hok Hnb Hie HP.
  unfold compile_model in Hm. rewrite Hcc in Hm.
  destruct (assemble_all (CPragma (o_version o) :: comps)) as [l0|] eqn:A; [|discriminate Hm]. injection Hm as ->.
  destruct (constants_text_equiv addr_hash sig_hash msel Hmsel (o_version o) comps out lines P Hc Hp Hs Hok Hnb Hie A HP)
    as (lines' & P' & A' & HP' & pro & body & ib & bb & E & Hb & Hf & Hver & Hpre & _ & Hstep & Hrun).
  exists lines', P'. split.
  - unfold compile_model_constants. rewrite Hcc.
    destruct (N.ltb_spec (o_version o) assemble_constants_min_version) as [Hlt|_]; [lia|].
    rewrite Hc, A'. reflexivity.
  - split; [exact HP'|]. exists pro, body, ib, bb. repeat (split; [assumption|]). exact Hrun.
Qed.
End Compiled.
