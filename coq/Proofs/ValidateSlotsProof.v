(* Proofs/ValidateSlotsProof.v — the memoised path exploration of validateSlots reports exactly the loads
   that have an unstored scan path; it terminates; its answer does not depend on the fuel. *)
From Coq Require Import List NArith Arith Bool Lia.
From PV Require Import Comp.ValidateSlots.
Import ListNotations.

Lemma mem_In : forall x l, mem x l = true <-> In x l.
Proof.
  intros x l. unfold mem. rewrite existsb_exists. split.
  - intros [y [Hy He]]. apply N.eqb_eq in He. subst. exact Hy.
  - intros H. exists x. split; [exact H | apply N.eqb_refl].
Qed.

Lemma mem_false : forall x l, mem x l = false <-> ~ In x l.
Proof.
  intros x l. rewrite <- mem_In. destruct (mem x l); intuition congruence.
Qed.

Lemma ins_In : forall x y l, In y (ins x l) <-> y = x \/ In y l.
Proof.
  intros x y l. induction l as [|z r IH]; simpl.
  - intuition.
  - destruct (N.ltb x z) eqn:Hlt.
    + simpl. intuition.
    + destruct (N.eqb x z) eqn:Heq.
      * apply N.eqb_eq in Heq. subst z. simpl. intuition.
      * simpl. rewrite IH. intuition.
Qed.

Lemma canon_In : forall x l, In x (canon l) <-> In x l.
Proof.
  intros x l. induction l as [|y r IH]; simpl.
  - tauto.
  - rewrite ins_In, IH. intuition.
Qed.

Fixpoint ssorted (l : list N) : Prop :=
  match l with
  | [] => True
  | x :: r => Forall (N.lt x) r /\ ssorted r
  end.

Lemma ins_ssorted : forall x l, ssorted l -> ssorted (ins x l).
Proof.
  intros x l. induction l as [|y r IH]; simpl; intros Hs.
  - split; [constructor | exact I].
  - destruct Hs as [Hy Hr].
    destruct (N.ltb_spec x y) as [Hlt | Hge].
    + simpl. split; [| split; assumption].
      constructor; [exact Hlt |].
      rewrite Forall_forall in *. intros z Hz. specialize (Hy z Hz). lia.
    + destruct (N.eqb_spec x y) as [Heq | Hne].
      * simpl. split; assumption.
      * simpl. split; [| apply IH; exact Hr].
        rewrite Forall_forall in *. intros z Hz. apply ins_In in Hz.
        destruct Hz as [Hz | Hz]; [subst z; lia | apply Hy; exact Hz].
Qed.

Lemma canon_ssorted : forall l, ssorted (canon l).
Proof.
  induction l as [|x r IH]; simpl; [exact I | apply ins_ssorted; exact IH].
Qed.

Lemma scan_cur_In : forall ops x W, In x (scan_cur ops W) <-> In x W \/ In (Store x) ops.
Proof.
  induction ops as [|o r IH]; intros x W; simpl.
  - tauto.
  - destruct o as [s | s t | |]; rewrite IH, ?ins_In; intuition congruence.
Qed.

Lemma scan_cur_app : forall a b W, scan_cur (a ++ b) W = scan_cur b (scan_cur a W).
Proof.
  induction a as [|o r IH]; intros b W; simpl; [reflexivity |].
  destruct o; apply IH.
Qed.

Lemma scan_cur_ssorted : forall ops W, ssorted W -> ssorted (scan_cur ops W).
Proof.
  induction ops as [|o r IH]; intros W HS; simpl; [exact HS |].
  destruct o; try (apply IH; exact HS). apply IH. apply ins_ssorted. exact HS.
Qed.

Lemma scan_errs_In : forall ops t W,
  In t (scan_errs ops W) <->
  exists i s, nth_error ops i = Some (Load s t) /\ ~ In s (scan_cur (firstn i ops) W).
Proof.
  induction ops as [|o r IH]; intros t W; simpl.
  - split; [tauto | intros [i [s [H _]]]; destruct i; discriminate].
  - (* only a load adds to the errors; every other operation shifts the index *)
    destruct o as [s0 | s0 t0 | |].
    2:{ rewrite in_app_iff, IH. split.
        - intros [H | [i [s [Hn Hs]]]].
          + destruct (mem s0 W) eqn:Hm; simpl in H; [tauto |].
            destruct H as [H | []]. subst t0. exists 0, s0. simpl. split; [reflexivity |].
            apply mem_false. exact Hm.
          + exists (S i), s. simpl. split; assumption.
        - intros [i [s [Hn Hs]]]. destruct i as [|i]; simpl in *.
          + inversion Hn. subst s0 t0. left. apply mem_false in Hs. rewrite Hs. left. reflexivity.
          + right. exists i, s. split; assumption. }
    all: rewrite IH; split;
      [intros [i [s [Hn Hs]]]; exists (S i), s; simpl; split; assumption
      |intros [i [s [Hn Hs]]]; destruct i as [|i]; simpl in *; [discriminate |]; exists i, s; split; assumption].
Qed.

Lemma merge_In : forall es errs e, In e (merge errs es) <-> In e errs \/ In e es.
Proof.
  unfold merge. induction es as [|x r IH]; intros errs e; simpl.
  - tauto.
  - rewrite IH. destruct (mem x errs) eqn:Hm.
    + apply mem_In in Hm. split.
      * intros [H | H]; [left; exact H | right; right; exact H].
      * intros [H | [H | H]]; [left; exact H | subst; left; exact Hm | right; exact H].
    + rewrite in_app_iff. simpl. tauto.
Qed.

(* the state space explored: (block, slot set on entry) *)
Section Explore.
Variable g : graph.

Definition succ_state (k k' : key) : Prop :=
  is_terminal (getb g (fst k)) = false /\
  In (fst k') (outgoing (getb g (fst k))) /\
  snd k' = scan_cur (ops_of (getb g (fst k))) (snd k).

Definition local_errs (k : key) : list N := scan_errs (ops_of (getb g (fst k))) (snd k).

Inductive reach (k0 : key) : key -> Prop :=
| reach_refl : reach k0 k0
| reach_step : forall k k', reach k0 k -> succ_state k k' -> reach k0 k'.

Lemma reach_head : forall k0 k1 k, succ_state k0 k1 -> reach k1 k -> reach k0 k.
Proof.
  intros k0 k1 k Hs Hr. induction Hr as [| k k' Hr IH Hs'].
  - eapply reach_step; [apply reach_refl | exact Hs].
  - eapply reach_step; [exact IH | exact Hs'].
Qed.

Lemma seen_spec : forall k vis, reflect (In k vis) (seen k vis).
Proof. intros k vis. unfold seen. destruct (in_dec key_dec k vis); constructor; assumption. Qed.

(* the states a call explores itself: the one it is called on and those it adds to [visited] *)
Definition fresh (k0 : key) (vis vis' : list key) (k : key) : Prop := k = k0 \/ (In k vis' /\ ~ In k vis).

(* what one call validateSlots(b, W, visited) guarantees about its result: the states it explores are reachable,
   their errors are returned, their successors visited; and nothing else is returned *)
Definition post (b : nat) (W : list N) (vis : list key) (r : list N * list key) : Prop :=
  incl vis (snd r) /\
  (forall k, fresh (b, W) vis (snd r) k ->
     (forall e, In e (local_errs k) -> In e (fst r)) /\
     (forall k', succ_state k k' -> In k' (snd r)) /\
     reach (b, W) k) /\
  (forall e, In e (fst r) -> exists k, fresh (b, W) vis (snd r) k /\ In e (local_errs k)).

Section Loop.
Variable rec : nat -> list N -> list key -> option (list N * list key).
Variable cur : list N.
Hypothesis Hrec : forall c W vis r, rec c W vis = Some r -> post c W vis r.

Lemma go_spec : forall outs errs vis errs' vis',
  visit_succs rec cur outs errs vis = Some (errs', vis') ->
  incl vis vis' /\
  (forall e, In e errs -> In e errs') /\
  (forall c, In c outs -> In (c, cur) vis') /\
  (forall k, In k vis' -> ~ In k vis ->
     (forall e, In e (local_errs k) -> In e errs') /\
     (forall k', succ_state k k' -> In k' vis') /\
     exists c, In c outs /\ reach (c, cur) k) /\
  (forall e, In e errs' ->
     In e errs \/ exists k, In k vis' /\ ~ In k vis /\ In e (local_errs k)).
Proof.
  induction outs as [|c rest IH]; intros errs vis errs' vis' H; simpl in H.
  - inversion H. subst errs' vis'. clear H.
    split; [apply incl_refl |]. split; [tauto |]. split; [intros c []|]. split; [intros k Hk Hn; contradiction |].
    intros e He. left. exact He.
  - destruct (seen_spec (c, cur) vis) as [Hseen | Hseen].
    + destruct (IH _ _ _ _ H) as [I1 [I2 [I3 [I4 I5]]]].
      split; [exact I1 |]. split; [exact I2 |].
      split; [intros c' [Hc | Hc]; [subst c'; apply I1; exact Hseen | apply I3; exact Hc] |].
      split; [| exact I5].
      intros k Hk Hn. destruct (I4 k Hk Hn) as [A [B [c' [Hc' Hr]]]].
      split; [exact A |]. split; [exact B |]. exists c'. split; [right; exact Hc' | exact Hr].
    + destruct (rec c cur ((c, cur) :: vis)) as [[es vis1] |] eqn:Hr; [| discriminate].
      pose proof (Hrec _ _ _ _ Hr) as [P1 [P2 P3]]. simpl in P1, P2, P3.
      destruct (IH _ _ _ _ H) as [I1 [I2 [I3 [I4 I5]]]].
      assert (Hvis1 : incl vis vis1) by (intros x Hx; apply P1; right; exact Hx).
      assert (Hc1 : In (c, cur) vis1) by (apply P1; left; reflexivity).
      (* what the callee calls fresh is what this call finds new in [vis1] *)
      assert (Hfresh : forall k, fresh (c, cur) ((c, cur) :: vis) vis1 k <-> In k vis1 /\ ~ In k vis).
      { intros k. split.
        - intros [-> | [Hk Hn]]; [split; assumption |]. split; [exact Hk |]. intros Hx. apply Hn. right. exact Hx.
        - intros [Hk Hn]. destruct (key_dec k (c, cur)) as [Heq | Hne]; [left; exact Heq | right].
          split; [exact Hk |]. intros [Hx | Hx]; [apply Hne; symmetry; exact Hx | apply Hn; exact Hx]. }
      split; [intros x Hx; apply I1; apply Hvis1; exact Hx |].
      split; [intros e He; apply I2; apply merge_In; left; exact He |].
      split; [intros c' [Hc | Hc]; [subst c'; apply I1; exact Hc1 | apply I3; exact Hc] |].
      split.
      * intros k Hk Hn.
        destruct (in_dec key_dec k vis1) as [Hin1 | Hnin1].
        -- destruct (P2 k (proj2 (Hfresh k) (conj Hin1 Hn))) as [A [B C]].
           split; [intros e He; apply I2; apply merge_In; right; apply A; exact He |].
           split; [intros k' Hk'; apply I1; apply B; exact Hk' |].
           exists c. split; [left; reflexivity | exact C].
        -- destruct (I4 k Hk Hnin1) as [A [B [c' [Hc' Hr']]]].
           split; [exact A |]. split; [exact B |]. exists c'. split; [right; exact Hc' | exact Hr'].
      * intros e He. destruct (I5 e He) as [Hm | [k [Hk [Hnk Hek]]]].
        -- apply merge_In in Hm. destruct Hm as [Hm | Hm]; [left; exact Hm |].
           right. destruct (P3 e Hm) as [k [Hk Hek]]. apply Hfresh in Hk. destruct Hk as [Hk Hnk].
           exists k. split; [apply I1; exact Hk |]. split; [exact Hnk | exact Hek].
        -- right. exists k. split; [exact Hk |]. split; [| exact Hek].
           intros Hx. apply Hnk. apply Hvis1. exact Hx.
Qed.
End Loop.

Lemma validate_post : forall fuel b W vis r, validate fuel g b W vis = Some r -> post b W vis r.
Proof.
  induction fuel as [|f IH]; intros b W vis r H; simpl in H; [discriminate |].
  destruct (is_terminal (getb g b)) eqn:Hterm.
  - inversion H. subst r. clear H. unfold post. simpl.
    split; [apply incl_refl |]. split.
    + intros k [-> | [Hk Hn]]; [| contradiction]. split; [intros e He; exact He |].
      split; [intros k' [Ht _]; simpl in Ht; congruence | apply reach_refl].
    + intros e He. exists (b, W). split; [left; reflexivity | exact He].
  - destruct r as [errs' vis'].
    destruct (go_spec (validate f g) _ (IH) _ _ _ _ _ H) as [I1 [I2 [I3 [I4 I5]]]].
    unfold post. simpl.
    split; [exact I1 |]. split.
    + intros k [-> | [Hk Hn]].
      * split; [exact I2 |]. split; [| apply reach_refl].
        intros [c T] [_ [Hc HT]]. simpl in Hc, HT. subst T. apply I3. exact Hc.
      * destruct (I4 k Hk Hn) as [A [B [c [Hc Hr]]]].
        split; [exact A |]. split; [exact B |].
        eapply reach_head; [| exact Hr]. unfold succ_state. simpl. auto.
    + intros e He. destruct (I5 e He) as [Hl | [k [Hk [Hn Hek]]]].
      * exists (b, W). split; [left; reflexivity | exact Hl].
      * exists k. split; [right; split; assumption | exact Hek].
Qed.

(* the top-level call explores exactly the reachable states *)
Theorem validate_reach_exact : forall fuel b W errs vis',
  validate fuel g b W [] = Some (errs, vis') ->
  forall e, In e errs <-> exists k, reach (b, W) k /\ In e (local_errs k).
Proof.
  intros fuel b W errs vis' H e.
  destruct (validate_post _ _ _ _ _ H) as [P1 [P2 P3]]. simpl in *.
  split.
  - intros He. destruct (P3 e He) as [k [Hk Hek]]. exists k. split; [apply (P2 k Hk) | exact Hek].
  - intros [k [Hr Hek]]. refine (proj1 (P2 k _) e Hek).
    clear Hek. induction Hr as [| k k' Hr IHr Hs]; [left; reflexivity |].
    right. split; [apply (P2 k IHr); exact Hs | intros []].
Qed.

Lemma path_ops_snoc : forall p b, path_ops g (p ++ [b]) = path_ops g p ++ ops_of (getb g b).
Proof.
  intros p b. unfold path_ops. rewrite flat_map_app. simpl. rewrite app_nil_r. reflexivity.
Qed.

Lemma reach_bpath : forall a S0 k, reach (a, S0) k ->
  exists p, bpath g a p (fst k) /\ snd k = scan_cur (path_ops g p) S0.
Proof.
  intros a S0 k Hr. induction Hr as [| k k' Hr IH Hs].
  - exists []. split; [apply bp_nil | reflexivity].
  - destruct IH as [p [Hp HS]]. destruct Hs as [Ht [Hc HT]].
    exists (p ++ [fst k]). split; [eapply bp_step; eassumption |].
    rewrite path_ops_snoc, scan_cur_app, <- HS. exact HT.
Qed.

Lemma bpath_reach : forall a S0 p b, bpath g a p b -> reach (a, S0) (b, scan_cur (path_ops g p) S0).
Proof.
  intros a S0 p b Hp. induction Hp as [| p b c Hp IH Ht Hc].
  - apply reach_refl.
  - eapply reach_step; [exact IH |]. unfold succ_state. simpl.
    split; [exact Ht |]. split; [exact Hc |].
    rewrite path_ops_snoc, scan_cur_app. reflexivity.
Qed.

Theorem validate_fuel_exact : forall fuel start init errs vis',
  validate_slots_fuel fuel g start init = Some (errs, vis') ->
  forall t, In t errs <-> exists s b i, scan_path g start init s b i t.
Proof.
  intros fuel start init errs vis' H t. unfold validate_slots_fuel in H.
  rewrite (validate_reach_exact _ _ _ _ _ H). split.
  - intros [[b W] [Hr He]]. unfold local_errs in He. simpl in He.
    apply scan_errs_In in He. destruct He as [i [s [Hn Hs]]].
    destruct (reach_bpath _ _ _ Hr) as [p [Hp HS]]. simpl in Hp, HS. subst W.
    exists s, b, i, p. split; [exact Hp |]. split; [exact Hn |].
    rewrite scan_cur_In, scan_cur_In, canon_In in Hs.
    split; [tauto |]. rewrite in_app_iff. tauto.
  - intros [s [b [i [p [Hp [Hn [Hi Hst]]]]]]].
    exists (b, scan_cur (path_ops g p) (canon init)). split; [apply bpath_reach; exact Hp |].
    unfold local_errs. simpl. apply scan_errs_In. exists i, s. split; [exact Hn |].
    rewrite scan_cur_In, scan_cur_In, canon_In. rewrite in_app_iff in Hst. tauto.
Qed.

Lemma go_mono : forall (rec1 rec2 : nat -> list N -> list key -> option (list N * list key)) cur,
  (forall c W vis r, rec1 c W vis = Some r -> rec2 c W vis = Some r) ->
  forall outs errs vis r,
    visit_succs rec1 cur outs errs vis = Some r -> visit_succs rec2 cur outs errs vis = Some r.
Proof.
  intros rec1 rec2 cur Hm. induction outs as [|c rest IH]; intros errs vis r H; simpl in *; [exact H |].
  destruct (seen (c, cur) vis); [apply IH; exact H |].
  destruct (rec1 c cur ((c, cur) :: vis)) as [[es vis1] |] eqn:Hr; [| discriminate].
  rewrite (Hm _ _ _ _ Hr). apply IH. exact H.
Qed.

Lemma validate_mono_S : forall fuel b W vis r,
  validate fuel g b W vis = Some r -> validate (Datatypes.S fuel) g b W vis = Some r.
Proof.
  induction fuel as [|f IH]; intros b W vis r H; [discriminate |].
  cbn [validate] in H |- *. destruct (is_terminal (getb g b)); [exact H |].
  eapply go_mono; [| exact H]. exact IH.
Qed.

Lemma validate_mono : forall f1 f2 b W vis r,
  f1 <= f2 -> validate f1 g b W vis = Some r -> validate f2 g b W vis = Some r.
Proof.
  intros f1 f2 b W vis r Hle H. induction Hle as [| m Hle IH]; [exact H |].
  apply validate_mono_S. exact IH.
Qed.

Theorem validate_fuel_irrelevant : forall f1 f2 b W vis r1 r2,
  validate f1 g b W vis = Some r1 -> validate f2 g b W vis = Some r2 -> r1 = r2.
Proof.
  intros f1 f2 b W vis r1 r2 H1 H2.
  destruct (Nat.le_ge_cases f1 f2) as [Hle | Hle].
  - rewrite (validate_mono _ _ _ _ _ _ Hle H1) in H2. congruence.
  - rewrite (validate_mono _ _ _ _ _ _ Hle H2) in H1. congruence.
Qed.

End Explore.

(* [fuel_bound] always suffices: each recursive call marks one more of the finitely many states
   (successor block, sorted subset of the slot universe) *)
Fixpoint subs (u : list N) : list (list N) :=
  match u with
  | [] => [[]]
  | x :: r => subs r ++ map (cons x) (subs r)
  end.

Lemma subs_length : forall u, length (subs u) = 2 ^ length u.
Proof.
  induction u as [|x r IH]; simpl; [reflexivity |].
  rewrite app_length, map_length, IH. lia.
Qed.

Lemma subs_complete : forall u, ssorted u -> forall T, ssorted T -> incl T u -> In T (subs u).
Proof.
  induction u as [|x r IH]; intros Hu T HT Hincl.
  - destruct T as [|y T']; [left; reflexivity |]. exfalso. apply (Hincl y). left. reflexivity.
  - simpl. apply in_app_iff. destruct Hu as [Hx Hr]. rewrite Forall_forall in Hx.
    destruct T as [|y T'].
    + left. apply IH; [exact Hr | exact I | intros z []].
    + destruct HT as [Hy HT']. rewrite Forall_forall in Hy.
      destruct (N.eq_dec y x) as [Heq | Hne].
      * subst y. right. apply in_map. apply IH; [exact Hr | exact HT' |].
        intros z Hz. specialize (Hy z Hz). destruct (Hincl z (or_intror Hz)) as [Hzx | Hzr]; [lia | exact Hzr].
      * left. apply IH; [exact Hr | split; [rewrite Forall_forall; exact Hy | exact HT'] |].
        assert (Hyr : In y r) by (destruct (Hincl y (or_introl eq_refl)) as [Hyx | Hyr]; [congruence | exact Hyr]).
        pose proof (Hx y Hyr) as Hxy.
        intros z [Hz | Hz].
        -- subst z. exact Hyr.
        -- specialize (Hy z Hz). destruct (Hincl z (or_intror Hz)) as [Hzx | Hzr]; [lia | exact Hzr].
Qed.

Fixpoint remaining (U : list key) (vis : list key) : nat :=
  match U with
  | [] => 0
  | u :: r => (if seen u vis then 0 else 1) + remaining r vis
  end.

Lemma remaining_le_length : forall U vis, remaining U vis <= length U.
Proof.
  induction U as [|u r IH]; intros vis; simpl; [lia |].
  specialize (IH vis). destruct (seen u vis); lia.
Qed.

Lemma remaining_mono : forall U vis vis', incl vis vis' -> remaining U vis' <= remaining U vis.
Proof.
  induction U as [|u r IH]; intros vis vis' Hi; simpl; [lia |].
  specialize (IH _ _ Hi).
  destruct (seen_spec u vis) as [H1 | H1], (seen_spec u vis') as [H2 | H2]; try lia.
  destruct (H2 (Hi u H1)).
Qed.

Lemma remaining_dec : forall U k vis, In k U -> ~ In k vis -> remaining U (k :: vis) < remaining U vis.
Proof.
  induction U as [|u r IH]; intros k vis Hin Hn; [destruct Hin |].
  simpl. assert (Hm : remaining r (k :: vis) <= remaining r vis) by (apply remaining_mono; intros x Hx; right; exact Hx).
  destruct (key_dec u k) as [Heq | Hne].
  - subst u. destruct (seen_spec k (k :: vis)) as [_ | H1]; [| destruct (H1 (or_introl eq_refl))].
    destruct (seen_spec k vis) as [H2 | _]; [contradiction | lia].
  - destruct Hin as [Hin | Hin]; [contradiction |].
    specialize (IH k vis Hin Hn).
    destruct (seen_spec u vis) as [H2 | _], (seen_spec u (k :: vis)) as [_ | H1]; try lia.
    destruct (H1 (or_intror H2)).
Qed.

Section Fuel.
Variable g : graph.
Variable init : list N.

Let univ := slots_univ g init.
Let U := list_prod (all_succs g) (subs univ).

Lemma getb_cases : forall b, In (getb g b) g \/ getb g b = Simple [] None.
Proof.
  intros b. unfold getb. destruct (Nat.lt_ge_cases b (length g)) as [Hlt | Hge].
  - left. apply nth_In. exact Hlt.
  - right. apply nth_overflow. exact Hge.
Qed.

Lemma outgoing_all_succs : forall b c, In c (outgoing (getb g b)) -> In c (all_succs g).
Proof.
  intros b c Hc. destruct (getb_cases b) as [Hin | Hd].
  - unfold all_succs. apply in_flat_map. exists (getb g b). split; assumption.
  - rewrite Hd in Hc. destruct Hc.
Qed.

Lemma scan_cur_univ : forall b W, incl W univ -> incl (scan_cur (ops_of (getb g b)) W) univ.
Proof.
  intros b W HS x Hx. apply scan_cur_In in Hx. destruct Hx as [Hx | Hx]; [apply HS; exact Hx |].
  destruct (getb_cases b) as [Hin | Hd].
  - unfold univ, slots_univ. apply canon_In. apply in_app_iff. right.
    apply in_flat_map. exists (getb g b). split; [exact Hin |].
    unfold stores_of. apply in_flat_map. exists (Store x). split; [exact Hx | left; reflexivity].
  - rewrite Hd in Hx. destruct Hx.
Qed.

Lemma go_total : forall f cur,
  (forall c vis, remaining U vis < f -> validate f g c cur vis <> None) ->
  forall outs errs vis,
    (forall c, In c outs -> In (c, cur) U) ->
    remaining U vis < S f ->
    visit_succs (validate f g) cur outs errs vis <> None.
Proof.
  intros f cur Hrec. induction outs as [|c rest IH]; intros errs vis HU Hrem; simpl; [discriminate |].
  destruct (seen_spec (c, cur) vis) as [Hseen | Hseen].
  - apply IH; [intros c' Hc'; apply HU; right; exact Hc' | exact Hrem].
  - assert (HinU : In (c, cur) U) by (apply HU; left; reflexivity).
    pose proof (remaining_dec U _ _ HinU Hseen) as Hdec.
    destruct (validate f g c cur ((c, cur) :: vis)) as [[es vis1] |] eqn:Hr.
    + apply IH; [intros c' Hc'; apply HU; right; exact Hc' |].
      destruct (validate_post g _ _ _ _ _ Hr) as [P1 _]. simpl in P1.
      pose proof (remaining_mono U _ _ P1) as Hm.
      eapply Nat.le_lt_trans; [exact Hm |]. eapply Nat.lt_trans; [exact Hdec | exact Hrem].
    + exfalso. apply (Hrec c ((c, cur) :: vis)); [| exact Hr].
      apply (proj1 (Nat.lt_succ_r _ _)) in Hrem. eapply Nat.lt_le_trans; [exact Hdec | exact Hrem].
Qed.

Lemma validate_total_aux : forall fuel b W vis,
  ssorted W -> incl W univ -> remaining U vis < fuel -> validate fuel g b W vis <> None.
Proof.
  induction fuel as [|f IH]; intros b W vis HS Hincl Hrem; [lia |].
  simpl. destruct (is_terminal (getb g b)); [discriminate |].
  apply go_total.
  - intros c vis0 Hr0. apply IH; [apply scan_cur_ssorted; exact HS | apply scan_cur_univ; exact Hincl | exact Hr0].
  - intros c Hc. unfold U. apply in_prod.
    + eapply outgoing_all_succs. exact Hc.
    + apply subs_complete; [apply canon_ssorted | apply scan_cur_ssorted; exact HS | apply scan_cur_univ; exact Hincl].
  - exact Hrem.
Qed.

Theorem validate_slots_total : forall start, validate_slots g start init <> None.
Proof.
  intros start. unfold validate_slots, validate_slots_fuel.
  destruct (validate (fuel_bound g init) g start (canon init) []) eqn:H; [discriminate |].
  exfalso. revert H. apply validate_total_aux.
  - apply canon_ssorted.
  - intros x Hx. unfold univ, slots_univ. apply canon_In. apply in_app_iff. left. apply (proj1 (canon_In _ _)) in Hx. exact Hx.
  - unfold fuel_bound. eapply Nat.le_lt_trans; [apply remaining_le_length |].
    unfold U, univ, key. rewrite prod_length, subs_length. apply Nat.lt_succ_diag_r.
Qed.

End Fuel.

(* whatever fuel the extracted binary is run with: an answer is THE answer *)
Theorem validate_slots_fuel_agrees : forall fuel g start init errs vis',
  validate_slots_fuel fuel g start init = Some (errs, vis') ->
  validate_slots g start init = Some errs.
Proof.
  intros fuel g start init errs vis' H.
  pose proof (validate_slots_total g init start) as Ht.
  unfold validate_slots in *.
  destruct (validate_slots_fuel (fuel_bound g init) g start init) as [[e2 v2] |] eqn:H2; [| contradiction].
  unfold validate_slots_fuel in *.
  pose proof (validate_fuel_irrelevant g _ _ _ _ _ _ _ H H2) as Heq. inversion Heq. reflexivity.
Qed.

Theorem validate_exact : forall g start init errs,
  validate_slots g start init = Some errs ->
  forall t, In t errs <-> exists s b i, scan_path g start init s b i t.
Proof.
  intros g start init errs H t. unfold validate_slots in H.
  destruct (validate_slots_fuel (fuel_bound g init) g start init) as [[e v] |] eqn:H2; [| discriminate].
  simpl in H. inversion H. subst e. eapply validate_fuel_exact. exact H2.
Qed.

Theorem validate_complete_lemma : forall g start init s b i t,
  unstored_path g start init s b i t ->
  exists errs, validate_slots g start init = Some errs /\ In t errs.
Proof.
  intros g start init s b i t [Hsp _].
  destruct (validate_slots g start init) as [errs |] eqn:H.
  - exists errs. split; [reflexivity |]. apply (validate_exact _ _ _ _ H). exists s, b, i. exact Hsp.
  - exfalso. exact (validate_slots_total g init start H).
Qed.

Theorem validate_reports_lemma : forall g start init errs t,
  validate_slots g start init = Some errs -> In t errs ->
  exists s b i, scan_path g start init s b i t.
Proof.
  intros g start init errs t H Ht. apply (validate_exact _ _ _ _ H). exact Ht.
Qed.

Lemma op_dec : forall a b : op, {a = b} + {a <> b}.
Proof. decide equality; apply N.eq_dec. Defined.

Lemma firstn_S_nth : forall (A : Type) (l : list A) k o,
  nth_error l k = Some o -> firstn (S k) l = firstn k l ++ [o].
Proof.
  intros A. induction l as [|x r IH]; intros k o H; destruct k as [|k]; simpl in *; try discriminate.
  - inversion H. reflexivity.
  - f_equal. apply IH. exact H.
Qed.

Lemma not_term_existsb : forall ops, ~ In Term ops -> existsb is_term ops = false.
Proof.
  induction ops as [|o r IH]; intros H; simpl; [reflexivity |].
  rewrite IH; [| intros Hx; apply H; right; exact Hx].
  destruct o; simpl; try reflexivity. exfalso. apply H. left. reflexivity.
Qed.

Lemma runs_to_inv : forall g start b k tr, runs_to g start b k tr ->
  exists p, bpath g start p b /\
            tr = path_ops g p ++ firstn k (ops_of (getb g b)) /\
            ~ In Term (firstn k (ops_of (getb g b))) /\
            k <= length (ops_of (getb g b)).
Proof.
  intros g start b k tr H. induction H as [| b k tr o H IH Hn Ho | b tr c H IH Hc].
  - exists []. simpl. split; [apply bp_nil |]. split; [reflexivity |]. split; [tauto | lia].
  - destruct IH as [p [Hp [Htr [Hnt Hle]]]]. exists p.
    split; [exact Hp |]. rewrite (firstn_S_nth _ _ _ _ Hn).
    split; [rewrite Htr, app_assoc; reflexivity |].
    split.
    + rewrite in_app_iff. intros [Hx | [Hx | []]]; [apply Hnt; exact Hx | apply Ho; exact Hx].
    + assert (k < length (ops_of (getb g b))) by (apply nth_error_Some; congruence). lia.
  - destruct IH as [p [Hp [Htr [Hnt _]]]]. rewrite firstn_all in Htr, Hnt.
    exists (p ++ [b]). split.
    + apply bp_step; [exact Hp | | exact Hc].
      unfold is_terminal. rewrite (not_term_existsb _ Hnt). simpl.
      destruct (outgoing (getb g b)); [destruct Hc | reflexivity].
    + simpl. rewrite path_ops_snoc, app_nil_r. split; [exact Htr |]. split; [tauto | lia].
Qed.

(* every load a run reaches with its slot neither initial nor stored on the way is reported *)
Theorem unwritten_read_reported : forall g start init errs b k tr s t,
  validate_slots g start init = Some errs ->
  runs_to g start b k tr ->
  nth_error (ops_of (getb g b)) k = Some (Load s t) ->
  ~ In s init -> ~ In (Store s) tr ->
  In t errs.
Proof.
  intros g start init errs b k tr s t Hv Hrun Hn Hi Hnin.
  destruct (runs_to_inv _ _ _ _ _ Hrun) as [p [Hp [Htr [Hnt _]]]].
  apply (validate_exact _ _ _ _ Hv). exists s, b, k, p.
  split; [exact Hp |]. split; [exact Hn |]. split; [exact Hi |]. rewrite <- Htr. exact Hnin.
Qed.

Theorem accepted_never_reads_unwritten_lemma : forall g start init,
  validate_slots g start init = Some [] ->
  forall b k tr s t,
    runs_to g start b k tr ->
    nth_error (ops_of (getb g b)) k = Some (Load s t) ->
    ~ In s init ->
    In (Store s) tr.
Proof.
  intros g start init Hacc b k tr s t Hrun Hn Hi.
  destruct (in_dec op_dec (Store s) tr) as [Hin | Hnin]; [exact Hin |].
  destruct (unwritten_read_reported _ _ _ _ _ _ _ _ _ Hacc Hrun Hn Hi Hnin).
Qed.
