(* Proofs/IncomingProof.v — the two recursive walks of pyteal/ir/tealblock.py over the block graph
   (modelled in Comp/Passes.v with an explicit stack and fuel):
     addIncoming  : afterwards every block reachable from the start holds exactly its reachable
                    predecessors, each once ([add_incoming_spec], [add_incoming_exact]);
     validateTree : succeeds iff every edge out of a reachable block finds its source exactly once in
                    the target's incoming list ([validate_tree_iff]).
   The fuel 3 * S (g_next g) used by the model is shown sufficient: every iteration pops one stack
   entry, entries are pushed only when a block is visited for the first time, at most two per block. *)
From Coq Require Import List Arith NArith String Bool Lia.
From PV Require Import Base.Bytes AVM.Syntax AVM.Machine Src.Expr Src.Denote
  Comp.Blocks Comp.Lower Comp.Passes Comp.GraphSem Comp.SimCheck
  Proofs.LowerFrame Proofs.NormalizeGraph.
Import ListNotations.

(* the fuel measure: the ids below [n] not yet visited *)
Definition unvis (n : nat) (visited : list id) : nat :=
  List.length (filter (fun i => negb (mem_id i visited)) (seq 0 n)).

Lemma filter_length_le {A} (f h : A -> bool) l :
  (forall x, f x = true -> h x = true) -> List.length (filter f l) <= List.length (filter h l).
Proof.
  intros H. induction l as [|x l IH]; [apply Nat.le_refl|]. cbn [filter].
  destruct (f x) eqn:E; [rewrite (H x E); cbn [List.length]; lia|].
  destruct (h x); cbn [List.length]; lia.
Qed.

Lemma filter_length_lt {A} (f h : A -> bool) l b :
  (forall x, f x = true -> h x = true) -> In b l -> f b = false -> h b = true ->
  List.length (filter f l) < List.length (filter h l).
Proof.
  intros H. induction l as [|x l IH]; intros I Fb Hb; [destruct I|]. cbn [filter].
  pose proof (filter_length_le f h l H) as Le. destruct I as [E|I].
  - subst x. rewrite Fb, Hb. cbn [List.length]. lia.
  - specialize (IH I Fb Hb). destruct (f x) eqn:E; [rewrite (H x E); cbn [List.length]; lia|].
    destruct (h x); cbn [List.length]; lia.
Qed.

Lemma unvisited_cons x b v : negb (mem_id x (b :: v)) = true -> negb (mem_id x v) = true.
Proof. cbn [mem_id]. destruct (Nat.eqb x b); [discriminate|exact (fun H => H)]. Qed.

Lemma unvis_cons_le n (b : id) v : unvis n (b :: v) <= unvis n v.
Proof. apply filter_length_le. intros x. apply unvisited_cons. Qed.

Lemma unvis_cons_lt n (b : id) v : b < n -> ~ In b v -> unvis n (b :: v) < unvis n v.
Proof.
  intros L N. apply (filter_length_lt _ _ _ b); [intros x; apply unvisited_cons|apply in_seq; lia| |].
  - cbn [mem_id]. rewrite Nat.eqb_refl. reflexivity.
  - apply negb_true_iff. apply mem_id_false. exact N.
Qed.

Lemma unvis_nil n : unvis n [] = n.
Proof.
  unfold unvis. rewrite <- (seq_length n 0) at 2.
  induction (seq 0 n) as [|x l IH]; [reflexivity|]. cbn [filter mem_id negb List.length]. f_equal. exact IH.
Qed.

Lemma outgoing_le2 b : List.length (outgoing b) <= 2.
Proof. destruct b as [o [n|]|o [t|] [f|]]; cbn; lia. Qed.

Lemma out_of_le2 g b : List.length (out_of g b) <= 2.
Proof. unfold out_of. destruct (g_blk g b); [apply outgoing_le2|cbn; lia]. Qed.

Lemma out_of_undefined g b : wf g -> g_next g <= b -> out_of g b = [].
Proof. intros W L. unfold out_of. rewrite W by exact L. reflexivity. Qed.

Lemma reach_ext g h s x : g_blk g = g_blk h -> reach g s x -> reach h s x.
Proof. intros E. apply reach_mono. intros p y. rewrite (out_of_ext g h p E). exact (fun I => I). Qed.

Lemma measure_visit g b (v : list id) (rest : nat) f :
  wf g -> ~ In b v ->
  S rest + 2 * unvis (g_next g) v <= S f ->
  List.length (out_of g b) + rest + 2 * unvis (g_next g) (b :: v) <= f.
Proof.
  intros W N H. destruct (Nat.lt_ge_cases b (g_next g)) as [L|L].
  - pose proof (unvis_cons_lt _ b v L N). pose proof (out_of_le2 g b). lia.
  - rewrite (out_of_undefined g b W L). pose proof (unvis_cons_le (g_next g) b v). cbn [List.length]. lia.
Qed.

(* the depth-first skeleton of both walks, over a stack of (block, parent) entries *)
Section Dfs.
  Variable g : graph.
  Variable s : id.

  Definition push (b : id) : list (id * option id) := map (fun c => (c, Some b)) (out_of g b).

  (* what is on the stack: the start without parent, or the target of an edge out of a reachable block *)
  Definition dfs_sound (stack : list (id * option id)) : Prop :=
    forall b par, In (b, par) stack ->
      reach g s b /\ forall p, par = Some p -> reach g s p /\ In b (out_of g p).

  Lemma dfs_sound_start : dfs_sound [(s, None)].
  Proof. intros b par [H|[]]. injection H as H1 H2. subst. split; [apply reach_refl|discriminate]. Qed.

  Lemma dfs_sound_tail e rest : dfs_sound (e :: rest) -> dfs_sound rest.
  Proof. intros H b par I. apply H. right. exact I. Qed.

  Lemma dfs_sound_push b par rest : dfs_sound ((b, par) :: rest) -> dfs_sound (push b ++ rest).
  Proof.
    intros H c q I. apply in_app_or in I. destruct I as [I|I]; [|apply H; right; exact I].
    apply in_map_iff in I. destruct I as (x & E & I). injection E as E1 E2. subst.
    destruct (H b par (or_introl eq_refl)) as [Rb _].
    split; [eapply reach_step; eauto|]. intros p Q. injection Q as Q. subst. split; assumption.
  Qed.

  (* what has been done: [P p x] says that the edge p -> x has been processed.  Every edge out of a
     visited block is processed or pending, and the walk has started or is about to *)
  Record dfs_inv (P : id -> id -> Prop) (stack : list (id * option id)) (visited : list id) : Prop := {
    dfs_done : forall p x, In p visited -> In x (out_of g p) ->
                 (P p x /\ In x visited) \/ In (x, Some p) stack;
    dfs_root : In s visited \/ In (s, None) stack
  }.

  Lemma dfs_start P : dfs_inv P [(s, None)] [].
  Proof. constructor; [intros p x []|right; left; reflexivity]. Qed.

  Lemma dfs_finish P visited : dfs_inv P [] visited ->
    forall p x, reach g s p -> In x (out_of g p) -> P p x.
  Proof.
    intros [D St].
    assert (C : forall p, reach g s p -> In p visited).
    { induction 1 as [|p x Rp IH I]; [destruct St as [St|[]]; exact St|].
      destruct (D p x IH I) as [[_ H]|[]]. exact H. }
    intros p x R I. destruct (D p x (C p R) I) as [[H _]|[]]. exact H.
  Qed.

  (* one iteration: the entry (b, par) is popped, [extra] is pushed, [visited] grows to [vis'] *)
  Lemma dfs_pop (P P' : id -> id -> Prop) b par rest visited extra vis' :
    dfs_inv P ((b, par) :: rest) visited ->
    (forall p x, P p x -> P' p x) -> (forall p, par = Some p -> P' p b) ->
    In b vis' -> incl visited vis' ->
    (forall p x, In p vis' -> In x (out_of g p) -> In p visited \/ In (x, Some p) extra) ->
    dfs_inv P' (extra ++ rest) vis'.
  Proof.
    intros [D St] Mono Hd Hb Hi Hn. constructor.
    - intros p x Ip Ix. destruct (Hn p x Ip Ix) as [Iv|Ie]; [|right; apply in_or_app; left; exact Ie].
      destruct (D p x Iv Ix) as [[H1 H2]|[H|H]].
      + left. split; [apply Mono; exact H1|apply Hi; exact H2].
      + injection H as H1 H2. subst. left. split; [apply Hd; reflexivity|exact Hb].
      + right. apply in_or_app. right. exact H.
    - destruct St as [St|[H|H]]; [left; apply Hi; exact St| |right; apply in_or_app; right; exact H].
      injection H as H1 H2. subst. left. exact Hb.
  Qed.

  Lemma dfs_skip (P P' : id -> id -> Prop) b par rest visited :
    dfs_inv P ((b, par) :: rest) visited ->
    (forall p x, P p x -> P' p x) -> (forall p, par = Some p -> P' p b) ->
    In b visited -> dfs_inv P' rest visited.
  Proof.
    intros Inv Mono Hd Hb. apply (dfs_pop P P' b par rest visited [] visited Inv Mono Hd Hb (incl_refl _)).
    intros p x Ip _. left. exact Ip.
  Qed.

  Lemma dfs_visit (P P' : id -> id -> Prop) b par rest visited :
    dfs_inv P ((b, par) :: rest) visited ->
    (forall p x, P p x -> P' p x) -> (forall p, par = Some p -> P' p b) ->
    dfs_inv P' (push b ++ rest) (b :: visited).
  Proof.
    intros Inv Mono Hd.
    apply (dfs_pop P P' b par rest visited (push b) (b :: visited) Inv Mono Hd (or_introl eq_refl) (incl_tl b (incl_refl _))).
    intros p x [Ip|Ip] Ix; [subst p; right; exact (in_map _ _ x Ix)|left; exact Ip].
  Qed.
End Dfs.

Section AddIncoming.
  Variable g0 : graph.
  Variable s : id.
  Hypothesis W0 : wf g0.

  Local Notation outB := (out_of g0).
  Local Notation inc0 := (g_inc g0).

  Definition ai_step_graph (g : graph) (b : id) (parent : option id) : graph :=
    match parent with
    | Some p => if mem_id p (g_inc g b) then g else set_inc g b (g_inc g b ++ [p])
    | None => g
    end.

  Lemma ai_step_blk g b parent : g_blk (ai_step_graph g b parent) = g_blk g /\
                                 g_next (ai_step_graph g b parent) = g_next g.
  Proof. unfold ai_step_graph. destruct parent as [p|]; [destruct (mem_id p (g_inc g b))|]; split; reflexivity. Qed.

  Lemma ai_step_inc g b parent x q :
    In q (g_inc (ai_step_graph g b parent) x) <->
    In q (g_inc g x) \/ (x = b /\ parent = Some q).
  Proof.
    unfold ai_step_graph. destruct parent as [p|]; [|split; [tauto|intros [H|[_ H]]; [exact H|discriminate]]].
    destruct (mem_id p (g_inc g b)) eqn:M.
    - apply mem_id_In in M. split; [tauto|]. intros [H|[H1 H2]]; [exact H|].
      injection H2 as H2. subst. exact M.
    - cbn [set_inc g_inc]. unfold upd. destruct (Nat.eqb_spec x b) as [E|E].
      + subst x. rewrite in_app_iff. cbn [In]. split.
        * intros [H|[H|[]]]; [tauto|subst; tauto].
        * intros [H|[_ H]]; [tauto|]. injection H as H. subst. tauto.
      + split; [tauto|]. intros [H|[H _]]; [exact H|contradiction].
  Qed.

  Lemma ai_step_nodup g b parent x : NoDup (g_inc g x) -> NoDup (g_inc (ai_step_graph g b parent) x).
  Proof.
    unfold ai_step_graph. destruct parent as [p|]; [|auto].
    destruct (mem_id p (g_inc g b)) eqn:M; [auto|].
    cbn [set_inc g_inc]. unfold upd. destruct (Nat.eqb_spec x b) as [E|E]; [|auto].
    subst x. intros N. apply nodup_snoc; [exact N|]. apply mem_id_false. exact M.
  Qed.

  Record ai_post (g : graph) : Prop := {
    ap_blk : g_blk g = g_blk g0;
    ap_next : g_next g = g_next g0;
    ap_cov : forall p x, reach g0 s p -> In x (outB p) -> In p (g_inc g x);
    ap_mem : forall x p, In p (g_inc g x) -> In p (inc0 x) \/ (reach g0 s p /\ In x (outB p));
    ap_keep : forall x p, In p (inc0 x) -> In p (g_inc g x);
    ap_nodup : forall x, NoDup (inc0 x) -> NoDup (g_inc g x)
  }.

  (* all of [ai_post] but the covering holds throughout the walk *)
  Record ai_sound (g : graph) : Prop := {
    ai_blk : g_blk g = g_blk g0;
    ai_next : g_next g = g_next g0;
    ai_mem : forall x p, In p (g_inc g x) -> In p (inc0 x) \/ (reach g0 s p /\ In x (outB p));
    ai_keep : forall x p, In p (inc0 x) -> In p (g_inc g x);
    ai_nodup : forall x, NoDup (inc0 x) -> NoDup (g_inc g x)
  }.

  Lemma ai_step_sound g b parent :
    ai_sound g -> (forall p, parent = Some p -> reach g0 s p /\ In b (outB p)) ->
    ai_sound (ai_step_graph g b parent).
  Proof.
    intros [B N M K ND] E. destruct (ai_step_blk g b parent) as [B1 N1]. constructor; try congruence.
    - intros x p I. apply ai_step_inc in I. destruct I as [I|[I1 I2]]; [apply M; exact I|].
      subst x. right. apply E. exact I2.
    - intros x p I. apply ai_step_inc. left. apply K. exact I.
    - intros x H. apply ai_step_nodup. apply ND. exact H.
  Qed.

  Local Notation recorded g := (fun p x => In p (g_inc g x)).

  Lemma ai_finish g visited : ai_sound g -> dfs_inv g0 s (recorded g) [] visited -> ai_post g.
  Proof. intros [B N M K ND] D. constructor; auto. exact (dfs_finish g0 s _ visited D). Qed.

  Lemma ai_loop_spec fuel : forall g stack visited maxd,
    ai_sound g -> dfs_sound g0 s (map fst stack) -> dfs_inv g0 s (recorded g) (map fst stack) visited ->
    List.length stack + 2 * unvis (g_next g0) visited <= fuel ->
    ai_post (fst (add_incoming_loop fuel g stack visited maxd)).
  Proof.
    induction fuel as [|f IH]; intros g stack visited maxd So Ss D Hm.
    - destruct stack; [|cbn in Hm; lia]. exact (ai_finish g visited So D).
    - cbn [add_incoming_loop]. destruct stack as [|[[b parent] d] rest]; [exact (ai_finish g visited So D)|].
      fold (ai_step_graph g b parent). cbn [map fst] in Ss, D.
      pose proof (ai_step_sound g b parent So (proj2 (Ss b parent (or_introl eq_refl)))) as So1.
      assert (Mono : forall p x, In p (g_inc g x) -> In p (g_inc (ai_step_graph g b parent) x))
        by (intros p x I; apply ai_step_inc; left; exact I).
      assert (Hd : forall p, parent = Some p -> In p (g_inc (ai_step_graph g b parent) b))
        by (intros p Q; apply ai_step_inc; right; split; [reflexivity|exact Q]).
      destruct (mem_id b visited) eqn:Mb.
      + (* already visited: only the parent pointer is recorded *)
        apply mem_id_In in Mb.
        apply IH; [exact So1|exact (dfs_sound_tail g0 s _ _ Ss)| |cbn [List.length] in Hm; lia].
        exact (dfs_skip g0 s _ _ b parent _ visited D Mono Hd Mb).
      + (* first visit: the children are pushed *)
        apply mem_id_false in Mb. rewrite (out_of_ext _ g0 b (ai_blk _ So1)).
        apply IH; [exact So1| | |].
        * rewrite map_app, map_map. exact (dfs_sound_push g0 s b parent _ Ss).
        * rewrite map_app, map_map. exact (dfs_visit g0 s _ _ b parent _ visited D Mono Hd).
        * rewrite app_length, map_length. cbn [List.length] in Hm.
          pose proof (measure_visit g0 b visited (List.length rest) f W0 Mb Hm). lia.
  Qed.

  (* any fuel from 1 + 2 * g_next on gives the guarantee; the model uses 3 * S (g_next g) *)
  Theorem add_incoming_fuel_suffices fuel :
    1 + 2 * g_next g0 <= fuel -> ai_post (fst (add_incoming_loop fuel g0 [(s, None, 0)] [] 0)).
  Proof.
    intros Hf. apply ai_loop_spec.
    - constructor; auto.
    - apply dfs_sound_start.
    - apply dfs_start.
    - cbn [List.length]. rewrite unvis_nil. lia.
  Qed.

  Theorem add_incoming_spec : ai_post (fst (add_incoming g0 s)).
  Proof. apply add_incoming_fuel_suffices. lia. Qed.
End AddIncoming.

(* the statement of C20: exact incoming lists on the reachable part, blocks untouched *)
Theorem add_incoming_exact g s :
  wf g -> (forall b, reach g s b -> g_inc g b = []) ->
  let g' := fst (add_incoming g s) in
  g_blk g' = g_blk g /\ g_next g' = g_next g /\ inc_exact g' s.
Proof.
  intros W Z g'. destruct (add_incoming_spec g s W) as [B N C M K ND]. fold g' in B, N, C, M, K, ND.
  assert (R : forall x, reach g' s x <-> reach g s x)
    by (intros x; split; apply reach_ext; congruence).
  split; [exact B|]. split; [exact N|].
  intros b Rb. apply R in Rb. split; [apply ND; rewrite (Z b Rb); constructor|].
  intros p. rewrite R, (out_of_ext g' g p B). split.
  - intros I. destruct (M b p I) as [H|H]; [rewrite (Z b Rb) in H; destruct H|exact H].
  - intros [H1 H2]. exact (C p b H1 H2).
Qed.

(* global form used by the normalisation theorems: no duplicates anywhere, predecessors covered *)
Theorem add_incoming_covers g s :
  wf g -> (forall b, NoDup (g_inc g b)) ->
  let g' := fst (add_incoming g s) in
  g_blk g' = g_blk g /\ g_next g' = g_next g /\ inc_covers g' s /\ (forall b, NoDup (g_inc g' b)) /\
  (g_inc g s = [] -> (forall p, reach g s p -> ~ In s (out_of g p)) -> g_inc g' s = []).
Proof.
  intros W Z g'. destruct (add_incoming_spec g s W) as [B N C M K ND]. fold g' in B, N, C, M, K, ND.
  split; [exact B|]. split; [exact N|]. split; [|split].
  - intros p b R I. apply (C p b).
    + apply (reach_ext g' g s p B). exact R.
    + rewrite <- (out_of_ext g' g p B). exact I.
  - intros b. apply ND. apply Z.
  - intros Hs Hn. destruct (g_inc g' s) as [|p l] eqn:E; [reflexivity|]. exfalso.
    destruct (M s p) as [H|[H1 H2]]; [rewrite E; left; reflexivity|rewrite Hs in H; destruct H|].
    apply (Hn p H1 H2).
Qed.

Section ValidateTree.
  Variable g : graph.
  Variable s : id.

  Definition vt_ok (b : id) (parent : option id) : bool :=
    match parent with Some p => Nat.eqb (count_id p (g_inc g b)) 1 | None => true end.

  (* completeness: if every edge out of a reachable block is fine, no assertion fires (any fuel) *)
  Lemma vt_complete fuel : forall stack visited,
    tree_valid g s -> dfs_sound g s stack -> validate_tree_loop fuel g stack visited = true.
  Proof.
    induction fuel as [|f IH]; intros stack visited T Inv; [reflexivity|].
    cbn [validate_tree_loop]. destruct stack as [|[b parent] rest]; [reflexivity|].
    fold (vt_ok b parent).
    assert (Ok : vt_ok b parent = true).
    { unfold vt_ok. destruct parent as [p|]; [|reflexivity].
      destruct (proj2 (Inv b (Some p) (or_introl eq_refl)) p eq_refl) as [Rp I].
      rewrite (T p b Rp I). reflexivity. }
    rewrite Ok. cbn [negb]. destruct (mem_id b visited); apply IH; try exact T.
    - exact (dfs_sound_tail g s _ _ Inv).
    - exact (dfs_sound_push g s b parent _ Inv).
  Qed.

  Hypothesis W : wf g.

  Local Notation checked := (fun p x => count_id p (g_inc g x) = 1).

  (* soundness: with the model's fuel, [true] means every edge was checked *)
  Lemma vt_sound fuel : forall stack visited,
    dfs_inv g s checked stack visited ->
    List.length stack + 2 * unvis (g_next g) visited <= fuel ->
    validate_tree_loop fuel g stack visited = true -> tree_valid g s.
  Proof.
    induction fuel as [|f IH]; intros stack visited Inv Hm E.
    - destruct stack; [|cbn in Hm; lia]. exact (dfs_finish g s _ visited Inv).
    - cbn [validate_tree_loop] in E. destruct stack as [|[b parent] rest]; [exact (dfs_finish g s _ visited Inv)|].
      fold (vt_ok b parent) in E. destruct (vt_ok b parent) eqn:Ok; cbn [negb] in E; [|discriminate].
      assert (Chk : forall p, parent = Some p -> count_id p (g_inc g b) = 1).
      { intros p Q. subst parent. apply Nat.eqb_eq. exact Ok. }
      destruct (mem_id b visited) eqn:Mb.
      + apply mem_id_In in Mb. apply (IH rest visited); [|cbn [List.length] in Hm; lia|exact E].
        exact (dfs_skip g s _ _ b parent rest visited Inv (fun p x H => H) Chk Mb).
      + apply mem_id_false in Mb. apply (IH (push g b ++ rest) (b :: visited)); [| |exact E].
        * exact (dfs_visit g s _ _ b parent rest visited Inv (fun p x H => H) Chk).
        * unfold push. rewrite app_length, map_length. cbn [List.length] in Hm.
          pose proof (measure_visit g b visited (List.length rest) f W Mb Hm). lia.
  Qed.

  Theorem validate_tree_iff : validate_tree g s = true <-> tree_valid g s.
  Proof.
    unfold validate_tree. split.
    - apply vt_sound; [apply dfs_start|]. cbn [List.length]. rewrite unvis_nil. lia.
    - intros T. apply vt_complete; [exact T|apply dfs_sound_start].
  Qed.
End ValidateTree.

Theorem validate_tree_passes_after_add_incoming g s :
  wf g -> (forall b, NoDup (g_inc g b)) ->
  validate_tree (fst (add_incoming g s)) s = true.
Proof.
  intros W Z. destruct (add_incoming_covers g s W Z) as (B & N & C & ND & _).
  apply validate_tree_iff.
  - intros i L. rewrite B. apply W. rewrite <- N. exact L.
  - apply tree_valid_of_cov; assumption.
Qed.
