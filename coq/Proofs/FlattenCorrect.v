(* Proofs/FlattenCorrect.v — linearisation correctness: the labelled linear code emitted by
   [flatten_blocks] (Comp/Passes.v, model of pyteal/compiler/flatten.py flattenBlocks) simulates the
   block graph it was produced from.  Stage "flatten" of property C01.
   The simulation, the layout of the emitted list and the injectivity of the generated labels are
   proved in CallX/FlattenCorrect.v, for the semantics with a call oracle; this file holds the
   statements for the original semantics, and three examples showing that the hypotheses of the
   theorem ([ends_last], [ok_out]) cannot be dropped. *)
From Coq Require Import List Arith NArith Ascii String Bool Lia.
From PV Require Import Base.Bytes Base.Sexp AVM.Syntax AVM.Ops AVM.Machine Src.Expr Src.Denote
  Comp.Blocks Comp.Lower Comp.Passes Comp.GraphSem Comp.LinearSem Proofs.OracleTransfer.
From PV Require CallX.FlattenCorrect Proofs.TextFacts.
Import ListNotations.

Theorem N_to_dec_inj a b : N_to_dec a = N_to_dec b -> a = b.
Proof. exact (TextFacts.N_to_dec_inj a b). Qed.

Theorem label_of_inj i j : label_of i = label_of j -> i = j.
Proof. exact (CallX.FlattenCorrect.label_of_inj i j). Qed.

Lemma mem_nat_In x l : mem_nat x l = true <-> In x l.
Proof. exact (CallX.FlattenCorrect.mem_nat_In x l). Qed.

Definition lab (refs : list nat) (i : nat) : list comp :=
  if mem_nat i refs then [CLabel (label_of i) None] else [].

Lemma emit_cons code t refs i :
  flatten_emit (code :: t) refs i = (lab refs i ++ map COp code) ++ flatten_emit t refs (S i).
Proof. exact (CallX.FlattenCorrect.emit_cons code t refs i). Qed.

(* every label in the list is label_of k for a block index k of the list *)
Lemma emit_labels codes refs : forall i l c, In (CLabel l c) (flatten_emit codes refs i) ->
  exists k, i <= k < i + List.length codes /\ l = label_of k.
Proof. exact (CallX.FlattenCorrect.emit_labels codes refs). Qed.

(* where block j starts *)
Definition epos (codes : list (list instr)) (refs : list nat) (j : nat) : nat :=
  List.length (flatten_emit (firstn j codes) refs 0).

Lemma epos_0 codes refs : epos codes refs 0 = 0.
Proof. reflexivity. Qed.

Lemma find_label_emit codes refs j code : nth_error codes j = Some code -> mem_nat j refs = true ->
  find_label (label_of j) (flatten_emit codes refs 0) = Some (epos codes refs j).
Proof. exact (CallX.FlattenCorrect.find_label_emit codes refs j code). Qed.

Lemma nth_error_Some_lt {A} (l : list A) k x : nth_error l k = Some x -> k < List.length l.
Proof. intros H. apply nth_error_Some. congruence. Qed.

Lemma index_of_nth x l m : index_of x l 0 = Some m -> nth_error l m = Some x.
Proof. exact (CallX.FlattenCorrect.index_of_nth x l m). Qed.

Lemma index_of_In x l : forall n, In x l -> exists m, index_of x l n = Some m.
Proof. exact (CallX.FlattenCorrect.index_of_In x l). Qed.

Lemma collect_spec g blocks : forall rest i codes refs,
  flatten_collect g blocks i rest = Some (codes, refs) ->
  List.length codes = List.length rest /\
  forall j b, nth_error rest j = Some b ->
    exists code r, flatten_one g blocks (i + j) b = Some (code, r) /\ nth_error codes j = Some code /\
                   (forall x, In x r -> In x refs).
Proof. exact (CallX.FlattenCorrect.collect_spec g blocks). Qed.

(* The one place where graph and linear code can differ: a block without successor whose ops do not
   terminate the routine.  flattenBlocks emits no jump for it (isTerminal), so control continues
   into whatever block comes next in the list; the graph semantics stops ([GEnd] for a simple block,
   failure for a conditional block without branches).  The theorem therefore requires that the only
   such block is a simple block placed LAST (sortBlocks puts the routine's end block there). *)
Definition ends_last (G : bgraph) (blocks : list id) : Prop :=
  forall j b bb, index_of b blocks 0 = Some j -> G b = Some bb ->
    existsb is_term_op (b_ops bb) = false -> outgoing bb = [] ->
    (exists ops, bb = BSimple ops None) /\ S j = List.length blocks.

(* outcomes the theorem speaks about: everything except "unsupported: a branch opcode inside a block" *)
Definition ok_out (c : gconf) : Prop :=
  match c with GUnsup o => is_branch o = false | _ => True end.

Definition img (pos : id -> nat) (c : gconf) : lconf :=
  match c with
  | GAt b stk st => LAt (pos b) stk st
  | GEnd stk st => LEnd stk st
  | GExit v st => LExit v st
  | GRet stk st => LRet stk st
  | GFail => LFail
  | GUnsup o => LUnsup o
  end.

Section Sim.
  Variable blocks : list id.
  Variable codes : list (list instr).
  Variable refs : list nat.

  Definition posb (b : id) : nat :=
    match index_of b blocks 0 with Some j => epos codes refs j | None => 0 end.
End Sim.

(* where block b starts in [flatten_blocks g blocks] *)
Definition pos_of (g : graph) (blocks : list id) (b : id) : nat :=
  match flatten_collect g blocks 0 blocks with
  | Some (codes, refs) => posb blocks codes refs b
  | None => 0
  end.

Definition gfinal (c : gconf) : bool := match c with GAt _ _ _ => false | _ => true end.

(* For EVERY graph, EVERY list of blocks (duplicates allowed: positions are those of first
   occurrences, which is what [index_of] and hence the emitted jumps use) on which flattenBlocks
   succeeds, and every run of the graph from a listed block: the linear code, started where that
   block starts, reaches the image of the configuration the graph reaches.
   No closure hypothesis is needed: success of flatten_blocks already implies that every listed
   block is defined and every successor of a non-terminal listed block is listed ([flatten_closed]). *)
Theorem flatten_correct (env : denv) (g : graph) (blocks : list id) (code : list comp) :
  flatten_blocks g blocks = Some code ->
  ends_last (g_blk g) blocks ->
  forall b stk st c', In b blocks ->
    star env (g_blk g) (GAt b stk st) c' -> ok_out c' ->
    lstar env code (LAt (pos_of g blocks b) stk st) (img (pos_of g blocks) c').
Proof.
  intros HF EL b stk st c' Hb Hs Hok. apply lstar_lift.
  exact (CallX.FlattenCorrect.flatten_correct (lift env) g blocks code HF EL b stk st c' Hb
           (proj2 (star_lift env _ _ _) Hs) Hok).
Qed.

(* halting outcomes: the linear code halts with the same outcome, and (the linear machine being
   deterministic) with no other *)
Corollary flatten_correct_final (env : denv) (g : graph) (blocks : list id) (code : list comp) :
  flatten_blocks g blocks = Some code ->
  ends_last (g_blk g) blocks ->
  forall b stk st c', In b blocks ->
    star env (g_blk g) (GAt b stk st) c' -> gfinal c' = true -> ok_out c' ->
    lstar env code (LAt (pos_of g blocks b) stk st) (img (pos_of g blocks) c') /\
    forall c2, lstar env code (LAt (pos_of g blocks b) stk st) c2 -> lfinal c2 = true ->
               c2 = img (pos_of g blocks) c'.
Proof.
  intros HF EL b stk st c' Hb Hs Hf Hok.
  destruct (CallX.FlattenCorrect.flatten_correct_final (lift env) g blocks code HF EL b stk st c' Hb
              (proj2 (star_lift env _ _ _) Hs) Hf Hok) as [R U].
  split; [apply lstar_lift; exact R|]. intros c2 R2. apply U, lstar_lift, R2.
Qed.

(* the first block of the list starts at pc 0 *)
Lemma pos_of_head g b t : pos_of g (b :: t) b = 0.
Proof. exact (CallX.FlattenCorrect.pos_of_head g b t). Qed.

(* what success of flatten_blocks says about the list *)
Lemma flatten_closed g blocks code : flatten_blocks g blocks = Some code ->
  forall b, In b blocks ->
    exists bb, g_blk g b = Some bb /\
               (is_terminal bb = false -> forall x, In x (outgoing bb) -> In x blocks).
Proof. exact (CallX.FlattenCorrect.flatten_closed g blocks code). Qed.

Definition ex_ctx : ctx := mkCtx true [] 0 [] [] 0.
Definition ex_env : denv := mkEnv ex_ctx (fun n => n) [] [] false (fun _ => mkI O_int [AInt 0]).
Definition ex_st : mstate := init_state [] [] [].
Definition ex_graph (l : list block) : graph := mkG (fun i => nth_error l i) (fun _ => []) (List.length l).
Definition op_int (n : N) : instr := mkI O_int [AInt n].
Definition op0 (o : opc) : instr := mkI o [].

(* [ends_last] cannot be dropped.  The witness ([end_mid_runs_on]) is a successor-less simple block
   that is NOT last: the graph stops at its end, the linear code runs on into the next block *)
Theorem flatten_needs_end_last :
  exists env g blocks code b stk st c',
    flatten_blocks g blocks = Some code /\ In b blocks /\
    star env (g_blk g) (GAt b stk st) c' /\ gfinal c' = true /\ ok_out c' /\
    ~ lstar env code (LAt (pos_of g blocks b) stk st) (img (pos_of g blocks) c').
Proof.
  destruct CallX.FlattenCorrect.end_mid_runs_on as (F & I & S & Gf & O & N).
  exists ex_env. do 7 eexists. split; [exact F|]. split; [exact I|].
  split; [apply (star_lift ex_env); exact S|]. split; [exact Gf|]. split; [exact O|].
  intros H. apply N, (lstar_lift ex_env), H.
Qed.

(* the same statement from a second witness ([cond_none_runs_on]): a conditional block without
   branches and without a terminating op; flattenBlocks treats it as terminal and lets control run
   off its end, the graph semantics has nowhere to go *)
Theorem flatten_needs_simple_end :
  exists env g blocks code b stk st c',
    flatten_blocks g blocks = Some code /\ In b blocks /\
    star env (g_blk g) (GAt b stk st) c' /\ gfinal c' = true /\ ok_out c' /\
    ~ lstar env code (LAt (pos_of g blocks b) stk st) (img (pos_of g blocks) c').
Proof.
  destruct CallX.FlattenCorrect.cond_none_runs_on as (F & I & S & Gf & O & N).
  exists ex_env. do 7 eexists. split; [exact F|]. split; [exact I|].
  split; [apply (star_lift ex_env); exact S|]. split; [exact Gf|]. split; [exact O|].
  intros H. apply N, (lstar_lift ex_env), H.
Qed.

(* the exclusion in [ok_out] is needed too: a branch opcode INSIDE a block body is reported as
   unsupported by the graph semantics, while the linear machine takes it for a jump *)
Theorem flatten_needs_ok_out :
  exists env g blocks code b stk st c',
    flatten_blocks g blocks = Some code /\ ends_last (g_blk g) blocks /\ In b blocks /\
    star env (g_blk g) (GAt b stk st) c' /\ gfinal c' = true /\
    ~ lstar env code (LAt (pos_of g blocks b) stk st) (img (pos_of g blocks) c').
Proof.
  destruct CallX.FlattenCorrect.branch_in_body_jumps as (F & E & I & S & Gf & N).
  exists ex_env. do 7 eexists. split; [exact F|]. split; [exact E|]. split; [exact I|].
  split; [apply (star_lift ex_env); exact S|]. split; [exact Gf|].
  intros H. apply N, (lstar_lift ex_env), H.
Qed.
