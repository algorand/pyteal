(* Proofs/LitBaseNProof.v — C13: PyTeal's validators accept exactly the well-formed RFC 4648
   texts, and on those the assembler's decoders return the RFC value. *)
From Coq Require Import List Arith NArith Ascii String Bool Lia.
From PV Require Import Base.Sexp AVM.Parse Lit.BaseN Lit.RFC4648 Lit.Spec Proofs.TextFacts Proofs.LitLineProof
  Proofs.LitArith.
Import ListNotations.
Local Open Scope N_scope.

Definition is_some {A} (o : option A) : bool := match o with Some _ => true | None => false end.

Definition optN_eqb (a b : option N) : bool :=
  match a, b with Some x, Some y => x =? y | None, None => true | _, _ => false end.
Lemma optN_eqb_eq a b : optN_eqb a b = true -> a = b.
Proof. destruct a, b; cbn; try discriminate; [|reflexivity]. intros H. apply N.eqb_eq in H. now subst. Qed.

Lemma b64val_v64 c : b64val c = v64 c.
Proof. revert c. apply (ascii_ext _ optN_eqb_eq). vm_compute. reflexivity. Qed.
Lemma b32val_v32 c : b32val c = v32 c.
Proof. revert c. apply (ascii_ext _ optN_eqb_eq). vm_compute. reflexivity. Qed.
Lemma hexval_v16 c : hexval c = v16 c.
Proof. revert c. apply (ascii_ext _ optN_eqb_eq). vm_compute. reflexivity. Qed.
Lemma is_b64_v64 c : is_b64 c = is_some (v64 c).
Proof. revert c. apply (ascii_ext _ eqb_prop). vm_compute. reflexivity. Qed.
Lemma is_b32_v32 c : is_b32 c = is_some (v32 c).
Proof. revert c. apply (ascii_ext _ eqb_prop). vm_compute. reflexivity. Qed.
Lemma is_hex_v16 c : is_hex c = is_some (v16 c).
Proof. revert c. apply (ascii_ext _ eqb_prop). vm_compute. reflexivity. Qed.
Lemma is_pad_padc c : is_pad c = is_padc c. Proof. reflexivity. Qed.

Lemma v64_facts c : match v64 c with Some v => (v <? 64) && negb (is_padc c) | None => true end = true.
Proof. revert c. apply ascii_forall. vm_compute. reflexivity. Qed.
Lemma v32_facts c : match v32 c with Some v => (v <? 32) && negb (is_padc c) | None => true end = true.
Proof. revert c. apply ascii_forall. vm_compute. reflexivity. Qed.
Lemma v16_facts c : match v16 c with Some v => (v <? 16) | None => true end = true.
Proof. revert c. apply ascii_forall. vm_compute. reflexivity. Qed.

(* an alphabet: digits of [w] bits, none of them the pad character *)
Section Alphabet.
  Variables (v : ascii -> option N) (w : N).
  Hypothesis facts : forall c, match v c with Some x => (x <? 2 ^ w) && negb (is_padc c) | None => true end = true.

  Lemma val_lt c x : v c = Some x -> x < 2 ^ w.
  Proof. intros H. pose proof (facts c) as F. rewrite H in F. apply andb_true_iff in F as [F _]. now apply N.ltb_lt. Qed.

  Lemma val_not_pad c x : v c = Some x -> is_padc c = false.
  Proof. intros H. pose proof (facts c) as F. rewrite H in F. apply andb_true_iff in F as [_ F]. now apply negb_true_iff. Qed.

  Lemma pad_no_val : v pad = None.
  Proof. destruct (v pad) as [x|] eqn:E; [|reflexivity]. now apply val_not_pad in E. Qed.

  Lemma vals_bound chars : forall vals, digit_vals v chars = Some vals -> Forall (fun x => x < 2 ^ w) vals.
  Proof.
    induction chars as [|c t IH]; intros vals H; [injection H as <-; constructor|].
    apply digit_vals_cons in H as (x & r & Hx & Hr & ->). constructor; [exact (val_lt c x Hx) | now apply IH].
  Qed.

  (* text = alphabet characters followed by pad characters: the assembler decodes the characters *)
  Lemma decode_struct chars p vals : all_pad p = true -> digit_vals v chars = Some vals ->
    decode_baseN v w (string_of_list_ascii (chars ++ p)) = Some (decode_bits w vals).
  Proof. apply decode_baseN_struct, pad_no_val. Qed.

  (* every character of such a text is an alphabet or pad character *)
  Lemma struct_chars chars p vals (P : ascii -> bool) :
    (forall c, v c <> None -> P c = true) -> (forall c, is_padc c = true -> P c = true) ->
    digit_vals v chars = Some vals -> all_pad p = true -> forallb P (chars ++ p) = true.
  Proof.
    intros Hv Hp Hd Hpad. rewrite forallb_app. apply andb_true_iff. split.
    - apply forallb_forall. intros c Hc. apply Hv. eapply digit_vals_in; eauto.
    - revert Hpad. now apply forallb_impl.
  Qed.
End Alphabet.

Lemma b16_is_asm s : bytes_of_hex_l s = b16_decode s.
Proof.
  induction s as [s L | g l G IH] using (chunk_ind 1).
  - destruct s as [|a [|b s]]; [reflexivity | reflexivity | cbn in L; lia].
  - destruct g as [|a [|b [|]]]; try discriminate G.
    cbn [app bytes_of_hex_l b16_decode]. rewrite !hexval_v16, IH.
    destruct (v16 a), (v16 b), (b16_decode l); try reflexivity.
    unfold byte_of. now rewrite N.mul_comm.
Qed.

Lemma valid16_spec s : valid_base16_l s = is_some (b16_decode s).
Proof.
  unfold valid_base16_l. induction s as [s L | g l G IH] using (chunk_ind 1).
  - destruct s as [|a [|b s]]; [reflexivity | reflexivity | cbn in L; lia].
  - destruct g as [|a [|b [|]]]; try discriminate G.
    cbn [app List.length Nat.even forallb b16_decode]. rewrite !is_hex_v16.
    destruct (v16 a); cbn [is_some andb]; [|now rewrite andb_false_r].
    destruct (v16 b); cbn [is_some andb]; [|now rewrite andb_false_r].
    rewrite IH. destruct (b16_decode l); reflexivity.
Qed.

Lemma valid16_chars s : valid_base16_l s = true -> forallb is_hex s = true.
Proof. unfold valid_base16_l. intros H. now apply andb_true_iff in H as [_ H]. Qed.

(* bytes.hex() is the lower-case spelling the printer of byte constants uses, and reads back *)
Lemma hex_lower_hex b : hex_lower b = hex_of_bytes b.
Proof. induction b as [|c b IH]; [reflexivity|]. cbn [hex_lower hex_of_bytes]. now rewrite IH. Qed.

Lemma hex_lower_decodes b : b16_decode (hex_lower b) = Some b.
Proof. rewrite <- b16_is_asm, hex_lower_hex. apply hex_of_bytes_roundtrip. Qed.

(* [drop_0x] matches on the character literals, bit by bit: a character is walked through until
   it differs from the literal *)
Ltac bit b := destruct b; try reflexivity.

Lemma strip0x_spec (v : string) : strip0x v = drop_0x v.
Proof.
  destruct v as [|[b0 b1 b2 b3 b4 b5 b6 b7] [|[c0 c1 c2 c3 c4 c5 c6 c7] r]]; [reflexivity | |];
    bit b0; bit b1; bit b2; bit b3; bit b4; bit b5; bit b6; bit b7.
  bit c0; bit c1; bit c2; bit c3; bit c4; bit c5; bit c6; bit c7.
Qed.

Lemma v64_lt c v : v64 c = Some v -> v < 64.
Proof. exact (val_lt v64 6 v64_facts c v). Qed.

Lemma valid64_spec s : valid_base64_l s = is_some (b64_decode s).
Proof.
  induction s as [s L | g l G IH] using (chunk_ind 3).
  - destruct s as [|a [|b [|c [|d s]]]]; try reflexivity. cbn in L; lia.
  - destruct g as [|a [|b [|c [|d [|]]]]]; try discriminate G.
    cbn [app valid_base64_l b64_decode]. rewrite IH. unfold tail64.
    rewrite !is_b64_v64. change is_pad with is_padc.
    destruct (v64 a); cbn [is_some andb orb]; [|destruct l; reflexivity].
    destruct (v64 b); cbn [is_some andb orb]; [|destruct l; reflexivity].
    destruct (v64 c) as [z|] eqn:Ec; destruct (v64 d) as [w|] eqn:Ed; cbn [is_some andb orb];
      rewrite ?(val_not_pad v64 6 v64_facts c z Ec), ?(val_not_pad v64 6 v64_facts d w Ed), ?andb_false_r, ?orb_false_r;
      cbn [andb orb].
    + destruct l; destruct (b64_decode _); reflexivity.
    + destruct l; [destruct (is_padc d)|]; reflexivity.
    + destruct l; reflexivity.
    + destruct l; [destruct (is_padc c && is_padc d)|]; reflexivity.
Qed.

Lemma b64_struct s : forall b, b64_decode s = Some b ->
  exists chars p vals, s = chars ++ p /\ all_pad p = true /\
    digit_vals v64 chars = Some vals /\ decode_bits 6 vals = b.
Proof.
  induction s as [s L | g l G IH] using (chunk_ind 3); intros out H.
  - destruct s as [|a [|b [|c [|d s]]]]; try discriminate H; [|cbn in L; lia].
    injection H as <-. now exists [], [], [].
  - destruct g as [|a [|b [|c [|d [|]]]]]; try discriminate G. cbn [app b64_decode] in H.
    destruct (v64 a) as [x|] eqn:Ea; [|discriminate H]. destruct (v64 b) as [y|] eqn:Eb; [|discriminate H].
    pose proof (v64_lt _ _ Ea) as Hx. pose proof (v64_lt _ _ Eb) as Hy.
    destruct (v64 c) as [z|] eqn:Ec; destruct (v64 d) as [w|] eqn:Ed; try discriminate H.
    + destruct (b64_decode l) as [b'|] eqn:El; [|discriminate H]. injection H as <-.
      destruct (IH b' eq_refl) as (chars & p & vals & -> & Hp & Hd & <-).
      exists (a :: b :: c :: d :: chars), p, ([x; y; z; w] ++ vals). repeat split; [exact Hp | |].
      * cbn [digit_vals app]. now rewrite Ea, Eb, Ec, Ed, Hd.
      * rewrite (decode_bits_app 6 _ vals 3), q64_ok; try reflexivity; try (eapply v64_lt; eassumption).
        exact (vals_bound v64 6 v64_facts _ _ Hd).
    + destruct l; [|discriminate H]. destruct (is_padc d) eqn:Pd; [|discriminate H]. injection H as <-.
      exists [a; b; c], [d], [x; y; z]. repeat split.
      * cbn. now rewrite Pd.
      * cbn [digit_vals]. now rewrite Ea, Eb, Ec.
      * apply q64_3_ok; try assumption. eapply v64_lt; eassumption.
    + destruct l; [|discriminate H]. destruct (is_padc c) eqn:Pc; [|discriminate H].
      destruct (is_padc d) eqn:Pd; [|discriminate H]. injection H as <-.
      exists [a; b], [c; d], [x; y]. repeat split.
      * cbn. now rewrite Pc, Pd.
      * cbn [digit_vals]. now rewrite Ea, Eb.
      * now apply q64_2_ok.
Qed.

Lemma digit_vals_ext f g : (forall c, f c = g c) -> forall s, digit_vals f s = digit_vals g s.
Proof. intros E s. induction s as [|c t IH]; [reflexivity|]. cbn [digit_vals]. now rewrite E, IH. Qed.

(* the assembler's decoder returns the RFC value on every well-formed text *)
Lemma b64_asm_spec s b : b64_decode s = Some b -> decode_base64 (string_of_list_ascii s) = Some b.
Proof.
  intros H. destruct (b64_struct s b H) as (chars & p & vals & -> & Hp & Hd & <-).
  unfold decode_base64, decode_baseN. rewrite (digit_vals_ext _ _ b64val_v64).
  now apply (decode_struct v64 6 v64_facts).
Qed.

Lemma valid64_chars s : valid_base64_l s = true -> forallb b64c s = true.
Proof.
  rewrite valid64_spec. destruct (b64_decode s) as [b|] eqn:E; [|discriminate]. intros _.
  destruct (b64_struct s b E) as (chars & p & vals & -> & Hp & Hd & _).
  apply (struct_chars v64 chars p vals); try assumption; intros c Hc; unfold b64c.
  - rewrite is_b64_v64. now destruct (v64 c).
  - change (is_pad c) with (is_padc c). rewrite Hc. apply orb_true_r.
Qed.

Lemma v32_lt c v : v32 c = Some v -> v < 32.
Proof. exact (val_lt v32 5 v32_facts c v). Qed.
Lemma v32_not_pad c v : v32 c = Some v -> is_padc c = false.
Proof. exact (val_not_pad v32 5 v32_facts c v). Qed.

Lemma is_b32_vals cs : forallb is_b32 cs = is_some (digit_vals v32 cs).
Proof.
  induction cs as [|c t IH]; [reflexivity|]. cbn [forallb digit_vals]. rewrite IH, is_b32_v32.
  destruct (v32 c); [|reflexivity]. destruct (digit_vals v32 t); reflexivity.
Qed.

(* the specification reads a group character by character; [val c x E] names the value of c or
   closes the goal when c is not in the alphabet *)
Ltac val c x E := destruct (v32 c) as [x|] eqn:E; [|reflexivity].
Ltac lt32 := eapply v32_lt; eassumption.

Lemma g32_2_vals a b : g32_2 a b = option_map (decode_bits 5) (digit_vals v32 [a; b]).
Proof. unfold g32_2. cbn [digit_vals]. val a x1 E1. val b x2 E2. cbn [option_map]. now rewrite q32_1_ok by lt32. Qed.

Lemma g32_4_vals a b c d : g32_4 a b c d = option_map (decode_bits 5) (digit_vals v32 [a; b; c; d]).
Proof.
  unfold g32_4. cbn [digit_vals]. val a x1 E1. val b x2 E2. val c x3 E3. val d x4 E4.
  cbn [option_map]. now rewrite q32_2_ok by lt32.
Qed.

Lemma g32_5_vals a b c d e : g32_5 a b c d e = option_map (decode_bits 5) (digit_vals v32 [a; b; c; d; e]).
Proof.
  unfold g32_5. cbn [digit_vals]. val a x1 E1. val b x2 E2. val c x3 E3. val d x4 E4. val e x5 E5.
  cbn [option_map]. now rewrite q32_3_ok by lt32.
Qed.

Lemma g32_7_vals a b c d e f g :
  g32_7 a b c d e f g = option_map (decode_bits 5) (digit_vals v32 [a; b; c; d; e; f; g]).
Proof.
  unfold g32_7. cbn [digit_vals]. val a x1 E1. val b x2 E2. val c x3 E3. val d x4 E4. val e x5 E5.
  val f x6 E6. val g x7 E7. cbn [option_map]. now rewrite q32_4_ok by lt32.
Qed.

Lemma b32_decode_group g l : List.length g = 8%nat ->
  b32_decode (g ++ l) =
  match digit_vals v32 g with
  | Some vals => option_map (app (decode_bits 5 vals)) (b32_decode l)
  | None => b32_tail (g ++ l)
  end.
Proof.
  intros G. destruct g as [|c1 [|c2 [|c3 [|c4 [|c5 [|c6 [|c7 [|c8 [|]]]]]]]]]; try discriminate G.
  cbn [app b32_decode digit_vals]. val c1 x1 E1. val c2 x2 E2. val c3 x3 E3. val c4 x4 E4. val c5 x5 E5.
  val c6 x6 E6. val c7 x7 E7. val c8 x8 E8. cbn [option_map]. now rewrite q32_ok by lt32.
Qed.

Lemma is_b32_group cs : is_some (option_map (decode_bits 5) (digit_vals v32 cs)) = forallb is_b32 cs.
Proof. rewrite is_b32_vals. now destruct (digit_vals v32 cs). Qed.

Lemma pad_not_b32 c : is_padc c = true -> is_b32 c = false.
Proof. intros H. rewrite is_b32_v32. destruct (v32 c) eqn:E; [|reflexivity]. apply v32_not_pad in E. congruence. Qed.

Lemma is_some_if {A} (b : bool) (x y : option A) :
  is_some (if b then x else y) = if b then is_some x else is_some y.
Proof. now destruct b. Qed.

(* boolean clean-up *)
Ltac tidy := rewrite ?andb_false_r, ?andb_true_r, ?orb_false_r; cbn [andb orb]; try reflexivity.

(* The short final group: the validator's four alternatives = the specification's final group.
   Both sides are boolean expressions in the tests "alphabet character" and "pad character".  For
   eight characters the specification takes the longest all-pad suffix; reading the pad tests from
   the right, a pad where a later alternative wants an alphabet character rules that alternative
   out on both sides. *)
Lemma tail32_spec s : tail32 s = is_some (b32_tail s).
Proof.
  destruct s as [|c1 [|c2 [|c3 [|c4 [|c5 [|c6 [|c7 [|c8 [|c9 s]]]]]]]]];
    unfold tail32, tail_kp, b32_tail, all_pad;
    rewrite ?g32_2_vals, ?g32_4_vals, ?g32_5_vals, ?g32_7_vals, ?is_some_if, ?is_b32_group;
    cbn [firstn skipn forallb chars_eqb repeat List.length Nat.eqb andb orb is_some]; tidy.
  unfold is_padc, pad.
  destruct (Ascii.eqb c8 "=") eqn:P8; [|tidy].
  destruct (Ascii.eqb c7 "=") eqn:P7; [rewrite (pad_not_b32 c7 P7)|tidy].
  destruct (Ascii.eqb c6 "=") eqn:P6; [rewrite (pad_not_b32 c6 P6)|tidy].
  destruct (Ascii.eqb c5 "=") eqn:P5; [rewrite (pad_not_b32 c5 P5)|tidy].
  destruct (Ascii.eqb c4 "=") eqn:P4; [rewrite (pad_not_b32 c4 P4)|tidy].
  destruct (Ascii.eqb c3 "=") eqn:P3; [rewrite (pad_not_b32 c3 P3)|]; tidy.
Qed.

(* eight alphabet characters in front are not a short final group: the last of them is no pad *)
Lemma tail32_long g l vals : List.length g = 8%nat -> digit_vals v32 g = Some vals -> tail32 (g ++ l) = false.
Proof.
  intros G D. rewrite tail32_spec.
  destruct g as [|c1 [|c2 [|c3 [|c4 [|c5 [|c6 [|c7 [|c8 [|]]]]]]]]]; try discriminate G.
  destruct l; [|reflexivity]. unfold b32_tail, all_pad. cbn [app forallb].
  destruct (v32 c8) as [x|] eqn:E; [|elim (digit_vals_in v32 _ c8 _ D); [do 7 right; now left | exact E]].
  rewrite (v32_not_pad c8 x E). tidy.
Qed.

Lemma valid32_group g l : List.length g = 8%nat ->
  valid_base32_l (g ++ l) = tail32 (g ++ l) || forallb is_b32 g && valid_base32_l l.
Proof.
  intros G. destruct g as [|c1 [|c2 [|c3 [|c4 [|c5 [|c6 [|c7 [|c8 [|]]]]]]]]]; try discriminate G.
  cbn [app valid_base32_l forallb]. now rewrite andb_true_r, !andb_assoc.
Qed.

Lemma is_some_map {A B} (f : A -> B) o : is_some (option_map f o) = is_some o.
Proof. now destruct o. Qed.

Lemma valid32_spec s : valid_base32_l s = is_some (b32_decode s).
Proof.
  induction s as [s L | g l G IH] using (chunk_ind 7).
  - destruct s as [|a [|b [|c [|d [|e [|f [|g [|h s]]]]]]]]; try (cbn in L; lia);
      cbn [valid_base32_l b32_decode]; rewrite orb_false_r; apply tail32_spec.
  - rewrite valid32_group, b32_decode_group, IH, is_b32_vals by exact G.
    destruct (digit_vals v32 g) as [vals|] eqn:D; cbn [is_some andb].
    + now rewrite (tail32_long g l vals G D), is_some_map.
    + rewrite orb_false_r. apply tail32_spec.
Qed.

(* the final group in the shape chars ++ pads, with the value the assembler computes *)
Lemma group_struct chars p b : all_pad p = true -> option_map (decode_bits 5) (digit_vals v32 chars) = Some b ->
  exists chars' p' vals, chars ++ p = chars' ++ p' /\ all_pad p' = true /\
    digit_vals v32 chars' = Some vals /\ decode_bits 5 vals = b.
Proof.
  intros P H. destruct (digit_vals v32 chars) as [vals|] eqn:D; [|discriminate H]. injection H as <-.
  now exists chars, p, vals.
Qed.

Lemma b32_tail_struct s b : b32_tail s = Some b ->
  exists chars p vals, s = chars ++ p /\ all_pad p = true /\
    digit_vals v32 chars = Some vals /\ decode_bits 5 vals = b.
Proof.
  unfold b32_tail.
  destruct s as [|c1 [|c2 [|c3 [|c4 [|c5 [|c6 [|c7 [|c8 [|c9 s]]]]]]]]];
    rewrite ?g32_2_vals, ?g32_4_vals, ?g32_5_vals, ?g32_7_vals; intros H; try discriminate H.
  - injection H as <-. now exists [], [], [].
  - exact (group_struct [c1; c2] [] b eq_refl H).
  - exact (group_struct [c1; c2; c3; c4] [] b eq_refl H).
  - exact (group_struct [c1; c2; c3; c4; c5] [] b eq_refl H).
  - exact (group_struct [c1; c2; c3; c4; c5; c6; c7] [] b eq_refl H).
  - destruct (all_pad [c3; c4; c5; c6; c7; c8]) eqn:P6; [exact (group_struct [c1; c2] _ b P6 H)|].
    destruct (all_pad [c5; c6; c7; c8]) eqn:P4; [exact (group_struct [c1; c2; c3; c4] _ b P4 H)|].
    destruct (all_pad [c6; c7; c8]) eqn:P3; [exact (group_struct [c1; c2; c3; c4; c5] _ b P3 H)|].
    destruct (all_pad [c8]) eqn:P1; [exact (group_struct [c1; c2; c3; c4; c5; c6; c7] _ b P1 H) | discriminate H].
Qed.

Lemma b32_struct s : forall b, b32_decode s = Some b ->
  exists chars p vals, s = chars ++ p /\ all_pad p = true /\
    digit_vals v32 chars = Some vals /\ decode_bits 5 vals = b.
Proof.
  induction s as [s L | g l G IH] using (chunk_ind 7); intros out H.
  - apply b32_tail_struct.
    destruct s as [|a [|b [|c [|d [|e [|f [|g [|h s]]]]]]]]; try (cbn in L; lia); exact H.
  - rewrite b32_decode_group in H by exact G.
    destruct (digit_vals v32 g) as [vals|] eqn:D; [|now apply b32_tail_struct].
    destruct (b32_decode l) as [b'|] eqn:El; [|discriminate H]. injection H as <-.
    destruct (IH b' eq_refl) as (chars & p & vals' & -> & Hp & Hd & <-).
    exists (g ++ chars), p, (vals ++ vals'). repeat split; [apply app_assoc | exact Hp | now apply digit_vals_app |].
    apply (decode_bits_app 5 vals vals' 5); [exact (vals_bound v32 5 v32_facts _ _ Hd)|].
    now rewrite (digit_vals_length _ _ _ D), G.
Qed.

Lemma b32_asm_spec s b : b32_decode s = Some b -> decode_base32 (string_of_list_ascii s) = Some b.
Proof.
  intros H. destruct (b32_struct s b H) as (chars & p & vals & -> & Hp & Hd & <-).
  unfold decode_base32, decode_baseN. rewrite (digit_vals_ext _ _ b32val_v32).
  now apply (decode_struct v32 5 v32_facts).
Qed.

(* every character of an accepted text is an alphabet or pad character *)
Lemma valid32_chars s : valid_base32_l s = true -> forallb (fun c => is_b32 c || is_pad c) s = true.
Proof.
  rewrite valid32_spec. destruct (b32_decode s) as [b|] eqn:E; [|discriminate]. intros _.
  destruct (b32_struct s b E) as (chars & p & vals & -> & Hp & Hd & _).
  apply (struct_chars v32 chars p vals); try assumption; intros c Hc.
  - rewrite is_b32_v32. now destruct (v32 c).
  - change (is_pad c) with (is_padc c). rewrite Hc. apply orb_true_r.
Qed.

(* the converse: alphabet characters in groups, then a final group, decode to their digits *)
Lemma b64_decode_group g l vals : List.length g = 4%nat -> digit_vals v64 g = Some vals ->
  b64_decode (g ++ l) = option_map (app (decode_bits 6 vals)) (b64_decode l).
Proof.
  intros G D. destruct g as [|a [|b [|c [|d [|]]]]]; try discriminate G.
  cbn [digit_vals] in D. cbn [app b64_decode].
  destruct (v64 a) as [x|] eqn:Ea; [|discriminate D]. destruct (v64 b) as [y|] eqn:Eb; [|discriminate D].
  destruct (v64 c) as [z|] eqn:Ec; [|discriminate D]. destruct (v64 d) as [w|] eqn:Ed; [|discriminate D].
  injection D as <-. now rewrite q64_ok by (eapply v64_lt; eassumption).
Qed.

Lemma b64_decode_final cs vals : digit_vals v64 cs = Some vals -> In (List.length cs) [2; 3]%nat ->
  b64_decode (cs ++ repeat pad (4 - List.length cs)) = Some (decode_bits 6 vals).
Proof.
  intros D K. destruct cs as [|a [|b [|c [|d cs]]]]; cbn in K; try (exfalso; lia);
    cbn [digit_vals] in D; cbn [List.length Nat.sub repeat app b64_decode];
    destruct (v64 a) as [x|] eqn:Ea; try discriminate D; destruct (v64 b) as [y|] eqn:Eb; try discriminate D.
  - injection D as <-. now rewrite q64_2_ok by (eapply v64_lt; eassumption).
  - destruct (v64 c) as [z|] eqn:Ec; [|discriminate D]. injection D as <-.
    now rewrite q64_3_ok by (eapply v64_lt; eassumption).
Qed.

Lemma b32_decode_final cs vals (padded : bool) :
  digit_vals v32 cs = Some vals -> In (List.length cs) [2; 4; 5; 7]%nat ->
  b32_decode (cs ++ if padded then repeat pad (8 - List.length cs) else []) = Some (decode_bits 5 vals).
Proof.
  intros D K.
  assert (NP : forall c, In c cs -> is_padc c = false).
  { intros c Hc. destruct (v32 c) as [x|] eqn:E; [exact (v32_not_pad c x E) | now elim (digit_vals_in _ _ _ _ D Hc)]. }
  assert (T : b32_tail (cs ++ if padded then repeat pad (8 - List.length cs) else []) = Some (decode_bits 5 vals)).
  { destruct cs as [|c1 [|c2 [|c3 [|c4 [|c5 [|c6 [|c7 [|c8 cs]]]]]]]]; cbn in K; try (exfalso; lia); destruct padded;
      cbn [List.length Nat.sub repeat app]; unfold b32_tail, all_pad; cbn [forallb]; change (is_padc pad) with true;
      rewrite ?NP by (cbn; tauto); cbn [andb];
      rewrite ?g32_2_vals, ?g32_4_vals, ?g32_5_vals, ?g32_7_vals, D; reflexivity. }
  destruct padded.
  - (* eight characters, a pad among them: not a full group *)
    rewrite <- T, <- (app_nil_r (cs ++ _)), b32_decode_group.
    + rewrite (digit_vals_none v32 _ pad); [reflexivity | | reflexivity].
      apply in_or_app. right. destruct K as [<-|[<-|[<-|[<-|[]]]]]; now left.
    + rewrite app_length, repeat_length. destruct K as [<-|[<-|[<-|[<-|[]]]]]; reflexivity.
  - rewrite <- T.
    destruct cs as [|c1 [|c2 [|c3 [|c4 [|c5 [|c6 [|c7 [|c8 cs]]]]]]]]; try reflexivity. cbn in K. exfalso. lia.
Qed.
