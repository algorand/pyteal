(* Proofs/SlotComposeExamples.v — non-vacuity of the slot-composition theorems on a concrete routine
   (two variables, one with a requested slot id, a loop, a ScratchIndex-style [int <slot>] + [loads]),
   and the necessity of the two hypotheses about the numbers (range of directly accessed slots;
   validity of requested ids). *)
From Coq Require Import List Arith NArith String Bool Lia.
From PV Require Import Base.Bytes AVM.Syntax AVM.Machine Src.Expr Src.Denote
  Comp.Blocks Comp.Lower Comp.Passes Comp.GraphSem Comp.LinearSem Comp.SimCheck Comp.Compile Comp.Assemble
  Proofs.LowerFrame Proofs.LowerCorrect Proofs.LowerShape Proofs.NormalizeLowered
  Proofs.FlattenCorrect Proofs.SortCorrect
  Proofs.EndToEndExits Proofs.EndToEndGlue Proofs.EndToEnd Proofs.EndToEndExamples
  Proofs.SlotCompose Proofs.SlotComposeAssign Proofs.SlotComposeEnd Proofs.SlotComposeCover Proofs.SlotComposeFinal.
Import ListNotations.

(* variable [acc]: slot object 0, created as ScratchVar(TealType.uint64, 7) (requested id 7)
   variable [i]  : slot object 300, automatic *)
Definition v_acc : N := 0.
Definition v_i : N := 300.
Definition s_int (n : N) : expr := EOp O_int [AInt n] TUint [].
Definition s_ld (u : N) : expr := EOp O_load [ASlot u] TUint [].
Definition s_st (u : N) (e : expr) : expr := EOp O_store [ASlot u] TNone [e].

(* acc := 0; i := 0; while i < 3 { acc := acc + 2; i := i + 1 };
   return loads(int <slot of acc>)        -- ScratchVar.index() + DynamicScratchVar-style read *)
Definition sl_ast : expr :=
  ESeq [ s_st v_acc (s_int 0);
         s_st v_i (s_int 0);
         EWhile (EOp O_lt [] TUint [s_ld v_i; s_int 3])
                (ESeq [ s_st v_acc (ENary O_add TUint [s_ld v_acc; s_int 2]);
                        s_st v_i (ENary O_add TUint [s_ld v_i; s_int 1]) ]);
         EReturn (Some (EOp O_loads [] TUint [EOp O_int [ASlot v_acc] TUint []])) ].

Definition sl_prog : prog := mkProgram sl_ast [] [(v_acc, (7%N, true))].

Definition sl_cr : croutine := cr_of opts0 sl_ast.

Definition sl_res : list croutine * list (option N * list N) * list (N * N) :=
  match assign_slots sl_prog [sl_cr] with COk r => r | CErr _ => ([], [], []) end.
Definition sl_asg : list (N * N) := snd sl_res.
Notation sl_look := (look_of sl_asg).
Notation sl_cr' := (rw_routine (look_of sl_asg) sl_cr).
Definition sl_order : list id := order_of sl_cr'.
Definition sl_code : list comp := code_of sl_cr'.

(* an environment whose own variable numbering is unrelated to the assignment (uid |-> uid + 100) *)
Definition sl_env0 : denv := mkEnv ex_ctx (fun n => (n + 100)%N) [] [] false main_param.
Definition sl_final : mstate :=
  match denote (with_asg sl_env0 sl_look) 100 (root_ast sl_ast) [] ex_st with DExit _ st => st | _ => ex_st end.

Example sl_assignment : sl_look v_acc = 7%N /\ sl_look v_i = 0%N /\ routine_slots sl_cr = [v_acc; v_i].
Proof. vm_compute. repeat split; reflexivity. Qed.

Example sl_requested_valid : requested_valid sl_prog (all_slots [sl_cr]).
Proof.
  apply requested_valid_of_table. intros u i [E|[]]. injection E as _ <-. reflexivity.
Qed.

(* every hypothesis of [routine_end_to_end_assigned] holds; the run it predicts is the run the linear
   machine computes (in an environment whose e_asg is NOT the assignment); the code has no placeholder *)
Example routine_end_to_end_assigned_example :
  compile_one opts0 None sl_ast = COk sl_cr /\
  head_loop (root_ast sl_ast) = false /\
  assign_slots sl_prog [sl_cr] = COk sl_res /\
  In sl_cr' (fst (fst sl_res)) /\
  sort_blocks (cr_graph sl_cr') (cr_start sl_cr') (cr_end sl_cr') = Some sl_order /\
  flatten_blocks (cr_graph sl_cr') sl_order = Some sl_code /\
  code_slots sl_code = [] /\
  consistent sl_env0 (routine_ctx opts0 None) /\
  denote (with_asg sl_env0 sl_look) 100 (root_ast sl_ast) [] ex_st = DExit (VI 6) sl_final /\
  lstar sl_env0 sl_code (LAt 0 [] ex_st) (LExit (VI 6) sl_final) /\
  lrun 200 sl_env0 sl_code (LAt 0 [] ex_st) = LExit (VI 6) sl_final /\
  scratch_get (s_scratch sl_final) 7 = VI 6 /\ scratch_get (s_scratch sl_final) 0 = VI 3.
Proof.
  (* everything that is a computation, in one evaluation: the routine and the assignment are then computed once *)
  assert (EV : compile_one opts0 None sl_ast = COk sl_cr /\
               assign_slots sl_prog [sl_cr] = COk sl_res /\
               sort_blocks (cr_graph sl_cr') (cr_start sl_cr') (cr_end sl_cr') = Some sl_order /\
               flatten_blocks (cr_graph sl_cr') sl_order = Some sl_code /\
               denote (with_asg sl_env0 sl_look) 100 (root_ast sl_ast) [] ex_st = DExit (VI 6) sl_final /\
               lrun 200 sl_env0 sl_code (LAt 0 [] ex_st) = LExit (VI 6) sl_final /\
               scratch_get (s_scratch sl_final) 7 = VI 6 /\ scratch_get (s_scratch sl_final) 0 = VI 3)
    by (vm_compute; repeat split; reflexivity).
  destruct EV as (E & HA & HS & HF & Dn & Run & Fin).
  assert (HL : head_loop (root_ast sl_ast) = false) by reflexivity.
  assert (Hc : consistent sl_env0 (routine_ctx opts0 None)) by (apply consistent_main; reflexivity).
  assert (HA' : assign_slots sl_prog [sl_cr] = COk (fst (fst sl_res), snd (fst sl_res), sl_asg))
    by (rewrite HA; unfold sl_asg; destruct sl_res as [[a b] c]; reflexivity).
  destruct (routine_end_to_end_assigned opts0 None sl_ast sl_cr sl_prog [sl_cr] _ _ sl_asg eq_refl E HL
              (or_introl eq_refl) HA' sl_requested_valid) as [Hin T].
  destruct (T sl_order sl_code HS HF) as (_ & NS & T').
  split; [exact E|]. split; [exact HL|]. split; [exact HA|]. split; [exact Hin|].
  split; [exact HS|]. split; [exact HF|]. split; [exact NS|]. split; [exact Hc|]. split; [exact Dn|].
  split; [|split; [exact Run|exact Fin]].
  apply (T' sl_env0 Hc 100 [] ex_st). rewrite Dn. reflexivity.
Qed.

(* the emitted code as TEAL text: what the real compiler prints for the same program (checked on /repo:
   compileTeal(..., version=6, optimize_scratch_slots off) gives these lines with labels main_l1/main_l3) *)
Example sl_code_text :
  assemble_all sl_code =
  Some [ "int 0"; "store 7"; "int 0"; "store 0"; "l1:"; "load 0"; "int 3"; "<"; "bz l3";
         "load 7"; "int 2"; "+"; "store 7"; "load 0"; "int 1"; "+"; "store 0"; "b l1"; "l3:";
         "int 7"; "loads"; "return" ]%string.
Proof. vm_compute. reflexivity. Qed.

(* the linear-level theorem on the same routine: the un-assigned code under the assignment as
   environment, and its rewrite, step in lock step; the rewrite IS the code the pipeline emits *)
Example rewrite_preserves_example :
  let code0 := code_of sl_cr in
  let env := with_asg sl_env0 sl_look in
  slots_ok env sl_look (code_slots code0) /\
  code_slots code0 <> [] /\
  rw_code sl_look code0 = sl_code /\
  (forall c, lstep env (rw_code sl_look code0) c = lstep env code0 c) /\
  lrun 200 env code0 (LAt 0 [] ex_st) = LExit (VI 6) sl_final.
Proof.
  intros code0 env.
  assert (Hok : slots_ok env sl_look (code_slots code0)).
  { intros u Hu. split; [reflexivity|].
    assert (Hs : forallb (fun u => N.ltb (sl_look u) 256) (code_slots code0) = true) by (vm_compute; reflexivity).
    rewrite forallb_forall in Hs. apply N.ltb_lt. exact (Hs u Hu). }
  split; [exact Hok|]. split; [vm_compute; discriminate|]. split; [vm_compute; reflexivity|].
  split; [exact (proj1 (rewrite_preserves env sl_look code0 Hok))|vm_compute; reflexivity].
Qed.

(* necessity of the range hypothesis:
   agreement alone is not enough: a variable numbered 300 can be read in the abstract semantics (a cell of
   its own, no range check) while [load 300] fails on the AVM.  (Not constructible in PyTeal: the
   ScratchSlot constructor rejects requested ids outside 0..255 and automatic numbers are below the
   number of slots, which is at most 256.) *)
Example rewrite_needs_range :
  exists (env : denv) (look : N -> N) (code : list comp) (c : lconf),
    agree_on env look (code_slots code) /\
    lstep env code c = Some (LAt 1 [VI 0] ex_st) /\
    lstep env (rw_code look code) c = Some LFail.
Proof.
  exists (with_asg sl_env0 (fun _ => 300%N)), (fun _ => 300%N), [COp (mkI O_load [ASlot 0])], (LAt 0 [] ex_st).
  split; [intros u _; reflexivity|]. split; vm_compute; reflexivity.
Qed.

(* the same at pipeline level: a program record claiming requested id 300 for [acc] passes assign_slots of
   the model; the emitted code fails where the source semantics exits with 6 *)
Definition bad_ast : expr := ESeq [ s_st v_acc (s_int 5); EReturn (Some (s_ld v_acc)) ].
Definition bad_prog : prog := mkProgram bad_ast [] [(v_acc, (300%N, true))].
Definition bad_cr : croutine := cr_of opts0 bad_ast.
Definition bad_asg : list (N * N) :=
  match assign_slots bad_prog [bad_cr] with COk r => snd r | CErr _ => [] end.
Definition bad_code : list comp := code_of (rw_routine (look_of bad_asg) bad_cr).

Example slots_needs_requested_valid :
  compile_one opts0 None bad_ast = COk bad_cr /\
  (exists crs' locals, assign_slots bad_prog [bad_cr] = COk (crs', locals, bad_asg)) /\
  ~ requested_valid bad_prog (all_slots [bad_cr]) /\
  (exists st', denote (with_asg sl_env0 (look_of bad_asg)) 100 (root_ast bad_ast) [] ex_st = DExit (VI 5) st') /\
  lrun 200 sl_env0 bad_code (LAt 0 [] ex_st) = LFail.
Proof.
  split; [vm_compute; reflexivity|].
  split; [eexists; eexists; vm_compute; reflexivity|].
  split.
  - intros H. assert (X : (sid bad_prog v_acc < 256)%N).
    { apply H; [vm_compute; left; reflexivity|reflexivity]. }
    vm_compute in X. discriminate X.
  - split; [eexists; vm_compute; reflexivity|vm_compute; reflexivity].
Qed.

(* each variable a cell of its own, on the example *)
Example sl_no_alias : sl_look v_acc <> sl_look v_i.
Proof.
  assert (HA : assign_slots sl_prog [sl_cr] = COk (fst (fst sl_res), snd (fst sl_res), sl_asg)) by (vm_compute; reflexivity).
  apply (assigned_cells_disjoint sl_prog [sl_cr] _ _ sl_asg HA); [vm_compute; tauto|vm_compute; tauto|discriminate].
Qed.
