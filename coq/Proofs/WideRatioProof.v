(* Proofs/WideRatioProof.v — C16: the op list WideRatio emits computes the exact quotient or fails. *)
From Coq Require Import List NArith Lia Bool.
From PV Require Import Base.U64 AVM.Syntax AVM.Ops Comp.WideRatio.
Import ListNotations.
Local Open Scope N_scope.

Lemma run_pure_app a b s :
  run_pure (a ++ b) s = match run_pure a s with Some s' => run_pure b s' | None => None end.
Proof.
  revert s; induction a as [|i a IH]; intros s; cbn [app run_pure]; [reflexivity|].
  destruct (exec_pure (i_op i) (i_args i) s); auto.
Qed.

(* the code of a constant factor pushes it *)
Lemma run_const v s : v < U64 -> run_pure (const_code v) s = Some (VI v :: s).
Proof.
  intros H. apply N.ltb_lt in H. cbn [const_code I1 run_pure i_op i_args exec_pure].
  unfold oki, fits64. rewrite H. reflexivity.
Qed.

Lemma run_const_app v ops s : v < U64 -> run_pure (const_code v ++ ops) s = run_pure ops (VI v :: s).
Proof. intros H. rewrite run_pure_app, run_const by exact H. reflexivity. Qed.

(* a 128-bit number p is held as the two stack words hi64 p, lo64 p *)
Lemma join128 p : hi64 p * U64 + lo64 p = p.
Proof. unfold hi64, lo64. rewrite N.mul_comm. symmetry. apply N.div_mod. discriminate. Qed.

Lemma hi64_add x y : hi64 (x * U64 + y) = x + hi64 y.
Proof. apply N.div_add_l. discriminate. Qed.

Lemma lo64_add x y : lo64 (x * U64 + y) = lo64 y.
Proof. unfold lo64. rewrite N.add_comm. apply N.mod_add. discriminate. Qed.

Lemma ltb128_hi p : (p <? U128) = (hi64 p <? U64).
Proof.
  unfold hi64.
  destruct (N.ltb_spec p U128) as [L|L], (N.ltb_spec (p / U64) U64) as [H|H]; try reflexivity; exfalso.
  - apply (N.div_lt_upper_bound p U64 U64) in L; [lia|discriminate].
  - apply (N.div_le_lower_bound p U64 U64) in L; [lia|discriminate].
Qed.

Lemma word64 a : a < U64 -> (a <? U128) = true /\ hi64 a = 0 /\ lo64 a = a.
Proof.
  intros H. split; [exact (proj2 (N.ltb_lt a U128) (N.lt_trans a U64 U128 H eq_refl))|].
  split; [apply N.div_small|apply N.mod_small]; exact H.
Qed.

Lemma mul64_ltb128 a b : a < U64 -> b < U64 -> (a * b <? U128) = true.
Proof. intros Ha Hb. apply N.ltb_lt, N.mul_lt_mono; assumption. Qed.

(* the 8-op multiply step: the 128-bit number (hi, lo) times the word c, or failure; no bound on
   hi, lo, c is needed.  ([cbv], because [cbn] stops at [N.to_nat 2] in uncover/cover/dig.) *)
Lemma mul_step_run hi lo c r :
  run_pure mul_step_ops (VI c :: VI lo :: VI hi :: r) =
  let P := (hi * U64 + lo) * c in
  if P <? U128 then Some (VI (lo64 P) :: VI (hi64 P) :: r) else None.
Proof.
  cbv zeta. rewrite ltb128_hi.
  replace ((hi * U64 + lo) * c) with (hi * c * U64 + lo * c) by ring.
  rewrite hi64_add, lo64_add.
  (* the ops fail unless hi*c fits a word, and then unless hi*c + hi64 (lo*c) does *)
  cbv -[N.ltb N.mul N.add hi64 lo64 U64].
  destruct (N.ltb_spec (hi * c) U64) as [A|A].
  - cbv -[N.ltb N.mul N.add hi64 lo64 U64].
    destruct (hi * c + hi64 (lo * c) <? U64); reflexivity.
  - destruct (N.ltb_spec (hi * c + hi64 (lo * c)) U64); [lia|reflexivity].
Qed.

(* factors 3..n of multiplyFactors, from the running product p *)
Lemma rest_run cs : forall p r, Forall (fun c => c < U64) cs ->
  run_pure (flat_map (fun f => f ++ mul_step_ops) (map const_code cs)) (VI (lo64 p) :: VI (hi64 p) :: r) =
  if running_ok p cs
  then Some (VI (lo64 (fold_left N.mul cs p)) :: VI (hi64 (fold_left N.mul cs p)) :: r) else None.
Proof.
  induction cs as [|c cs IH]; intros p r Hall; cbn [map flat_map running_ok fold_left]; [reflexivity|].
  inversion Hall as [|? ? Hc Hcs]; subst.
  rewrite <- app_assoc, run_const_app, run_pure_app, mul_step_run, join128 by exact Hc. cbv zeta.
  destruct (p * c <? U128); [apply IH; exact Hcs|reflexivity].
Qed.

(* multiplyFactors on constant factors leaves (hi, lo) of the product, or fails *)
Lemma multiply_factors_spec ns r :
  ns <> [] -> Forall (fun c => c < U64) ns ->
  run_pure (multiply_factors (map const_code ns)) r =
  if running_ok 1 ns then Some (VI (lo64 (prod ns)) :: VI (hi64 (prod ns)) :: r) else None.
Proof.
  intros Hne Hall. destruct Hall as [|a ns Ha Hns]; [congruence|].
  destruct (word64 a Ha) as (A & Eh & El).
  unfold prod. cbn [running_ok fold_left]. rewrite N.mul_1_l, A.
  destruct Hns as [|b cs Hb Hcs]; cbn [map multiply_factors running_ok fold_left andb].
  - (* int 0 below the single factor is its high word *)
    rewrite Eh, El. exact (run_const a (VI 0 :: r) Ha).
  - rewrite !run_const_app by assumption. cbn [app run_pure I0 i_op i_args exec_pure].
    rewrite rest_run, (mul64_ltb128 a b Ha Hb) by exact Hcs. reflexivity.
Qed.

Lemma combine_run pn pd r :
  run_pure combine_ops (VI (lo64 pd) :: VI (hi64 pd) :: VI (lo64 pn) :: VI (hi64 pn) :: r) =
  if negb (pd =? 0) && (pn / pd <? U64) then Some (VI (pn / pd) :: r) else None.
Proof.
  cbv -[N.eqb N.ltb N.mul N.add N.div N.modulo hi64 lo64 U64]. rewrite !join128.
  destruct (pd =? 0); [reflexivity|].
  cbv -[N.eqb N.ltb N.mul N.add N.div N.modulo hi64 lo64 U64].
  destruct (N.ltb_spec (pn / pd) U64) as [L|L].
  - destruct (word64 _ L) as (_ & -> & ->). reflexivity.
  - destruct (N.eqb_spec (hi64 (pn / pd)) 0) as [E|E]; [|reflexivity].
    apply N.div_small_iff in E; [lia|discriminate].
Qed.

Lemma running_ok_lt l : forall acc, running_ok acc l = true -> acc < U128 ->
  fold_left N.mul l acc < U128.
Proof.
  induction l as [|x t IH]; intros acc R Hacc; cbn [fold_left running_ok] in *; [exact Hacc|].
  apply andb_true_iff in R as [R1 R2]. apply N.ltb_lt in R1. apply IH; assumption.
Qed.

Theorem wide_ratio_exact ns ds r :
  ns <> [] -> ds <> [] ->
  Forall (fun c => c < U64) ns -> Forall (fun c => c < U64) ds ->
  run_pure (wide_ratio_ops (map const_code ns) (map const_code ds)) r =
  match wide_ratio_spec ns ds with
  | Some q => Some (VI q :: r)
  | None => None
  end.
Proof.
  intros Hn Hd Fn Fd. unfold wide_ratio_ops, wide_ratio_spec.
  rewrite run_pure_app, multiply_factors_spec by assumption.
  destruct (running_ok 1 ns); cbn [andb]; [|reflexivity].
  rewrite run_pure_app, multiply_factors_spec by assumption.
  destruct (running_ok 1 ds); cbn [andb]; [|reflexivity].
  rewrite combine_run.
  destruct (negb (prod ds =? 0) && (prod ns / prod ds <? U64)); reflexivity.
Qed.

Lemma wide_ratio_spec_meaning ns ds q : wide_ratio_spec ns ds = Some q ->
  running_ok 1 ns = true /\ running_ok 1 ds = true /\ prod ds <> 0 /\
  q = prod ns / prod ds /\ q < U64.
Proof.
  unfold wide_ratio_spec. intros H.
  destruct (running_ok 1 ns); cbn [andb] in H; [|discriminate].
  destruct (running_ok 1 ds); cbn [andb] in H; [|discriminate].
  destruct (N.eqb_spec (prod ds) 0) as [E|E]; cbn [negb andb] in H; [discriminate|].
  destruct (N.ltb_spec (prod ns / prod ds) U64) as [L|L]; [|discriminate].
  inversion H; subst. auto.
Qed.

(* Non-vacuity: a concrete non-trivial instance on each side of the boundary. *)
Example wide_ratio_example_ok :
  run_pure (wide_ratio_ops (map const_code [MAXU64; 4611686018427387904; 3]) (map const_code [4611686018427387904; 7])) [] =
  Some [VI 7905747460161236406].
Proof.
  rewrite wide_ratio_exact by (discriminate || (repeat constructor)).
  vm_compute. reflexivity.
Qed.

Example wide_ratio_example_overflow :
  run_pure (wide_ratio_ops (map const_code [MAXU64; MAXU64; 2]) (map const_code [1; 1])) [] = None.
Proof.
  rewrite wide_ratio_exact by (discriminate || (repeat constructor)).
  vm_compute. reflexivity.
Qed.
