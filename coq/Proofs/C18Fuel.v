(* Proofs/C18Fuel.v — the source evaluator is monotone in its fuel: once [denote] returns an outcome
   other than "out of fuel", every larger fuel returns the same outcome. *)
From Coq Require Import List Arith NArith String Bool Lia.
From PV Require Import AVM.Syntax AVM.Machine Src.Expr Src.Denote Proofs.DenoteRel.
Import ListNotations.

Definition den_t := expr -> list value -> mstate -> dout.

(* d2 agrees with d1 wherever d1 has an answer *)
Definition dle (d1 d2 : den_t) : Prop :=
  forall e stk st, d1 e stk st <> DFuel -> d2 e stk st = d1 e stk st.

Lemma bind_fuel r k : r = DFuel -> bind r k = DFuel.
Proof. intros ->. reflexivity. Qed.

(* "The same outcome unless the first is out of fuel", for continuations run on the same stack and state, is a
   relation that the control combinators preserve (Proofs/DenoteRel.v). *)
Definition same (s : list value) (st : mstate) (s' : list value) (st' : mstate) : Prop := s' = s /\ st' = st.
Definition mono (r r' : dout) : Prop := r <> DFuel -> r' = r.

Lemma mono_K k k' : (forall s st, k s st <> DFuel -> k' s st = k s st) -> Rk same mono k k'.
Proof. intros H s st s' st' [-> ->]. exact (H s st). Qed.

Lemma mono_ctl r r' kN kN' kB kB' kC kC' : mono r r' ->
  Rk same mono kN kN' -> Rk same mono kB kB' -> Rk same mono kC kC' -> mono (ctl r kN kB kC) (ctl r' kN' kB' kC').
Proof.
  intros Hr KN KB KC H.
  assert (N : r <> DFuel) by (intros E; apply H; rewrite E; reflexivity).
  rewrite (Hr N). destruct r; cbn [ctl] in *; try reflexivity; [apply KN|apply KB|apply KC]; (split; reflexivity) || exact H.
Qed.

Lemma mono_sel y y' n n' : Rk same mono y y' -> Rk same mono n n' -> Rk same mono (sel y n) (sel y' n').
Proof.
  intros Hy Hn s st s' st' [-> ->]. unfold sel. destruct s as [|v s1]; cbn [branch]; [intros _; reflexivity|].
  destruct (truthy v) as [[|]|]; [apply Hy|apply Hn|intros _; reflexivity]; split; reflexivity.
Qed.

Lemma mono_same c : Rk same mono c c.
Proof. intros s st s' st' [-> ->] _. reflexivity. Qed.

Lemma mono_respects : respects same mono.
Proof.
  split; [exact mono_ctl|exact mono_sel|exact (mono_same _)..|intros _; reflexivity|intros r H; destruct (H eq_refl)].
Qed.

Lemma bind_mono r1 r2 k1 k2 :
  bind r1 k1 <> DFuel ->
  (r1 <> DFuel -> r2 = r1) ->
  (forall s st, k1 s st <> DFuel -> k2 s st = k1 s st) ->
  bind r2 k2 = bind r1 k1.
Proof.
  intros H Hr Hk. exact (bind_rel same mono mono_respects r1 r2 k1 k2 Hr (mono_K _ _ Hk) H).
Qed.

Lemma branch_mono r1 r2 y1 y2 n1 n2 :
  branch r1 y1 n1 <> DFuel ->
  (r1 <> DFuel -> r2 = r1) ->
  (forall s st, y1 s st <> DFuel -> y2 s st = y1 s st) ->
  (forall s st, n1 s st <> DFuel -> n2 s st = n1 s st) ->
  branch r2 y2 n2 = branch r1 y1 n1.
Proof.
  intros H Hr Hy Hn.
  exact (branch_rel same mono mono_respects r1 r2 y1 y2 n1 n2 Hr (mono_K _ _ Hy) (mono_K _ _ Hn) H).
Qed.

Lemma after_body_mono r1 r2 a1 a2 :
  after_body r1 a1 <> DFuel ->
  (r1 <> DFuel -> r2 = r1) ->
  (forall s st, a1 s st <> DFuel -> a2 s st = a1 s st) ->
  after_body r2 a2 = after_body r1 a1.
Proof.
  intros H Hr Ha. exact (after_body_rel same mono mono_respects r1 r2 a1 a2 Hr (mono_K _ _ Ha) H).
Qed.

Lemma hdr_mono r1 r2 a1 a2 :
  hdr r1 a1 <> DFuel ->
  (r1 <> DFuel -> r2 = r1) ->
  (forall s st, a1 s st <> DFuel -> a2 s st = a1 s st) ->
  hdr r2 a2 = hdr r1 a1.
Proof.
  intros H Hr Ha. exact (hdr_rel same mono mono_respects r1 r2 a1 a2 Hr (mono_K _ _ Ha) H).
Qed.

(* The helpers of [denote], for two evaluators and two recipes related piece by piece: wherever [d1]
   has an answer on a piece, [d2] gives the same answer on its counterpart. *)
Section Helpers.
  Variable env : denv.
  Variables d1 d2 : den_t.
  Variable R : expr -> expr -> Prop.
  Hypothesis D : forall e e', R e e' -> forall stk st, d1 e stk st <> DFuel -> d2 e' stk st = d1 e stk st.

  Lemma D_K e e' : R e e' -> Rk same mono (d1 e) (d2 e').
  Proof. intros H. exact (mono_K _ _ (D e e' H)). Qed.

  Lemma den_list_mono l l' : Forall2 R l l' -> forall stk st,
    den_list d1 l stk st <> DFuel -> den_list d2 l' stk st = den_list d1 l stk st.
  Proof.
    intros F stk st.
    exact (den_list_rel same mono mono_respects d1 d2 R D_K l l' F stk st stk st (conj eq_refl eq_refl)).
  Qed.

  Lemma den_nary_rest_mono o l l' : Forall2 R l l' -> forall stk st,
    den_nary_rest env d1 o l stk st <> DFuel -> den_nary_rest env d2 o l' stk st = den_nary_rest env d1 o l stk st.
  Proof.
    induction 1 as [|x y l l' Hxy _ IH]; intros stk st H; cbn [den_nary_rest] in *; [reflexivity|].
    apply bind_mono; [exact H|apply D, Hxy|]. intros s2 st2 H2.
    apply bind_mono; [exact H2|reflexivity|intros s3 st3; apply IH].
  Qed.

  Lemma den_cond_mono l l' :
    Forall2 (fun a a' => R (fst a) (fst a') /\ R (snd a) (snd a')) l l' -> forall stk st,
    den_cond d1 l stk st <> DFuel -> den_cond d2 l' stk st = den_cond d1 l stk st.
  Proof.
    intros F stk st.
    exact (den_cond_rel same mono mono_respects d1 d2 R D_K l l' F stk st stk st (conj eq_refl eq_refl)).
  Qed.

  Lemma den_asserts_mono l l' : Forall2 R l l' -> forall stk st,
    den_asserts d1 l stk st <> DFuel -> den_asserts d2 l' stk st = den_asserts d1 l stk st.
  Proof.
    intros F stk st.
    exact (den_asserts_rel same mono mono_respects d1 d2 R D_K l l' F stk st stk st (conj eq_refl eq_refl)).
  Qed.

  Lemma den_wide_rest_mono l l' : Forall2 R l l' -> forall stk st,
    den_wide_rest env d1 l stk st <> DFuel -> den_wide_rest env d2 l' stk st = den_wide_rest env d1 l stk st.
  Proof.
    induction 1 as [|x y l l' Hxy _ IH]; intros stk st H; cbn [den_wide_rest] in *; [reflexivity|].
    apply bind_mono; [exact H|apply D, Hxy|]. intros s2 st2 H2.
    apply bind_mono; [exact H2|reflexivity|intros s3 st3; apply IH].
  Qed.

  Lemma den_factors_mono l l' : Forall2 R l l' -> forall stk st,
    den_factors env d1 l stk st <> DFuel -> den_factors env d2 l' stk st = den_factors env d1 l stk st.
  Proof.
    intros Hl stk st H. destruct Hl as [|f0 g0 l l' H0 Hl]; [reflexivity|].
    destruct Hl as [|f1 g1 l l' H1 Hl]; cbn [den_factors] in *.
    - apply bind_mono; [exact H|reflexivity|intros s st'; apply D, H0].
    - apply bind_mono; [exact H|apply D, H0|]. intros s1 st1 Hb1.
      apply bind_mono; [exact Hb1|apply D, H1|]. intros s2 st2 Hb2.
      apply bind_mono; [exact Hb2|reflexivity|intros s3 st3; apply den_wide_rest_mono, Hl].
  Qed.

  Lemma den_while_mono c c' b b' : R c c' -> R b b' -> forall n1 n2 stk st, n1 <= n2 ->
    den_while d1 n1 c b stk st <> DFuel -> den_while d2 n2 c' b' stk st = den_while d1 n1 c b stk st.
  Proof.
    intros Hc Hb n1 n2 stk st L.
    exact (den_while_rel same mono mono_respects d1 d2 R D_K c c' b b' Hc Hb n1 n2 L stk st stk st (conj eq_refl eq_refl)).
  Qed.

  Lemma den_for_mono c c' s s' b b' : R c c' -> R s s' -> R b b' -> forall n1 n2 stk st, n1 <= n2 ->
    den_for d1 n1 c s b stk st <> DFuel -> den_for d2 n2 c' s' b' stk st = den_for d1 n1 c s b stk st.
  Proof.
    intros Hc Hs Hb n1 n2 stk st L.
    exact (den_for_rel same mono mono_respects d1 d2 R D_K c c' s s' b b' Hc Hs Hb
             n1 n2 L stk st stk st (conj eq_refl eq_refl)).
  Qed.
End Helpers.

Lemma Forall2_same {A} (P : A -> A -> Prop) l : (forall x, P x x) -> Forall2 P l l.
Proof. intros H. induction l; constructor; auto. Qed.

Lemma Forall2_mono {A B} (P Q : A -> B -> Prop) l l' :
  (forall a b, P a b -> Q a b) -> Forall2 P l l' -> Forall2 Q l l'.
Proof. intros H. induction 1; constructor; auto. Qed.

Section Mono.
  Variable env : denv.

  Lemma denote_mono_S : forall f, dle (denote env f) (denote env (S f)).
  Proof.
    induction f as [|f IH]; intros e stk st H; [cbn in H; congruence|].
    assert (D : forall e e', e = e' -> forall stk st, denote env f e stk st <> DFuel ->
                  denote env (S f) e' stk st = denote env f e stk st) by (intros a ? <-; apply IH).
    assert (L : forall l : list expr, Forall2 eq l l) by (intros l; apply Forall2_same; reflexivity).
    destruct e; cbn [denote] in H |- *.
    - apply bind_mono; [exact H|apply (den_list_mono _ _ eq D), L|reflexivity].
    - destruct args as [|a1 rest]; [reflexivity|].
      apply bind_mono; [exact H|apply IH|intros s st'; apply (den_nary_rest_mono env _ _ eq D), L].
    - apply (den_list_mono _ _ eq D); [apply L|exact H].
    - apply branch_mono; [exact H|apply IH|intros s st'; apply IH|].
      intros s st'. destruct el; [apply IH|reflexivity].
    - apply (den_cond_mono _ _ eq D); [apply Forall2_same; split; reflexivity|exact H].
    - apply (den_while_mono _ _ eq D); [reflexivity|reflexivity|lia|exact H].
    - apply hdr_mono; [exact H|apply IH|]. intros s st'. apply (den_for_mono _ _ eq D); [reflexivity..|lia].
    - reflexivity.
    - reflexivity.
    - apply (den_asserts_mono _ _ eq D); [apply L|exact H].
    - destruct v as [x|]; [|reflexivity].
      apply bind_mono; [exact H|apply IH|reflexivity].
    - apply bind_mono; [exact H|apply IH|reflexivity].
    - apply bind_mono; [exact H|apply (den_list_mono _ _ eq D), L|reflexivity].
    - reflexivity.
    - apply bind_mono; [exact H|apply (den_factors_mono env _ _ eq D), L|].
      intros s1 st1 H1.
      apply bind_mono; [exact H1|apply (den_factors_mono env _ _ eq D), L|reflexivity].
    - reflexivity.
  Qed.

  Theorem denote_fuel_mono : forall f f' e stk st,
    f <= f' -> denote env f e stk st <> DFuel -> denote env f' e stk st = denote env f e stk st.
  Proof.
    intros f f' e stk st L. induction L as [|m L IH]; intros H; [reflexivity|].
    rewrite <- (IH H). apply denote_mono_S. rewrite (IH H). exact H.
  Qed.
End Mono.
