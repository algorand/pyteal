(* Proofs/NormalizeCorrect.v — TealBlock.NormalizeBlocks preserves behaviour (C01, stage
   "normalize") and what it does to the parent pointers (C20).  The statements, for the pass bodies
   of pyteal's code since /repo 39fa261 and of its code before that commit; the proofs (an invariant
   of each pass body, whatever the walk) are in CallX/NormalizeCorrect.v, for the semantics with a
   call oracle; the graph surgery does not mention the semantics at all. *)
From Coq Require Import List Arith NArith String Bool Lia.
From PV Require Import Base.Bytes AVM.Syntax AVM.Machine Src.Expr Src.Denote
  Comp.Blocks Comp.Lower Comp.Passes Comp.GraphSem Comp.SimCheck
  Proofs.LowerFrame Proofs.NormalizeSem Proofs.NormalizeGraph Proofs.IncomingProof Proofs.OracleTransfer.
From PV Require CallX.NormalizeCorrect.
Import ListNotations.

(* an invariant of a pass body is an invariant of the pass, whatever the walk *)
Lemma norm_iter_inv (body : graph -> id -> id -> graph * id) (P : graph -> id -> Prop) :
  (forall g s w g' s', P g s -> body g s w = (g', s') -> P g' s') ->
  forall fuel g s q v g' s', P g s -> norm_iter body fuel g s q v = (g', s') -> P g' s'.
Proof. exact (CallX.NormalizeCorrect.norm_iter_inv body P). Qed.

Lemma reach_trans g s a b : reach g s a -> reach g a b -> reach g s b.
Proof. exact (CallX.NormalizeCorrect.reach_trans g s a b). Qed.

(* what one step of either pass does to the graph *)
Section Gen.
  Variable ro : block -> id -> id -> block.

  Definition mg2 (g : graph) (w prev : id) (bb : block) : graph :=
    set_inc (set_blk g w (set_ops bb (get_ops g prev ++ b_ops bb))) w (g_inc g prev).
  Definition mg3 (g : graph) (w prev : id) (bb : block) : graph :=
    fold_left (f1 ro prev w) (g_inc g prev) (mg2 g w prev bb).
  Definition ms (prev s w : id) : id := if Nat.eqb prev s then w else s.

  Lemma gbody1_cases g s w g' s' :
    gbody1 ro g s w = (g', s') ->
    (g' = g /\ s' = s) \/
    exists prev bb, g_inc g w = [prev] /\ out_of g prev = [w] /\ g_blk g w = Some bb /\
                    g' = mg3 g w prev bb /\ s' = ms prev s w.
  Proof. exact (CallX.NormalizeCorrect.gbody1_cases ro g s w g' s'). Qed.

  Definition bg1 (g : graph) (w ob : id) : graph := set_inc g ob (remove_first w (g_inc g ob)).
  Definition bg2 (g : graph) (w ob : id) : graph :=
    fold_left (f2 ro w ob) (g_inc (bg1 g w ob) w) (bg1 g w ob).
  Definition bs (fixstart : bool) (s w ob : id) : id := if fixstart && Nat.eqb w s then ob else s.

  Lemma gbody2_cases fs ss g s w g' s' :
    gbody2 ro fs ss g s w = (g', s') ->
    (g' = g /\ s' = s) \/
    exists ob, get_ops g w = [] /\ out_of g w = [ob] /\ (ss = true -> ob <> w) /\
               g' = bg2 g w ob /\ s' = bs fs s w ob.
  Proof. exact (CallX.NormalizeCorrect.gbody2_cases ro fs ss g s w g' s'). Qed.
End Gen.

Theorem normalize_correct env g s g' s' :
  cond_full g -> inc_covers g s -> g_inc g s = [] ->
  normalize g s = (g', s') ->
  equiv_from env (g_blk g) s (g_blk g') s'.
Proof.
  intros F C Hs E. apply equiv_from_lift.
  exact (CallX.NormalizeCorrect.normalize_correct (lift env) g s g' s' F C Hs E).
Qed.

(* the invariant behind validateTree's assertion *)
Theorem normalize_tinv g s g' s' :
  cond_full g -> inc_covers g s -> (forall x, NoDup (g_inc g x)) ->
  normalize g s = (g', s') ->
  cond_full g' /\ inc_covers g' s' /\ (forall x, NoDup (g_inc g' x)).
Proof. exact (CallX.NormalizeCorrect.normalize_tinv g s g' s'). Qed.

Theorem normalize_shape g s g' s' :
  cond_full g -> normalize g s = (g', s') ->
  g_next g' = g_next g /\ forall i, g_blk g' i = None <-> g_blk g i = None.
Proof. exact (CallX.NormalizeCorrect.normalize_shape g s g' s'). Qed.

(* pass 2: by-passing an empty single-successor block preserves the observable behaviour from EVERY
   block (the by-passed one included: it still leads to its successor), whatever the incoming lists
   contain; when the by-passed block was the start, the new start is its successor *)
Theorem norm_body2_preserves env g s w g' s' :
  cond_full g -> norm_body2 g s w = (g', s') ->
  cond_full g' /\ equiv_from env (g_blk g) s (g_blk g') s' /\
  forall i, equiv_from env (g_blk g) i (g_blk g') i.
Proof.
  intros F E. destruct (CallX.NormalizeCorrect.norm_body2_preserves (lift env) g s w g' s' F E) as (A & B & C).
  split; [exact A|]. split; [|intros i]; apply equiv_from_lift; auto.
Qed.

(* pass 1: one merge step is a two-to-one simulation, and keeps the invariant *)
Theorem norm_body1_preserves env g s w g' s' :
  cond_full g -> inc_covers g s -> g_inc g s = [] ->
  norm_body1 g s w = (g', s') ->
  equiv_from env (g_blk g) s (g_blk g') s' /\
  cond_full g' /\ inc_covers g' s' /\ g_inc g' s' = [].
Proof.
  intros F C Hs E.
  destruct (CallX.NormalizeCorrect.norm_body1_preserves (lift env) g s w g' s' F C Hs E) as (A & B).
  split; [apply equiv_from_lift; exact A|exact B].
Qed.

(* pyteal's code before /repo 39fa261 ([normalize_pinned]) and with the first hunk of that commit
   alone ([normalize_startfix]) preserved behaviour too (the defects were AssertionErrors, not
   miscompilations) — but the [elif] replacement needs the two branches of every reachable
   conditional block to differ *)
Theorem normalize_pinned_correct env g s g' s' :
  cond_full g ->
  (forall p b, reach g s p -> g_blk g p = Some b -> dist_b b) ->
  inc_covers g s -> g_inc g s = [] ->
  normalize_pinned g s = (g', s') ->
  equiv_from env (g_blk g) s (g_blk g') s'.
Proof.
  intros F D C Hs E. apply equiv_from_lift.
  exact (CallX.NormalizeCorrect.normalize_pinned_correct (lift env) g s g' s' F D C Hs E).
Qed.

Theorem normalize_startfix_correct env g s g' s' :
  cond_full g ->
  (forall p b, reach g s p -> g_blk g p = Some b -> dist_b b) ->
  inc_covers g s -> g_inc g s = [] ->
  normalize_startfix g s = (g', s') ->
  equiv_from env (g_blk g) s (g_blk g') s'.
Proof.
  intros F D C Hs E. apply equiv_from_lift.
  exact (CallX.NormalizeCorrect.normalize_startfix_correct (lift env) g s g' s' F D C Hs E).
Qed.

(* [norm_cert] (Comp/SimCheck.v) decides the side conditions of [normalize_correct] *)
Theorem norm_cert_sound env g s g' s' :
  wf g -> norm_cert g s = true -> normalize g s = (g', s') ->
  equiv_from env (g_blk g) s (g_blk g') s'.
Proof.
  intros W H E. apply equiv_from_lift.
  exact (CallX.NormalizeCorrect.norm_cert_sound (lift env) g s g' s' W H E).
Qed.

(* from the graph as lowering leaves it (no incoming lists yet): addIncoming then NormalizeBlocks *)
Theorem add_incoming_normalize_correct env g s g' s' :
  wf g -> (forall b, g_inc g b = []) ->
  cond_full g ->
  (forall p, reach g s p -> ~ In s (out_of g p)) ->
  normalize (fst (add_incoming g s)) s = (g', s') ->
  equiv_from env (g_blk g) s (g_blk g') s'.
Proof.
  intros W Z F Hs E. apply equiv_from_lift.
  exact (CallX.NormalizeCorrect.add_incoming_normalize_correct (lift env) g s g' s' W Z F Hs E).
Qed.

(* parent pointers: validateTree's assertion survives NormalizeBlocks *)
Theorem normalize_keeps_tree_valid g s g' s' :
  wf g -> cond_full g -> (forall x, NoDup (g_inc g x)) ->
  validate_tree g s = true ->
  normalize g s = (g', s') ->
  validate_tree g' s' = true.
Proof. exact (CallX.NormalizeCorrect.normalize_keeps_tree_valid g s g' s'). Qed.

(* the whole sequence of compile_one on a graph without incoming lists: addIncoming, validateTree,
   NormalizeBlocks, validateTree — neither assertion fires *)
Theorem add_incoming_normalize_tree_valid g s g' s' :
  wf g -> cond_full g -> (forall b, NoDup (g_inc g b)) ->
  normalize (fst (add_incoming g s)) s = (g', s') ->
  validate_tree (fst (add_incoming g s)) s = true /\ validate_tree g' s' = true.
Proof. exact (CallX.NormalizeCorrect.add_incoming_normalize_tree_valid g s g' s'). Qed.
