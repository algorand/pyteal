(* Proofs/ABIIndexAsm.v — where things are inside an ARC-4 head/tail encoding ([Spec.assemble]):
   position of a static member, of a bool's bit, of a dynamic member's head cell and tail; total length. *)
From Coq Require Import List NArith Arith Ascii String Bool Lia.
From PV Require Import Base.Bytes Base.U64 AVM.Syntax AVM.Ops ABI.Types ABI.Spec
  Proofs.ABISpecProof Proofs.ABIIndexBits.
Import ListNotations.
Local Open Scope N_scope.

Definition nlen {A} (l : list A) : N := N.of_nat (List.length l).

(* position bookkeeping on the element list: (bytes emitted before the pending run, pending bools) *)
Fixpoint spos (l : list eenc) (np pos : N) : N * N :=
  match l with
  | [] => (pos, np)
  | EB _ :: r => spos r (np + 1) pos
  | ES bs :: r => spos r 0 (pos + bool_seq_len np + blen bs)
  | ED _ :: r => spos r 0 (pos + bool_seq_len np + 2)
  end.

Fixpoint tails_of (l : list eenc) : bytes :=
  match l with
  | [] => []
  | ED bs :: r => bs ++ tails_of r
  | _ :: r => tails_of r
  end.

Definition is_ED (e : eenc) : bool := match e with ED _ => true | _ => false end.
Definition no_dyn (l : list eenc) : bool := forallb (fun e => negb (is_ED e)) l.

Lemma spos_app : forall l1 l2 np pos,
    spos (l1 ++ l2) np pos = spos l2 (snd (spos l1 np pos)) (fst (spos l1 np pos)).
Proof.
  induction l1 as [|e r IH]; intros l2 np pos; [reflexivity|].
  destruct e; cbn [app spos]; apply IH.
Qed.

Lemma spos_shift : forall l np pos, spos l np pos = (pos + fst (spos l np 0), snd (spos l np 0)).
Proof.
  induction l as [|e r IH]; intros np pos.
  - cbn. f_equal. lia.
  - destruct e; cbn [spos].
    + apply IH.
    + rewrite IH. rewrite (IH 0 (0 + bool_seq_len np + blen bs)). cbn [fst snd]. f_equal. lia.
    + rewrite IH. rewrite (IH 0 (0 + bool_seq_len np + 2)). cbn [fst snd]. f_equal. lia.
Qed.

Lemma tails_of_app : forall l1 l2, tails_of (l1 ++ l2) = tails_of l1 ++ tails_of l2.
Proof.
  induction l1 as [|e r IH]; intro l2; [reflexivity|].
  destruct e; cbn [app tails_of]; rewrite IH; [reflexivity|reflexivity|apply app_assoc].
Qed.

Lemma tails_of_no_dyn : forall l, no_dyn l = true -> tails_of l = [].
Proof.
  induction l as [|e r IH]; intro H; [reflexivity|].
  cbn in H. apply andb_true_iff in H as [He Hr]. destruct e; cbn in *; try discriminate; auto.
Qed.

Lemma nlen_cons : forall {A} (x : A) l, nlen (x :: l) = nlen l + 1.
Proof. intros. unfold nlen. cbn [List.length]. lia. Qed.

Lemma pack_rev'_len : forall p, blen (pack_bools (rev' p)) = bool_seq_len (nlen p).
Proof. intro p. rewrite pack_bools_len, rev'_rev, rev_length. reflexivity. Qed.

Lemma head_len_spos : forall l np, head_len l np = fst (spos l np 0) + bool_seq_len (snd (spos l np 0)).
Proof.
  induction l as [|e r IH]; intro np.
  - cbn. lia.
  - destruct e; cbn [head_len spos].
    + apply IH.
    + rewrite spos_shift. cbn [fst snd]. rewrite IH. lia.
    + rewrite spos_shift. cbn [fst snd]. rewrite IH. lia.
Qed.

(* [asm] after a prefix l1: head bytes emitted, bools still pending, and the rest assembled behind l1's tails *)
Lemma asm_app_inv : forall l1 l2 pend off h t,
    asm (l1 ++ l2) pend off = Some (h, t) ->
    exists h1 p h2 t2,
      asm l2 p (off + blen (tails_of l1)) = Some (h2, t2) /\ h = h1 ++ h2 /\ t = tails_of l1 ++ t2 /\
      blen h1 = fst (spos l1 (nlen pend) 0) /\ nlen p = snd (spos l1 (nlen pend) 0).
Proof.
  induction l1 as [|e r IH]; intros l2 pend off h t H.
  - exists [], pend, h, t. cbn. rewrite N.add_0_r. auto.
  - destruct e as [b|bs|bs]; cbn [app asm] in H; cbn [spos tails_of].
    + apply IH in H as (h1 & p & h2 & t2 & Ha & -> & -> & A & B). rewrite nlen_cons in A, B.
      exists h1, p, h2, t2. auto.
    + apply obind_some in H as [[h' t'] [H1 H2]]. injection H2 as <- <-.
      apply IH in H1 as (h1 & p & h2 & t2 & Ha & -> & -> & A & B). change (nlen []) with 0 in A, B.
      exists (pack_bools (rev' pend) ++ bs ++ h1), p, h2, t2. rewrite spos_shift. cbn [fst snd].
      rewrite !blen_app, pack_rev'_len, A, <- !app_assoc. repeat split; auto. lia.
    + apply obind_some in H as [o16 [Ho H]]. apply obind_some in H as [[h' t'] [H1 H2]]. injection H2 as <- <-.
      apply u16_len in Ho as (Ho & _ & _).
      apply IH in H1 as (h1 & p & h2 & t2 & Ha & -> & -> & A & B). change (nlen []) with 0 in A, B.
      exists (pack_bools (rev' pend) ++ o16 ++ h1), p, h2, t2. rewrite spos_shift. cbn [fst snd].
      rewrite !blen_app, pack_rev'_len, A, Ho, N.add_assoc, <- !app_assoc. repeat split; auto. lia.
Qed.

Lemma asm_spec : forall l pend off h t,
    asm l pend off = Some (h, t) -> blen h = head_len l (nlen pend) /\ t = tails_of l.
Proof.
  intros l pend off h t H. rewrite <- (app_nil_r l) in H.
  apply asm_app_inv in H as (h1 & p & h2 & t2 & Ha & -> & -> & A & B). injection Ha as <- <-.
  rewrite blen_app, pack_rev'_len, A, B, head_len_spos, app_nil_r. auto.
Qed.

(* whatever follows, the pending bools are flushed in one packed group that starts with them *)
Lemma asm_flush : forall l pend off h t,
    asm l pend off = Some (h, t) -> exists more h3, h = pack_bools (rev pend ++ more) ++ h3.
Proof.
  induction l as [|e r IH]; intros pend off h t H.
  - cbn in H. injection H as <- <-. exists [], []. rewrite rev'_rev, !app_nil_r. reflexivity.
  - destruct e as [b|bs|bs]; cbn [asm] in H.
    + apply IH in H as (more & h3 & ->). exists (b :: more), h3. cbn [rev]. rewrite <- app_assoc. reflexivity.
    + apply obind_some in H as [[h' t'] [_ H2]]. injection H2 as <- <-.
      exists [], (bs ++ h'). rewrite rev'_rev, app_nil_r. reflexivity.
    + apply obind_some in H as [o16 [_ H]]. apply obind_some in H as [[h' t'] [_ H2]]. injection H2 as <- <-.
      exists [], (o16 ++ h'). rewrite rev'_rev, app_nil_r. reflexivity.
Qed.

Lemma assemble_split : forall es enc l1 e l2,
    assemble es = Some enc -> es = l1 ++ e :: l2 ->
    exists h1 p h2 t2,
      asm (e :: l2) p (head_len es 0 + blen (tails_of l1)) = Some (h2, t2) /\
      enc = (h1 ++ h2) ++ (tails_of l1 ++ t2) /\
      blen h1 = fst (spos l1 0 0) /\ nlen p = snd (spos l1 0 0) /\
      blen (h1 ++ h2) = head_len es 0.
Proof.
  intros es enc l1 e l2 H ->. unfold assemble in H.
  apply obind_some in H as [[h t] [H1 H2]]. injection H2 as <-. cbn [fst snd].
  pose proof (asm_spec _ _ _ _ _ H1) as [Hh _]. change (nlen []) with 0 in Hh.
  apply asm_app_inv in H1 as (h1 & p & h2 & t2 & Ha & -> & -> & A & B). change (nlen []) with 0 in A, B.
  exists h1, p, h2, t2. auto.
Qed.

(* a static member sits at its head position *)
Lemma access_static : forall es enc l1 bs l2,
    assemble es = Some enc -> es = l1 ++ ES bs :: l2 ->
    exists a c, enc = a ++ bs ++ c /\
                blen a = fst (spos l1 0 0) + bool_seq_len (snd (spos l1 0 0)).
Proof.
  intros es enc l1 bs l2 H E.
  destruct (assemble_split _ _ _ _ _ H E) as (h1 & p & h2 & t2 & Ha & -> & A & B & _).
  cbn [asm] in Ha. apply obind_some in Ha as [[h' t'] [_ H2]]. injection H2 as <- <-.
  exists (h1 ++ pack_bools (rev' p)), (h' ++ tails_of l1 ++ t').
  split; [rewrite <- !app_assoc; reflexivity|].
  rewrite blen_app, pack_rev'_len, A, B. reflexivity.
Qed.

(* a bool member is bit (8 * run start + position in run) *)
Lemma access_bool : forall es enc l1 b l2,
    assemble es = Some enc -> es = l1 ++ EB b :: l2 ->
    get_bit_bytes enc (8 * fst (spos l1 0 0) + snd (spos l1 0 0)) = Some (b2N b).
Proof.
  intros es enc l1 b l2 H E.
  destruct (assemble_split _ _ _ _ _ H E) as (h1 & p & h2 & t2 & Ha & -> & A & B & _).
  cbn [asm] in Ha. apply asm_flush in Ha as (more & h3 & ->).
  rewrite <- A, <- B. unfold blen, nlen.
  replace (8 * N.of_nat (List.length h1) + N.of_nat (List.length p))
    with (N.of_nat (8 * List.length h1 + List.length p)) by lia.
  rewrite get_bit_bytes_bit_at. rewrite <- !app_assoc. rewrite bit_at_app.
  assert (Hl : (List.length p < 8 * List.length (pack_bools (rev (b :: p) ++ more)))%nat).
  { pose proof (pack_bools_len (rev (b :: p) ++ more)) as L. unfold blen in L.
    pose proof (bool_seq_len_bounds (N.of_nat (List.length (rev (b :: p) ++ more)))).
    rewrite app_length, rev_length in *. cbn [List.length] in *. lia. }
  rewrite bit_at_app_l, pack_bools_bit by exact Hl. cbn [option_map]. do 2 f_equal.
  cbn [rev]. rewrite <- app_assoc. rewrite app_nth2 by (rewrite rev_length; lia).
  rewrite rev_length, Nat.sub_diag. reflexivity.
Qed.

(* a dynamic member: its head cell holds the offset of its tail; the tail is followed by the tails of
   the later dynamic members *)
Lemma access_dyn : forall es enc l1 bs l2,
    assemble es = Some enc -> es = l1 ++ ED bs :: l2 ->
    let o := head_len es 0 + blen (tails_of l1) in
    o < 65536 /\
    slice enc (fst (spos l1 0 0) + bool_seq_len (snd (spos l1 0 0))) 2 = Some (be_encode 2 o) /\
    exists a, enc = a ++ bs ++ tails_of l2 /\ blen a = o.
Proof.
  intros es enc l1 bs l2 H E o.
  destruct (assemble_split _ _ _ _ _ H E) as (h1 & p & h2 & t2 & Ha & -> & A & B & Hh).
  cbn [asm] in Ha. apply obind_some in Ha as [o16 [Ho Ha]].
  apply obind_some in Ha as [[h' t'] [Hr H2]]. injection H2 as <- <-.
  apply u16_len in Ho as (Ho2 & -> & Hlt). fold o in Hlt, Hr.
  split; [exact Hlt|]. split.
  - unfold slice. eapply bsub_mid' with (a := h1 ++ pack_bools (rev' p)) (c := h' ++ tails_of l1 ++ bs ++ t').
    + rewrite <- !app_assoc. reflexivity.
    + rewrite blen_app, pack_rev'_len, A, B. reflexivity.
    + rewrite be_encode_len. reflexivity.
  - apply asm_spec in Hr as [_ ->].
    exists ((h1 ++ pack_bools (rev' p) ++ be_encode 2 o ++ h') ++ tails_of l1). split.
    + rewrite <- !app_assoc. reflexivity.
    + rewrite blen_app. unfold o. rewrite Hh. reflexivity.
Qed.

(* ... and the head cell of the next dynamic member holds the end of that tail *)
Lemma access_dyn_next : forall es enc l1 bs m bs' l3,
    assemble es = Some enc -> es = l1 ++ ED bs :: m ++ ED bs' :: l3 -> no_dyn m = true ->
    let o := head_len es 0 + blen (tails_of l1) in
    let p := spos m 0 (fst (spos l1 0 0) + bool_seq_len (snd (spos l1 0 0)) + 2) in
    o + blen bs < 65536 /\ slice enc (fst p + bool_seq_len (snd p)) 2 = Some (be_encode 2 (o + blen bs)).
Proof.
  intros es enc l1 bs m bs' l3 H E Hm o p.
  assert (E2 : es = (l1 ++ ED bs :: m) ++ ED bs' :: l3) by (rewrite E, <- app_assoc; reflexivity).
  pose proof (access_dyn _ _ _ _ _ H E2) as (Ho & Hs & _).
  rewrite spos_app in Hs. cbn [spos] in Hs. rewrite tails_of_app in Ho, Hs. cbn [tails_of] in Ho, Hs.
  rewrite (tails_of_no_dyn _ Hm), app_nil_r, blen_app, N.add_assoc in Ho, Hs. split; assumption.
Qed.

Lemma assemble_len : forall es enc, assemble es = Some enc -> blen enc = head_len es 0 + blen (tails_of es).
Proof.
  intros es enc H. unfold assemble in H. apply obind_some in H as [[h t] [H1 H2]]. injection H2 as <-.
  apply asm_spec in H1 as [A ->]. cbn [fst snd]. rewrite blen_app, A. reflexivity.
Qed.

(* the last member, when static, is followed by the tails only *)
Lemma access_static_last : forall es enc l1 bs,
    assemble es = Some enc -> es = l1 ++ [ES bs] ->
    exists a, enc = a ++ bs ++ tails_of l1 /\
              blen a = fst (spos l1 0 0) + bool_seq_len (snd (spos l1 0 0)).
Proof.
  intros es enc l1 bs H E.
  destruct (assemble_split _ _ _ _ _ H E) as (h1 & p & h2 & t2 & Ha & -> & A & B & _).
  cbn in Ha. injection Ha as <- <-.
  exists (h1 ++ pack_bools (rev' p)).
  split; [rewrite <- !app_assoc, !app_nil_r; reflexivity|].
  rewrite blen_app, pack_rev'_len, A, B. reflexivity.
Qed.

Lemma spos_fst_ge : forall l np pos, pos <= fst (spos l np pos).
Proof. intros. rewrite spos_shift. cbn. lia. Qed.

(* nothing dynamic fits in zero head bytes *)
Lemma spos_zero_no_dyn : forall l np,
    fst (spos l np 0) + bool_seq_len (snd (spos l np 0)) = 0 -> no_dyn l = true.
Proof.
  induction l as [|e r IH]; intros np H; [reflexivity|].
  change (no_dyn (e :: r)) with (negb (is_ED e) && no_dyn r)%bool.
  destruct e as [b|bs|bs]; cbn [spos is_ED negb andb] in *.
  - eapply IH; exact H.
  - rewrite spos_shift in H. cbn [fst snd] in H. eapply (IH 0). lia.
  - pose proof (spos_fst_ge r 0 (0 + bool_seq_len np + 2)). lia.
Qed.
