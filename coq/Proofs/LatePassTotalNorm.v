(* Proofs/LatePassTotalNorm.v — NormalizeBlocks keeps what sortBlocks and flattenBlocks rely on:
     * the end block stays reachable from the (possibly moved) start block,
     * every edge of the graph points to a defined block, and the start block is defined.
   As in Proofs/NormalizeCorrect.v the walk is irrelevant: each pass body keeps the invariant for ANY
   block it is applied to ([norm_iter_inv]).  Both bodies act on the edges in the same way: every edge
   into a block w whose only successor is ob (pass 1: w = the merged predecessor, ob = the block;
   pass 2: w = the by-passed empty block, ob = its successor) is re-pointed to ob or left alone, no other
   edge changes, and w keeps its edge to ob — so a path to the end block (which is not w: it has no
   successor) survives with w cut out. *)
From Coq Require Import List Arith NArith String Bool Lia.
From PV Require Import Base.Bytes AVM.Syntax Src.Expr
  Comp.Blocks Comp.Lower Comp.Passes Comp.SimCheck
  Proofs.LowerFrame Proofs.NormalizeSem Proofs.NormalizeGraph Proofs.NormalizeCorrect
  Proofs.EndToEndExits Proofs.EndToEndGlue Proofs.LatePassTotalReach Proofs.SortCorrect.
Import ListNotations.

Local Notation reach := SortCorrect.reach.

Definition erel (w ob : id) (b b' : block) : Prop :=
  (forall x, In x (outgoing b) -> In x (outgoing b') \/ (x = w /\ In ob (outgoing b'))) /\
  (forall x, In x (outgoing b') -> In x (outgoing b) \/ x = ob).

Lemma osub_fwd old new o o' x : osub old new o o' -> oin x o -> oin x o' \/ (x = old /\ oin new o').
Proof.
  unfold oin. intros [H|[H H']] E; subst; [left; reflexivity|].
  right. injection E as E. split; [congruence|reflexivity].
Qed.

Lemma esub_erel w ob b0 b b' : outgoing b0 = outgoing b -> esub w ob b0 b' -> erel w ob b b'.
Proof.
  intros Eo H. split; intros x Hx.
  - rewrite <- Eo in Hx. revert Hx. rewrite !in_outgoing.
    destruct b0 as [o n|o t f], b' as [o' n'|o' t' f']; cbn in H; try tauto.
    + destruct H as [_ H]. apply osub_fwd. exact H.
    + destruct H as (_ & H1 & H2). intros [E|E].
      * destruct (osub_fwd _ _ _ _ _ H1 E) as [K|[K K']]; tauto.
      * destruct (osub_fwd _ _ _ _ _ H2 E) as [K|[K K']]; tauto.
  - rewrite <- Eo. destruct (esub_out _ _ _ _ _ H Hx) as [K|[_ K]]; [left; exact K|right; exact K].
Qed.

Definition grel (w ob : id) (g g' : graph) : Prop :=
  forall i, match g_blk g i with
            | None => g_blk g' i = None
            | Some b => exists b', g_blk g' i = Some b' /\ erel w ob b b'
            end.

Lemma grel_fwd w ob g g' p x : grel w ob g g' ->
  In x (out_of g p) -> In x (out_of g' p) \/ (x = w /\ In ob (out_of g' p)).
Proof.
  intros H I. specialize (H p). unfold out_of in *. destruct (g_blk g p) as [b|]; [|destruct I].
  destruct H as (b' & E & [F _]). rewrite E. exact (F x I).
Qed.

Lemma grel_bwd w ob g g' p x : grel w ob g g' ->
  In x (out_of g' p) -> In x (out_of g p) \/ x = ob.
Proof.
  intros H I. specialize (H p). unfold out_of in *. destruct (g_blk g p) as [b|].
  - destruct H as (b' & E & [_ B]). rewrite E in I. exact (B x I).
  - rewrite H in I. destruct I.
Qed.

Lemma grel_dom w ob g g' i : grel w ob g g' -> g_blk g i <> None -> g_blk g' i <> None.
Proof.
  intros H N. specialize (H i). destruct (g_blk g i) as [b|]; [|congruence].
  destruct H as (b' & E & _). rewrite E. discriminate.
Qed.

Definition rdx (w ob x : id) : id := if Nat.eqb x w then ob else x.

Lemma rdx_other w ob x : x <> w -> rdx w ob x = x.
Proof. intros H. unfold rdx. destruct (Nat.eqb_spec x w); [contradiction|reflexivity]. Qed.

Lemma rdx_new w ob : rdx w ob ob = ob.
Proof. unfold rdx. destruct (Nat.eqb_spec ob w); reflexivity. Qed.

(* paths survive, with w cut out *)
Lemma grel_reach w ob g g' s x : grel w ob g g' -> out_of g w = [ob] ->
  reach g s x -> reach g' (rdx w ob s) (rdx w ob x).
Proof.
  intros H O R. induction R as [|p x R IH Hx]; [apply reach_refl|].
  assert (Wob : In ob (out_of g' w)).
  { assert (I : In ob (out_of g w)) by (rewrite O; left; reflexivity).
    destruct (grel_fwd _ _ _ _ _ _ H I) as [K|[_ K]]; exact K. }
  destruct (Nat.eq_dec p w) as [Q|Q].
  - subst p. rewrite O in Hx. destruct Hx as [Hx|[]]. subst x. rewrite rdx_new.
    unfold rdx in IH. rewrite Nat.eqb_refl in IH. exact IH.
  - rewrite (rdx_other _ _ _ Q) in IH.
    destruct (grel_fwd _ _ _ _ _ _ H Hx) as [K|[K1 K2]].
    + destruct (Nat.eq_dec x w) as [Qx|Qx].
      * subst x. unfold rdx at 2. rewrite Nat.eqb_refl.
        eapply reach_step; [eapply reach_step; [exact IH|exact K]|exact Wob].
      * rewrite (rdx_other _ _ _ Qx). eapply reach_step; [exact IH|exact K].
    + subst x. unfold rdx at 2. rewrite Nat.eqb_refl. eapply reach_step; [exact IH|exact K2].
Qed.

(* every edge points to a defined block *)
Definition dclosed (g : graph) : Prop := forall p x, In x (out_of g p) -> g_blk g x <> None.

Lemma grel_dclosed w ob g g' : grel w ob g g' -> out_of g w = [ob] -> dclosed g -> dclosed g'.
Proof.
  intros H O D p x I.
  assert (Dob : g_blk g ob <> None) by (apply (D w); rewrite O; left; reflexivity).
  destruct (grel_bwd _ _ _ _ _ _ H I) as [K|K].
  - eapply grel_dom; [exact H|exact (D p x K)].
  - subst x. eapply grel_dom; eauto.
Qed.

Lemma body1_grel g s w g' s' :
  gbody1 replace_outgoing g s w = (g', s') ->
  (g' = g /\ s' = s) \/
  exists prev, out_of g prev = [w] /\ grel prev w g g' /\ s' = rdx prev w s.
Proof.
  intros E. apply gbody1_cases in E.
  destruct E as [[E1 E2]|(prev & bb & Hi & Ho & Hb & E1 & E2)]; [left; auto|]. right. subst g' s'.
  exists prev. split; [exact Ho|]. split.
  - intros i.
    pose proof (fold1_blk replace_outgoing replace_outgoing_esub prev w (g_inc g prev) (mg2 g w prev bb) i) as K.
    fold (mg3 replace_outgoing g w prev bb) in K.
    assert (B : g_blk (mg2 g w prev bb) i =
                if Nat.eqb i w then Some (set_ops bb (get_ops g prev ++ b_ops bb)) else g_blk g i) by reflexivity.
    rewrite B in K. destruct (Nat.eqb_spec i w) as [Q|Q].
    + subst i. rewrite Hb. destruct K as (b' & K1 & K2). exists b'. split; [exact K1|].
      eapply esub_erel; [|exact K2]. apply outgoing_set_ops.
    + destruct (g_blk g i) as [b|]; [|exact K].
      destruct K as (b' & K1 & K2). exists b'. split; [exact K1|eapply esub_erel; [reflexivity|exact K2]].
  - unfold ms, rdx. rewrite (Nat.eqb_sym s prev). reflexivity.
Qed.

Lemma body2_grel g s w g' s' :
  gbody2 replace_outgoing true true g s w = (g', s') ->
  (g' = g /\ s' = s) \/
  exists ob, out_of g w = [ob] /\ grel w ob g g' /\ s' = rdx w ob s.
Proof.
  intros E. apply gbody2_cases in E.
  destruct E as [[E1 E2]|(ob & Hg & Ho & Hs & E1 & E2)]; [left; auto|]. right. subst g' s'.
  exists ob. split; [exact Ho|]. split.
  - intros i.
    pose proof (fold2_blk replace_outgoing replace_outgoing_esub w ob (g_inc (bg1 g w ob) w) (bg1 g w ob) i) as K.
    fold (bg2 replace_outgoing g w ob) in K.
    change (g_blk (bg1 g w ob) i) with (g_blk g i) in K.
    destruct (g_blk g i) as [b|]; [|exact K].
    destruct K as (b' & K1 & K2). exists b'. split; [exact K1|eapply esub_erel; [reflexivity|exact K2]].
  - unfold bs, rdx. cbn [andb]. rewrite (Nat.eqb_sym s w). reflexivity.
Qed.

Definition late_inv (en : id) (g : graph) (s : id) : Prop :=
  exits_at g en /\ reach g s en /\ dclosed g /\ g_blk g s <> None.

Lemma late_inv_step en w ob g g' s :
  out_of g w = [ob] -> grel w ob g g' -> exits_at g' en ->
  late_inv en g s -> late_inv en g' (rdx w ob s).
Proof.
  intros O H X' (X & R & D & Ds).
  assert (Ne : en <> w).
  { intros Q. subst w. destruct X as [_ (ops & Be)]. unfold out_of in O. rewrite Be in O. discriminate O. }
  split; [exact X'|]. split; [|split].
  - pose proof (grel_reach _ _ _ _ _ _ H O R) as K. rewrite (rdx_other _ _ _ Ne) in K. exact K.
  - eapply grel_dclosed; eauto.
  - unfold rdx. destruct (Nat.eqb_spec s w) as [Q|Q].
    + eapply grel_dom; [exact H|]. apply (D w). rewrite O. left. reflexivity.
    + eapply grel_dom; eauto.
Qed.

Theorem normalize_late_inv g s g' s' en :
  normalize g s = (g', s') -> late_inv en g s -> late_inv en g' s'.
Proof.
  intros E X. rewrite <- gnormalize_faithful in E. unfold gnormalize in E.
  destruct (norm_iter (gbody1 replace_outgoing) (S (g_next g)) g s [s] [s]) as [ga sa] eqn:E1.
  assert (A : late_inv en ga sa).
  { refine (norm_iter_inv (gbody1 replace_outgoing) (late_inv en) _ _ _ _ _ _ _ _ X E1).
    intros h t w h' t' Hh Eb.
    pose proof (body1_exits _ _ _ _ _ en Eb (proj1 Hh)) as X'.
    destruct (body1_grel _ _ _ _ _ Eb) as [[Q1 Q2]|(prev & O & G & Q)]; subst; [exact Hh|].
    eapply late_inv_step; eauto. }
  refine (norm_iter_inv (gbody2 replace_outgoing true true) (late_inv en) _ _ _ _ _ _ _ _ A E).
  intros h t w h' t' Hh Eb.
  pose proof (body2_exits _ _ _ _ _ _ _ en Eb (proj1 Hh)) as X'.
  destruct (body2_grel _ _ _ _ _ Eb) as [[Q1 Q2]|(ob & O & G & Q)]; subst; [exact Hh|].
  eapply late_inv_step; eauto.
Qed.

(* consequences used by the late passes *)
Lemma dclosed_reach_defined g s x : dclosed g -> g_blk g s <> None -> reach g s x -> g_blk g x <> None.
Proof. intros D Ds R. destruct R as [|p x R Hx]; [exact Ds|exact (D p x Hx)]. Qed.
