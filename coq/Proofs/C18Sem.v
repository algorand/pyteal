(* Proofs/C18Sem.v — C18, behaviour: two recipes that differ only by annotations (Comment wrappers,
   stand-alone Comments between statements, Assert comments, Nonce, Pragma) have the same outcome
   under the source semantics, for every stack and state; through [lower_correct] their lowered
   block graphs reach the same configurations. *)
From Coq Require Import List Arith NArith Ascii String Bool Lia.
From PV Require Import AVM.Syntax AVM.Machine AVM.Parse Src.Expr Src.Denote Comp.Blocks Comp.Lower Comp.GraphSem
  Comp.Annotate Proofs.LowerFrame Proofs.LowerLemmas Proofs.LowerCorrect Proofs.C18Fuel.
Import ListNotations.

(* "eventually equal": P F = r for every sufficiently large fuel F *)
Definition ev (P : nat -> dout) (r : dout) : Prop := exists F, forall F', F <= F' -> P F' = r.

Lemma ev_ge n P r : ev P r -> exists F, n <= F /\ forall F', F <= F' -> P F' = r.
Proof. intros [F H]. exists (Nat.max n F). split; [lia|]. intros F' L. apply H. lia. Qed.

Lemma ev_after_body P A r a :
  after_body r a <> DFuel ->
  (r <> DFuel -> ev P r) ->
  (forall s st, a s st <> DFuel -> ev (fun F => A F s st) (a s st)) ->
  ev (fun F => after_body (P F) (A F)) (after_body r a).
Proof.
  intros H Hp Ha.
  assert (N : r <> DFuel) by (intros E; apply H; rewrite E; reflexivity).
  destruct (Hp N) as [F1 H1].
  destruct r as [s st|s st|s st| | | | | |]; cbn [after_body] in *;
    try (exists F1; intros F' L; rewrite (H1 F' L); reflexivity);
    destruct (Ha s st H) as [F2 H2]; exists (Nat.max F1 F2); intros F' L;
    rewrite H1 by lia; cbn [after_body]; apply H2; lia.
Qed.

Lemma ev_hdr P A r a :
  hdr r a <> DFuel ->
  (r <> DFuel -> ev P r) ->
  (forall s st, a s st <> DFuel -> ev (fun F => A F s st) (a s st)) ->
  ev (fun F => hdr (P F) (A F)) (hdr r a).
Proof.
  intros H Hp Ha.
  assert (N : r <> DFuel) by (intros E; apply H; rewrite E; reflexivity).
  destruct (Hp N) as [F1 H1].
  destruct r as [s st| | | | | | | |]; cbn [hdr] in *;
    try (exists F1; intros F' L; rewrite (H1 F' L); reflexivity).
  destruct (Ha s st H) as [F2 H2]. exists (Nat.max F1 F2). intros F' L.
  rewrite H1 by lia. cbn [hdr]. apply H2. lia.
Qed.

Section Sim.
  Variable env : denv.

  Lemma comment_expr_eval f ln stk st : denote env (S f) (comment_expr ln) stk st = DNorm stk st.
  Proof. reflexivity. Qed.

  Lemma comments_eval f lines : forall k stk st,
    den_list (denote env (S f)) (map comment_expr lines ++ k) stk st = den_list (denote env (S f)) k stk st.
  Proof. induction lines as [|l t IH]; intros k stk st; [reflexivity|]. cbn [map app den_list]. rewrite comment_expr_eval. cbn [bind]. apply IH. Qed.

  Lemma bind_ret r : bind r (fun s st => DNorm s st) = r.
  Proof. destruct r; reflexivity. Qed.

  Lemma denote_seq f es stk st : denote env (S f) (ESeq es) stk st = den_list (denote env f) es stk st.
  Proof. reflexivity. Qed.

  (* Comment(text, e) needs exactly one more unit of fuel than e *)
  Lemma comment_eval f text e stk st :
    denote env (S f) (annot_comment text e) stk st = denote env f e stk st.
  Proof.
    unfold annot_comment. rewrite denote_seq.
    destruct f as [|f].
    - destruct (map comment_expr (splitlines text)); reflexivity.
    - rewrite comments_eval. cbn [den_list]. apply bind_ret.
  Qed.

  Lemma comment0_eval_big f text stk st : denote env (S (S f)) (annot_comment0 text) stk st = DNorm stk st.
  Proof.
    unfold annot_comment0. rewrite denote_seq.
    rewrite <- (app_nil_r (map comment_expr (splitlines text))). rewrite comments_eval. reflexivity.
  Qed.

  Lemma comment0_eval f text stk st :
    denote env f (annot_comment0 text) stk st = DNorm stk st \/ denote env f (annot_comment0 text) stk st = DFuel.
  Proof.
    destruct f as [|[|f]]; [right; reflexivity| |left; apply comment0_eval_big].
    unfold annot_comment0. rewrite denote_seq. destruct (splitlines text); [left|right]; reflexivity.
  Qed.

  Lemma nonce_push lit b stk st :
    parse_bytes_arg (tokens_of_line lit) = Some (b, []) ->
    do_op env O_byte [AStr lit] stk st = DNorm (VB b :: stk) st.
  Proof. intros H. unfold do_op. cbn [slot_access args_to_imms arg_to_imm]. rewrite H. reflexivity. Qed.

  Lemma nonce_pop v stk st : do_op env O_pop [] (v :: stk) st = DNorm stk st.
  Proof. reflexivity. Qed.

  (* Nonce(base, nonce, e): push the nonce bytes, pop them, then e *)
  Lemma nonce_eval f lit e stk st : nonce_ok lit ->
    denote env (S (S (S f))) (annot_nonce lit e) stk st = denote env (S (S f)) e stk st.
  Proof.
    intros [b Hb]. unfold annot_nonce. rewrite denote_seq. cbn [den_list].
    change (denote env (S (S f)) (EOp O_pop [] TNone [EOp O_byte [AStr lit] TBytes []]) stk st)
      with (bind (bind (bind (DNorm stk st) (fun s1 st1 => do_op env O_byte [AStr lit] s1 st1))
                       (fun s1 st1 => DNorm s1 st1))
                 (fun s1 st1 => do_op env O_pop [] s1 st1)).
    cbn [bind]. rewrite (nonce_push lit b stk st Hb). cbn [bind]. rewrite nonce_pop. cbn [bind].
    apply bind_ret.
  Qed.

  (* the simulation: [e'] with [K] more units of fuel, or more, does what [e] does *)
  Definition simK (K : nat) (e e' : expr) : Prop :=
    forall f F, f + K <= F -> forall stk st,
      denote env f e stk st <> DFuel -> denote env F e' stk st = denote env f e stk st.

  Definition seqK (K : nat) (l l' : list expr) : Prop :=
    forall f F, f + K <= F -> forall stk st,
      den_list (denote env f) l stk st <> DFuel -> den_list (denote env F) l' stk st = den_list (denote env f) l stk st.

  Lemma simK_le K K' e e' : K <= K' -> simK K e e' -> simK K' e e'.
  Proof. intros L H f F LF. apply H. lia. Qed.

  (* the hypothesis of the helper lemmas of Proofs/C18Fuel.v, for [denote env f] and [denote env F] *)
  Lemma simK_D K f F : f + K <= F -> forall e e', simK K e e' -> forall stk st,
    denote env f e stk st <> DFuel -> denote env F e' stk st = denote env f e stk st.
  Proof. intros L e e' H. exact (H f F L). Qed.

  (* a constructor other than an annotation spends one unit on both sides *)
  Lemma simK_step K e e' :
    (forall f F, f + K <= F -> forall stk st,
       denote env (S f) e stk st <> DFuel -> denote env (S F) e' stk st = denote env (S f) e stk st) ->
    simK K e e'.
  Proof.
    intros H [|f] F L stk st N; [contradiction N; reflexivity|]. destruct F as [|F]; [lia|]. apply H; [lia|exact N].
  Qed.

  Theorem arel_sim_all :
    (forall e e', arel e e' -> exists K, simK K e e') /\
    (forall l l', arel_list l l' -> exists K, Forall2 (simK K) l l') /\
    (forall l l', arel_seq l l' -> exists K, seqK K l l') /\
    (forall l l', arel_arms l l' ->
       exists K, Forall2 (fun a a' => simK K (fst a) (fst a') /\ simK K (snd a) (snd a')) l l').
  Proof.
    apply arel_mutind.
    - (* EOp *)
      intros o imms t a a' _ [K H]. exists K. apply simK_step. intros f F L stk st N. cbn [denote] in N |- *.
      apply bind_mono; [exact N|apply (den_list_mono _ _ _ (simK_D K f F L)), H|reflexivity].
    - (* ENary *)
      intros o t a a' _ [K H]. exists K. apply simK_step. intros f F L stk st N. cbn [denote] in N |- *.
      destruct H as [|a1 b1 rest rest' H1 Hr]; [reflexivity|].
      apply bind_mono; [exact N|apply (simK_D K f F L), H1|].
      intros s st'. apply (den_nary_rest_mono env _ _ _ (simK_D K f F L)), Hr.
    - (* ESeq *)
      intros a a' _ [K H]. exists K. apply simK_step. intros f F L stk st N. exact (H f F L stk st N).
    - (* EIf, no else *)
      intros c c' t t' _ [Kc Hc] _ [Kt Ht]. exists (Kc + Kt). apply simK_step. intros f F L stk st N.
      cbn [denote] in N |- *.
      apply branch_mono; [exact N|apply (Hc f F); lia|intros s st'; apply (Ht f F); lia|reflexivity].
    - (* EIf with else *)
      intros c c' t t' x x' _ [Kc Hc] _ [Kt Ht] _ [Kx Hx]. exists (Kc + Kt + Kx). apply simK_step.
      intros f F L stk st N. cbn [denote] in N |- *.
      apply branch_mono; [exact N|apply (Hc f F); lia|intros s st'; apply (Ht f F); lia|intros s st'; apply (Hx f F); lia].
    - (* ECond *)
      intros a a' _ [K H]. exists K. apply simK_step. intros f F L stk st N. cbn [denote] in N |- *.
      apply (den_cond_mono _ _ _ (simK_D K f F L)); [exact H|exact N].
    - (* EWhile: the bound on the iterations grows with the fuel *)
      intros c c' b b' _ [Kc Hc] _ [Kb Hb]. exists (Kc + Kb). apply simK_step. intros f F L stk st N.
      cbn [denote] in N |- *.
      apply (den_while_mono _ _ _ (simK_D (Kc + Kb) f F L)); [eapply simK_le, Hc|eapply simK_le, Hb| |exact N]; lia.
    - (* EFor *)
      intros i i' c c' s s' b b' _ [Ki Hi] _ [Kc Hc] _ [Ks Hs] _ [Kb Hb]. exists (Ki + Kc + Ks + Kb).
      apply simK_step. intros f F L stk st N. cbn [denote] in N |- *.
      apply hdr_mono; [exact N|apply (Hi f F); lia|]. intros s0 st0.
      apply (den_for_mono _ _ _ (simK_D (Ki + Kc + Ks + Kb) f F L));
        [eapply simK_le, Hc|eapply simK_le, Hs|eapply simK_le, Hb|]; lia.
    - (* EBreak *) exists 0. apply simK_step. reflexivity.
    - (* EContinue *) exists 0. apply simK_step. reflexivity.
    - (* EAssert *)
      intros a a' cm cm' _ [K H]. exists K. apply simK_step. intros f F L stk st N. cbn [denote] in N |- *.
      apply (den_asserts_mono _ _ _ (simK_D K f F L)); [exact H|exact N].
    - (* EReturn None *) exists 0. apply simK_step. reflexivity.
    - (* EReturn Some *)
      intros v v' _ [K H]. exists K. apply simK_step. intros f F L stk st N. cbn [denote] in N |- *.
      apply bind_mono; [exact N|apply (H f F L)|reflexivity].
    - (* EExit *)
      intros v v' _ [K H]. exists K. apply simK_step. intros f F L stk st N. cbn [denote] in N |- *.
      apply bind_mono; [exact N|apply (H f F L)|reflexivity].
    - (* EMulti *)
      intros o imms a a' outs _ [K H]. exists K. apply simK_step. intros f F L stk st N. cbn [denote] in N |- *.
      apply bind_mono; [exact N|apply (den_list_mono _ _ _ (simK_D K f F L)), H|reflexivity].
    - (* ECall *) exists 0. apply simK_step. reflexivity.
    - (* EWide *)
      intros n n' d d' _ [Kn Hn] _ [Kd Hd]. exists (Kn + Kd). apply simK_step. intros f F L stk st N.
      cbn [denote] in N |- *.
      apply bind_mono; [exact N|apply (den_factors_mono env _ _ _ (simK_D Kn f F ltac:(lia))), Hn|].
      intros s1 st1 N1.
      apply bind_mono; [exact N1|apply (den_factors_mono env _ _ _ (simK_D Kd f F ltac:(lia))), Hd|reflexivity].
    - (* EParam *) exists 0. apply simK_step. reflexivity.
    - (* Comment on the left: it spends one unit *)
      intros text e e' _ [K H]. exists K. intros [|f] F L stk st N; [contradiction N; reflexivity|].
      rewrite comment_eval in N |- *. apply (H f F); [lia|exact N].
    - (* Comment on the right *)
      intros text e e' _ [K H]. exists (S K). intros f [|F] L stk st N; [lia|].
      rewrite comment_eval. apply (H f F); [lia|exact N].
    - (* Nonce on the left: with less than three units it runs out of fuel *)
      intros lit e e' Hok _ [K H]. exists K. intros [|[|[|f]]] F L stk st N; try (contradiction N; reflexivity).
      rewrite (nonce_eval f lit e stk st Hok) in N |- *. apply (H (S (S f)) F); [lia|exact N].
    - (* Nonce on the right *)
      intros lit e e' Hok _ [K H]. exists (K + 3). intros f [|[|[|F]]] L stk st N; try lia.
      rewrite (nonce_eval F lit e' stk st Hok). apply (H f (S (S F))); [lia|exact N].
    - exists 0. constructor.
    - intros x y l l' _ [K1 H1] _ [K2 H2]. exists (K1 + K2).
      constructor; [eapply simK_le, H1; lia|]. eapply Forall2_mono, H2. intros a b. apply simK_le. lia.
    - exists 0. intros f F L stk st N. reflexivity.
    - intros x y l l' _ [K1 H1] _ [K2 H2]. exists (K1 + K2). intros f F L stk st N. cbn [den_list] in N |- *.
      apply bind_mono; [exact N|apply (H1 f F); lia|intros s st'; apply (H2 f F); lia].
    - (* a stand-alone Comment on the left: a no-op, if it has the fuel *)
      intros text l l' _ [K H]. exists K. intros f F L stk st N. cbn [den_list] in N |- *.
      destruct (comment0_eval f text stk st) as [E|E]; rewrite E in N |- *; cbn [bind] in N |- *;
        [exact (H f F L stk st N)|contradiction N; reflexivity].
    - (* a stand-alone Comment on the right *)
      intros text l l' _ [K H]. exists (K + 2). intros f [|[|F]] L stk st N; try lia.
      cbn [den_list]. rewrite comment0_eval_big. cbn [bind]. apply (H f (S (S F))); [lia|exact N].
    - exists 0. constructor.
    - intros c c' v v' l l' _ [Kc Hc] _ [Kv Hv] _ [Kl Hl]. exists (Kc + Kv + Kl).
      constructor; [split; cbn [fst snd]; [eapply simK_le, Hc|eapply simK_le, Hv]; lia|].
      eapply Forall2_mono, Hl. intros a b [Ha Hb]. split; [eapply simK_le, Ha|eapply simK_le, Hb]; lia.
  Qed.

  Theorem arel_sim e e' : arel e e' -> exists K, simK K e e'.
  Proof. apply arel_sim_all. Qed.
End Sim.

Lemma arel_list_refl l : Forall (fun e => arel e e) l -> arel_list l l.
Proof. induction 1; constructor; assumption. Qed.

Lemma arel_seq_refl l : Forall (fun e => arel e e) l -> arel_seq l l.
Proof. induction 1; constructor; assumption. Qed.

Lemma arel_arms_refl l : Forall (fun a => arel (fst a) (fst a) /\ arel (snd a) (snd a)) l -> arel_arms l l.
Proof. induction 1 as [|[c v] l [Hc Hv] _ IH]; constructor; assumption. Qed.

(* every constructor of [expr] is related to itself by the congruence rule of the same name *)
Lemma arel_refl : forall e, arel e e.
Proof.
  induction e using expr_ind'; try match goal with H : opt_all _ _ |- _ => destruct H end;
    constructor; auto using arel_list_refl, arel_seq_refl, arel_arms_refl.
Qed.

(* every rule has its mirror image: the congruence rules themselves, and l/r for the annotation rules *)
Lemma arel_sym_all :
  (forall e e', arel e e' -> arel e' e) /\
  (forall l l', arel_list l l' -> arel_list l' l) /\
  (forall l l', arel_seq l l' -> arel_seq l' l) /\
  (forall l l', arel_arms l l' -> arel_arms l' l).
Proof. apply arel_mutind; intros; constructor; assumption. Qed.

Lemma arel_sym e e' : arel e e' -> arel e' e.
Proof. apply arel_sym_all. Qed.

(* the four annotation forms relate a recipe to its annotated version *)
Lemma arel_comment text e : arel e (annot_comment text e).
Proof. apply ar_comment_r. apply arel_refl. Qed.

Lemma arel_nonce lit e : nonce_ok lit -> arel e (annot_nonce lit e).
Proof. intros H. apply ar_nonce_r; [exact H|apply arel_refl]. Qed.

Lemma arel_pragma e : arel e (annot_pragma e).
Proof. apply arel_refl. Qed.

Lemma arel_assert_comment conds cm text : arel (EAssert conds cm) (annot_assert conds text).
Proof. apply ar_assert. apply arel_list_refl. apply Forall_forall. intros x _. apply arel_refl. Qed.

Lemma arel_seq_insert text xs ys : arel (ESeq (xs ++ ys)) (ESeq (xs ++ annot_comment0 text :: ys)).
Proof.
  apply ar_seq. induction xs as [|x t IH]; cbn [app].
  - apply ars_ins_r. apply arel_seq_refl. apply Forall_forall. intros x _. apply arel_refl.
  - apply ars_cons; [apply arel_refl|exact IH].
Qed.

(* [evaluates env e stk st r]: the source semantics gives outcome r (with enough fuel) *)
Definition evaluates (env : denv) (e : expr) (stk : list value) (st : mstate) (r : dout) : Prop :=
  r <> DFuel /\ exists f, denote env f e stk st = r.

Theorem annotation_behaviour : forall env e e', arel e e' ->
  forall stk st r, evaluates env e stk st r <-> evaluates env e' stk st r.
Proof.
  assert (X : forall env e e', arel e e' -> forall stk st r, evaluates env e stk st r -> evaluates env e' stk st r).
  { intros env e e' H stk st r [N [f E]]. split; [exact N|].
    destruct (arel_sim env e e' H) as [K HK]. exists (f + K). rewrite <- E. apply (HK f); [apply le_n|].
    rewrite E. exact N. }
  intros env e e' H stk st r. split; apply X; [exact H|apply arel_sym; exact H].
Qed.

(* an outcome is unique (fuel monotonicity): [evaluates] is a partial function *)
Theorem evaluates_functional : forall env e stk st r1 r2,
  evaluates env e stk st r1 -> evaluates env e stk st r2 -> r1 = r2.
Proof.
  intros env e stk st r1 r2 [N1 [f1 E1]] [N2 [f2 E2]].
  destruct (Nat.le_ge_cases f1 f2) as [L|L].
  - rewrite <- E2, <- E1. symmetry. apply denote_fuel_mono; [exact L|rewrite E1; exact N1].
  - rewrite <- E2, <- E1. apply denote_fuel_mono; [exact L|rewrite E2; exact N2].
Qed.

(* typing facts of the wrappers (what Seq computes for type_of / has_return) *)
Lemma last_comment_app lines e :
  type_of (ESeq (map comment_expr lines ++ [e])) = type_of e /\
  has_return (ESeq (map comment_expr lines ++ [e])) = has_return e.
Proof.
  induction lines as [|l t [IH1 IH2]]; [split; reflexivity|].
  cbn [map app]. destruct (map comment_expr t ++ [e]) eqn:E.
  - destruct (map comment_expr t); discriminate.
  - split; [exact IH1|exact IH2].
Qed.

Lemma annot_comment_type text e : type_of (annot_comment text e) = type_of e.
Proof. apply last_comment_app. Qed.
Lemma annot_comment_has_return text e : has_return (annot_comment text e) = has_return e.
Proof. apply last_comment_app. Qed.
Lemma annot_nonce_type lit e : type_of (annot_nonce lit e) = type_of e.
Proof. reflexivity. Qed.
Lemma annot_nonce_has_return lit e : has_return (annot_nonce lit e) = has_return e.
Proof. reflexivity. Qed.

(* whole routines: the verdict of the main routine is the same whenever the annotated main has the
   same type and has_return (true for every wrapper above; false for a stand-alone Comment placed
   AFTER a final Return — see C18_annotation_trailing_comment_refuted in Props/C18.v) *)
Theorem annotation_run_main : forall env main main',
  arel main main' -> type_of main = type_of main' -> has_return main = has_return main' ->
  forall f st, fst (run_main env f main st) <> DVFuel ->
  exists f', run_main env f' main' st = run_main env f main st.
Proof.
  intros env main main' H Ht Hr f st N.
  assert (W : arel (with_implicit_return main) (with_implicit_return main')).
  { unfold with_implicit_return. rewrite <- Hr, <- Ht. destruct (has_return main); [exact H|].
    destruct (type_of main).
    - apply ar_return. exact H.
    - apply ar_return. exact H.
    - apply ar_return. exact H.
    - apply ar_seq. apply ars_cons; [exact H|]. apply ars_cons; [apply ar_return0|apply ars_nil]. }
  unfold run_main in *.
  assert (N' : denote env f (with_implicit_return main) [] st <> DFuel).
  { intros E. rewrite E in N. apply N. reflexivity. }
  destruct (arel_sim env _ _ W) as [K HK].
  exists (f + K). rewrite (HK f _ (le_n _) [] st N'). reflexivity.
Qed.

(* through lower_correct: both lowered graphs reach the configuration the common outcome prescribes *)
Theorem annotation_graph_behaviour :
  forall (env : denv) (o : copts) (c : lctx) (e e' : expr),
    consistent env c -> arel e e' ->
    forall k1 g1 s1 en1 g1' G1, wf g1 -> lower o c e k1 g1 = ((s1, en1), g1') -> gincl (g_blk g1') G1 ->
    forall k2 g2 s2 en2 g2' G2, wf g2 -> lower o c e' k2 g2 = ((s2, en2), g2') -> gincl (g_blk g2') G2 ->
    forall stk st r, evaluates env e stk st r ->
      tgt env G1 (GAt s1 stk st) k1 c r /\ tgt env G2 (GAt s2 stk st) k2 c r.
Proof.
  intros env o c e e' Hc H k1 g1 s1 en1 g1' G1 W1 L1 I1 k2 g2 s2 en2 g2' G2 W2 L2 I2 stk st r Hev.
  pose proof (proj1 (annotation_behaviour env e e' H stk st r) Hev) as Hev'.
  destruct Hev as [_ [f E]]. destruct Hev' as [_ [f' E']].
  split.
  - rewrite <- E. exact (lower_correct env o f c e Hc k1 g1 s1 en1 g1' W1 L1 G1 I1 stk st).
  - rewrite <- E'. exact (lower_correct env o f' c e' Hc k2 g2 s2 en2 g2' W2 L2 G2 I2 stk st).
Qed.
