(* Proofs/CallComposeLink.v — property C02, the LINKING step.
   A routine's code (as the per-routine pipeline emits it: [callsub <ASub f>], block labels l<k>) sits
   inside the linked program L at an offset, with its labels prefixed and its routine references
   resolved to entry labels ([link_comp], what [flatten_subroutines] does: Proofs/CallComposeLayout.v).
   [link_star]: a run of the routine in the per-routine semantics WITH A CALL ORACLE
   (CallX/LinearSem.v) is a run of the linked program in the semantics with a call stack
   (Comp/LinkedSem.v), provided every answer of the oracle is REALIZED by the linked program itself
   (a run from the callee's entry label, with one more return address, up to the matching retsub). *)
From Coq Require Import List Arith NArith String Bool Lia.
From PV Require Import Base.Bytes AVM.Syntax AVM.Machine Src.Expr Src.Denote
  Comp.Blocks Comp.Lower Comp.Passes Comp.GraphSem Comp.LinearSem Comp.LinkedSem Comp.Compile
  Proofs.LowerLemmas Proofs.StageELink CallX.Denote CallX.DoOp CallX.GraphSem CallX.LinearSem.
Import ListNotations.
Local Open Scope string_scope.

Definition link_arg (res : N -> option string) (pre : string) (a : arg) : arg :=
  match a with
  | ASub s => match res s with Some l => AStr l | None => ASub s end
  | ALbl l => ALbl (pre ++ l)
  | other => other
  end.

Definition link_comp (res : N -> option string) (pre : string) (c : comp) : comp :=
  match c with
  | CLabel l cm => CLabel (pre ++ l) cm
  | COp i => COp (rewrite_instr (link_arg res pre) i)
  | other => other
  end.

(* the routine's code occupies L[base ..] *)
Definition placed (L : list comp) (base : nat) (res : N -> option string) (pre : string) (code : list comp) : Prop :=
  forall pc c, nth_error code pc = Some c -> nth_error L (base + pc) = Some (link_comp res pre c).

Definition labels_of (L : list comp) : list string :=
  flat_map (fun c => match c with CLabel l _ => [l] | _ => [] end) L.

Definition plain_arg (a : arg) : bool := match a with ASub _ | ALbl _ => false | _ => true end.

Definition is_callsub (o : opc) : bool := match o with O_callsub => true | _ => false end.

(* an instruction is a call ([callsub <ASub f>]), a branch ([b/bz/bnz <label>]), or carries neither a
   routine reference nor a label and is not a callsub *)
Definition linkable_instr (i : instr) : bool :=
  match call_target (i_op i) (i_args i) with
  | Some _ => true
  | None =>
      match jump_of i with
      | Some _ => true
      | None => negb (is_callsub (i_op i)) && forallb plain_arg (i_args i)
      end
  end.

Definition closed_instr (code : list comp) (i : instr) : bool :=
  match jump_of i with
  | Some (_, l) => match find_label l code with Some _ => true | None => false end
  | None => true
  end.

Definition linkable (code : list comp) : bool :=
  forallb (fun c => match c with COp i => linkable_instr i && closed_instr code i | _ => true end) code.

Lemma find_label_nth l code p : find_label l code = Some p -> exists cm, nth_error code p = Some (CLabel l cm).
Proof.
  revert p. induction code as [|c t IH]; intros p H; [discriminate H|]. cbn [find_label] in H.
  assert (T : option_map S (find_label l t) = Some p -> exists cm, nth_error (c :: t) p = Some (CLabel l cm)).
  { destruct (find_label l t) as [q|]; [|discriminate]. intros E. injection E as <-. exact (IH q eq_refl). }
  destruct c as [i|l' cm|v]; [exact (T H)| |exact (T H)].
  destruct (String.eqb_spec l l') as [->|_]; [|exact (T H)]. injection H as <-. exists cm. reflexivity.
Qed.

Lemma nth_label_in L q x cm : nth_error L q = Some (CLabel x cm) -> In x (labels_of L).
Proof.
  intros H. unfold labels_of. apply in_flat_map. exists (CLabel x cm). split; [exact (nth_error_In _ _ H)|left; reflexivity].
Qed.

Lemma find_label_nodup L : NoDup (labels_of L) ->
  forall q x cm, nth_error L q = Some (CLabel x cm) -> find_label x L = Some q.
Proof.
  induction L as [|c t IH]; intros ND q x cm H; [destruct q; discriminate H|].
  destruct q as [|q]; cbn [nth_error] in H.
  - injection H as ->. cbn [find_label]. rewrite String.eqb_refl. reflexivity.
  - assert (T : NoDup (labels_of t) -> option_map S (find_label x t) = Some (S q))
      by (intros ND'; rewrite (IH ND' q x cm H); reflexivity).
    destruct c as [i|l' cm'|v]; cbn [find_label]; [exact (T ND)| |exact (T ND)].
    change (labels_of (CLabel l' cm' :: t)) with (l' :: labels_of t) in ND. inversion ND as [|? ? Nin ND']; subst.
    destruct (String.eqb_spec x l') as [->|_]; [|exact (T ND')]. destruct (Nin (nth_label_in _ _ _ _ H)).
Qed.

Lemma link_op res pre i : i_op (rewrite_instr (link_arg res pre) i) = i_op i.
Proof. reflexivity. Qed.

Lemma link_args_plain res pre l : forallb plain_arg l = true -> map (link_arg res pre) l = l.
Proof.
  induction l as [|a t IH]; intros H; [reflexivity|]. cbn [forallb] in H. apply andb_prop in H. destruct H as [Ha Ht].
  cbn [map]. rewrite (IH Ht). destruct a; try reflexivity; discriminate Ha.
Qed.

Lemma jump_of_link res pre i k l : jump_of i = Some (k, l) ->
  jump_of (rewrite_instr (link_arg res pre) i) = Some (k, pre ++ l).
Proof.
  intros H. destruct (jump_of_inv _ _ _ H) as [Eo Ea]. unfold jump_of. cbn [rewrite_instr i_op i_args].
  rewrite Eo, Ea. destruct k; reflexivity.
Qed.

Lemma call_label_not_callsub i : is_callsub (i_op i) = false -> call_label i = None.
Proof. unfold call_label. destruct (i_op i); try reflexivity. discriminate. Qed.

Definition entry_of (L : list comp) (res : N -> option string) (f : N) : option nat :=
  match res f with Some l => find_label l L | None => None end.

Definition call_image (fr : list nat) (ret : nat) (r : callres) : pconf :=
  match r with
  | CRet s st => PAt fr ret s st
  | CExit v st => PExit v st
  | CFail => PFail
  | CNone => PFail
  end.

Definition realizes (env : Src.Denote.denv) (L : list comp) (res : N -> option string)
           (orc : N -> list value -> mstate -> callres) : Prop :=
  forall f stk st, orc f stk st <> CNone ->
    exists e, entry_of L res f = Some e /\
      forall fr ret, pstar env L (PAt (ret :: fr) e stk st) (call_image fr ret (orc f stk st)).

Definition emb (base : nat) (fr : list nat) (c : lconf) : pconf :=
  match c with
  | LAt pc stk st => PAt fr (base + pc) stk st
  | LRet stk st => match fr with ret :: fr' => PAt fr' ret stk st | [] => PFail end
  | LExit v st => PExit v st
  | LFail => PFail
  | LEnd stk st => PFail        (* not claimed *)
  | LUnsup o => PUnsup o        (* not claimed *)
  end.

(* outcomes the statement speaks about: everything except "ran off the end of the routine's own code"
   (in the linked program control would run on into the next routine) and "unsupported" *)
Definition claimed (c : lconf) : Prop :=
  match c with LEnd _ _ | LUnsup _ => False | _ => True end.

Section Link.
  Variable xe : denv.                       (* the routine's environment, with its call oracle *)
  Variable L : list comp.
  Variable base : nat.
  Variable res : N -> option string.
  Variable pre : string.
  Variable code : list comp.
  Let env := old_env xe.

  Hypothesis HP : placed L base res pre code.
  Hypothesis HL : linkable code = true.
  Hypothesis HN : NoDup (labels_of L).
  Hypothesis HR : realizes env L res (e_call xe).

  Lemma linkable_at pc i : nth_error code pc = Some (COp i) ->
    linkable_instr i = true /\ closed_instr code i = true.
  Proof.
    intros H. unfold linkable in HL. rewrite forallb_forall in HL.
    specialize (HL (COp i) (nth_error_In _ _ H)). cbn in HL. apply andb_prop in HL. exact HL.
  Qed.

  Lemma goto_link l p : find_label l code = Some p -> find_label (pre ++ l) L = Some (base + p).
  Proof.
    intros H. destruct (find_label_nth _ _ _ H) as (cm & E).
    pose proof (HP _ _ E) as E'. cbn [link_comp] in E'. exact (find_label_nodup L HN _ _ _ E').
  Qed.

  Lemma link_step fr c c1 : CallX.LinearSem.lstep xe code c = Some c1 -> claimed c1 ->
    pstar env L (emb base fr c) (emb base fr c1).
  Proof.
    intros S1 Cl. destruct c as [pc stk st| | | | |]; try discriminate S1.
    cbn [CallX.LinearSem.lstep] in S1.
    change (emb base fr (LAt pc stk st)) with (PAt fr (base + pc) stk st).
    destruct (nth_error code pc) as [c|] eqn:E.
    2:{ injection S1 as <-. destruct Cl. }
    pose proof (HP _ _ E) as E'.
    destruct c as [i|l cm|v]; injection S1 as <-; cbn [link_comp] in E';
      [|apply pstar_one; cbn [emb pstep]; rewrite E', Nat.add_succ_r; reflexivity..].
    - (* an instruction *)
      destruct (linkable_at pc i E) as [Li Ci].
      unfold CallX.LinearSem.lstep_op in *.
      assert (P1 : pstep env L (PAt fr (base + pc) stk st) =
                   Some (pstep_op env L fr (base + pc) (rewrite_instr (link_arg res pre) i) stk st)).
      { cbn [pstep]. rewrite E'. reflexivity. }
      unfold pstep_op in P1. rewrite link_op in P1.
      destruct (is_return (i_op i)) eqn:R.
      { apply pstar_one. rewrite P1. destruct stk; reflexivity. }
      destruct (is_retsub (i_op i)) eqn:R'.
      { apply pstar_one. rewrite P1. destruct fr; reflexivity. }
      unfold linkable_instr in Li.
      destruct (call_target (i_op i) (i_args i)) as [f|] eqn:CT.
      + (* the call instruction: the oracle's answer is realized by the linked program *)
        destruct (call_target_inv _ _ _ CT) as [Eo Ea].
        assert (J : jump_of i = None) by (apply jump_of_not_branch; rewrite Eo; reflexivity).
        rewrite J in *. unfold do_op in *. rewrite CT in *.
        assert (NC : e_call xe f stk st <> CNone) by (intros EC; rewrite EC in Cl; exact Cl).
        destruct (HR f stk st NC) as (e & Ee & Run). unfold entry_of in Ee.
        destruct (res f) as [lb|] eqn:Rf; [|discriminate Ee].
        assert (CL : call_label (rewrite_instr (link_arg res pre) i) = Some lb).
        { unfold call_label. cbn [rewrite_instr i_op i_args]. rewrite Eo, Ea. cbn [map link_arg]. rewrite Rf. reflexivity. }
        rewrite CL, Ee in P1.
        eapply pstar_step; [exact P1|]. specialize (Run fr (S (base + pc))).
        destruct (e_call xe f stk st); [| | |destruct (NC eq_refl)]; try exact Run.
        cbn [of_callres emb]. rewrite Nat.add_succ_r. exact Run.
      + destruct (jump_of i) as [[k l]|] eqn:J.
        * (* a branch *)
          destruct (jump_of_inv _ _ _ J) as [Eo _].
          assert (CL : call_label (rewrite_instr (link_arg res pre) i) = None).
          { apply call_label_not_callsub. rewrite link_op, Eo. destruct k; reflexivity. }
          rewrite CL, (jump_of_link res pre i k l J) in P1.
          unfold closed_instr in Ci. rewrite J in Ci.
          destruct (find_label l code) as [p|] eqn:Fl; [|discriminate Ci].
          pose proof (goto_link l p Fl) as Gl.
          apply pstar_one. rewrite P1. unfold pgoto, goto. rewrite Gl, Fl.
          destruct k; [reflexivity|..]; (destruct stk as [|v s']; [reflexivity|]);
            destruct (truthy v) as [[|]|]; try reflexivity; cbn [emb]; rewrite Nat.add_succ_r; reflexivity.
        * (* any other instruction: its arguments are untouched, its meaning is the original one *)
          apply andb_prop in Li. destruct Li as [NCs Pl]. apply negb_true_iff in NCs.
          assert (CL : call_label (rewrite_instr (link_arg res pre) i) = None).
          { apply call_label_not_callsub. rewrite link_op. exact NCs. }
          assert (EA : rewrite_instr (link_arg res pre) i = i).
          { destruct i as [o a]. unfold rewrite_instr. cbn [i_op i_args] in *. rewrite (link_args_plain res pre a Pl). reflexivity. }
          rewrite CL, EA, J in P1.
          rewrite (do_op_old xe _ _ stk st CT) in *. fold env in Cl |- *.
          apply pstar_one. rewrite P1.
          pose proof (PV.Proofs.LowerLemmas.do_op_shape env (i_op i) (i_args i) stk st) as Sh.
          destruct (Src.Denote.do_op env (i_op i) (i_args i) stk st); try reflexivity; try destruct Cl; try destruct Sh.
          cbn [emb]. rewrite Nat.add_succ_r. reflexivity.
  Qed.

  Lemma claimed_final c : ~ claimed c -> CallX.LinearSem.lstep xe code c = None.
  Proof. destruct c; cbn; intros H; try reflexivity; exfalso; apply H; exact Logic.I. Qed.

  (* a run of the routine with the oracle is a run of the linked program *)
  Theorem link_star fr c c' : CallX.LinearSem.lstar xe code c c' -> claimed c' ->
    pstar env L (emb base fr c) (emb base fr c').
  Proof.
    induction 1 as [c|c c1 c' S1 H IH]; intros Cl; [apply pstar_refl|].
    assert (C1 : claimed c1).
    { destruct c1; try exact Logic.I.
      - inversion H as [|? ? ? S2 _]; subst; [exact Cl|discriminate S2].
      - inversion H as [|? ? ? S2 _]; subst; [exact Cl|discriminate S2]. }
    eapply pstar_trans; [exact (link_step fr c c1 S1 C1)|exact (IH Cl)].
  Qed.
End Link.
