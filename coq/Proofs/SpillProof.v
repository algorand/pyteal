(* Proofs/SpillProof.v — C02: the code [spillLocalSlotsDuringRecursion] puts around a re-entrant
   [callsub] (model [Comp.Compile.spill_one]) preserves the caller's frame: the operands already on the
   stack, the caller's local slots, and the callee's results — for every number of slots, every number
   of arguments, every stack below, every scratch content and every callee (which may rewrite all
   slots) — exactly when the callee leaves as many results as the flag [r] (second parameter of
   [spill_one]) the restore code was built for says.
   Since /repo commit 258948a the compiler takes that flag from the CALLED subroutine (model: [spill]
   passes [callee_returns]); before, it took it from the CALLING subroutine's return_type (whence the
   model's parameter name [caller_returns]).
   [spill_frame_same_type] is the theorem that applies to every call of the compiler as it is; the
   [spill_frame_refuted_*] theorems show what the earlier choice did under mutual recursion between a
   none and a uint64 subroutine (flag and callee disagree). *)
From Coq Require Import String.
From Coq Require Import Arith NArith Bool Lia List.
From PV Require Import Base.Bytes AVM.Syntax AVM.Ops Src.Expr Comp.Passes Comp.Compile Comp.SpillSem.
Import ListNotations.

Lemma insert_at_app {A} (P : list A) (x : A) (R : list A) :
  insert_at (length P) x (P ++ R) = Some (P ++ x :: R).
Proof.
  induction P as [|p P IH]; cbn [length app insert_at]; [reflexivity|].
  rewrite IH. reflexivity.
Qed.

Lemma remove_at_app {A} (P : list A) (x : A) (R : list A) :
  remove_at (length P) (P ++ x :: R) = Some (x, P ++ R).
Proof.
  induction P as [|p P IH]; cbn [length app remove_at]; [reflexivity|].
  rewrite IH. reflexivity.
Qed.

Lemma nth_error_app_mid {A} (P : list A) (x : A) (R : list A) :
  nth_error (P ++ x :: R) (length P) = Some x.
Proof. induction P as [|p P IH]; cbn [length app nth_error]; auto. Qed.

Lemma flat_map_single {A B} (f : A -> B) (l : list A) :
  flat_map (fun x => [f x]) l = map f l.
Proof. induction l as [|x l IH]; cbn [flat_map map app]; [reflexivity|]. rewrite IH. reflexivity. Qed.

Lemma flat_map_const {B} (c : list B) (n : nat) : forall i : nat,
  flat_map (fun _ : nat => c) (seq i n) = concat (repeat c n).
Proof.
  induction n as [|n IH]; intros i; cbn [seq flat_map repeat concat]; [reflexivity|].
  rewrite IH. reflexivity.
Qed.

Lemma concat_repeat_single {B} (c : B) (n : nat) : concat (repeat [c] n) = repeat c n.
Proof. induction n as [|n IH]; cbn [repeat concat app]; [reflexivity|]. rewrite IH. reflexivity. Qed.

Lemma mem_N_In (n : N) (l : list N) : mem_N n l = true <-> In n l.
Proof.
  induction l as [|y l IH]; cbn [mem_N In]; [split; [discriminate|tauto]|].
  rewrite orb_true_iff, IH, N.eqb_eq. split; intros [H|H]; auto.
Qed.

Lemma mem_N_rev (n : N) (l : list N) : mem_N n (rev l) = mem_N n l.
Proof.
  apply eq_true_iff_eq. rewrite !mem_N_In. rewrite <- in_rev. tauto.
Qed.

Section Steps.
Variable callee : callee_t.
Variable na : nat.

Lemma srun_cons c t stk m stk' m' :
  sstep callee na c stk m = Some (stk', m') ->
  srun callee na (c :: t) stk m = srun callee na t stk' m'.
Proof. intros H. cbn [srun]. rewrite H. reflexivity. Qed.

Lemma sstep_load n stk m : (n < 256)%N ->
  sstep callee na (OpI O_load n) stk m = Some (m n :: stk, m).
Proof. intros H. apply N.ltb_lt in H. cbn. rewrite H. reflexivity. Qed.

Lemma sstep_store n v stk m : (n < 256)%N ->
  sstep callee na (OpI O_store n) (v :: stk) m = Some (stk, supd m n v).
Proof. intros H. apply N.ltb_lt in H. cbn. rewrite H. reflexivity. Qed.

Lemma sstep_swap x y stk m :
  sstep callee na (Op0 O_swap) (x :: y :: stk) m = Some (y :: x :: stk, m).
Proof. reflexivity. Qed.

Lemma sstep_pop x stk m : sstep callee na (Op0 O_pop) (x :: stk) m = Some (stk, m).
Proof. reflexivity. Qed.

Lemma byte_imm d : (d <= 255)%nat -> N.leb (N.of_nat d) 255 = true.
Proof. intros H. apply N.leb_le. lia. Qed.

Lemma sstep_cover d x stk s m : (d <= 255)%nat -> insert_at d x stk = Some s ->
  sstep callee na (OpI O_cover (N.of_nat d)) (x :: stk) m = Some (s, m).
Proof.
  intros Hd Hi. cbn -[N.leb N.of_nat N.to_nat]. rewrite (byte_imm d Hd), Nat2N.id, Hi. reflexivity.
Qed.

Lemma sstep_uncover d x stk s m : (d <= 255)%nat -> remove_at d stk = Some (x, s) ->
  sstep callee na (OpI O_uncover (N.of_nat d)) stk m = Some (x :: s, m).
Proof.
  intros Hd Hi. cbn -[N.leb N.of_nat N.to_nat]. rewrite (byte_imm d Hd), Nat2N.id, Hi. reflexivity.
Qed.

Lemma sstep_dig d x stk m : (d <= 255)%nat -> nth_error stk d = Some x ->
  sstep callee na (OpI O_dig (N.of_nat d)) stk m = Some (x :: stk, m).
Proof.
  intros Hd Hi. cbn -[N.leb N.of_nat N.to_nat]. rewrite (byte_imm d Hd), Nat2N.id, Hi. reflexivity.
Qed.

Lemma sstep_callsub cargs args X m : length args = na ->
  sstep callee na (COp (mkI O_callsub cargs)) (rev args ++ X) m =
  Some (rev (fst (callee args m)) ++ X, snd (callee args m)).
Proof.
  intros Hl. cbn [sstep i_op].
  assert (Hr : length (rev args) = na) by (rewrite rev_length; exact Hl).
  replace (Nat.leb na (length (rev args ++ X))) with true
    by (symmetry; apply Nat.leb_le; rewrite app_length; lia).
  assert (Hf : firstn na (rev args ++ X) = rev args).
  { rewrite <- Hr. rewrite firstn_app, Nat.sub_diag, firstn_all, firstn_O, app_nil_r. reflexivity. }
  assert (Hs : skipn na (rev args ++ X) = X).
  { rewrite <- Hr. rewrite skipn_app, Nat.sub_diag, skipn_all. reflexivity. }
  rewrite Hf, Hs, rev_involutive.
  destruct (callee args m) as [res m']. reflexivity.
Qed.

End Steps.

Definition slot_ok (s : N) : Prop := (s < 256)%N.

(* the instruction that pulls one argument above the spilled slots (AVM >= 5, uncover path) *)
Definition unc_ins (d : nat) : list comp :=
  if Nat.eqb d 1 then [Op0 O_swap] else [OpI O_uncover (N.of_nat d)].

(* restoring: store, one after the other, [m s] into every [s] of [rs] *)
Definition restore (m : scratch) (rs : list N) (m1 : scratch) : scratch :=
  fold_left (fun acc s => supd acc s (m s)) rs m1.

Lemma restore_spec m rs : forall m1 n,
  restore m rs m1 n = if mem_N n rs then m n else m1 n.
Proof.
  induction rs as [|s rs IH]; intros m1 n; [reflexivity|].
  unfold restore in *. cbn [fold_left mem_N]. rewrite IH. unfold supd.
  destruct (N.eqb_spec n s) as [->|Hne]; cbn [orb]; destruct (mem_N _ rs); reflexivity.
Qed.

Section Phases.
Variable callee : callee_t.
Variable na : nat.

(* spill phase, no cover: [load s1; ...; load sk] pushes the slot values, last slot on top *)
Lemma run_loads m slots : Forall slot_ok slots -> forall stk,
  srun callee na (map (OpI O_load) slots) stk m = Some (rev (map m slots) ++ stk, m).
Proof.
  induction 1 as [|s t Hs _ IH]; intros stk; [reflexivity|].
  cbn [map]. rewrite (srun_cons _ _ _ _ _ _ _ _ (sstep_load callee na s stk m Hs)).
  rewrite IH. cbn [rev]. rewrite <- app_assoc. reflexivity.
Qed.

(* spill phase with cover (fewer slots than arguments): every loaded value is sunk below the
   arguments [A] *)
Lemma run_load_covers m slots (A : list value) : Forall slot_ok slots -> (length A <= 255)%nat ->
  forall X,
  srun callee na (flat_map (fun s => [OpI O_load s; OpI O_cover (N.of_nat (length A))]) slots) (A ++ X) m
  = Some (A ++ rev (map m slots) ++ X, m).
Proof.
  intros Hs HA. induction Hs as [|s t Hs _ IH]; intros X; [reflexivity|].
  cbn [flat_map app].
  rewrite (srun_cons _ _ _ _ _ _ _ _ (sstep_load callee na s (A ++ X) m Hs)).
  rewrite (srun_cons _ _ _ _ _ _ _ _
             (sstep_cover callee na (length A) (m s) (A ++ X) _ m HA (insert_at_app A (m s) X))).
  rewrite IH. cbn [map rev]. rewrite <- app_assoc. reflexivity.
Qed.

(* one [uncover d] (or [swap] when d = 1) brings the element below a prefix of length d to the top *)
Lemma srun_unc_ins d (P : list value) x R m rest : length P = d -> (d <= 255)%nat ->
  srun callee na (unc_ins d ++ rest) (P ++ x :: R) m = srun callee na rest (x :: P ++ R) m.
Proof.
  intros HP Hd. unfold unc_ins. destruct (Nat.eqb_spec d 1) as [E|E].
  - subst d. destruct P as [|p [|q P]]; try discriminate. reflexivity.
  - cbn [app]. subst d.
    rewrite (srun_cons _ _ _ _ _ _ _ _
               (sstep_uncover callee na (length P) x (P ++ x :: R) _ m Hd (remove_at_app P x R))).
    reflexivity.
Qed.

(* argument phase, uncover path: the arguments (below the spilled values [M]) are pulled to the top
   one by one, first argument first *)
Lemma run_uncovers m d (M R : list value) : (d <= 255)%nat -> forall todo D,
  (length D + length M + length todo - 1 = d)%nat ->
  srun callee na (concat (repeat (unc_ins d) (length todo))) (D ++ M ++ rev todo ++ R) m
  = Some (rev todo ++ D ++ M ++ R, m).
Proof.
  intros Hd. induction todo as [|x todo IH]; intros D Hlen; [reflexivity|].
  cbn [length repeat concat rev] in *.
  replace (D ++ M ++ (rev todo ++ [x]) ++ R) with ((D ++ M ++ rev todo) ++ x :: R)
    by (rewrite <- !app_assoc; reflexivity).
  rewrite srun_unc_ins; [|rewrite !app_length, rev_length; lia|exact Hd].
  rewrite <- !app_assoc. exact (IH (x :: D) ltac:(cbn [length]; lia)).
Qed.

(* argument phase, AVM 4: [dig d] copies the arguments to the top, first argument first; the
   originals stay where they were *)
Lemma run_digs m d (M : list value) : (d <= 255)%nat -> forall todo D R,
  (length D + length M + length todo - 1 = d)%nat ->
  srun callee na (repeat (OpI O_dig (N.of_nat d)) (length todo)) (D ++ M ++ rev todo ++ R) m
  = Some (rev todo ++ D ++ M ++ rev todo ++ R, m).
Proof.
  intros Hd. induction todo as [|x todo IH]; intros D R Hlen; [reflexivity|].
  cbn [length repeat rev] in *.
  replace (D ++ M ++ (rev todo ++ [x]) ++ R) with ((D ++ M ++ rev todo) ++ x :: R)
    by (rewrite <- !app_assoc; reflexivity).
  assert (Hn : nth_error ((D ++ M ++ rev todo) ++ x :: R) d = Some x).
  { replace d with (length (D ++ M ++ rev todo)) by (rewrite !app_length, rev_length; lia). apply nth_error_app_mid. }
  rewrite (srun_cons _ _ _ _ _ _ _ _ (sstep_dig callee na d x _ m Hd Hn)).
  rewrite <- !app_assoc. exact (IH (x :: D) (x :: R) ltac:(cbn [length]; lia)).
Qed.

(* restore phase: [store] for every slot of [rs], the value for the first slot of [rs] on top *)
Lemma run_stores m rs : Forall slot_ok rs -> forall X m1,
  srun callee na (map (OpI O_store) rs) (map m rs ++ X) m1 = Some (X, restore m rs m1).
Proof.
  induction 1 as [|s t Hs _ IH]; intros X m1; [reflexivity|].
  cbn [map app]. rewrite (srun_cons _ _ _ _ _ _ _ _ (sstep_store callee na s (m s) _ m1 Hs)).
  rewrite IH. reflexivity.
Qed.

(* cleanup phase, AVM 4: the dug-up argument copies are popped ... *)
Lemma run_pops m (A : list value) : forall X,
  srun callee na (concat (repeat [Op0 O_pop] (length A))) (A ++ X) m = Some (X, m).
Proof.
  induction A as [|x A IH]; intros X; [reflexivity|].
  cbn [length repeat concat app]. rewrite (srun_cons _ _ _ _ _ _ _ _ (sstep_pop callee na x _ m)).
  apply IH.
Qed.

(* ... below the return value when there is one *)
Lemma run_swap_pops m v (A : list value) : forall X,
  srun callee na (concat (repeat [Op0 O_swap; Op0 O_pop] (length A))) (v :: A ++ X) m = Some (v :: X, m).
Proof.
  induction A as [|x A IH]; intros X; [reflexivity|].
  cbn [length repeat concat app].
  rewrite (srun_cons _ _ _ _ _ _ _ _ (sstep_swap callee na v x _ m)).
  rewrite (srun_cons _ _ _ _ _ _ _ _ (sstep_pop callee na x _ m)).
  apply IH.
Qed.

End Phases.

(* the shape of [spill_one]: before ++ call ++ after, with the three code paths made explicit *)
Definition before_code (version : N) (slots : list N) (a : nat) : list comp :=
  let d := (length slots + a - 1)%nat in
  if N.leb 5 version then
    if Nat.ltb (length slots) a
    then flat_map (fun s => [OpI O_load s; OpI O_cover (N.of_nat a)]) slots
    else map (OpI O_load) slots ++ concat (repeat (unc_ins d) a)
  else map (OpI O_load) slots ++ repeat (OpI O_dig (N.of_nat d)) a.

Definition after_code (version : N) (r : bool) (slots : list N) (a : nat) : list comp :=
  let k := length slots in
  let v5 := N.leb 5 version in
  (if r then
     if Nat.eqb k 1 then [Op0 O_swap]
     else if v5 then [OpI O_cover (N.of_nat k)] else [OpI O_store (hd 0%N slots)]
   else [])
  ++ (if r && negb (Nat.eqb k 1) && negb v5
      then match slots with
           | s1 :: t => map (OpI O_store) (rev t) ++ [OpI O_load s1; Op0 O_swap; OpI O_store s1]
           | [] => []
           end
      else map (OpI O_store) (rev slots))
  ++ (if v5 then [] else concat (repeat ((if r then [Op0 O_swap] else []) ++ [Op0 O_pop]) a)).

Lemma flat_map_ext_in {A B} (f g : A -> list B) (l : list A) :
  (forall x, In x l -> f x = g x) -> flat_map f l = flat_map g l.
Proof.
  induction l as [|x l IH]; intros H; [reflexivity|].
  cbn [flat_map]. rewrite (H x (or_introl eq_refl)), IH; [reflexivity|].
  intros y Hy. apply H. right. exact Hy.
Qed.

(* the code before and after the call as [spill_one] builds it, against the explicit code paths *)
Lemma before_paths version slots a :
  let k := length slots in
  let d := (k + a - 1)%nat in
  flat_map (fun s => OpI O_load s ::
              (if N.leb 5 version && Nat.ltb k a then [OpI O_cover (N.of_nat a)] else [])) slots
  ++ flat_map (fun _ : nat =>
       (if N.leb 5 version && negb (Nat.ltb k a)
        then (if Nat.eqb d 1 then [Op0 O_swap] else [OpI O_uncover (N.of_nat d)]) else [])
       ++ (if negb (N.leb 5 version) then [OpI O_dig (N.of_nat d)] else [])) (seq 0 a)
  = before_code version slots a.
Proof.
  intros k d. unfold before_code. fold k d.
  destruct (N.leb 5 version); [destruct (Nat.ltb k a)|]; cbn [andb negb].
  - rewrite flat_map_const. cbn [app].
    replace (concat (repeat (@nil comp) a)) with (@nil comp)
      by (clear; induction a as [|a IH]; cbn [repeat concat app]; auto).
    rewrite app_nil_r. reflexivity.
  - rewrite flat_map_single, flat_map_const, app_nil_r. reflexivity.
  - rewrite flat_map_single, flat_map_const. cbn [app]. rewrite concat_repeat_single. reflexivity.
Qed.

Lemma after_paths version (r : bool) (slots : list N) a : NoDup slots ->
  let k := length slots in
  (if r then
     if Nat.eqb k 1 then [Op0 O_swap]
     else if N.leb 5 version then [OpI O_cover (N.of_nat k)] else [OpI O_store (hd 0%N slots)]
   else [])
  ++ flat_map (fun s =>
       (if r && negb (Nat.eqb k 1) && negb (N.leb 5 version) && N.eqb s (hd 0%N slots)
        then [OpI O_load s; Op0 O_swap] else []) ++ [OpI O_store s]) (rev slots)
  ++ (if negb (N.leb 5 version)
      then flat_map (fun _ : nat => (if r then [Op0 O_swap] else []) ++ [Op0 O_pop]) (seq 0 a) else [])
  = after_code version r slots a.
Proof.
  intros Hnd k. unfold after_code. fold k. f_equal. f_equal.
  - destruct (r && negb (Nat.eqb k 1) && negb (N.leb 5 version)); cbn [andb].
    + destruct slots as [|s1 t]; [reflexivity|].
      cbn [rev hd]. rewrite flat_map_app. cbn [flat_map]. rewrite N.eqb_refl, app_nil_r. cbn [app].
      f_equal. rewrite <- flat_map_single. apply flat_map_ext_in.
      intros x Hx. apply in_rev in Hx. inversion Hnd as [|? ? Hni _]; subst.
      destruct (N.eqb_spec x s1) as [->|_]; [contradiction|reflexivity].
    + cbn [app]. apply flat_map_single.
  - destruct (N.leb 5 version); cbn [negb]; [reflexivity|]. apply flat_map_const.
Qed.

Lemma spill_one_shape version r slots a stmt : NoDup slots ->
  spill_one version r slots a stmt = before_code version slots a ++ stmt :: after_code version r slots a.
Proof.
  intros Hnd. rewrite <- before_paths, <- (after_paths version r slots a Hnd). unfold spill_one. cbv zeta.
  rewrite <- !app_assoc. reflexivity.
Qed.

(* before the call: arguments on top, spilled slot values below, the caller's operands below *)
Section Frame.
Variable callee : callee_t.
Variable na : nat.

Lemma before_ok version slots (args S : list value) m :
  Forall slot_ok slots ->
  (length slots + length args - 1 <= 255)%nat ->
  srun callee na (before_code version slots (length args)) (rev args ++ S) m
  = Some (rev args ++ rev (map m slots) ++ (if N.leb 5 version then S else rev args ++ S), m).
Proof.
  intros Hs Hd. unfold before_code.
  destruct (N.leb 5 version); [destruct (Nat.ltb_spec (length slots) (length args)) as [Hlt|Hge]|].
  - (* cover path *)
    destruct slots as [|s0 t]; [reflexivity|].
    rewrite <- (rev_length args).
    apply run_load_covers; [exact Hs|]. rewrite rev_length. cbn [length] in Hd. lia.
  - (* uncover path *)
    rewrite srun_app, run_loads by exact Hs.
    pose proof (run_uncovers callee na m (length slots + length args - 1) (rev (map m slots)) S Hd args [])
      as H.
    cbn [app length] in H. rewrite H; [reflexivity|].
    rewrite rev_length, map_length. lia.
  - (* dig path *)
    rewrite srun_app, run_loads by exact Hs.
    pose proof (run_digs callee na m (length slots + length args - 1) (rev (map m slots)) Hd args [] S)
      as H.
    cbn [rev app length] in H. rewrite H; [reflexivity|].
    rewrite rev_length, map_length. lia.
Qed.

Lemma after_ok version (r : bool) slots (args S res : list value) (m m1 : scratch) :
  slots <> [] -> NoDup slots -> Forall slot_ok slots -> (length slots <= 255)%nat ->
  length res = (if r then 1 else 0)%nat ->
  exists m2,
    srun callee na (after_code version r slots (length args))
         (rev res ++ rev (map m slots) ++ (if N.leb 5 version then S else rev args ++ S)) m1
    = Some (rev res ++ S, m2)
    /\ forall n, m2 n = if mem_N n slots then m n else m1 n.
Proof.
  intros Hne Hnd Hs Hk Hres. unfold after_code.
  pose proof (Forall_rev Hs) as Hsr.
  destruct r.
  - (* r = true: one result on top *)
    destruct res as [|v [|? ?]]; try discriminate. cbn [rev app andb].
    destruct (Nat.eqb_spec (length slots) 1) as [E1|E1]; cbn [negb andb].
    + (* one slot: swap *)
      destruct slots as [|s1 [|? ?]]; try discriminate. cbn [map rev app].
      inversion Hs as [|? ? Hs1 _]; subst.
      rewrite (srun_cons _ _ _ _ _ _ _ _ (sstep_swap callee na v (m s1) _ m1)).
      rewrite (srun_cons _ _ _ _ _ _ _ _ (sstep_store callee na s1 (m s1) _ m1 Hs1)).
      exists (supd m1 s1 (m s1)). split.
      * destruct (N.leb 5 version); [reflexivity|]. rewrite <- (rev_length args). apply run_swap_pops.
      * intros n. unfold supd. cbn [mem_N]. destruct (N.eqb_spec n s1) as [->|_]; reflexivity.
    + destruct (N.leb 5 version); cbn [negb].
      * (* cover (number of slots) *)
        exists (restore m (rev slots) m1). split; [|intros n; rewrite restore_spec, mem_N_rev; reflexivity].
        cbn [app].
        assert (Hi : insert_at (length slots) v (rev (map m slots) ++ S)
                     = Some (rev (map m slots) ++ v :: S)).
        { rewrite <- (map_length m slots), <- (rev_length (map m slots)). apply insert_at_app. }
        rewrite (srun_cons _ _ _ _ _ _ _ _ (sstep_cover callee na (length slots) v _ _ m1 Hk Hi)).
        rewrite app_nil_r, <- map_rev. apply run_stores. exact Hsr.
      * (* AVM 4: the return value hides in the first slot *)
        destruct slots as [|s1 t]; [contradiction|]. cbn [hd app].
        inversion Hs as [|? ? Hs1 Hst]; subst. inversion Hnd as [|? ? Hni Hndt]; subst.
        rewrite (srun_cons _ _ _ _ _ _ _ _ (sstep_store callee na s1 v _ m1 Hs1)).
        rewrite srun_app. cbn [map rev]. rewrite <- app_assoc, <- map_rev.
        rewrite srun_app.
        rewrite run_stores by exact (Forall_rev Hst).
        cbn [app].
        set (m2 := restore m (rev t) (supd m1 s1 v)).
        assert (Hm2 : m2 s1 = v).
        { unfold m2. rewrite restore_spec, mem_N_rev.
          destruct (mem_N s1 t) eqn:Em; [apply mem_N_In in Em; contradiction|].
          unfold supd. rewrite N.eqb_refl. reflexivity. }
        rewrite (srun_cons _ _ _ _ _ _ _ _ (sstep_load callee na s1 _ m2 Hs1)), Hm2.
        rewrite (srun_cons _ _ _ _ _ _ _ _ (sstep_swap callee na v (m s1) _ m2)).
        rewrite (srun_cons _ _ _ _ _ _ _ _ (sstep_store callee na s1 (m s1) _ m2 Hs1)).
        exists (supd m2 s1 (m s1)). split.
        -- rewrite <- (rev_length args). apply run_swap_pops.
        -- intros n. unfold supd, m2. rewrite restore_spec, mem_N_rev. cbn [mem_N].
           destruct (N.eqb_spec n s1) as [->|Hn]; cbn [orb]; [reflexivity|].
           destruct (mem_N n t); [reflexivity|].
           apply N.eqb_neq in Hn. unfold supd. rewrite Hn. reflexivity.
  - (* r = false: no result *)
    destruct res as [|? ?]; try discriminate. cbn [rev app andb].
    exists (restore m (rev slots) m1). split; [|intros n; rewrite restore_spec, mem_N_rev; reflexivity].
    rewrite srun_app, <- map_rev, run_stores by exact Hsr.
    destruct (N.leb 5 version); [reflexivity|].
    cbn [app]. rewrite <- (rev_length args). apply run_pops.
Qed.

End Frame.

Definition call_stmt (cargs : list arg) : comp := COp (mkI O_callsub cargs).

(* Hypotheses, and why:
   - [slots <> []], [NoDup slots]: Python's [slots = sorted(set)], and a routine without local slots is
     skipped ([len(slots) == 0 -> continue]; model: [spill], case [_, [] => fr]).  For [slots = []]
     see [spill_frame_no_slots].
   - [slot_ok]: slot numbers are < 256 ([load]/[store] fail otherwise, as on the machine).
   - [length slots + numArgs - 1 <= 255], [length slots <= 255]: [stackDistance], [numArgs] and
     [len(slots)] are emitted as uint8 immediates of uncover/dig/cover ([exec_pure] fails above 255;
     the real assembler rejects such TEAL).
   - the callee leaves exactly as many results as the flag [r] says.  [spill] passes the CALLED
     subroutine's "returns a value" as [r] (since the fix 258948a in /repo; before, the CALLING
     subroutine's), so after the fix this hypothesis holds for every call the compiler wraps. *)
Theorem spill_frame_same_type :
  forall (version : N) (r : bool) (slots : list N) (numArgs : nat) (cargs : list arg)
         (callee : callee_t) (args S : list value) (m : scratch),
    slots <> [] -> NoDup slots -> Forall slot_ok slots ->
    length args = numArgs ->
    (length slots + numArgs - 1 <= 255)%nat -> (length slots <= 255)%nat ->
    length (fst (callee args m)) = (if r then 1 else 0)%nat ->
    exists m'',
      srun callee numArgs (spill_one version r slots numArgs (call_stmt cargs)) (rev args ++ S) m
      = Some (rev (fst (callee args m)) ++ S, m'')
      /\ (forall n, In n slots -> m'' n = m n)
      /\ (forall n, ~ In n slots -> m'' n = snd (callee args m) n).
Proof.
  intros version r slots numArgs cargs callee args S m Hne Hnd Hs Hl Hd Hk Hres.
  subst numArgs.
  rewrite spill_one_shape by exact Hnd.
  rewrite srun_app, before_ok by assumption.
  unfold call_stmt.
  rewrite (srun_cons _ _ _ _ _ _ _ _ (sstep_callsub callee (length args) cargs args _ m eq_refl)).
  destruct (after_ok callee (length args) version r slots args S (fst (callee args m)) m (snd (callee args m))
              Hne Hnd Hs Hk Hres) as (m'' & Hrun & Hm).
  exists m''. split; [exact Hrun|]. split; intros n Hn; rewrite Hm.
  - apply mem_N_In in Hn. rewrite Hn. reflexivity.
  - destruct (mem_N n slots) eqn:E; [apply mem_N_In in E; contradiction|reflexivity].
Qed.

(* A routine without local slots is left alone by [spill] (Python: [continue]): the call alone
   already has the frame property, for ANY number of results. *)
Theorem spill_frame_no_slots :
  forall (numArgs : nat) (cargs : list arg) (callee : callee_t) (args S : list value) (m : scratch),
    length args = numArgs ->
    srun callee numArgs [call_stmt cargs] (rev args ++ S) m
    = Some (rev (fst (callee args m)) ++ S, snd (callee args m)).
Proof.
  intros numArgs cargs callee args S m Hl. unfold call_stmt.
  rewrite (srun_cons _ _ _ _ _ _ _ _ (sstep_callsub callee numArgs cargs args S m Hl)).
  reflexivity.
Qed.

(* the defect (fixed in /repo by 258948a): the restore code was chosen from the CALLER's return type, i.e. [r]
   was the caller's flag.  When the callee's result count differs (mutual recursion none <-> uint64) the frame
   is destroyed. *)
Definition m0 : scratch := fun n => VI (n + 10).
Definition callee_one : callee_t := fun _ m => ([VI 99], m).     (* returns one value *)
Definition callee_none : callee_t := fun _ m => ([], m).         (* returns nothing *)

(* flag r = false (old compiler: caller of type none), callee returns a value *)
Theorem spill_frame_refuted_callee_returns :
  forall version, version = 4%N \/ version = 6%N ->
  exists stk m'',
    srun callee_one 1 (spill_one version false [3;4]%N 1 (call_stmt [ASub 1%N])) (rev [VI 7] ++ [VI 1000]) m0
    = Some (stk, m'')
    /\ length (fst (callee_one [VI 7] m0)) = 1%nat
    /\ stk <> rev (fst (callee_one [VI 7] m0)) ++ [VI 1000]
    /\ m'' 3%N <> m0 3%N /\ m'' 4%N <> m0 4%N.
Proof.
  intros version [->| ->].
  all: eexists; eexists; split; [reflexivity|]; cbv; repeat split; intro H; discriminate H.
Qed.

(* flag r = true (old compiler: caller of type uint64), callee returns nothing *)
Theorem spill_frame_refuted_callee_none :
  forall version, version = 4%N \/ version = 6%N ->
  exists stk m'',
    srun callee_none 1 (spill_one version true [3;4]%N 1 (call_stmt [ASub 1%N])) (rev [VI 7] ++ [VI 1000]) m0
    = Some (stk, m'')
    /\ length (fst (callee_none [VI 7] m0)) = 0%nat
    /\ stk <> rev (fst (callee_none [VI 7] m0)) ++ [VI 1000]
    /\ m'' 3%N <> m0 3%N /\ m'' 4%N <> m0 4%N.
Proof.
  intros version [->| ->].
  all: eexists; eexists; split; [reflexivity|]; cbv; repeat split; intro H; discriminate H.
Qed.

(* non-vacuity: the hypotheses are satisfiable on every code path; concrete runs *)
(* a callee that sums nothing, returns one value and WIPES every slot *)
Definition callee_wipe1 : callee_t := fun args _ => ([VI (N.of_nat (length args) + 40)], fun _ => VI 0).
Definition callee_wipe0 : callee_t := fun _ _ => ([], fun _ => VI 0).

Definition observe (slots : list N) (o : option (list value * scratch)) : option (list value * list value) :=
  match o with Some (s, m) => Some (s, map m slots) | None => None end.

(* AVM 4, three slots, two arguments, return value hidden in slot 3: instance of the theorem *)
Example spill_frame_same_type_nonvacuous :
  exists m'',
    srun callee_wipe1 2 (spill_one 4 true [3;4;7]%N 2 (call_stmt [ASub 1%N])) (rev [VI 1; VI 2] ++ [VI 1000]) m0
    = Some (rev (fst (callee_wipe1 [VI 1; VI 2] m0)) ++ [VI 1000], m'')
    /\ (forall n, In n [3;4;7]%N -> m'' n = m0 n)
    /\ (forall n, ~ In n [3;4;7]%N -> m'' n = snd (callee_wipe1 [VI 1; VI 2] m0) n).
Proof.
  apply spill_frame_same_type; try reflexivity; try (cbn; lia).
  - discriminate.
  - repeat constructor; cbn; intuition discriminate.
  - repeat constructor.
Qed.

(* AVM 4, dig path *)
Example ex_dig_ret :
  observe [3;4;7;8]%N
    (srun callee_wipe1 2 (spill_one 4 true [3;4;7]%N 2 (call_stmt [ASub 1%N])) [VI 2; VI 1; VI 1000] m0)
  = Some ([VI 42; VI 1000], [VI 13; VI 14; VI 17; VI 0]).
Proof. vm_compute. reflexivity. Qed.
Example ex_dig_none :
  observe [3;4;7;8]%N
    (srun callee_wipe0 2 (spill_one 4 false [3;4;7]%N 2 (call_stmt [ASub 1%N])) [VI 2; VI 1; VI 1000] m0)
  = Some ([VI 1000], [VI 13; VI 14; VI 17; VI 0]).
Proof. vm_compute. reflexivity. Qed.
(* AVM >= 5, fewer slots than arguments: load; cover numArgs *)
Example ex_cover :
  observe [3;8]%N
    (srun callee_wipe1 3 (spill_one 6 true [3]%N 3 (call_stmt [ASub 1%N])) [VI 3; VI 2; VI 1; VI 1000] m0)
  = Some ([VI 43; VI 1000], [VI 13; VI 0]).
Proof. vm_compute. reflexivity. Qed.
(* AVM >= 5, uncover path, and the swap special case (one slot, one argument) *)
Example ex_uncover :
  observe [3;4;7;8]%N
    (srun callee_wipe1 2 (spill_one 8 true [3;4;7]%N 2 (call_stmt [ASub 1%N])) [VI 2; VI 1; VI 1000] m0)
  = Some ([VI 42; VI 1000], [VI 13; VI 14; VI 17; VI 0]).
Proof. vm_compute. reflexivity. Qed.
Example ex_swap :
  observe [3;8]%N
    (srun callee_wipe1 1 (spill_one 5 true [3]%N 1 (call_stmt [ASub 1%N])) [VI 1; VI 1000] m0)
  = Some ([VI 41; VI 1000], [VI 13; VI 0])
  /\ spill_one 5 true [3]%N 1 (call_stmt [ASub 1%N])
     = [OpI O_load 3; Op0 O_swap; call_stmt [ASub 1%N]; Op0 O_swap; OpI O_store 3].
Proof. split; vm_compute; reflexivity. Qed.

(* [spill] hands [spill_one] the CALLED subroutine's flag (the fix 258948a): mutual recursion
   f : none (id 1) <-> g : uint64 (id 2).  The call of g inside f is wrapped for a result, the call of f inside g
   is wrapped for none — so [spill_frame_same_type] applies to both. *)
Definition ex_f : Src.Expr.routine := Src.Expr.mkRoutine 1 "f"%string Src.Expr.TNone [(false, 3%N)] (Src.Expr.ESeq []) None.
Definition ex_g : Src.Expr.routine := Src.Expr.mkRoutine 2 "g"%string Src.Expr.TUint [(false, 5%N)] (Src.Expr.ESeq []) None.
Definition ex_prog : Src.Expr.prog := Src.Expr.mkProgram (Src.Expr.ESeq []) [ex_f; ex_g] [].

Example spill_uses_callee_flag :
  spill 6 ex_prog
        [mkFR None [call_stmt [ASub 1%N]];
         mkFR (Some ex_f) [call_stmt [ASub 2%N]];
         mkFR (Some ex_g) [call_stmt [ASub 1%N]]]
        [(None, []); (Some 1%N, [3; 4]%N); (Some 2%N, [5]%N)]
  = COk [mkFR None [call_stmt [ASub 1%N]];
         mkFR (Some ex_f) (spill_one 6 true [3; 4]%N 1 (call_stmt [ASub 2%N]));
         mkFR (Some ex_g) (spill_one 6 false [5]%N 1 (call_stmt [ASub 1%N]))].
Proof. vm_compute. reflexivity. Qed.
