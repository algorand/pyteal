(* Proofs/LatePassTotalProgram.v — the late-pass totality carried to the pipeline function (C20):
     * the slot-assigned routine (what compile_components really sorts and flattens) is sorted and
       flattened successfully, to the slot rewrite of the code of the routine itself;
     * [compile_model] NEVER REPORTS A CRASH (CrashAssertion / CrashRecursion / CrashOther) for a program —
       main routine and any number of subroutines, recursion included — with the scratch-slot optimiser
       off, no ABI-returning subroutine (no deferred expression) and no Cond without arms: its outcome is
       TEAL lines, one of PyTeal's errors, or the model's own "unsupported". *)
From Coq Require Import List Arith NArith String Bool Lia.
From PV Require Import Base.Bytes AVM.Syntax AVM.Machine Src.Expr Src.Denote
  Comp.Blocks Comp.Lower Comp.Passes Comp.GraphSem Comp.LinearSem Comp.SimCheck Comp.Compile Comp.Assemble
  Proofs.LowerFrame Proofs.LowerShape Proofs.NormalizeLowered Proofs.FlattenCorrect
  Proofs.EndToEndExits Proofs.EndToEndGlue Proofs.EndToEnd
  Proofs.SlotCompose Proofs.SlotComposeAssign Proofs.SlotComposeCover Proofs.SlotComposePipeline
  Proofs.LatePassTotalReach Proofs.LatePassTotalNorm Proofs.LatePassTotal Proofs.SortCorrect Proofs.PipelineStages.
Import ListNotations.

(* the shape the late passes need *)
Definition late_ok (c : croutine) : Prop :=
  wf (cr_graph c) /\ cond_full (cr_graph c) /\ late_inv (cr_end c) (cr_graph c) (cr_start c).

Theorem compiled_late_ok o sub ast0 cr :
  (match sub with Some r => r_deferred r | None => None end) = None ->
  compile_one o sub ast0 = COk cr -> nec (root_ast ast0) = true -> late_ok cr.
Proof. exact (compiled_late_facts o sub ast0 cr). Qed.

(* sort + flatten on a routine of that shape, before and after the slot rewrite *)
Theorem late_ok_assigned_total look c :
  late_ok c ->
  let c' := rw_routine look c in
  exists order code,
    sort_blocks (cr_graph c) (cr_start c) (cr_end c) = Some order /\
    flatten_blocks (cr_graph c) order = Some code /\
    sort_blocks (cr_graph c') (cr_start c') (cr_end c') = Some order /\
    flatten_blocks (cr_graph c') order = Some (rw_code look code).
Proof.
  intros (W & F & _ & R & Dc & Ds) c'.
  destruct (sort_flatten_total _ _ _ W F Dc Ds R) as (order & code & HS & HF).
  exists order, code. split; [exact HS|]. split; [exact HF|]. split.
  - unfold c'. cbn [rw_routine map_graph_ops cr_start cr_end]. rewrite <- HS. apply sort_blocks_rw.
  - pose proof (order_covered_plain c order code W HS HF) as Cov.
    unfold c'. rewrite (flatten_blocks_rw look (cr_graph c) _ order); [rewrite HF; reflexivity|].
    intros b Hb. rewrite mgo_blk. rewrite (proj2 (SortCorrect.mem_id_In b _) (Cov b Hb)). reflexivity.
Qed.

Theorem routine_assigned_total look o sub ast0 cr :
  (match sub with Some r => r_deferred r | None => None end) = None ->
  compile_one o sub ast0 = COk cr ->
  nec (root_ast ast0) = true ->
  let cr' := rw_routine look cr in
  exists order code,
    sort_blocks (cr_graph cr) (cr_start cr) (cr_end cr) = Some order /\
    flatten_blocks (cr_graph cr) order = Some code /\
    sort_blocks (cr_graph cr') (cr_start cr') (cr_end cr') = Some order /\
    flatten_blocks (cr_graph cr') order = Some (rw_code look code).
Proof. intros D E Hn. exact (late_ok_assigned_total look cr (compiled_late_ok o sub ast0 cr D E Hn)). Qed.

Definition is_crash (e : cerr) : bool :=
  match e with CrashAssertion | CrashRecursion | CrashOther _ => true | _ => false end.

Lemma first_err_in (l : list (option cerr)) e : first_err l = Some e -> In (Some e) l.
Proof.
  unfold first_err. induction l as [|x t IH]; cbn [fold_left]; [discriminate|].
  destruct x as [a|]; [rewrite first_err_acc; intros [= ->]; left; reflexivity|intros H; right; exact (IH H)].
Qed.

Definition user_err (e : cerr) : Prop := e = ErrInput \/ e = ErrCompile.

(* the induction hypothesis on a list of sub-expressions, applied to the first error among them *)
Lemma first_err_map_user {A I} (f : I -> A -> option cerr) l i e :
  Forall (fun a => forall i err, f i a = Some err -> user_err err) l ->
  first_err (map (f i) l) = Some e -> user_err e.
Proof.
  intros H E. apply first_err_in in E. apply in_map_iff in E. destruct E as (a & Ea & Ia).
  rewrite Forall_forall in H. exact (H a Ia i e Ea).
Qed.

(* the errors __teal__ raises are TealInputError / TealCompileError *)
Lemma check_expr_user o sub e : forall il err, check_expr o sub il e = Some err -> user_err err.
Proof.
  induction e using expr_ind'; intros il err E; cbn [check_expr] in E.
  - destruct (op_version_ok o o0 imms); [|injection E as <-; left; reflexivity].
    exact (first_err_map_user _ _ il err H E).
  - exact (first_err_map_user _ _ il err H E).
  - exact (first_err_map_user _ _ il err H E).
  - apply first_err_in in E. destruct E as [E|[E|[E|[]]]]; [eapply IHe1; eauto|eapply IHe2; eauto|].
    destruct el as [x|]; [|discriminate E]. inversion H; subst. eauto.
  - apply first_err_in in E. apply in_flat_map in E. destruct E as (a & Ia & [E|[E|[]]]);
      rewrite Forall_forall in H; destruct (H a Ia) as [Hc Hv]; eauto.
  - apply first_err_in in E. destruct E as [E|[E|[]]]; eauto.
  - apply first_err_in in E. destruct E as [E|[E|[E|[E|[]]]]]; eauto.
  - destruct il; [discriminate E|injection E as <-; right; reflexivity].
  - destruct il; [discriminate E|injection E as <-; right; reflexivity].
  - exact (first_err_map_user _ _ il err H E).
  - assert (X : forall x, v = Some x -> forall err', check_expr o sub il x = Some err' -> user_err err').
    { intros x Q. subst v. inversion H; subst. eauto. }
    destruct sub as [rt|].
    + destruct (N.ltb (o_version o) 4); [injection E as <-; left; reflexivity|].
      destruct rt, v as [x|]; try discriminate E; try (injection E as <-; right; reflexivity);
        (destruct (types_match (type_of x) _); [exact (X x eq_refl err E)|injection E as <-; right; reflexivity]).
    + destruct v as [x|]; [|injection E as <-; right; reflexivity].
      destruct (types_match (type_of x) TUint); [exact (X x eq_refl err E)|injection E as <-; right; reflexivity].
  - eauto.
  - destruct (op_version_ok o o0 imms); [|injection E as <-; left; reflexivity].
    exact (first_err_map_user _ _ il err H E).
  - destruct (N.ltb (o_version o) 4); [injection E as <-; left; reflexivity|].
    exact (first_err_map_user _ _ il err H E).
  - destruct (N.ltb (o_version o) 5); [injection E as <-; right; reflexivity|].
    apply first_err_in in E. apply in_app_or in E. destruct E as [E|E]; apply in_map_iff in E;
      destruct E as (a & Ea & Ia); [rewrite Forall_forall in H; exact (H a Ia il err Ea)|
                                    rewrite Forall_forall in H0; exact (H0 a Ia il err Ea)].
  - discriminate E.
Qed.

Lemma user_err_no_crash e : user_err e -> is_crash e = false.
Proof. intros [->| ->]; reflexivity. Qed.

(* compileSubroutine for one routine: errors of __teal__, the model's limit, or success *)
Theorem compile_one_no_crash o sub ast0 e :
  (match sub with Some r => r_deferred r | None => None end) = None ->
  compile_one o sub ast0 = CErr e -> is_crash e = false.
Proof.
  intros D E.
  destruct (check_expr o (option_map r_ret sub) false (root_ast ast0)) as [err|] eqn:Ck.
  - unfold compile_one in E. fold (root_ast ast0) in E. rewrite Ck in E. injection E as <-.
    exact (user_err_no_crash _ (check_expr_user _ _ _ _ _ Ck)).
  - destruct (has_bad_continue false (root_ast ast0)) eqn:Hb.
    + unfold compile_one in E. fold (root_ast ast0) in E. rewrite Ck, Hb in E. injection E as <-. reflexivity.
    + destruct (compile_one_tree_checks_pass o sub ast0 D Ck Hb) as (cr & E' & _). congruence.
Qed.

Lemma compile_rec_no_crash o p :
  (forall r, In r (p_subs p) -> r_deferred r = None) ->
  forall fuel sub ast acc e,
    (match sub with Some r => r_deferred r | None => None end) = None ->
    compile_rec fuel o p sub ast acc = CErr e -> is_crash e = false.
Proof.
  intros HD fuel sub ast acc e D H. pose proof (compile_rec_post o p fuel sub ast acc) as K. rewrite H in K.
  destruct K as [(m & ->)|[E|(r & Hr & E)]]; [reflexivity| |].
  - exact (compile_one_no_crash o sub ast e D E).
  - exact (compile_one_no_crash o (Some r) (decl_body o r) e (HD r Hr) E).
Qed.

Lemma assign_slots_no_crash p crs e : assign_slots p crs = CErr e -> is_crash e = false.
Proof.
  unfold assign_slots.
  destruct (negb _); [intros H; injection H as <-; reflexivity|].
  destruct (Nat.ltb 256 _); [intros H; injection H as <-; reflexivity|].
  destruct (fold_left _ crs (Some false)) as [[|]|]; intros H; try discriminate H; injection H as <-; reflexivity.
Qed.

Lemma spill_no_crash v p frs locals e : spill v p frs locals = CErr e -> is_crash e = false.
Proof. unfold spill. destruct (existsb _ frs); intros H; [injection H as <-; reflexivity|discriminate H]. Qed.

Lemma verify_ops_no_crash o modes cs e : verify_ops o modes cs = Some e -> is_crash e = false.
Proof.
  unfold verify_ops. destruct (existsb _ cs); [intros H; injection H as <-; reflexivity|].
  destruct (existsb _ cs); intros H; [injection H as <-; reflexivity|discriminate H].
Qed.

(* the sort + flatten stage of compile_components, as a function of the assigned routines:
   [sort_flatten_all] of Proofs/PipelineStages.v written out *)
Definition flat_stage (crs2 : list croutine) : cres (list flat_routine) :=
  fold_right (fun c acc =>
                match acc with
                | CErr e => CErr e
                | COk l =>
                    match sort_blocks (cr_graph c) (cr_start c) (cr_end c) with
                    | None => CErr ErrInternal
                    | Some order =>
                        match flatten_blocks (cr_graph c) order with
                        | Some ops => COk (mkFR (cr_sub c) ops :: l)
                        | None => CErr CrashAssertion
                        end
                    end
                end) (COk []) crs2.

Lemma flat_stage_total crs2 :
  (forall c, In c crs2 -> exists order code,
      sort_blocks (cr_graph c) (cr_start c) (cr_end c) = Some order /\ flatten_blocks (cr_graph c) order = Some code) ->
  exists frs, flat_stage crs2 = COk frs.
Proof.
  induction crs2 as [|c t IH]; intros H; [exists []; reflexivity|].
  destruct (IH (fun x Hx => H x (or_intror Hx))) as (frs & E).
  destruct (H c (or_introl eq_refl)) as (order & code & HS & HF).
  unfold flat_stage in *. cbn [fold_right]. rewrite E, HS, HF. eauto.
Qed.

Lemma flat_stage_late look crs1 : (forall c, In c crs1 -> late_ok c) ->
  exists frs, flat_stage (map (rw_routine look) crs1) = COk frs.
Proof.
  intros H. apply flat_stage_total. intros c' Hc'. apply in_map_iff in Hc'. destruct Hc' as (c & <- & Hc).
  destruct (late_ok_assigned_total look c (H c Hc)) as (order & code & _ & _ & S2 & F2). eauto.
Qed.

(* every routine compileSubroutine returns for the program has that shape *)
Lemma compile_rec_late_ok o p crs :
  (forall r, In r (p_subs p) -> r_deferred r = None /\ nec (r_body r) = true) ->
  nec (root_ast (p_main p)) = true ->
  compile_rec (S (List.length (p_subs p))) o p None (p_main p) [] = COk crs ->
  forall c, In c crs -> late_ok c.
Proof.
  intros HS Hm HR c Hc. destruct (compile_rec_origin o p crs HR c Hc) as [E|(r & Hr & E)].
  - exact (compiled_late_ok o None (p_main p) c eq_refl E Hm).
  - destruct (HS r Hr) as [Dr Nr]. exact (compiled_late_ok o (Some r) (decl_body o r) c Dr E (nec_decl_body o r Nr)).
Qed.

(* every routine of a program, after slot assignment, is sorted and flattened successfully: neither
   TealInternalError("End block not present") nor an assertion of flattenBlocks *)
Theorem program_flat_stage_total o p crs crs' locals asg :
  (forall r, In r (p_subs p) -> r_deferred r = None /\ nec (r_body r) = true) ->
  nec (root_ast (p_main p)) = true ->
  compile_rec (S (List.length (p_subs p))) o p None (p_main p) [] = COk crs ->
  assign_slots p crs = COk (crs', locals, asg) ->
  exists frs, flat_stage crs' = COk frs.
Proof.
  intros HS Hm HR HA. rewrite (proj1 (assign_slots_facts p crs crs' locals asg HA)).
  exact (flat_stage_late (look_of asg) crs (compile_rec_late_ok o p crs HS Hm HR)).
Qed.

(* the stages of compile_components one after the other; what the optimiser stage has to deliver (it is
   total and keeps the shape, Proofs/LatePassTotalOpt.v) is a hypothesis here *)
Theorem components_no_crash o modes p e :
  (o_opt_slots o = true -> forall crs, (forall c, In c crs -> late_ok c) ->
     exists crs1, opt_stage (skip_slots p crs) crs = COk crs1 /\ forall c, In c crs1 -> late_ok c) ->
  (forall r, In r (p_subs p) -> r_deferred r = None /\ nec (r_body r) = true) ->
  nec (root_ast (p_main p)) = true ->
  compile_components o modes p = CErr e -> is_crash e = false.
Proof.
  intros HO HS Hm H. rewrite compile_components_stages in H.
  destruct (negb _); [injection H as <-; reflexivity|].
  apply cbind_err in H as [H|(crs & E1 & H)];
    [exact (compile_rec_no_crash o p (fun r Hr => proj1 (HS r Hr)) _ None _ _ _ eq_refl H)|].
  pose proof (compile_rec_late_ok o p crs HS Hm E1) as L0.
  assert (K : exists crs1, (if o_opt_slots o then opt_stage (skip_slots p crs) crs else COk crs) = COk crs1 /\
                           forall c, In c crs1 -> late_ok c).
  { destruct (o_opt_slots o); [exact (HO eq_refl crs L0)|exists crs; split; [reflexivity|exact L0]]. }
  destruct K as (crs1 & EO & L1). rewrite EO in H. cbn [cbind] in H.
  apply cbind_err in H as [H|([[crs2 locals] asg] & E2 & H)]; [exact (assign_slots_no_crash p crs1 e H)|].
  rewrite (proj1 (assign_slots_facts p crs1 crs2 locals asg E2)) in H.
  destruct (flat_stage_late (look_of asg) crs1 L1) as (frs & EF).
  unfold emit_stage in H. change sort_flatten_all with flat_stage in H. rewrite EF in H. cbn [cbind] in H.
  apply cbind_err in H as [H|(frs2 & _ & H)]; [exact (spill_no_crash _ _ _ _ _ H)|].
  destruct (verify_ops o modes (flatten_subroutines frs2)) as [e4|] eqn:E4;
    [injection H as <-; exact (verify_ops_no_crash _ _ _ _ E4)|discriminate H].
Qed.

Lemma model_no_crash o modes p :
  (forall e, compile_components o modes p = CErr e -> is_crash e = false) ->
  forall e, compile_model o modes p = CErr e -> is_crash e = false.
Proof.
  intros HC e H. unfold compile_model in H.
  destruct (compile_components o modes p) as [comps|e1].
  - destruct (assemble_all comps); [discriminate H|injection H as <-; reflexivity].
  - injection H as <-. exact (HC e1 eq_refl).
Qed.

Theorem compile_model_no_crash o modes p e :
  o_opt_slots o = false ->
  (forall r, In r (p_subs p) -> r_deferred r = None /\ nec (r_body r) = true) ->
  nec (root_ast (p_main p)) = true ->
  compile_model o modes p = CErr e -> is_crash e = false.
Proof.
  intros Ho HS Hm. apply model_no_crash. intros e1.
  apply components_no_crash; [intros Ho'; congruence|exact HS|exact Hm].
Qed.
