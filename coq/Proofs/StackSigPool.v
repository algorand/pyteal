(* Proofs/StackSigPool.v — the signatures are not too lax: for every listed opcode (with representative
   immediates) and every operand shape over {uint64, bytes} that its signature accepts, some stack of that
   shape built from a small pool of values makes the machine succeed.  Finite check by vm_compute.
   With [sig_necessary] (an opcode that succeeds had operands the signature accepts) this pins the table on the
   listed triples: there a shape of the signature's depth is accepted exactly when the opcode can succeed on
   operands of that shape (one representative immediate each, one fixed context and state). *)
From Coq Require Import List Arith NArith Ascii String Bool.
From PV Require Import Base.Bytes AVM.Syntax AVM.Machine AVM.StackSig.
Import ListNotations.
Local Open Scope string_scope.

Definition b8 : bytes := repeat (ascii_of_N 1) 8.
Definition b40 : bytes := repeat (ascii_of_N 2) 40.
Definition pool_u : list value := [VI 1; VI 2; VI 0].
Definition pool_b : list value := [VB b8; VB b40; VB [ascii_of_N 1]].

(* all stacks whose cells have the given tags, drawn from the pool, on top of a fixed remainder *)
Fixpoint stacks_of (shape : list ty) : list (list value) :=
  match shape with
  | [] => [[VI 7]]
  | t :: r =>
      flat_map (fun rest => map (fun v => v :: rest) (match t with TU => pool_u | _ => pool_b end)) (stacks_of r)
  end.

Fixpoint shapes (n : nat) : list (list ty) :=
  match n with
  | O => [[]]
  | S k => flat_map (fun s => [TU :: s; TB :: s]) (shapes k)
  end.

Definition txn0 : txn :=
  mkTxn [("Fee", VI 1000); ("Sender", VB b8); ("Amount", VI 5)] [("ApplicationArgs", [VB b8; VB b8]); ("Assets", [VI 3])] [(0%N, VI 9)] 0.
Definition cx0 : ctx := mkCtx true [txn0; txn0] 1 [("MinTxnFee", VI 1000); ("ZeroAddress", VB b8)] [b8; b8] 0.
Definition st0 : mstate :=
  mkSt [] [(b8, VI 1)] [] [(b8, b40); (b40, b8)] (Some [[]]) [[("Fee", VI 1)]] [].

Definition succeeds (o : opc) (imms : list imm) (stk : list value) : bool :=
  match exec_op cx0 o imms stk st0 with OOk _ _ => true | _ => false end.

Definition accepted (o : opc) (imms : list imm) (shape : list ty) : bool :=
  match sig_apply true (sig_of o imms) (shape ++ [TU]) with Some _ => true | None => false end.

Definition realisable (o : opc) (imms : list imm) (depth : nat) : bool :=
  forallb (fun shape => implb (accepted o imms shape) (existsb (succeeds o imms) (stacks_of shape))) (shapes depth).

Definition i1 (n : N) : list imm := [IInt n].
Definition listed : list (opc * list imm * nat) :=
  [ (O_add, [], 2); (O_minus, [], 2); (O_div, [], 2); (O_mul, [], 2); (O_mod, [], 2); (O_lt, [], 2); (O_gt, [], 2);
    (O_le, [], 2); (O_ge, [], 2); (O_logic_and, [], 2); (O_logic_or, [], 2); (O_eq, [], 2); (O_neq, [], 2);
    (O_logic_not, [], 1); (O_bitwise_or, [], 2); (O_bitwise_and, [], 2); (O_bitwise_xor, [], 2); (O_bitwise_not, [], 1);
    (O_mulw, [], 2); (O_addw, [], 2); (O_divmodw, [], 4); (O_divw, [], 3); (O_exp, [], 2); (O_expw, [], 2);
    (O_shl, [], 2); (O_shr, [], 2); (O_sqrt, [], 1); (O_bitlen, [], 1);
    (O_len, [], 1); (O_itob, [], 1); (O_btoi, [], 1); (O_concat, [], 2);
    (O_substring, [IInt 1; IInt 3], 1); (O_substring3, [], 3); (O_extract, [IInt 1; IInt 2], 1); (O_extract3, [], 3);
    (O_extract_uint16, [], 2); (O_extract_uint32, [], 2); (O_extract_uint64, [], 2);
    (O_getbit, [], 2); (O_setbit, [], 3); (O_getbyte, [], 2); (O_setbyte, [], 3); (O_bzero, [], 1);
    (O_replace2, i1 1, 2); (O_replace3, [], 3);
    (O_b_add, [], 2); (O_b_minus, [], 2); (O_b_mul, [], 2); (O_b_div, [], 2); (O_b_mod, [], 2); (O_b_lt, [], 2);
    (O_b_gt, [], 2); (O_b_le, [], 2); (O_b_ge, [], 2); (O_b_eq, [], 2); (O_b_neq, [], 2); (O_b_or, [], 2);
    (O_b_and, [], 2); (O_b_xor, [], 2); (O_b_not, [], 1); (O_bsqrt, [], 1);
    (O_sha256, [], 1); (O_keccak256, [], 1); (O_sha512_256, [], 1); (O_sha3_256, [], 1);
    (O_pop, [], 1); (O_dup, [], 1); (O_dup2, [], 2); (O_swap, [], 2); (O_select, [], 3); (O_assert_, [], 1);
    (O_dig, i1 1, 2); (O_cover, i1 1, 2); (O_uncover, i1 1, 2); (O_bury, i1 1, 2); (O_popn, i1 2, 2); (O_dupn, i1 2, 1);
    (O_int, i1 5, 0); (O_pushint, i1 5, 0); (O_byte, [IBytes b8], 0); (O_pushbytes, [IBytes b8], 0);
    (O_addr, [IBytes b8], 0); (O_method_signature, [IBytes b8], 0);
    (O_load, i1 3, 0); (O_store, i1 3, 1); (O_loads, [], 1); (O_stores, [], 2);
    (O_txn, [IName "Fee"], 0); (O_txn, [IName "Sender"], 0); (O_txna, [IName "ApplicationArgs"; IInt 1], 0);
    (O_txnas, [IName "ApplicationArgs"], 1); (O_gtxn, [IInt 0; IName "Amount"], 0);
    (O_gtxna, [IInt 0; IName "Assets"; IInt 0], 0); (O_gtxns, [IName "Fee"], 1); (O_gtxnsa, [IName "Assets"; IInt 0], 1);
    (O_gtxnas, [IInt 1; IName "ApplicationArgs"], 1); (O_gtxnsas, [IName "ApplicationArgs"], 2);
    (O_global_, [IName "MinTxnFee"], 0); (O_global_, [IName "ZeroAddress"], 0);
    (O_arg, i1 1, 0); (O_args, [], 1); (O_gload, [IInt 0; IInt 0], 0); (O_gloads, i1 0, 1); (O_gaid, i1 0, 0); (O_gaids, [], 1);
    (O_app_global_get, [], 1); (O_app_global_get_ex, [], 2); (O_app_global_put, [], 2); (O_app_global_del, [], 1);
    (O_app_local_get, [], 2); (O_app_local_get_ex, [], 3); (O_app_local_put, [], 3); (O_app_local_del, [], 2);
    (O_log, [], 1); (O_box_put, [], 2); (O_box_get, [], 1); (O_box_len, [], 1); (O_box_del, [], 1);
    (O_box_create, [], 2); (O_box_extract, [], 3); (O_box_replace, [], 3);
    (O_itxn_next, [], 0); (O_itxn_field, [IName "Fee"], 1); (O_itxn_submit, [], 0); (O_itxn, [IName "Fee"], 0);
    (O_gitxn, [IInt 0; IName "Fee"], 0) ].

Definition all_realisable : bool :=
  forallb (fun x => match x with (o, imms, d) => realisable o imms d end) listed.

Definition failing : list string :=
  map (fun x => match x with (o, _, _) => opc_name o end)
      (filter (fun x => match x with (o, imms, d) => negb (realisable o imms d) end) listed).

(* every listed case has a signature at all (not unknown / control) and at least one accepted shape *)
Definition all_meaningful : bool :=
  forallb (fun x => match x with (o, imms, d) => existsb (accepted o imms) (shapes d) end) listed.

Lemma sig_realisable_on_pool : all_realisable = true /\ all_meaningful = true.
Proof. vm_compute. split; reflexivity. Qed.
