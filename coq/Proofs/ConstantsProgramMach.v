(* Proofs/ConstantsProgramMach.v — C12, whole program: facts about AVM/Machine.v only.
   (1) FRAME LEMMA: the constant registers [m_intc]/[m_bytec] are read and written by the twelve
       constant-block opcodes only ([is_block_op]); on any other instruction [step] neither looks at
       them nor changes them.
   (2) RELOCATION: a program whose instruction list is the same one moved up by n positions, with every
       label target moved by n, steps in lock step with the original (pc, return addresses shifted by n).
   Both are instances of one lemma, [step_same_instr].
   (3) a constant load (ConstantsSpec.load_value) against a pseudo-op push: [step_const_site].
   (4) [lock_step] / [run_lock]: two programs whose codes are position-wise related by [irel]
       (same non-block instruction, or two loads of the same value) run in lock step.
   (5) [run_blocks]: executing the emitted intcblock/bytecblock lines from the initial machine. *)
From Coq Require Import List Arith NArith Ascii String Bool Lia.
From PV Require Import Base.Bytes Base.U64 Base.Sexp AVM.Syntax AVM.Ops AVM.Machine AVM.Parse
  Comp.Constants Comp.ConstantsSpec Proofs.ExecOpFacts Proofs.ConstantsSim.
Import ListNotations.

(* the opcodes that read or write the constant registers *)
Definition is_block_op (o : opc) : bool :=
  match o with
  | O_intcblock | O_intc | O_intc_0 | O_intc_1 | O_intc_2 | O_intc_3
  | O_bytecblock | O_bytec | O_bytec_0 | O_bytec_1 | O_bytec_2 | O_bytec_3 => true
  | _ => false
  end.

Definition shift_frame (n : nat) (f : frame) : frame := mkFrame (f_ret f + n) (f_proto f).

(* same machine up to: pc and return addresses moved by n; constant registers not compared *)
Record mrel (n : nat) (m m' : mach) : Prop := mkMrel {
  r_pc : m_pc m' = m_pc m + n;
  r_stack : m_stack m' = m_stack m;
  r_calls : m_calls m' = map (shift_frame n) (m_calls m);
  r_fc : m_from_callsub m' = m_from_callsub m;
  r_st : m_st m' = m_st m
}.

Definition regs_eq (a b : mach) : Prop := m_intc a = m_intc b /\ m_bytec a = m_bytec b.

(* outcomes of one step from (m, m'): same kind, same verdict, related machines, registers untouched *)
Definition orel (n : nat) (m m' : mach) (o o' : outcome) : Prop :=
  match o, o' with
  | Running a, Running a' => mrel n a a' /\ regs_eq a m /\ regs_eq a' m'
  | Done v a, Done v' a' => v' = v /\ mrel n a a' /\ regs_eq a m /\ regs_eq a' m'
  | _, _ => False
  end.

Definition labels_shift (n : nat) (P P' : program) : Prop :=
  forall l, label_pc P' l = option_map (fun t => t + n) (label_pc P l).

Ltac fin :=
  cbn [orel]; repeat split; cbn [m_pc m_stack m_calls m_from_callsub m_intc m_bytec m_st map shift_frame f_ret f_proto with_pc_stack];
  try reflexivity; try lia; try congruence.

Lemma orel_stop n m m' v : mrel n m m' -> orel n m m' (Done v m) (Done v m').
Proof. intros R. cbn [orel]. split; [reflexivity|]. split; [exact R|]. split; split; reflexivity. Qed.

(* the one case analysis over [step]: same instruction (not a block opcode) at related machines *)
Lemma step_same_instr cx P P' n m m' oi :
  labels_shift n P P' -> mrel n m m' ->
  nth_error (pr_code P) (m_pc m) = oi -> nth_error (pr_code P') (m_pc m') = oi ->
  (forall p, oi = Some p -> is_block_op (p_op p) = false) ->
  orel n m m' (step cx P m) (step cx P' m').
Proof.
  intros HL R H0 H1 Hnb.
  destruct m as [pc stk calls fc ic bc st], m' as [pc' stk' calls' fc' ic' bc' st'].
  destruct R as [Rpc Rstk Rcalls Rfc Rst]. cbn [m_pc m_stack m_calls m_from_callsub m_st] in *.
  subst pc' stk' calls' fc' st'.
  assert (R : mrel n (mkM pc stk calls fc ic bc st) (mkM (pc + n) stk (map (shift_frame n) calls) fc ic' bc' st))
    by (constructor; reflexivity).
  unfold step. cbn [m_pc m_stack m_calls m_from_callsub m_intc m_bytec m_st]. rewrite H0, H1.
  destruct oi as [[o imms]|].
  2:{ destruct stk as [|[x|x] [|y r]]; fin. }
  specialize (Hnb _ eq_refl). cbn [p_op p_imms] in *.
  unfold height. cbn [m_stack].
  destruct (STACK_MAX <? List.length stk)%nat; [fin|].
  destruct (exec_op cx o imms stk st) as [s1 st1| | |] eqn:Ex; try fin.
  (* ONot: the machine's own opcodes; err, switch and match stop both machines where they are *)
  apply exec_op_not_inv in Ex.
  destruct o; try discriminate Ex; try discriminate Hnb; cbn [m_stack m_calls m_from_callsub m_intc m_bytec m_st];
    try exact (orel_stop _ _ _ _ R).
  - (* bnz *)
    destruct imms as [|[?|?|l] [|? ?]]; try fin; destruct stk as [|[c|c] r]; try fin.
    rewrite HL. destruct (label_pc P l) as [t|]; cbn [option_map]; [|fin]. destruct (c =? 0)%N; fin.
  - (* bz *)
    destruct imms as [|[?|?|l] [|? ?]]; try fin; destruct stk as [|[c|c] r]; try fin.
    rewrite HL. destruct (label_pc P l) as [t|]; cbn [option_map]; [|fin]. destruct (c =? 0)%N; fin.
  - (* b *)
    destruct imms as [|[?|?|l] [|? ?]]; try fin.
    rewrite HL. destruct (label_pc P l) as [t|]; cbn [option_map]; fin.
  - (* return *)
    destruct stk as [|[c|c] r]; fin.
  - (* callsub *)
    destruct imms as [|[?|?|l] [|? ?]]; try fin.
    rewrite HL. destruct (label_pc P l) as [t|]; cbn [option_map]; fin.
  - (* retsub *)
    destruct calls as [|f fs]; cbn [map]; [fin|]. cbn [shift_frame f_proto f_ret].
    destruct (f_proto f) as [[[h a] r]|]; [|fin].
    destruct (h + r <=? List.length stk)%nat; fin.
  - (* frame_dig *)
    destruct imms as [|[k|?|?] [|? ?]]; try fin.
    destruct calls as [|f fs]; cbn [map]; [fin|]. cbn [shift_frame f_proto].
    destruct (f_proto f) as [[[h a] r]|]; [|fin].
    destruct (frame_index h a k) as [idx|]; [|fin].
    destruct (from_bottom stk idx) as [pos|]; [|fin].
    destruct (nth_error stk pos) as [v|]; fin.
  - (* frame_bury *)
    destruct imms as [|[k|?|?] [|? ?]]; try fin; destruct stk as [|v r0]; try fin.
    destruct calls as [|f fs]; cbn [map]; [fin|]. cbn [shift_frame f_proto].
    destruct (f_proto f) as [[[h a] r]|]; [|fin].
    destruct (frame_index h a k) as [idx|]; [|fin].
    destruct (from_bottom r0 idx) as [pos|]; fin.
  - (* proto *)
    destruct imms as [|[a|?|?] [|[r|?|?] [|? ?]]]; try fin.
    destruct fc; [|fin]. destruct calls as [|f fs]; cbn [map]; [fin|].
    destruct (N.to_nat a <=? List.length stk)%nat; fin.
Qed.

Definition set_consts (m : mach) (ib : list N) (bb : list bytes) : mach :=
  mkM (m_pc m) (m_stack m) (m_calls m) (m_from_callsub m) ib bb (m_st m).

Definition map_outcome (f : mach -> mach) (o : outcome) : outcome :=
  match o with Running a => Running (f a) | Done v a => Done v (f a) end.

Lemma shift_frame_0 f : shift_frame 0 f = f.
Proof. destruct f as [r p]. unfold shift_frame. cbn [f_ret f_proto]. now rewrite Nat.add_0_r. Qed.

Lemma map_shift_0 l : map (shift_frame 0) l = l.
Proof. induction l as [|f t IH]; [reflexivity|]. cbn [map]. now rewrite shift_frame_0, IH. Qed.

Lemma mrel_0_eq m m' : mrel 0 m m' -> m' = set_consts m (m_intc m') (m_bytec m').
Proof.
  intros [Rpc Rstk Rcalls Rfc Rst]. destruct m, m'. unfold set_consts. cbn in *.
  rewrite Nat.add_0_r in Rpc. rewrite map_shift_0 in Rcalls. congruence.
Qed.

Lemma labels_shift_0 P : labels_shift 0 P P.
Proof. intros l. destruct (label_pc P l) as [t|]; cbn [option_map]; [now rewrite Nat.add_0_r|reflexivity]. Qed.

(* [step] on an instruction that is not a constant-block opcode (or past the end of the program):
   replacing the constant registers by ANY others changes nothing but those registers in the result,
   and the result carries the registers of the start machine. *)
Theorem step_frame cx P m ib bb :
  (forall p, nth_error (pr_code P) (m_pc m) = Some p -> is_block_op (p_op p) = false) ->
  step cx P (set_consts m ib bb) = map_outcome (fun a => set_consts a ib bb) (step cx P m) /\
  match step cx P m with Running a | Done _ a => m_intc a = m_intc m /\ m_bytec a = m_bytec m end.
Proof.
  intros Hnb.
  assert (R : mrel 0 m (set_consts m ib bb)).
  { destruct m. unfold set_consts. constructor; cbn; try reflexivity; [lia|now rewrite map_shift_0]. }
  pose proof (step_same_instr cx P P 0 m (set_consts m ib bb) _ (labels_shift_0 P) R eq_refl eq_refl Hnb) as H.
  destruct (step cx P m) as [a|v a], (step cx P (set_consts m ib bb)) as [a'|v' a']; cbn [orel] in H; try contradiction.
  - destruct H as (Ra & Ea & Ea'). split; [|exact Ea]. cbn [map_outcome]. f_equal.
    rewrite (mrel_0_eq _ _ Ra). destruct Ea' as [-> ->]. reflexivity.
  - destruct H as (-> & Ra & Ea & Ea'). split; [|exact Ea]. cbn [map_outcome]. f_equal.
    rewrite (mrel_0_eq _ _ Ra). destruct Ea' as [-> ->]. reflexivity.
Qed.

Lemma step_overflow cx P m p :
  nth_error (pr_code P) (m_pc m) = Some p -> (STACK_MAX < height m)%nat -> step cx P m = Done VFail m.
Proof.
  intros Hn Hh. unfold step. rewrite Hn.
  destruct (Nat.ltb_spec STACK_MAX (height m)) as [_|Hle]; [reflexivity|lia].
Qed.

Lemma step_const_site cx P P' n m m' p p' v :
  mrel n m m' ->
  nth_error (pr_code P) (m_pc m) = Some p -> nth_error (pr_code P') (m_pc m') = Some p' ->
  load_value (m_intc m) (m_bytec m) p = Some v -> imm_fits p ->
  load_value (m_intc m') (m_bytec m') p' = Some v -> imm_fits p' ->
  orel n m m' (step cx P m) (step cx P' m').
Proof.
  intros R H0 H1 L0 F0 L1 F1.
  assert (Hh : height m' = height m) by (unfold height; now rewrite (r_stack _ _ _ R)).
  destruct (Nat.lt_ge_cases STACK_MAX (height m)) as [Hgt|Hle].
  - rewrite (step_overflow cx P m p H0 Hgt), (step_overflow cx P' m' p' H1) by (rewrite Hh; exact Hgt).
    cbn [orel]. repeat split; apply R.
  - rewrite (load_value_step _ _ p v L0 F0 cx P m H0 eq_refl eq_refl Hle).
    rewrite (load_value_step _ _ p' v L1 F1 cx P' m' H1 eq_refl eq_refl) by (rewrite Hh; exact Hle).
    destruct R as [Rpc Rstk Rcalls Rfc Rst].
    cbn [orel]. repeat split; cbn [with_pc_stack m_pc m_stack m_calls m_from_callsub m_st m_intc m_bytec];
      try reflexivity; try assumption; try lia. now rewrite Rstk.
Qed.

(* two instructions at corresponding positions: the same one (not a block opcode), or two loads of one value
   — the first a push that ignores the registers, the second resolved against the blocks (ib, bb) *)
Definition irel (ib : list N) (bb : list bytes) (p p' : pinstr) : Prop :=
  (p' = p /\ is_block_op (p_op p) = false) \/
  (exists v, (forall ib0 bb0, load_value ib0 bb0 p = Some v) /\ imm_fits p /\
             load_value ib bb p' = Some v /\ imm_fits p').

(* the lock-step invariant: related machines, the second holding the emitted blocks *)
Definition lockrel (n : nat) (ib : list N) (bb : list bytes) (m m' : mach) : Prop :=
  mrel n m m' /\ m_intc m' = ib /\ m_bytec m' = bb.

Lemma forall2_length {A B} (R : A -> B -> Prop) l1 l2 : Forall2 R l1 l2 -> List.length l1 = List.length l2.
Proof. induction 1 as [|x y l1 l2 _ _ IH]; [reflexivity|]. cbn [List.length]. now rewrite IH. Qed.

Lemma forall2_nth_none {A B} (R : A -> B -> Prop) l1 l2 : Forall2 R l1 l2 ->
  forall idx, nth_error l1 idx = None -> nth_error l2 idx = None.
Proof.
  intros H idx Hn. apply nth_error_None. rewrite <- (forall2_length _ _ _ H). now apply nth_error_None.
Qed.

Section Lock.
  Variables (cx : ctx) (P P' : program) (pro c c' : list pinstr) (ib : list N) (bb : list bytes).
  Hypothesis HC : pr_code P = c.
  Hypothesis HC' : pr_code P' = (pro ++ c')%list.
  Hypothesis HR : Forall2 (irel ib bb) c c'.
  Hypothesis HL : labels_shift (List.length pro) P P'.

  Let n := List.length pro.

  Lemma lock_step m m' : lockrel n ib bb m m' -> orel n m m' (step cx P m) (step cx P' m').
  Proof.
    intros (R & Hi & Hb).
    assert (E' : nth_error (pr_code P') (m_pc m') = nth_error c' (m_pc m)).
    { rewrite HC', (r_pc _ _ _ R). rewrite nth_error_app2 by (unfold n; lia). f_equal. unfold n. lia. }
    destruct (nth_error c (m_pc m)) as [p|] eqn:E.
    - destruct (ConstantsProof.forall2_nth _ _ _ HR _ _ E) as (p' & Ep' & [[-> Hnb]|(v & L0 & F0 & L1 & F1)]).
      + apply (step_same_instr cx P P' n m m' (Some p) HL R); [now rewrite HC|now rewrite E'|].
        intros q Hq. injection Hq as <-. exact Hnb.
      + apply (step_const_site cx P P' n m m' p p' v R); [now rewrite HC|now rewrite E'|apply L0|exact F0| |exact F1].
        rewrite Hi, Hb. exact L1.
    - apply (step_same_instr cx P P' n m m' None HL R); [now rewrite HC| |discriminate].
      rewrite E'. exact (forall2_nth_none _ _ _ HR _ E).
  Qed.

  Lemma lock_step_inv m m' : lockrel n ib bb m m' ->
    match step cx P m, step cx P' m' with
    | Running a, Running a' => lockrel n ib bb a a'
    | Done v a, Done v' a' => v' = v /\ lockrel n ib bb a a'
    | _, _ => False
    end.
  Proof.
    intros L. pose proof (lock_step m m' L) as H. destruct L as (_ & Hi & Hb).
    destruct (step cx P m) as [a|v a], (step cx P' m') as [a'|v' a']; cbn [orel] in H; try contradiction.
    - destruct H as (Ra & _ & [E1 E2]). split; [exact Ra|]. split; congruence.
    - destruct H as (-> & Ra & _ & [E1 E2]). split; [reflexivity|]. split; [exact Ra|]. split; congruence.
  Qed.

  (* runs from related machines: same verdict, related final machines, for every fuel *)
  Lemma run_lock : forall k m m', lockrel n ib bb m m' ->
    fst (run k cx P' m') = fst (run k cx P m) /\ lockrel n ib bb (snd (run k cx P m)) (snd (run k cx P' m')).
  Proof.
    induction k as [|k IH]; intros m m' L; [split; [reflexivity|exact L]|].
    cbn [run]. pose proof (lock_step_inv m m' L) as H.
    destruct (step cx P m) as [a|v a], (step cx P' m') as [a'|v' a']; try contradiction.
    - exact (IH a a' H).
    - destruct H as [-> La]. split; [reflexivity|exact La].
  Qed.
End Lock.

(* registers after executing a list of intcblock/bytecblock instructions (None: something else) *)
Fixpoint blocks_of (l : list pinstr) (ib : list N) (bb : list bytes) : option (list N * list bytes) :=
  match l with
  | [] => Some (ib, bb)
  | p :: t =>
      match p_op p with
      | O_intcblock => match imm_ints (p_imms p) with Some ns => blocks_of t ns bb | None => None end
      | O_bytecblock => match imm_bytes (p_imms p) with Some bs => blocks_of t ib bs | None => None end
      | _ => None
      end
  end.

Lemma blocks_of_cons p t ib0 bb0 :
  blocks_of (p :: t) ib0 bb0 =
  match blocks_of [p] ib0 bb0 with Some (ib1, bb1) => blocks_of t ib1 bb1 | None => None end.
Proof.
  cbn [blocks_of]. destruct (p_op p); try reflexivity;
    [destruct (imm_ints (p_imms p))|destruct (imm_bytes (p_imms p))]; reflexivity.
Qed.

Lemma step_block cx P' pc p ib0 bb0 ib1 bb1 st :
  nth_error (pr_code P') pc = Some p -> blocks_of [p] ib0 bb0 = Some (ib1, bb1) ->
  step cx P' (mkM pc [] [] false ib0 bb0 st) = Running (mkM (S pc) [] [] false ib1 bb1 st).
Proof.
  intros Hn Hb. destruct p as [o imms]. cbn [blocks_of p_op p_imms] in Hb.
  (* the two block opcodes first, while the goal is small *)
  destruct o; try discriminate Hb;
    [destruct (imm_ints imms) eqn:Ei|destruct (imm_bytes imms) eqn:Ei]; try discriminate Hb; injection Hb as <- <-.
  all: unfold step; cbn [m_pc]; rewrite Hn; unfold height; cbn [m_stack List.length p_op p_imms].
  all: change (STACK_MAX <? 0)%nat with false; cbv iota; unfold exec_op.
  all: cbn [exec_pure m_stack m_st m_calls m_intc m_bytec m_pc]; rewrite Ei; reflexivity.
Qed.

Lemma run_blocks cx P' : forall pro pre post ib0 bb0 ib bb,
  blocks_of pro ib0 bb0 = Some (ib, bb) -> pr_code P' = (pre ++ pro ++ post)%list ->
  forall k st,
    run (List.length pro + k) cx P' (mkM (List.length pre) [] [] false ib0 bb0 st) =
    run k cx P' (mkM (List.length pre + List.length pro) [] [] false ib bb st).
Proof.
  induction pro as [|p t IH]; intros pre post ib0 bb0 ib bb Hb Hc k st.
  - cbn [blocks_of] in Hb. injection Hb as <- <-. cbn [List.length Nat.add]. now rewrite Nat.add_0_r.
  - rewrite blocks_of_cons in Hb. destruct (blocks_of [p] ib0 bb0) as [[ib1 bb1]|] eqn:Hp; [|discriminate Hb].
    assert (Hn : nth_error (pr_code P') (List.length pre) = Some p).
    { rewrite Hc, nth_error_app2 by lia. now rewrite Nat.sub_diag. }
    cbn [List.length Nat.add run]. rewrite (step_block cx P' _ p _ _ _ _ st Hn Hp).
    replace (S (List.length pre)) with (List.length (pre ++ [p])) by (rewrite app_length; cbn; lia).
    rewrite (IH (pre ++ [p])%list post ib1 bb1 ib bb Hb) by (rewrite Hc, <- app_assoc; reflexivity).
    f_equal. f_equal. rewrite app_length. cbn. lia.
Qed.
