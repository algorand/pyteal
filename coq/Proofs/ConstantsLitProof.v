(* Proofs/ConstantsLitProof.v — C12: the value constants.py extracts from a literal spelling is the
   value the TEAL assembler (AVM/Parse.v) reads from the same spelling, whenever both read it; the
   spellings createConstantBlocks emits ("0x" ++ lowercase hex, decimal integers) are read back exactly. *)
From Coq Require Import List Arith NArith Ascii String Bool Lia.
From PV Require Import Base.Bytes Base.Sexp AVM.Syntax AVM.Parse Comp.ConstantsLit Comp.Constants.
From PV Require Export Proofs.TextFacts.
Import ListNotations.
Local Open Scope N_scope.

Lemma an_lt c : an c < 256.
Proof. unfold an. apply N_ascii_bounded. Qed.

Lemma na_an c : na (an c) = c.
Proof. unfold na, an. apply ascii_N_embedding. Qed.

Lemma an_na n : n < 256 -> an (na n) = n.
Proof. intros H. unfold na, an. apply N_ascii_embedding. exact H. Qed.

Lemma ascii_eqb_eq' a b : Ascii.eqb a b = true -> a = b.
Proof. apply Ascii.eqb_eq. Qed.

Lemma hexval_lt c v : hexval c = Some v -> v < 16.
Proof.
  unfold hexval. set (n := N_of_ascii c).
  destruct (N.leb_spec 48 n); destruct (N.leb_spec n 57); cbn [andb]; try (intros E; injection E; lia).
  all: destruct (N.leb_spec 97 n); destruct (N.leb_spec n 102); cbn [andb]; try (intros E; injection E; lia).
  all: destruct (N.leb_spec 65 n); destruct (N.leb_spec n 70); cbn [andb]; try (intros E; injection E; lia); discriminate.
Qed.

Lemma hexdigit_is_hex n : n < 16 -> exists v, hexval (hexdigit n) = Some v.
Proof. intros H; eexists; apply hexval_hexdigit; exact H. Qed.

Definition hex_spelling (b : bytes) : string := ("0x" ++ bytes_to_hex b)%string.

(* the spelling createConstantBlocks emits for a byte value is read back by the assembler as that value *)
Lemma parse_bytes_arg_hex_spelling b rest :
  parse_bytes_arg (hex_spelling b :: rest) = Some (b, rest).
Proof. unfold hex_spelling, bytes_to_hex. now rewrite parse_bytes_arg_0x, los_sol, hex_of_bytes_roundtrip. Qed.

(* a hexadecimal digit is neither blank, backslash nor double quote *)
Lemma hexval_char c :
  match hexval c with Some _ => negb (py_isspace c || Ascii.eqb c "\" || Ascii.eqb c """") | None => true end = true.
Proof. revert c. apply ascii_forall. vm_compute. reflexivity. Qed.

Lemma hex_not_space c x : hexval c = Some x -> py_isspace c = false.
Proof.
  intros H. pose proof (hexval_char c) as F. rewrite H in F. apply negb_true_iff in F.
  now repeat (apply orb_false_iff in F as [F _]).
Qed.

Lemma fromhex_agrees t : forall v, bytes_of_hex_l t = Some v -> py_fromhex t = Some v.
Proof.
  induction t as [t L | g t G IH] using (chunk_ind 1); intros v H.
  - destruct t as [|a [|b t]]; [exact H | discriminate H | cbn in L; lia].
  - destruct g as [|a [|b [|]]]; try discriminate G. cbn [app bytes_of_hex_l] in H. cbn [app py_fromhex].
    destruct (hexval a) as [x|] eqn:Ha; [|discriminate H].
    destruct (hexval b) as [y|] eqn:Hb; [|discriminate H].
    destruct (bytes_of_hex_l t) as [r|] eqn:Hr; [|discriminate H].
    rewrite (hex_not_space a x Ha).
    rewrite (IH r eq_refl). exact H.
Qed.

Local Open Scope char_scope.

Definition psb_esc (x : ascii) (r : list ascii) : option bytes :=
  if x =? "n" then option_map (cons (chr 10)) (parse_str_body r)
  else if x =? "r" then option_map (cons (chr 13)) (parse_str_body r)
  else if x =? "t" then option_map (cons (chr 9)) (parse_str_body r)
  else if x =? "\" then option_map (cons x) (parse_str_body r)
  else if x =? """" then match r with [] => None | _ :: _ => option_map (cons x) (parse_str_body r) end
  else if x =? "x" then
    match r with
    | h1 :: h2 :: t'' =>
        match hexval h1, hexval h2, t'' with
        | Some a, Some b, _ :: _ => option_map (cons (chr (a * 16 + b))) (parse_str_body t'')
        | _, _, _ => None
        end
    | _ => None
    end
  else None.

Lemma psb_unfold c x r :
  parse_str_body (c :: x :: r) =
  if c =? "\" then psb_esc x r
  else if c =? """" then None
  else option_map (cons c) (parse_str_body (x :: r)).
Proof. reflexivity. Qed.

Lemma psb_single c : parse_str_body [c] = if c =? """" then Some [] else None.
Proof. reflexivity. Qed.

Lemma rep_other c t : (c =? "\") = false -> py_replace_bsq (c :: t) = c :: py_replace_bsq t.
Proof. intros H. destruct t as [|q t']; cbn [py_replace_bsq]; [reflexivity|]. now rewrite H. Qed.

Lemma rep_bsq t : py_replace_bsq ("\" :: """" :: t) = """" :: py_replace_bsq t.
Proof. reflexivity. Qed.

Lemma rep_bs_other e t : (e =? """") = false ->
  py_replace_bsq ("\" :: e :: t) = "\" :: py_replace_bsq (e :: t).
Proof. intros H. cbn [py_replace_bsq]. rewrite H. reflexivity. Qed.

Lemma rep_bs_end : py_replace_bsq ["\"] = ["\"].
Proof. reflexivity. Qed.

Lemma pue_other c t : (c =? "\") = false ->
  py_unicode_unescape (c :: t) = option_map (cons c) (py_unicode_unescape t).
Proof. intros H. cbn [py_unicode_unescape]. now rewrite H. Qed.

Lemma pue_n t : py_unicode_unescape ("\" :: "n" :: t) = option_map (cons (chr 10)) (py_unicode_unescape t).
Proof. reflexivity. Qed.
Lemma pue_r t : py_unicode_unescape ("\" :: "r" :: t) = option_map (cons (chr 13)) (py_unicode_unescape t).
Proof. reflexivity. Qed.
Lemma pue_t t : py_unicode_unescape ("\" :: "t" :: t) = option_map (cons (chr 9)) (py_unicode_unescape t).
Proof. reflexivity. Qed.
Lemma pue_bs t : py_unicode_unescape ("\" :: "\" :: t) = option_map (cons "\") (py_unicode_unescape t).
Proof. reflexivity. Qed.
Lemma pue_x h1 h2 t :
  py_unicode_unescape ("\" :: "x" :: h1 :: h2 :: t) =
  match hexval h1, hexval h2 with
  | Some a, Some b => ocons (cp_byte (a * 16 + b)) (py_unicode_unescape t)
  | _, _ => None
  end.
Proof. reflexivity. Qed.

Lemma hex_not_bs c x : hexval c = Some x -> (c =? "\") = false /\ (c =? """") = false.
Proof.
  intros H. pose proof (hexval_char c) as F. rewrite H in F. apply negb_true_iff in F.
  apply orb_false_iff in F as [F Q]. now apply orb_false_iff in F as [_ F].
Qed.

(* The heart of it: on every body the assembler accepts, Python's two passes (replace, then
   unicode-escape decoding) produce the same bytes. *)
Lemma unescape_core n : forall inner v,
  (List.length inner <= n)%nat ->
  parse_str_body (inner ++ [""""]) = Some v ->
  py_unicode_unescape (py_replace_bsq inner) = Some v.
Proof.
  induction n as [|n IH]; intros inner v Hlen H.
  - destruct inner; [|cbn in Hlen; lia]. cbn in H. exact H.
  - (* every case reads one unit on both sides and leaves a shorter rest [r] *)
    assert (Step : forall k r, (List.length r <= n)%nat ->
              option_map (cons k) (parse_str_body (r ++ [""""])) = Some v ->
              option_map (cons k) (py_unicode_unescape (py_replace_bsq r)) = Some v).
    { intros k r L E. destruct (parse_str_body (r ++ [""""])) as [w|] eqn:Hw; [|discriminate E].
      now rewrite (IH r w L Hw). }
    assert (NE : forall r : list ascii, exists x y, (r ++ [""""])%list = x :: y) by (destruct r; cbn; eauto).
    destruct inner as [|c t]; [exact H|]. cbn [app List.length] in H, Hlen.
    destruct (NE t) as (x & r & Ex). rewrite Ex, psb_unfold in H.
    destruct (Ascii.eqb_spec c "\") as [->|Nc].
    + (* backslash: t cannot be empty *)
      destruct t as [|e t']; [injection Ex as <- <-; discriminate H|].
      cbn [app List.length] in Ex, Hlen. injection Ex as <- <-. unfold psb_esc in H.
      destruct (Ascii.eqb_spec e "n") as [->|_].
      { rewrite rep_bs_other, rep_other, pue_n by reflexivity. apply Step; [lia | exact H]. }
      destruct (Ascii.eqb_spec e "r") as [->|_].
      { rewrite rep_bs_other, rep_other, pue_r by reflexivity. apply Step; [lia | exact H]. }
      destruct (Ascii.eqb_spec e "t") as [->|_].
      { rewrite rep_bs_other, rep_other, pue_t by reflexivity. apply Step; [lia | exact H]. }
      destruct (Ascii.eqb_spec e "\") as [->|_].
      { rewrite rep_bs_other by reflexivity. destruct t' as [|e' t''].
        - rewrite rep_bs_end. exact H.
        - (* the assembler rejects a double quote here, so the replacement pass leaves the pair alone *)
          destruct (Ascii.eqb_spec e' """") as [->|Ne'].
          + cbn [app] in H. destruct (NE t'') as (x2 & r2 & E2). rewrite E2 in H. discriminate H.
          + apply Ascii.eqb_neq in Ne'. rewrite rep_bs_other, pue_bs by exact Ne'. apply Step; [lia | exact H]. }
      destruct (Ascii.eqb_spec e """") as [->|_].
      { rewrite rep_bsq, pue_other by reflexivity. destruct (NE t') as (x2 & r2 & E2). rewrite E2 in H.
        rewrite <- E2 in H. apply Step; [lia | exact H]. }
      destruct (Ascii.eqb_spec e "x") as [->|_]; [|discriminate H].
      destruct t' as [|h1 [|h2 t'']]; [discriminate H | cbn in H; destruct (hexval h1); discriminate H |].
      cbn [app List.length] in H, Hlen.
      destruct (hexval h1) as [a|] eqn:Ha; [|discriminate H]. destruct (hexval h2) as [b|] eqn:Hb; [|discriminate H].
      destruct (NE t'') as (x2 & r2 & E2). rewrite E2 in H. rewrite <- E2 in H.
      destruct (hex_not_bs h1 a Ha) as [B1 Q1]. destruct (hex_not_bs h2 b Hb) as [B2 Q2].
      rewrite rep_bs_other, rep_other, rep_other, rep_other by (reflexivity || assumption).
      rewrite pue_x, Ha, Hb. unfold cp_byte.
      pose proof (hexval_lt _ _ Ha). pose proof (hexval_lt _ _ Hb).
      destruct (N.ltb_spec (a * 16 + b) 256) as [_|Hge]; [|lia].
      specialize (Step (chr (a * 16 + b)) t'' ltac:(lia) H).
      destruct (py_unicode_unescape (py_replace_bsq t'')); [exact Step | discriminate Step].
    + apply Ascii.eqb_neq in Nc. destruct (c =? """") eqn:Eq; [discriminate H|]. rewrite <- Ex in H.
      rewrite rep_other, pue_other by exact Nc. apply Step; [lia | exact H].
Qed.

Lemma quoted_agrees l b v :
  py_unescape_bytes l = Some b ->
  (match l with q :: body => if q =? """" then parse_str_body body else None | [] => None end) = Some v ->
  v = b.
Proof.
  unfold py_unescape_bytes. destruct l as [|q rest]; [discriminate|].
  destruct (rev rest) as [|q' rinner] eqn:Er; [discriminate|].
  assert (Erest : rest = (rev rinner ++ [q'])%list).
  { rewrite <- (rev_involutive rest), Er. reflexivity. }
  destruct (q =? """") eqn:Eq; cbn [andb]; [|discriminate].
  destruct (q' =? """") eqn:Eq'; [|discriminate].
  apply Ascii.eqb_eq in Eq'. subst q'.
  intros Hpy Hp. rewrite Erest in Hp.
  rewrite (unescape_core _ _ _ (le_n _) Hp) in Hpy.
  destruct (utf8_valid v); [|discriminate]. now injection Hpy.
Qed.

Lemma pads_are_pads k : forallb Lit.BaseN.is_pad (repeat "=" k) = true.
Proof. induction k as [|k IH]; [reflexivity | exact IH]. Qed.

Lemma rev_repeat {A} (x : A) k : rev (repeat x k) = repeat x k.
Proof.
  induction k as [|k IH]; [reflexivity|]. cbn [repeat rev]. rewrite IH.
  clear. induction k as [|k IH]; [reflexivity|]. cbn. now rewrite IH.
Qed.

(* digits followed by pad characters: stripping the pads, or cutting at the first pad, leaves the digits *)
Lemma strip_body_pads f body vals k : f "=" = None -> digit_vals f body = Some vals ->
  rev (strip_pad (rev (body ++ repeat "=" k))) = body.
Proof.
  intros Hf Hd. rewrite rev_app_distr, rev_repeat, strip_pad_app by apply pads_are_pads.
  rewrite (strip_pad_digits f body vals Hf Hd). apply rev_involutive.
Qed.

Lemma take_to_eq_body f body k : f "=" = None -> forall vals, digit_vals f body = Some vals ->
  take_to_eq (body ++ repeat "=" k) = body.
Proof.
  intros Hf. induction body as [|c t IH]; intros vals Hd; cbn; [destruct k; reflexivity|].
  apply digit_vals_cons in Hd as (x & r & Hx & Hr & _).
  destruct (Ascii.eqb_spec c "=") as [->|]; [congruence | now rewrite (IH r)].
Qed.

(* every string is its stripped body followed by pad characters *)
Lemma body_pads_decomp l : exists k, l = (rev (strip_pad (rev l)) ++ repeat "=" k)%list.
Proof.
  assert (D : forall r, exists k, r = (repeat "=" k ++ strip_pad r)%list).
  { induction r as [|c t [k Hk]]; [now exists 0%nat|]. cbn [strip_pad].
    destruct (Ascii.eqb_spec c "=") as [->|]; [exists (S k); cbn; now rewrite <- Hk | now exists 0%nat]. }
  destruct (D (rev l)) as [k Hk]. exists k.
  rewrite <- (rev_involutive l) at 1. rewrite Hk at 1. now rewrite rev_app_distr, rev_repeat.
Qed.

Lemma b32val_eq : b32val "=" = None. Proof. reflexivity. Qed.
Lemma b64val_eq : b64val "=" = None. Proof. reflexivity. Qed.

(* base64.b32decode on a padded string and the assembler's base32 agree *)
Lemma py_b32decode_value p b : py_b32decode p = Some b ->
  exists vals, digit_vals b32val (rev (strip_pad (rev p))) = Some vals /\ b = decode_bits 5 vals /\
    (List.length p - List.length (rev (strip_pad (rev p))) <= 6)%nat.
Proof.
  unfold py_b32decode. destruct (negb _); [discriminate|].
  destruct (digit_vals b32val (rev (strip_pad (rev p)))) as [vals|]; [|discriminate].
  intros H. exists vals. split; [reflexivity|].
  destruct (List.length p - List.length (rev (strip_pad (rev p))))%nat as [|[|[|[|[|[|[|n]]]]]]];
    try discriminate H; injection H as <-; (split; [reflexivity|lia]).
Qed.

Lemma b32_agrees inner p b v :
  correct_b32_padding inner = Some p -> py_b32decode p = Some b ->
  decode_baseN b32val 5 (string_of_list_ascii inner) = Some v -> v = b.
Proof.
  intros Hp Hb Hv. unfold decode_baseN in Hv. rewrite los_sol in Hv.
  set (body := rev (strip_pad (rev inner))) in *.
  destruct (digit_vals b32val body) as [vals|] eqn:Hd; [|discriminate Hv]. injection Hv as <-.
  destruct (body_pads_decomp inner) as [k Hk]. fold body in Hk.
  assert (Ep : exists j, p = (body ++ repeat "=" j)%list).
  { unfold correct_b32_padding in Hp. rewrite Hk, (take_to_eq_body _ _ _ b32val_eq vals Hd) in Hp.
    destruct (List.length body mod 8)%nat as [|[|[|[|[|[|[|[|n]]]]]]]]; try discriminate Hp; injection Hp as <-;
      [exists 0%nat; now rewrite app_nil_r|exists 6%nat; reflexivity|exists 4%nat; reflexivity|exists 3%nat; reflexivity|exists 1%nat; reflexivity]. }
  destruct Ep as [j ->].
  destruct (py_b32decode_value _ _ Hb) as (vals' & Hd' & -> & _).
  rewrite (strip_body_pads _ _ _ _ b32val_eq Hd) in Hd'. congruence.
Qed.

(* the base64 scan consumes an all-alphabet body digit by digit *)
Lemma b64_scan_body body : forall vals, digit_vals b64val body = Some vals ->
  forall rest quad pads acc, exists quad' pads',
    b64_scan (body ++ rest) quad pads acc = b64_scan rest quad' pads' (rev vals ++ acc)%list.
Proof.
  induction body as [|c t IH]; intros vals H rest quad pads acc.
  - injection H as <-. exists quad, pads. reflexivity.
  - cbn [digit_vals] in H. destruct (b64val c) as [v0|] eqn:Hc; [|discriminate H].
    destruct (digit_vals b64val t) as [r|] eqn:Hr; [|discriminate H]. injection H as <-.
    cbn [app b64_scan].
    assert (Ec : (c =? "=") = false).
    { destruct (c =? "=") eqn:E; [|reflexivity]. apply Ascii.eqb_eq in E; subst c. discriminate Hc. }
    rewrite Ec, Hc.
    destruct (IH r eq_refl rest (match quad with 3%nat => 0%nat | _ => S quad end) 0%nat (v0 :: acc)) as (q' & p' & E).
    exists q', p'. rewrite E. cbn [rev]. now rewrite <- app_assoc.
Qed.

Lemma b64_scan_pads k : forall quad pads acc r,
  b64_scan (repeat "=" k) quad pads acc = Some r -> r = rev acc.
Proof.
  induction k as [|k IH]; intros quad pads acc r H.
  - cbn in H. destruct (quad =? 0)%nat; [now injection H|discriminate H].
  - cbn [repeat b64_scan] in H. change ("=" =? "=") with true in H. cbv iota in H.
    destruct (2 <=? quad)%nat.
    + destruct (4 <=? quad + S pads)%nat; [now injection H|]. eapply IH; exact H.
    + eapply IH; exact H.
Qed.

Lemma b64_agrees inner b v :
  py_b64decode inner = Some b ->
  decode_baseN b64val 6 (string_of_list_ascii inner) = Some v -> v = b.
Proof.
  intros Hb Hv. unfold decode_baseN in Hv. rewrite los_sol in Hv.
  set (body := rev (strip_pad (rev inner))) in *.
  destruct (digit_vals b64val body) as [vals|] eqn:Hd; [|discriminate Hv]. injection Hv as <-.
  destruct (body_pads_decomp inner) as [k Hk]. fold body in Hk.
  unfold py_b64decode in Hb. destruct (all_ascii7 inner); [|discriminate Hb].
  destruct (b64_scan inner 0 0 []) as [ds|] eqn:Hs; [|discriminate Hb]. injection Hb as <-.
  rewrite Hk in Hs.
  destruct (b64_scan_body body vals Hd (repeat "=" k) 0%nat 0%nat []) as (q' & p' & E).
  rewrite E in Hs. apply b64_scan_pads in Hs. subst ds.
  now rewrite app_nil_r, rev_involutive.
Qed.

Local Open Scope string_scope.
Notation los := list_ascii_of_string.

Lemma los_inj a b : los a = los b -> a = b.
Proof. apply TextFacts.los_inj. Qed.

Lemma slice_inner_shape n pre a c :
  List.length pre = n -> slice_inner n (pre ++ a ++ [c])%list = a.
Proof.
  intros <-. unfold slice_inner. rewrite skipn_app, skipn_all, Nat.sub_diag. cbn [app skipn].
  apply removelast_last.
Qed.

Lemma last_is_app l c : last_is c l = true -> exists a, l = (a ++ [c])%list.
Proof.
  unfold last_is. destruct (rev l) as [|x r] eqn:E; [discriminate|].
  intros H. apply Ascii.eqb_eq in H. subst x. exists (rev r).
  rewrite <- (rev_involutive l), E. reflexivity.
Qed.

Lemma paren_spelling p s : String.prefix (p ++ "(") s = true -> last_is ")"%char (los s) = true ->
  exists a, s = p ++ "(" ++ a ++ ")".
Proof.
  intros Hp Hl. destruct (prefix_split _ _ Hp) as [s' ->]. rewrite sapp_assoc. cbn [append].
  destruct (last_is_app _ _ Hl) as [l El]. apply (f_equal (@rev ascii)) in El.
  rewrite !los_app, !rev_app_distr in El. cbn [los rev app] in El.
  destruct (rev (los s')) as [|x r] eqn:Er; [destruct (rev (los p)); discriminate El|].
  injection El as -> _. exists (string_of_list_ascii (rev r)). do 2 f_equal.
  apply los_inj. now rewrite los_app, los_sol, <- (rev_involutive (los s')), Er.
Qed.

Lemma parse_string_literal_unfold s :
  parse_string_literal s =
  match los s with q :: body => if Ascii.eqb q """" then parse_str_body body else None | [] => None end.
Proof. reflexivity. Qed.

Theorem extract_bytes_agrees s b v rest :
  extract_bytes [AStr s] = Some (KBytes b) ->
  parse_bytes_arg (s :: rest) = Some (v, rest) ->
  v = b.
Proof.
  unfold extract_bytes.
  destruct (is_tmpl_name s); [discriminate|].
  destruct (String.prefix """" s && last_is """"%char (los s)) eqn:Hq.
  { (* quoted *)
    apply andb_prop in Hq. destruct Hq as [Hp _].
    destruct (prefix_split _ _ Hp) as [s' ->]. cbn [append].
    destruct (py_unescape_bytes (los (String """" s'))) as [b'|] eqn:Hu; [|discriminate].
    intros E; injection E as <-.
    rewrite parse_bytes_arg_quote, parse_string_literal_unfold.
    destruct (match los (String """" s') with q :: body => if Ascii.eqb q """" then parse_str_body body else None | [] => None end) as [w|] eqn:Hw; [|discriminate].
    cbn [option_map]. intros E; injection E as <-.
    eapply quoted_agrees; eassumption. }
  destruct (String.prefix "0x" s) eqn:Hx.
  { destruct (prefix_split _ _ Hx) as [s' ->]. cbn [append].
    destruct (py_fromhex (skipn 2 (los (String "0" (String "x" s'))))) as [b'|] eqn:Hu; [|discriminate].
    intros E; injection E as <-. cbn [los skipn] in Hu.
    rewrite (parse_bytes_arg_0x s').
    destruct (bytes_of_hex_l (los s')) as [w|] eqn:Hw; [|discriminate].
    intros E; injection E as <-.
    rewrite (fromhex_agrees _ _ Hw) in Hu. now injection Hu. }
  destruct (String.prefix "base32(" s && last_is ")"%char (los s)) eqn:H32.
  { apply andb_prop in H32. destruct (paren_spelling "base32" s (proj1 H32) (proj2 H32)) as [a ->].
    destruct (correct_b32_padding (slice_inner 7 (los ("base32" ++ "(" ++ a ++ ")")))) as [p|] eqn:Hc; [|discriminate].
    destruct (py_b32decode p) as [b'|] eqn:Hd; [|discriminate].
    intros E; injection E as <-. rewrite (parse_bytes_arg_base32 a).
    destruct (decode_base32 a) as [w|] eqn:Hw; [|discriminate]. intros E; injection E as <-.
    replace (los ("base32" ++ "(" ++ a ++ ")")) with (los "base32(" ++ los a ++ [")"%char])%list in Hc by now rewrite !los_app.
    rewrite slice_inner_shape in Hc by reflexivity.
    unfold decode_base32 in Hw. rewrite <- (sol_los a) in Hw. eapply b32_agrees; eassumption. }
  destruct (String.prefix "base64(" s && last_is ")"%char (los s)) eqn:H64; [|discriminate].
  apply andb_prop in H64. destruct (paren_spelling "base64" s (proj1 H64) (proj2 H64)) as [a ->].
  destruct (py_b64decode (slice_inner 7 (los ("base64" ++ "(" ++ a ++ ")")))) as [b'|] eqn:Hd; [|discriminate].
  intros E; injection E as <-. rewrite (parse_bytes_arg_base64 a).
  destruct (decode_base64 a) as [w|] eqn:Hw; [|discriminate]. intros E; injection E as <-.
  replace (los ("base64" ++ "(" ++ a ++ ")")) with (los "base64(" ++ los a ++ [")"%char])%list in Hd by now rewrite !los_app.
  rewrite slice_inner_shape in Hd by reflexivity.
  unfold decode_base64 in Hw. rewrite <- (sol_los a) in Hw. eapply b64_agrees; eassumption.
Qed.

Local Open Scope N_scope.

(* named constants: constants.py's table and the assembler's table agree, and the decimal
   spelling of the value reads back as the value *)
Lemma int_enum_agrees s n : assoc_str s int_enum_values = Some n ->
  parse_int_arg s = Some n /\ parse_int_arg (N_to_dec n) = Some n.
Proof.
  unfold int_enum_values. cbn [assoc_str].
  repeat (match goal with
          | |- (if String.eqb s ?k then _ else _) = _ -> _ =>
              let E := fresh "E" in destruct (String.eqb s k) eqn:E;
              [apply String.eqb_eq in E; subst s; intros H; injection H as <-; split; reflexivity|]
          end).
  discriminate.
Qed.

Lemma strip_pad_length l : (List.length (strip_pad l) <= List.length l)%nat.
Proof. induction l as [|c t IH]; cbn; [lia|]. destruct (c =? "=")%char; cbn; lia. Qed.

Theorem decode_address_agrees ah s key d :
  decode_address ah (los s) = Some key ->
  (String.length s =? 58)%nat = true -> decode_base32 s = Some d ->
  firstn 32 d = key.
Proof.
  unfold decode_address. intros H Hlen Hd.
  rewrite los_length, Hlen in H. cbn [negb] in H.
  destruct (py_b32decode (los s ++ repeat "="%char 6)) as [d'|] eqn:Hp; [|discriminate H].
  destruct (py_b32decode_value _ _ Hp) as (vals & Hv & -> & Hpad).
  assert (Estrip : rev (strip_pad (rev (los s ++ repeat "="%char 6))) = rev (strip_pad (rev (los s)))).
  { now rewrite rev_app_distr, rev_repeat, strip_pad_app by apply pads_are_pads. }
  rewrite Estrip in Hv, Hpad.
  unfold decode_base32, decode_baseN in Hd. rewrite Hv in Hd. injection Hd as <-.
  apply Nat.eqb_eq in Hlen.
  pose proof (strip_pad_length (rev (los s))) as Hsl.
  rewrite app_length, repeat_length, !rev_length, los_length in *.
  assert (Hbody : List.length (strip_pad (rev (los s))) = 58%nat) by lia.
  pose proof (digit_vals_length _ _ _ Hv) as Hvl. rewrite rev_length, Hbody in Hvl.
  assert (Hdl : List.length (decode_bits 5 vals) = 36%nat).
  { unfold decode_bits. rewrite be_encode_length, Hvl. reflexivity. }
  rewrite Hdl in H. change (36 - 4)%nat with 32%nat in H.
  destruct (bytes_eqb _ _); [|discriminate H]. now injection H.
Qed.

Lemma plain_literal inner : forall v,
  existsb (fun c => (c =? "\")%char) inner = false ->
  parse_str_body (inner ++ [""""%char]) = Some v -> v = inner.
Proof.
  induction inner as [|c t IH]; intros v Hb H.
  - cbn in H. now injection H.
  - cbn [existsb] in Hb. apply orb_false_elim in Hb. destruct Hb as [Hc Ht].
    cbn [app] in H.
    assert (Hnz : exists x r, (t ++ [""""%char])%list = x :: r) by (destruct t; cbn; eauto).
    destruct Hnz as (x & r & Ex). rewrite Ex, psb_unfold, Hc in H. rewrite <- Ex in H.
    destruct (c =? """")%char; [discriminate H|].
    destruct (parse_str_body (t ++ [""""%char])) as [w|] eqn:Hw; [|discriminate H].
    injection H as <-. f_equal. apply IH; [exact Ht|reflexivity].
Qed.

Lemma existsb_app_false {A} (f : A -> bool) a b : existsb f (a ++ b) = false -> existsb f a = false.
Proof. rewrite existsb_app. intros H. now apply orb_false_elim in H. Qed.

Theorem method_sig_agrees sh s b sig :
  extract_method sh [AStr s] = Some (KBytes b) ->
  existsb (fun c => (c =? "\")%char) (los s) = false ->
  parse_string_literal s = Some sig ->
  b = firstn 4 (sh (string_of_bytes sig)).
Proof.
  unfold extract_method. rewrite parse_string_literal_unfold.
  destruct (los s) as [|q rest] eqn:El; [discriminate|].
  destruct ((q =? """")%char && last_is """"%char (q :: rest)) eqn:Hq; [|discriminate].
  apply andb_prop in Hq. destruct Hq as [Hq1 Hq2]. rewrite Hq1.
  intros H Hbs Hp. injection H as <-.
  destruct rest as [|c r]; [discriminate Hp|].
  destruct (last_is_app _ _ Hq2) as [a Ea].
  destruct a as [|q0 inner]; [discriminate Ea|]. cbn [app] in Ea. injection Ea as <- Er.
  rewrite Er in *. cbn [existsb] in Hbs. apply orb_false_elim in Hbs. destruct Hbs as [_ Hbs].
  apply existsb_app_false in Hbs.
  rewrite (plain_literal _ _ Hbs Hp).
  change (q :: inner ++ [""""%char])%list with ([q] ++ inner ++ [""""%char])%list.
  now rewrite slice_inner_shape by reflexivity.
Qed.
