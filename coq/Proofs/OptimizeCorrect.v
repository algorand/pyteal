(* Proofs/OptimizeCorrect.v — the scratch-slot optimiser (pyteal/compiler/optimizer/optimizer.py,
   model: Comp/Passes.v) as far as it IS sound, and the witness where it is not (C03).
   Every loop of the optimiser is a sequence of removal steps ([rsteps]): _apply_slot_to_stack picks slots whose
   store is followed by their only load and deletes every load/store of them.  Such a step is the lock-step
   simulation of Proofs/OptimizeSem.v provided the slot has no second store, which the code does not check:
   that is the hypothesis [no_orphan_store] of the soundness theorems, the class predicate of the known finding
   (Compile.opt_orphans), and what the witness [optimizer_refuted] violates. *)
From Coq Require Import List Arith NArith String Bool Lia.
From PV Require Import AVM.Syntax AVM.Machine Src.Expr Src.Denote Comp.Blocks Comp.Lower Comp.Passes
  Comp.GraphSem Comp.SimCheck Comp.Compile Proofs.NormalizeSem Proofs.OptimizeSem.
Import ListNotations.


Lemma mem_id_iff x l : mem_id x l = true <-> In x l.
Proof.
  induction l as [|y t IH]; cbn [mem_id In]; [split; [discriminate|tauto]|].
  rewrite orb_true_iff, IH, Nat.eqb_eq. split; intros [H|H]; auto.
Qed.

Lemma filter_idem {A} (p : A -> bool) l : filter p (filter p l) = filter p l.
Proof.
  induction l as [|x t IH]; [reflexivity|]. cbn [filter].
  destruct (p x) eqn:E; [cbn [filter]; rewrite E, IH; reflexivity|exact IH].
Qed.

Lemma filter_block_idem l b : filter_block l (filter_block l b) = filter_block l b.
Proof. destruct b; unfold filter_block; cbn [set_ops b_ops]; rewrite filter_idem; reflexivity. Qed.

(* the BFS looks at the graph only through [out_of] *)
Lemma bfs_ext g g' : (forall b, out_of g' b = out_of g b) ->
  forall fuel q v acc, bfs fuel g' q v acc = bfs fuel g q v acc.
Proof.
  intros H. induction fuel as [|f IH]; intros q v acc; [reflexivity|].
  cbn [bfs]. destruct q as [|w q]; [reflexivity|]. rewrite H.
  destruct (fold_left _ (out_of g w) (q, v)) as [q' v']. apply IH.
Qed.

Lemma iterate_ext g g' start :
  (forall b, out_of g' b = out_of g b) -> g_next g' = g_next g -> iterate g' start = iterate g start.
Proof. intros H1 H2. unfold iterate. rewrite H2. apply bfs_ext, H1. Qed.

(* A pass of the shape of _remove_extraneous_slot_access: walk over a list of block ids and rewrite each block
   by [h].  [h] is idempotent, so it does not matter whether a block is listed twice. *)
Section MapBlocks.
  Variable h : block -> block.
  Hypothesis h_idem : forall bb, h (h bb) = h bb.

  Definition map_blk (g : graph) (b : id) : graph :=
    match g_blk g b with Some bb => set_blk g b (h bb) | None => g end.

  Lemma map_blk_spec g w :
    g_next (map_blk g w) = g_next g /\ g_inc (map_blk g w) = g_inc g /\
    forall b, g_blk (map_blk g w) b = if Nat.eqb b w then option_map h (g_blk g w) else g_blk g b.
  Proof.
    unfold map_blk. destruct (g_blk g w) as [bb|] eqn:E; (split; [reflexivity|]); (split; [reflexivity|]); intros b.
    - cbn [set_blk define g_blk option_map]. unfold upd. destruct (Nat.eqb b w); reflexivity.
    - destruct (Nat.eqb b w) eqn:Eb; [apply Nat.eqb_eq in Eb; subst; exact E|reflexivity].
  Qed.

  Lemma fold_map_blk : forall order g,
    g_next (fold_left map_blk order g) = g_next g /\ g_inc (fold_left map_blk order g) = g_inc g /\
    forall b, g_blk (fold_left map_blk order g) b =
              if mem_id b order then option_map h (g_blk g b) else g_blk g b.
  Proof.
    induction order as [|w t IH]; intros g; [repeat split; reflexivity|]. cbn [fold_left mem_id].
    destruct (IH (map_blk g w)) as [A [B C]]. destruct (map_blk_spec g w) as [A' [B' C']].
    split; [congruence|]. split; [congruence|]. intros b. rewrite C, C'.
    destruct (Nat.eqb b w) eqn:Eb; cbn [orb]; [|reflexivity]. apply Nat.eqb_eq in Eb. subst w.
    destruct (mem_id b t); [|reflexivity].
    destruct (g_blk g b) as [bb|]; cbn [option_map]; [rewrite h_idem|]; reflexivity.
  Qed.

  Hypothesis h_out : forall bb, outgoing (h bb) = outgoing bb.

  Lemma fold_map_blk_out_of order g b : out_of (fold_left map_blk order g) b = out_of g b.
  Proof.
    unfold out_of. rewrite (proj2 (proj2 (fold_map_blk order g))). destruct (mem_id b order); [|reflexivity].
    destruct (g_blk g b) as [bb|]; cbn [option_map]; [apply h_out|reflexivity].
  Qed.

  Lemma fold_map_blk_iterate order g start : iterate (fold_left map_blk order g) start = iterate g start.
  Proof. apply iterate_ext; [apply fold_map_blk_out_of|apply fold_map_blk]. Qed.
End MapBlocks.

(* [remove_slot_access] is such a pass by unfolding, with [h := filter_block remove] *)
Lemma rsa_blk g start remove b :
  g_blk (remove_slot_access g start remove) b =
  if mem_id b (iterate g start) then option_map (filter_block remove) (g_blk g b) else g_blk g b.
Proof. apply (fold_map_blk _ (filter_block_idem remove)). Qed.

Lemma rsa_next g start remove : g_next (remove_slot_access g start remove) = g_next g.
Proof. apply (fold_map_blk _ (filter_block_idem remove)). Qed.

Lemma rsa_inc g start remove : g_inc (remove_slot_access g start remove) = g_inc g.
Proof. apply (fold_map_blk _ (filter_block_idem remove)). Qed.

Lemma rsa_out_of g start remove b : out_of (remove_slot_access g start remove) b = out_of g b.
Proof. apply (fold_map_blk_out_of _ (filter_block_idem remove)). intros bb. apply outgoing_set_ops. Qed.

Lemma rsa_iterate g start remove : iterate (remove_slot_access g start remove) start = iterate g start.
Proof. apply (fold_map_blk_iterate _ (filter_block_idem remove)). intros bb. apply outgoing_set_ops. Qed.

Lemma rsa_get_ops g start remove b :
  get_ops (remove_slot_access g start remove) b =
  if mem_id b (iterate g start) then filter (keep_op remove) (get_ops g b) else get_ops g b.
Proof.
  unfold get_ops. rewrite rsa_blk. destruct (mem_id b (iterate g start)); [|reflexivity].
  destruct (g_blk g b) as [bb|]; cbn [option_map]; [|reflexivity].
  unfold filter_block. apply b_ops_set_ops.
Qed.

(* TealBlock.Iterate reaches every block: [iterate g start] contains [start] and is closed under
   outgoing edges, for every graph whose ids are below the fresh-id counter *)
Definition ids_bounded (g : graph) (start : id) : Prop :=
  start < g_next g /\ forall b x, b < g_next g -> In x (out_of g b) -> x < g_next g.

Lemma enq_spec (enq_step : list id * list id -> id -> list id * list id) :
  (forall q v n, enq_step (q, v) n = if mem_id n v then (q, v) else (q ++ [n], v ++ [n])) ->
  forall nexts q v,
  exists added,
    fold_left enq_step nexts (q, v) = (q ++ added, v ++ added) /\
    NoDup added /\
    (forall x, In x added -> In x nexts /\ ~ In x v) /\
    (forall x, In x nexts -> In x (v ++ added)).
Proof.
  intros Hstep. induction nexts as [|n t IH]; intros q v.
  - exists []. rewrite !app_nil_r. split; [reflexivity|]. split; [constructor|]. split; intros x [] .
  - cbn [fold_left]. rewrite Hstep. destruct (mem_id n v) eqn:E.
    + destruct (IH q v) as [added [H1 [H2 [H3 H4]]]]. exists added. split; [exact H1|]. split; [exact H2|].
      split.
      * intros x Hx. destruct (H3 x Hx). split; [right|]; assumption.
      * intros x [<-|Hx]; [apply in_or_app; left; apply mem_id_iff, E|apply H4, Hx].
    + destruct (IH (q ++ [n]) (v ++ [n])) as [added [H1 [H2 [H3 H4]]]].
      exists (n :: added). rewrite <- !app_assoc in H1. cbn [app] in H1. split; [exact H1|].
      assert (Hn : ~ In n v). { intros Hi. apply mem_id_iff in Hi. congruence. }
      split; [|split].
      * constructor; [|exact H2]. intros Hi. destruct (H3 n Hi) as [_ Hc]. apply Hc, in_or_app. right. left. reflexivity.
      * intros x [<-|Hx]; [split; [left; reflexivity|exact Hn]|].
        destruct (H3 x Hx) as [A B]. split; [right; exact A|]. intros Hi. apply B, in_or_app. left. exact Hi.
      * intros x [<-|Hx]; [apply in_or_app; right; left; reflexivity|].
        specialize (H4 x Hx). rewrite <- app_assoc in H4. exact H4.
Qed.

Lemma nodup_app_intro {A} (a b : list A) :
  NoDup a -> NoDup b -> (forall x, In x b -> ~ In x a) -> NoDup (a ++ b).
Proof.
  induction a as [|x a IH]; intros Ha Hb Hd; [exact Hb|].
  inversion Ha as [|? ? Hx Ha']; subst. cbn [app]. constructor.
  - intros Hi. apply in_app_or in Hi. destruct Hi as [Hi|Hi]; [contradiction|]. apply (Hd x Hi). left. reflexivity.
  - apply IH; [exact Ha'|exact Hb|]. intros y Hy Hi. apply (Hd y Hy). right. exact Hi.
Qed.

Lemma nodup_app_l {A} (a b : list A) : NoDup (a ++ b) -> NoDup a.
Proof.
  induction a as [|x a IH]; intros H; [constructor|]. cbn [app] in H. inversion H as [|? ? Hx Hn]; subst.
  constructor; [intros Hi; apply Hx, in_or_app; left; exact Hi|apply IH, Hn].
Qed.

Lemma bounded_length n (l : list id) : NoDup l -> (forall x, In x l -> x < n) -> List.length l <= n.
Proof.
  intros Hn Hb. rewrite <- (seq_length n 0). apply NoDup_incl_length; [exact Hn|].
  intros x Hx. apply in_seq. specialize (Hb x Hx). lia.
Qed.

(* the BFS never leaves a set [R] of ids below [n] that is closed under edges; once its fuel exceeds
   [n] it ends with an empty queue, and then everything it has seen is visited and closed *)
Lemma bfs_closed_on g n (R : id -> Prop) :
  (forall b x, R b -> In x (out_of g b) -> R x) -> (forall b, R b -> b < n) ->
  forall fuel q v acc,
    v = rev acc ++ q -> NoDup v -> (forall x, In x v -> R x) ->
    (forall p x, In p acc -> In x (out_of g p) -> In x v) ->
    n < fuel + List.length acc ->
    (forall x, In x v -> In x (bfs fuel g q v acc)) /\
    (forall p x, In p (bfs fuel g q v acc) -> In x (out_of g p) -> In x (bfs fuel g q v acc)).
Proof.
  intros Hout Hlt. induction fuel as [|f IH]; intros q v acc Hv Hnd Hb Hcl Hf.
  - exfalso. pose proof (bounded_length n v Hnd (fun x Hx => Hlt x (Hb x Hx))) as L.
    rewrite Hv, app_length, rev_length in L. cbn in Hf. lia.
  - cbn [bfs]. destruct q as [|w q].
    + rewrite app_nil_r in Hv. subst v. split; [tauto|].
      intros p x Hp Hx. apply (Hcl p x); [apply in_rev, Hp|exact Hx].
    + match goal with
      | |- context [fold_left ?F (out_of g w) (q, v)] =>
          destruct (enq_spec F (fun _ _ _ => eq_refl) (out_of g w) q v) as [added [H1 [H2 [H3 H4]]]]
      end.
      rewrite H1.
      assert (Rw : R w). { apply Hb. rewrite Hv. apply in_or_app. right. left. reflexivity. }
      destruct (IH (q ++ added) (v ++ added) (w :: acc)) as [X1 X2].
      * subst v. cbn [rev]. rewrite <- !app_assoc. reflexivity.
      * apply nodup_app_intro; [exact Hnd|exact H2|]. intros x Hx. apply (H3 x Hx).
      * intros x Hx. apply in_app_or in Hx. destruct Hx as [Hx|Hx]; [apply Hb, Hx|].
        apply (Hout w); [exact Rw|]. apply (H3 x Hx).
      * intros p x [<-|Hp] Hx; [apply H4, Hx|]. apply in_or_app. left. apply (Hcl p x Hp Hx).
      * cbn [List.length]. lia.
      * split; [|exact X2]. intros x Hx. apply X1, in_or_app. left. exact Hx.
Qed.

Theorem iterate_closed g start : ids_bounded g start ->
  In start (iterate g start) /\
  (forall p x, In p (iterate g start) -> In x (out_of g p) -> In x (iterate g start)).
Proof.
  intros [Hs Ho]. unfold iterate.
  destruct (bfs_closed_on g (g_next g) (fun b => b < g_next g) Ho (fun b H => H)
              (S (g_next g)) [start] [start] []) as [A B].
  - reflexivity.
  - constructor; [intros []|constructor].
  - intros x [<-|[]]. exact Hs.
  - intros p x [].
  - cbn. lia.
  - split; [apply A; left; reflexivity|exact B].
Qed.

(* TealBlock.Iterate yields every block once *)
Lemma bfs_nodup g : forall fuel q v acc, v = rev acc ++ q -> NoDup v -> NoDup (bfs fuel g q v acc).
Proof.
  induction fuel as [|f IH]; intros q v acc Hv Hn.
  - cbn [bfs]. subst v. exact (nodup_app_l _ _ Hn).
  - cbn [bfs]. destruct q as [|w q].
    + subst v. rewrite app_nil_r in Hn. exact Hn.
    + match goal with
      | |- context [fold_left ?F (out_of g w) (q, v)] =>
          destruct (enq_spec F (fun _ _ _ => eq_refl) (out_of g w) q v) as [added [H1 [H2 [H3 H4]]]]
      end.
      rewrite H1. apply IH.
      * subst v. cbn [rev]. rewrite <- !app_assoc. reflexivity.
      * apply nodup_app_intro; [exact Hn|exact H2|]. intros x Hx. apply (H3 x Hx).
Qed.

Lemma iterate_nodup g start : NoDup (iterate g start).
Proof. unfold iterate. apply bfs_nodup; [reflexivity|]. constructor; [intros []|constructor]. Qed.

(* is [i] a store / load that mentions slot [u] (the predicate of Compile.count_slot_ops) *)
Definition store_of (u : N) (i : instr) : bool := is_op i O_store && mem_N u (instr_slots i).
Definition load_of (u : N) (i : instr) : bool := is_op i O_load && mem_N u (instr_slots i).

Lemma store_of_iff u i : store_of u i = true <-> i_op i = O_store /\ In u (instr_slots i).
Proof. unfold store_of. rewrite andb_true_iff, is_op_eq, mem_N_In. reflexivity. Qed.
Lemma load_of_iff u i : load_of u i = true <-> i_op i = O_load /\ In u (instr_slots i).
Proof. unfold load_of. rewrite andb_true_iff, is_op_eq, mem_N_In. reflexivity. Qed.

Lemma existsb_false {A} (f : A -> bool) l x : existsb f l = false -> In x l -> f x = false.
Proof.
  intros H Hx. destruct (f x) eqn:E; [|reflexivity].
  assert (existsb f l = true) by (apply existsb_exists; eauto). congruence.
Qed.

Lemma combine_seq_nth {A} (l : list A) : forall a j x,
  nth_error l j = Some x -> In ((a + j)%nat, x) (combine (seq a (List.length l)) l).
Proof.
  induction l as [|y t IH]; intros a j x H; [destruct j; discriminate|].
  cbn [List.length seq combine]. destruct j as [|j]; cbn [nth_error] in H.
  - injection H as ->. left. rewrite Nat.add_0_r. reflexivity.
  - right. replace (a + S j)%nat with (S a + j)%nat by lia. apply IH, H.
Qed.

Lemma block_has_load_false g b slot skip j i :
  block_has_load g b slot skip = false -> nth_error (get_ops g b) j = Some i -> skip <> Some j ->
  load_of slot i = false.
Proof.
  unfold block_has_load. intros H Hn Hs.
  pose proof (existsb_false _ _ (j, i) H (combine_seq_nth _ 0 j i Hn)) as X. cbv beta iota in X.
  destruct skip as [p|]; [|exact X].
  destruct (Nat.eqb j p) eqn:E; [|exact X]. apply Nat.eqb_eq in E. subst. congruence.
Qed.

Lemma deps_scan_no g cur div slot pos : forall blocks,
  deps_scan g blocks cur div slot pos = DepNo ->
  forall b, In b blocks -> block_has_load g b slot (if Nat.eqb b cur then Some pos else None) = false.
Proof.
  induction blocks as [|w t IH]; intros H b Hb; [destruct Hb|]. cbn [deps_scan] in H.
  assert (X : block_has_load g w slot (if Nat.eqb w cur then Some pos else None) = false /\
              deps_scan g t cur div slot pos = DepNo).
  { destruct (Nat.eqb w cur); [destruct div; [discriminate|]|];
      destruct (block_has_load g w slot _); [discriminate|auto|discriminate|auto]. }
  destruct Hb as [<-|Hb]; [apply X|apply IH; [apply X|exact Hb]].
Qed.

(* DepNo: the only load that mentions the slot, in the blocks scanned, is the one at (cur, pos) *)
Lemma deps_no_other_load g cur div slot pos blocks b j i :
  deps_scan g blocks cur div slot pos = DepNo -> In b blocks ->
  nth_error (get_ops g b) j = Some i -> load_of slot i = true -> b = cur /\ j = pos.
Proof.
  intros H Hb Hn Hl. pose proof (deps_scan_no _ _ _ _ _ _ H b Hb) as X.
  destruct (Nat.eqb b cur) eqn:E.
  - apply Nat.eqb_eq in E. split; [exact E|].
    destruct (Nat.eq_dec j pos) as [|Hne]; [assumption|].
    rewrite (block_has_load_false _ _ _ _ j i X Hn) in Hl; [discriminate|congruence].
  - rewrite (block_has_load_false _ _ _ _ j i X Hn) in Hl; [discriminate|congruence].
Qed.

(* what _apply_slot_to_stack has checked of the slots [L] it removes from block [cur]: a store of the slot at some
   position, a load of it at the next, and no other load of it in the routine *)
Definition astk_cand (g : graph) (cur : id) (s : N) (i : nat) : Prop :=
  exists st ld,
    nth_error (get_ops g cur) i = Some st /\ nth_error (get_ops g cur) (S i) = Some ld /\
    store_of s st = true /\ load_of s ld = true.

Definition astk_ok (g : graph) (order : list id) (cur : id) (L : list N) : Prop :=
  forall s, In s L -> exists i div, astk_cand g cur s i /\ deps_scan g order cur div s (S i) = DepNo.

Lemma astk_inv g start cur skip g' :
  apply_slot_to_stack g start cur skip = Some g' ->
  g' = g \/ exists L, g' = remove_slot_access g start L /\ astk_ok g (iterate g start) cur L.
Proof.
  unfold apply_slot_to_stack.
  set (cands := flat_map _ (seq 0 (List.length (get_ops g cur) - 1))).
  intros H. destruct cands as [|c0 cs] eqn:Ec; [left; congruence|]. rewrite <- Ec in H.
  destruct (existsb _ _) in H; [discriminate|]. injection H as <-. right.
  eexists. split; [reflexivity|].
  intros s Hs. apply in_flat_map in Hs. destruct Hs as [[s' d] [Hin Hd]].
  destruct d; try contradiction. destruct Hd as [<-|[]].
  apply in_map_iff in Hin. destruct Hin as [[s'' pos] [E Hin]]. injection E as -> E.
  subst cands. apply in_flat_map in Hin. destruct Hin as [i [_ Hin]].
  destruct (nth_error (get_ops g cur) i) as [st|] eqn:E1; [|contradiction].
  destruct (nth_error (get_ops g cur) (S i)) as [ld|] eqn:E2; [|contradiction].
  destruct (is_op st O_store && negb (subset_N (instr_slots st) skip) && is_op ld O_load) eqn:E3; [|contradiction].
  destruct (instr_slots st) as [|s1 [|]] eqn:E4; try contradiction.
  destruct (instr_slots ld) as [|s2 [|]] eqn:E5; try contradiction.
  destruct (N.eqb s1 s2) eqn:E6; [|contradiction]. apply N.eqb_eq in E6. subst s2.
  destruct Hin as [Hin|[]]. injection Hin as -> <-.
  apply andb_true_iff in E3. destruct E3 as [E3 E3c]. apply andb_true_iff in E3. destruct E3 as [E3a E3b].
  exists i. eexists. split; [|exact E].
  exists st, ld. unfold store_of, load_of. rewrite E1, E2, E3a, E3c, E4, E5. cbn. rewrite N.eqb_refl. auto.
Qed.

(* "at most one op with [p]", in count form and in position form *)
Definition count {A} (p : A -> bool) (l : list A) : nat := List.length (filter p l).

Lemma count_cons {A} (p : A -> bool) x l : count p (x :: l) = ((if p x then 1 else 0) + count p l)%nat.
Proof. unfold count. cbn [filter]. destruct (p x); reflexivity. Qed.

Lemma count_app {A} (p : A -> bool) a b : count p (a ++ b) = (count p a + count p b)%nat.
Proof. unfold count. rewrite filter_app, app_length. reflexivity. Qed.

Lemma count_filter_le {A} (p q : A -> bool) l : count p (filter q l) <= count p l.
Proof.
  induction l as [|x t IH]; [apply le_n|]. cbn [filter]. destruct (q x); rewrite !count_cons; lia.
Qed.

Lemma count_zero {A} (p : A -> bool) l : (forall x, In x l -> p x = false) -> count p l = 0.
Proof.
  induction l as [|x t IH]; intros H; [reflexivity|].
  rewrite count_cons, (H x (or_introl eq_refl)). apply IH. intros y Hy. apply H. right. exact Hy.
Qed.

Lemma count_pos {A} (p : A -> bool) l : 1 <= count p l <-> exists x, In x l /\ p x = true.
Proof.
  unfold count. split.
  - destruct (filter p l) as [|x t] eqn:E; [cbn; lia|]. intros _. exists x.
    apply filter_In. rewrite E. left. reflexivity.
  - intros [x [Hx Hp]]. assert (H : In x (filter p l)) by (apply filter_In; auto).
    destruct (filter p l); [destruct H|cbn; lia].
Qed.

Lemma count_nth {A} (p : A -> bool) l j x : nth_error l j = Some x -> p x = true -> 1 <= count p l.
Proof. intros H Hp. apply count_pos. exists x. split; [exact (nth_error_In l j H)|exact Hp]. Qed.

Lemma count_nth2 {A} (p : A -> bool) : forall l j1 j2 x1 x2,
  nth_error l j1 = Some x1 -> nth_error l j2 = Some x2 -> j1 <> j2 -> p x1 = true -> p x2 = true ->
  2 <= count p l.
Proof.
  induction l as [|y t IH]; intros j1 j2 x1 x2 H1 H2 Hne P1 P2; [destruct j1; discriminate|].
  rewrite count_cons. destruct j1 as [|j1], j2 as [|j2]; cbn [nth_error] in H1, H2; try congruence.
  - injection H1 as ->. rewrite P1. pose proof (count_nth p t j2 x2 H2 P2). lia.
  - injection H2 as ->. rewrite P2. pose proof (count_nth p t j1 x1 H1 P1). lia.
  - assert (j1 <> j2) by congruence. specialize (IH j1 j2 x1 x2 H1 H2 H P1 P2). lia.
Qed.

(* all positions where [p] holds are the position [pos] *)
Lemma count_le1_pos {A} (p : A -> bool) : forall l pos,
  (forall j x, nth_error l j = Some x -> j <> pos -> p x = false) -> count p l <= 1.
Proof.
  induction l as [|y t IH]; intros pos H; [cbn; lia|]. rewrite count_cons. destruct pos as [|pos].
  - rewrite (count_zero p t); [destruct (p y); lia|].
    intros x Hx. destruct (In_nth_error _ _ Hx) as [j Hj]. apply (H (S j) x Hj). discriminate.
  - rewrite (H 0 y eq_refl); [|discriminate]. apply (IH pos). intros j x Hj Hne. apply (H (S j) x Hj). congruence.
Qed.

Lemma count_filter_same {A} (p q : A -> bool) l :
  (forall x, In x l -> p x = true -> q x = true) -> count p (filter q l) = count p l.
Proof.
  induction l as [|x t IH]; intros H; [reflexivity|]. cbn [filter].
  specialize (IH (fun y Hy => H y (or_intror Hy))). specialize (H x (or_introl eq_refl)).
  destruct (q x); rewrite !count_cons, IH; [reflexivity|]. destruct (p x); [discriminate (H eq_refl)|reflexivity].
Qed.

Lemma count_flat_map_in {A B} (p : B -> bool) (f : A -> list B) : forall l b,
  In b l -> count p (f b) <= count p (flat_map f l).
Proof.
  induction l as [|w t IH]; intros b []; cbn [flat_map]; rewrite count_app.
  - subst. lia.
  - specialize (IH b H). lia.
Qed.

(* "at most one" over the blocks of a routine, in position form: any two positions where [p] holds coincide ... *)
Lemma count_flat_map_unique {A B} (p : B -> bool) (f : A -> list B) : forall l b1 j1 x1 b2 j2 x2,
  count p (flat_map f l) <= 1 -> In b1 l -> In b2 l ->
  nth_error (f b1) j1 = Some x1 -> p x1 = true -> nth_error (f b2) j2 = Some x2 -> p x2 = true ->
  b1 = b2 /\ j1 = j2.
Proof.
  induction l as [|w t IH]; intros b1 j1 x1 b2 j2 x2 Hc [] [] H1 P1 H2 P2;
    cbn [flat_map] in Hc; rewrite count_app in Hc; subst.
  - split; [reflexivity|]. destruct (Nat.eq_dec j1 j2) as [|Hj]; [assumption|].
    pose proof (count_nth2 _ _ _ _ _ _ H1 H2 Hj P1 P2). lia.
  - pose proof (count_nth _ _ _ _ H1 P1). pose proof (count_nth _ _ _ _ H2 P2).
    pose proof (count_flat_map_in p f t b2 H0). lia.
  - pose proof (count_nth _ _ _ _ H1 P1). pose proof (count_nth _ _ _ _ H2 P2).
    pose proof (count_flat_map_in p f t b1 H). lia.
  - apply (IH b1 j1 x1 b2 j2 x2); [lia|assumption..].
Qed.

(* ... and conversely, when every such position is [(cur, pos)] and no block is listed twice *)
Lemma count_flat_map_le1 {B} (p : B -> bool) (f : id -> list B) cur pos : forall order, NoDup order ->
  (forall b j x, In b order -> nth_error (f b) j = Some x -> p x = true -> b = cur /\ j = pos) ->
  count p (flat_map f order) <= 1.
Proof.
  induction order as [|w t IH]; intros Hn H; [cbn; lia|].
  inversion Hn as [|? ? Hw Hn']; subst. cbn [flat_map]. rewrite count_app.
  assert (Ht : forall b j x, In b t -> nth_error (f b) j = Some x -> p x = true -> b = cur /\ j = pos)
    by (intros b j x Hb; apply H; right; exact Hb).
  destruct (Nat.eq_dec w cur) as [->|Hne].
  - rewrite (count_zero p (flat_map f t)).
    + rewrite Nat.add_0_r. apply (count_le1_pos p (f cur) pos). intros j x Hj Hne.
      destruct (p x) eqn:E; [|reflexivity]. destruct (H cur j x (or_introl eq_refl) Hj E) as [_ ->]. contradiction.
    + intros x Hx. apply in_flat_map in Hx. destruct Hx as [b [Hb Hx]]. destruct (In_nth_error _ _ Hx) as [j Hj].
      destruct (p x) eqn:E; [|reflexivity]. destruct (Ht b j x Hb Hj E) as [-> _]. contradiction.
  - rewrite (count_zero p (f w)); [exact (IH Hn' Ht)|].
    intros x Hx. destruct (In_nth_error _ _ Hx) as [j Hj]. destruct (p x) eqn:E; [|reflexivity].
    destruct (H w j x (or_introl eq_refl) Hj E) as [-> _]. contradiction.
Qed.

Definition routine_ops (g : graph) (order : list id) : list instr := flat_map (get_ops g) order.

(* the pairing [paired] of Proofs/OptimizeSem.v, from positions *)
Definition pos_paired (L : list N) (ops : list instr) : Prop :=
  forall j i, nth_error ops j = Some i -> keep_op L i = false ->
    (exists s, In s L /\ i = mkI O_store [ASlot s] /\ nth_error ops (S j) = Some (mkI O_load [ASlot s])) \/
    (exists s j', In s L /\ i = mkI O_load [ASlot s] /\ j = S j' /\
                  nth_error ops j' = Some (mkI O_store [ASlot s])).

Lemma pos_paired_paired L : forall n ops, List.length ops <= n -> pos_paired L ops -> paired L ops.
Proof.
  induction n as [|n IH]; intros ops Hl H.
  - destruct ops; [constructor|cbn in Hl; lia].
  - destruct ops as [|i t]; [constructor|]. cbn [List.length] in Hl.
    destruct (keep_op L i) eqn:Ek.
    + apply pr_keep; [exact Ek|]. apply IH; [lia|].
      intros j x Hj Hx. destruct (H (S j) x Hj Hx) as [[s [A [B D]]]|[s [j' [A [B [D E]]]]]].
      * left. exists s. repeat split; assumption.
      * right. injection D as <-. destruct j as [|j].
        { cbn [nth_error] in E. injection E as ->. rewrite (keep_op_slot L _ s (or_introl eq_refl) A) in Ek. discriminate. }
        exists s, j. repeat split; assumption.
    + destruct (H 0 i eq_refl Ek) as [[s [A [B D]]]|[s [j' [A [B [D E]]]]]]; [|discriminate].
      subst i. cbn [nth_error] in D. destruct t as [|ld t']; [discriminate|].
      cbn [nth_error] in D. injection D as ->.
      apply pr_pair; [exact A|]. apply IH; [cbn [List.length] in Hl; lia|].
      intros j x Hj Hx. destruct (H (S (S j)) x Hj Hx) as [[s' [A' [B' D']]]|[s' [j' [A' [B' [D' E']]]]]].
      * left. exists s'. repeat split; assumption.
      * right. injection D' as <-. destruct j as [|j].
        { cbn [nth_error] in E'. discriminate. }
        exists s', j. repeat split; assumption.
Qed.

(* every load/store op of the routine carries exactly one argument, a slot object
   (what ScratchLoad/ScratchStackStore/ScratchStore emit; _apply_slot_to_stack raises TealInternalError otherwise) *)
Definition slot_ops_wf (g : graph) (order : list id) : Prop :=
  forall b i, In b order -> In i (get_ops g b) -> (i_op i = O_store \/ i_op i = O_load) ->
    exists u, i_args i = [ASlot u].

Lemma wf_slot_op g order b i u :
  slot_ops_wf g order -> In b order -> In i (get_ops g b) -> i_op i = O_store \/ i_op i = O_load ->
  In u (instr_slots i) -> i = mkI (i_op i) [ASlot u].
Proof.
  intros W Hb Hi Ho Hu. destruct (W b i Hb Hi Ho) as [u' E].
  destruct i as [o a]. cbn [i_op i_args] in *. subst a. destruct Hu as [->|[]]. reflexivity.
Qed.

(* under [slot_ops_wf], what the checks say of a removed slot: its store and its load stand next to each other
   in [cur], and that load is the only one of the routine *)
Lemma astk_ok_wf g order cur L s :
  slot_ops_wf g order -> In cur order -> astk_ok g order cur L -> In s L ->
  exists i, nth_error (get_ops g cur) i = Some (mkI O_store [ASlot s]) /\
            nth_error (get_ops g cur) (S i) = Some (mkI O_load [ASlot s]) /\
            forall b j x, In b order -> nth_error (get_ops g b) j = Some x -> load_of s x = true ->
                          b = cur /\ j = S i.
Proof.
  intros W Hc Hok Hs. destruct (Hok s Hs) as [i [div [[st [ld [N1 [N2 [O1 O2]]]]] Hdep]]]. exists i.
  apply store_of_iff in O1. destruct O1 as [O1 S1]. apply load_of_iff in O2. destruct O2 as [O2 S2].
  rewrite (wf_slot_op g order cur st s W Hc (nth_error_In _ _ N1) (or_introl O1) S1), O1 in N1.
  rewrite (wf_slot_op g order cur ld s W Hc (nth_error_In _ _ N2) (or_intror O2) S2), O2 in N2.
  split; [exact N1|]. split; [exact N2|]. intros b j x. exact (deps_no_other_load _ _ _ _ _ _ b j x Hdep).
Qed.

(* the checks + "no other store" give the pairing in every block of the routine *)
Lemma step_paired g order cur L :
  slot_ops_wf g order -> In cur order -> astk_ok g order cur L ->
  (forall s, In s L -> count (store_of s) (routine_ops g order) <= 1) ->
  forall b, In b order -> paired L (get_ops g b).
Proof.
  intros W Hcur Hok Hone b Hb. apply (pos_paired_paired L (List.length (get_ops g b))); [apply le_n|].
  intros j i Hj Hk. pose proof (nth_error_In _ _ Hj) as Hi.
  apply keep_op_false in Hk. destruct Hk as [Hop Hsub].
  destruct (W b i Hb Hi Hop) as [u Ea].
  assert (Hu : In u (instr_slots i)). { unfold instr_slots. rewrite Ea. left. reflexivity. }
  pose proof (Hsub u Hu) as HuL. pose proof (wf_slot_op _ _ _ _ _ W Hb Hi Hop Hu) as Ei.
  destruct (astk_ok_wf _ _ _ _ u W Hcur Hok HuL) as [iu [N1 [N2 Hdep]]].
  destruct Hop as [Ho|Ho]; rewrite Ho in Ei.
  - left. exists u. split; [exact HuL|]. split; [exact Ei|].
    assert (P : store_of u (mkI O_store [ASlot u]) = true).
    { apply store_of_iff. split; [reflexivity|left; reflexivity]. }
    rewrite Ei in Hj.
    destruct (count_flat_map_unique _ _ order b j _ cur iu _ (Hone u HuL) Hb Hcur Hj P N1 P) as [-> ->].
    exact N2.
  - right. exists u, iu. split; [exact HuL|]. split; [exact Ei|].
    destruct (Hdep b j i Hb Hj) as [-> ->]; [apply load_of_iff; split; assumption|].
    split; [reflexivity|exact N1].
Qed.

(* the dynamic side conditions, for a universe [Lall] of removable slots *)
Definition cellsL (env : denv) (Lall : N -> Prop) (c : N) : Prop := exists s, Lall s /\ c = e_asg env s.

(* at an execution point (op, stack):
   (1) a store of a removable slot finds a value on the stack;
   (2) a scratch cell of a removable slot is read only by the direct load of a removable slot:
       not by [loads] with that run-time index, not by a load with a literal number, not by the load of
       another variable that was given the same number *)
Definition PL (env : denv) (Lall : N -> Prop) (i : instr) (stk : list value) : Prop :=
  (forall s, Lall s -> i = mkI O_store [ASlot s] -> stk <> []) /\
  (forall c, instr_reads env i stk = Some c -> cellsL env Lall c -> exists u, Lall u /\ i = mkI O_load [ASlot u]).

Definition inj_on (env : denv) (Lall : N -> Prop) : Prop :=
  forall u v, Lall u -> Lall v -> e_asg env u = e_asg env v -> u = v.

(* one removal step is the simulation of Proofs/OptimizeSem.v: the hypotheses of [graph_sim], in its order *)
Theorem rsa_step_sound env (Lall : N -> Prop) g start l c0 :
  inj_on env Lall -> ids_bounded g start -> (forall s, In s l -> Lall s) ->
  (forall b, In b (iterate g start) -> paired l (get_ops g b)) ->
  conf_in (fun b => In b (iterate g start)) c0 -> safe_from (PL env Lall) env (g_blk g) c0 ->
  sim_upto env (cellsL env Lall) (g_blk g) (g_blk (remove_slot_access g start l)) c0 /\
  safe_from (PL env Lall) env (g_blk (remove_slot_access g start l)) c0.
Proof.
  intros Hinj Hb Hl Hp Hr Hs. set (C := cellsL env (fun s => In s l)).
  destruct (graph_sim env l C (PL env Lall)) with (R := fun b => In b (iterate g start)) (G := g_blk g)
    (G' := g_blk (remove_slot_access g start l)) (c0 := c0) as [S1 S2]; [..|exact Hr|exact Hs|].
  - intros s H. exists s. split; [exact H|reflexivity].
  - intros i stk [_ H2] Hk c Hc [s [Hsl Ec]].
    destruct (H2 c Hc) as [u [Hu Ei]]; [exists s; split; [apply Hl, Hsl|exact Ec]|].
    subst i. cbn in Hc. injection Hc as Hc. rewrite <- Hc in Ec.
    pose proof (Hinj u s Hu (Hl s Hsl) Ec) as ->.
    rewrite (keep_op_slot l _ s (or_intror eq_refl) Hsl) in Hk. discriminate.
  - intros s stk Hsl [H1 _]. apply (H1 s (Hl s Hsl) eq_refl).
  - intros b blk x Hbr E Hx. apply (proj2 (iterate_closed g start Hb) b x Hbr). unfold out_of. rewrite E. exact Hx.
  - intros b blk Hbr E. pose proof (Hp b Hbr) as X. unfold get_ops in X. rewrite E in X. exact X.
  - intros b Hbr. rewrite rsa_blk, (proj2 (mem_id_iff _ _) Hbr). reflexivity.
  - split; [|exact S2]. apply (sim_upto_mono env C _ _ _ c0); [|exact S1].
    intros c [s [Hsl E]]. exists s. split; [apply Hl, Hsl|exact E].
Qed.

(* _apply_slot_to_stack iterated per block, for every block: a sequence of removal steps *)
Inductive rsteps (start : id) : graph -> graph -> list N -> Prop :=
| rs_refl g : rsteps start g g []
| rs_step g g' cur L Ls :
    In cur (iterate g start) -> astk_ok g (iterate g start) cur L ->
    rsteps start (remove_slot_access g start L) g' Ls -> rsteps start g g' (L ++ Ls).

Lemma rsteps_trans start g g1 g2 L1 L2 :
  rsteps start g g1 L1 -> rsteps start g1 g2 L2 -> rsteps start g g2 (L1 ++ L2).
Proof.
  induction 1 as [g|g g' cur L Ls Hc Hok S IH]; intros S2; [exact S2|].
  rewrite <- app_assoc. eapply rs_step; eauto.
Qed.

Lemma rsteps_iterate start g g' Ls : rsteps start g g' Ls -> iterate g' start = iterate g start.
Proof.
  induction 1 as [g|g g' cur L Ls Hc Hok S IH]; [reflexivity|]. rewrite IH. apply rsa_iterate.
Qed.

Lemma apply_slot_to_stack_steps g start cur skip g' :
  In cur (iterate g start) -> apply_slot_to_stack g start cur skip = Some g' -> exists Ls, rsteps start g g' Ls.
Proof.
  intros Hc H. destruct (astk_inv _ _ _ _ _ H) as [->|[L [-> HL]]].
  - exists []. constructor.
  - exists (L ++ []). eapply rs_step; [exact Hc|exact HL|constructor].
Qed.

Lemma opt_block_loop_steps start skip cur : forall n g g',
  In cur (iterate g start) -> opt_block_loop n g start cur skip = Some g' ->
  exists Ls, rsteps start g g' Ls.
Proof.
  induction n as [|k IH]; intros g g' Hc H; cbn [opt_block_loop] in H.
  - injection H as <-. exists []. constructor.
  - destruct (apply_slot_to_stack g start cur skip) as [g1|] eqn:Ea; [|discriminate].
    destruct (apply_slot_to_stack_steps _ _ _ _ _ Hc Ea) as [L1 S1].
    destruct (instrs_eqb _ _); [injection H as <-; exists L1; exact S1|].
    destruct (IH g1 g') as [L2 S2]; [rewrite (rsteps_iterate _ _ _ _ S1); exact Hc|exact H|].
    exists (L1 ++ L2). exact (rsteps_trans _ _ _ _ _ _ S1 S2).
Qed.

Definition opt_fold_body (start : id) (skip : list N) (og : option graph) (b : id) : option graph :=
  match og with
  | Some g => opt_block_loop (List.length (get_ops g b)) g start b skip
  | None => None
  end.

Lemma opt_fold_none start skip : forall blocks, fold_left (opt_fold_body start skip) blocks None = None.
Proof. induction blocks as [|b t IH]; [reflexivity|exact IH]. Qed.

Lemma opt_fold_steps start skip : forall blocks g g',
  (forall b, In b blocks -> In b (iterate g start)) ->
  fold_left (opt_fold_body start skip) blocks (Some g) = Some g' ->
  exists Ls, rsteps start g g' Ls.
Proof.
  induction blocks as [|b t IH]; intros g g' Hin H; cbn [fold_left] in H.
  - injection H as <-. exists []. constructor.
  - cbn [opt_fold_body] in H.
    destruct (opt_block_loop (List.length (get_ops g b)) g start b skip) as [g1|] eqn:E;
      [|rewrite opt_fold_none in H; discriminate].
    destruct (opt_block_loop_steps start skip b _ g g1 (Hin b (or_introl eq_refl)) E) as [L1 S1].
    destruct (IH g1 g') as [L2 S2]; [|exact H|].
    + intros x Hx. rewrite (rsteps_iterate _ _ _ _ S1). apply Hin. right. exact Hx.
    + exists (L1 ++ L2). eapply rsteps_trans; eauto.
Qed.

Lemma optimize_routine_steps g start skip g' :
  optimize_routine g start skip = Some g' -> exists Ls, rsteps start g g' Ls.
Proof. intros H. apply (opt_fold_steps start skip (iterate g start) g g'); [tauto|exact H]. Qed.

Lemma rsa_ids_bounded g start L : ids_bounded g start -> ids_bounded (remove_slot_access g start L) start.
Proof.
  intros [H1 H2]. split; rewrite rsa_next; [exact H1|]. intros b x Hb. rewrite rsa_out_of. apply H2, Hb.
Qed.

Lemma rsa_ops_incl g start L b i : In i (get_ops (remove_slot_access g start L) b) -> In i (get_ops g b).
Proof.
  rewrite rsa_get_ops. destruct (mem_id b (iterate g start)); [|tauto]. intros H. apply filter_In in H. tauto.
Qed.

Lemma rsa_wf g start L order : slot_ops_wf g order -> slot_ops_wf (remove_slot_access g start L) order.
Proof. intros W b i Hb Hi. apply (W b i Hb). eapply rsa_ops_incl; eauto. Qed.

Lemma rsa_routine_ops g start L order : incl order (iterate g start) ->
  routine_ops (remove_slot_access g start L) order = filter (keep_op L) (routine_ops g order).
Proof.
  unfold routine_ops. induction order as [|b t IH]; intros H; [reflexivity|]. cbn [flat_map].
  rewrite filter_app, IH, rsa_get_ops, (proj2 (mem_id_iff _ _) (H b (or_introl eq_refl))); [reflexivity|].
  intros x Hx. apply H. right. exact Hx.
Qed.

(* The lemmas about [rsteps] speak of one order, that of the first graph: every step keeps it ([rsa_iterate]). *)
Lemma rsteps_count_le start g g' Ls (p : instr -> bool) :
  rsteps start g g' Ls -> count p (routine_ops g' (iterate g start)) <= count p (routine_ops g (iterate g start)).
Proof.
  induction 1 as [g|g g' cur L Ls Hc Hok S IH]; [apply le_n|]. rewrite rsa_iterate in IH.
  eapply Nat.le_trans; [exact IH|]. rewrite rsa_routine_ops by apply incl_refl. apply count_filter_le.
Qed.

(* the removed slots: those that had a load before and have none afterwards *)
Definition has_load (g : graph) (order : list id) (u : N) : Prop :=
  exists b i, In b order /\ In i (get_ops g b) /\ load_of u i = true.

Definition removed_slot (g g' : graph) (start : id) (u : N) : Prop :=
  has_load g (iterate g start) u /\ ~ has_load g' (iterate g start) u.

Definition loads_n (g : graph) (order : list id) (u : N) : nat := count (load_of u) (routine_ops g order).
Definition stores_n (g : graph) (order : list id) (u : N) : nat := count (store_of u) (routine_ops g order).

Lemma has_load_count g order u : has_load g order u <-> 1 <= loads_n g order u.
Proof.
  unfold loads_n, routine_ops. rewrite count_pos. unfold has_load. split.
  - intros [b [i [Hb [Hi Hl]]]]. exists i. split; [apply in_flat_map; eauto|exact Hl].
  - intros [i [Hi Hl]]. apply in_flat_map in Hi. destruct Hi as [b [Hb Hi]]. eauto.
Qed.

(* once a step has removed [L], no load or store op of the routine mentions a slot of [L], whatever follows *)
Lemma rsteps_after_removal start g L g' Ls u :
  slot_ops_wf g (iterate g start) -> In u L -> rsteps start (remove_slot_access g start L) g' Ls ->
  loads_n g' (iterate g start) u = 0 /\ stores_n g' (iterate g start) u = 0.
Proof.
  intros W Hu S.
  assert (Z : forall p : instr -> bool,
            (forall x, p x = true -> (i_op x = O_store \/ i_op x = O_load) /\ In u (instr_slots x)) ->
            count p (routine_ops g' (iterate g start)) = 0).
  { intros p Hp. pose proof (rsteps_count_le _ _ _ _ p S) as Le.
    rewrite rsa_iterate, rsa_routine_ops, (count_zero p (filter _ _)) in Le; [lia| |apply incl_refl].
    intros x Hx. apply filter_In in Hx. destruct Hx as [Hx Hk]. destruct (p x) eqn:E; [|reflexivity].
    destruct (Hp x E) as [Ho Hs]. apply in_flat_map in Hx. destruct Hx as [b [Hb Hi]].
    rewrite (wf_slot_op _ _ _ _ _ W Hb Hi Ho Hs), (keep_op_slot L _ u Ho Hu) in Hk. discriminate Hk. }
  split; apply Z; intros x Hx; [apply load_of_iff in Hx|apply store_of_iff in Hx]; tauto.
Qed.

Lemma rsteps_removed start g g' Ls :
  rsteps start g g' Ls -> slot_ops_wf g (iterate g start) ->
  forall u, In u Ls -> has_load g (iterate g start) u /\ ~ has_load g' (iterate g start) u.
Proof.
  induction 1 as [g|g g' cur L Ls Hc Hok S IH]; intros W u Hu; [destruct Hu|]. rewrite rsa_iterate in IH.
  apply in_app_or in Hu. destruct Hu as [Hu|Hu].
  - split.
    + destruct (astk_ok_wf _ _ _ _ u W Hc Hok Hu) as [i [_ [N2 _]]].
      exists cur, (mkI O_load [ASlot u]). split; [exact Hc|]. split; [exact (nth_error_In _ _ N2)|].
      apply load_of_iff. split; [reflexivity|left; reflexivity].
    + rewrite has_load_count, (proj1 (rsteps_after_removal _ _ _ _ _ u W Hu S)). lia.
  - destruct (IH (rsa_wf g start L _ W) u Hu) as [[b [i [Hb [Hi Hl]]]] B].
    split; [|exact B]. exists b, i. split; [exact Hb|]. split; [|exact Hl]. eapply rsa_ops_incl; eauto.
Qed.

Lemma rsteps_sound env (Lall : N -> Prop) start g g' Ls :
  inj_on env Lall -> rsteps start g g' Ls -> ids_bounded g start -> slot_ops_wf g (iterate g start) ->
  (forall s, In s Ls -> Lall s) ->
  (forall s, In s Ls -> count (store_of s) (routine_ops g (iterate g start)) <= 1) ->
  forall c0, conf_in (fun b => In b (iterate g start)) c0 -> safe_from (PL env Lall) env (g_blk g) c0 ->
  sim_upto env (cellsL env Lall) (g_blk g) (g_blk g') c0.
Proof.
  intros Hinj. induction 1 as [g|g g' cur L Ls Hc Hok S IH]; intros Hb W HL Hone c0 Hr Hs.
  - apply sim_upto_refl.
  - rewrite rsa_iterate in IH.
    assert (HL1 : forall s, In s L -> Lall s) by (intros s Hs'; apply HL, in_or_app; left; exact Hs').
    assert (Hp : forall b, In b (iterate g start) -> paired L (get_ops g b)).
    { apply (step_paired g (iterate g start) cur L W Hc Hok). intros s Hs'. apply Hone, in_or_app. left. exact Hs'. }
    destruct (rsa_step_sound env Lall g start L c0 Hinj Hb HL1 Hp Hr Hs) as [F1 S1].
    apply (sim_upto_trans _ _ _ _ _ _ F1).
    apply (IH (rsa_ids_bounded g start L Hb) (rsa_wf g start L _ W)); [| |exact Hr|exact S1].
    + intros s Hs'. apply HL, in_or_app. right. exact Hs'.
    + intros s Hs'. rewrite rsa_routine_ops by apply incl_refl.
      eapply Nat.le_trans; [apply count_filter_le|]. apply Hone, in_or_app. right. exact Hs'.
Qed.

(* apply_global_optimizations, under the hypothesis the code does not check: a slot whose load is
   cancelled has no store besides the cancelled one *)
Definition no_orphan_store (g g' : graph) (start : id) : Prop :=
  forall u, removed_slot g g' start u -> count (store_of u) (routine_ops g (iterate g start)) <= 1.

(* any sequence of _apply_slot_to_stack steps, from any configuration in a block of the routine *)
Theorem rsteps_sound_partial env g start g' Ls :
  rsteps start g g' Ls ->
  ids_bounded g start ->
  slot_ops_wf g (iterate g start) ->
  no_orphan_store g g' start ->
  inj_on env (removed_slot g g' start) ->
  forall c0, conf_in (fun b => In b (iterate g start)) c0 ->
    safe_from (PL env (removed_slot g g' start)) env (g_blk g) c0 ->
    sim_upto env (cellsL env (removed_slot g g' start)) (g_blk g) (g_blk g') c0.
Proof.
  intros S Hb W Hno Hinj. pose proof (rsteps_removed _ _ _ _ S W) as Hrem.
  exact (rsteps_sound env _ start g g' Ls Hinj S Hb W Hrem (fun s Hs' => Hno s (Hrem s Hs'))).
Qed.

(* the theorems below speak of the halting configurations reachable from the start block *)
Lemma sim_upto_halting env C G G' c0 : sim_upto env C G G' c0 ->
  forall c, halting c ->
    (star env G c0 c -> exists c', star env G' c0 c' /\ conf_eqx C c c') /\
    (star env G' c0 c -> exists c1, star env G c0 c1 /\ conf_eqx C c1 c).
Proof. intros [F B] c _. split; [apply F|apply B]. Qed.

Theorem optimize_routine_sound_partial env g start skip g' :
  optimize_routine g start skip = Some g' ->
  ids_bounded g start ->
  slot_ops_wf g (iterate g start) ->
  no_orphan_store g g' start ->
  inj_on env (removed_slot g g' start) ->
  forall stk st,
    safe_from (PL env (removed_slot g g' start)) env (g_blk g) (GAt start stk st) ->
    forall c, halting c ->
      (star env (g_blk g) (GAt start stk st) c ->
         exists c', star env (g_blk g') (GAt start stk st) c' /\ conf_eqx (cellsL env (removed_slot g g' start)) c c') /\
      (star env (g_blk g') (GAt start stk st) c ->
         exists c0, star env (g_blk g) (GAt start stk st) c0 /\ conf_eqx (cellsL env (removed_slot g g' start)) c0 c).
Proof.
  intros Ho Hb W Hno Hinj stk st Hs. destruct (optimize_routine_steps _ _ _ _ Ho) as [Ls S].
  apply sim_upto_halting, (rsteps_sound_partial env g start g' Ls S Hb W Hno Hinj); [|exact Hs].
  apply (iterate_closed g start Hb).
Qed.

(* removing a set of slots whose accesses are all cancelling pairs *)
Theorem remove_slot_access_sound env g start l :
  ids_bounded g start ->
  (forall b, In b (iterate g start) -> paired l (get_ops g b)) ->
  inj_on env (fun s => In s l) ->
  forall stk st,
    safe_from (PL env (fun s => In s l)) env (g_blk g) (GAt start stk st) ->
    forall c, halting c ->
      (star env (g_blk g) (GAt start stk st) c ->
         exists c', star env (g_blk (remove_slot_access g start l)) (GAt start stk st) c' /\
                    conf_eqx (cellsL env (fun s => In s l)) c c') /\
      (star env (g_blk (remove_slot_access g start l)) (GAt start stk st) c ->
         exists c0, star env (g_blk g) (GAt start stk st) c0 /\ conf_eqx (cellsL env (fun s => In s l)) c0 c).
Proof.
  intros Hb Hp Hinj stk st Hs. apply sim_upto_halting.
  apply (rsa_step_sound env (fun s => In s l) g start l (GAt start stk st) Hinj Hb (fun s H => H) Hp); [|exact Hs].
  apply (iterate_closed g start Hb).
Qed.

Lemma paired_all_kept l ops : (forall i, In i ops -> keep_op l i = true) -> paired l ops.
Proof.
  induction ops as [|i t IH]; intros H; [constructor|].
  apply pr_keep; [apply H; left; reflexivity|]. apply IH. intros x Hx. apply H. right. exact Hx.
Qed.

Lemma paired_app l a b : paired l a -> paired l b -> paired l (a ++ b).
Proof. induction 1; intros Hb; cbn [app]; [exact Hb|apply pr_keep; auto|apply pr_pair; auto]. Qed.

Theorem opt_cancel_sound env g start s b0 pre post :
  ids_bounded g start ->
  (* (a)(b)(c): in block b0 the store of s is immediately followed by the load of s ... *)
  In b0 (iterate g start) ->
  get_ops g b0 = pre ++ mkI O_store [ASlot s] :: mkI O_load [ASlot s] :: post ->
  (* ... and (d) no other op of the routine is a load/store of (only) s *)
  (forall i, In i (pre ++ post) -> keep_op [s] i = true) ->
  (forall b i, In b (iterate g start) -> b <> b0 -> In i (get_ops g b) -> keep_op [s] i = true) ->
  forall stk st,
    (* (e): the store finds its operand; cell [e_asg env s] is read only by the load of s *)
    safe_from (PL env (eq s)) env (g_blk g) (GAt start stk st) ->
    forall c, halting c ->
      (star env (g_blk g) (GAt start stk st) c ->
         exists c', star env (g_blk (remove_slot_access g start [s])) (GAt start stk st) c' /\
                    conf_eqx (fun x => x = e_asg env s) c c') /\
      (star env (g_blk (remove_slot_access g start [s])) (GAt start stk st) c ->
         exists c0, star env (g_blk g) (GAt start stk st) c0 /\ conf_eqx (fun x => x = e_asg env s) c0 c).
Proof.
  intros Hb Hb0 Hops Hk1 Hk2 stk st Hs.
  assert (Hl : forall s', In s' [s] -> s = s') by (intros s' [H|[]]; exact H).
  assert (Hp : forall b, In b (iterate g start) -> paired [s] (get_ops g b)).
  { intros b Hin. destruct (Nat.eq_dec b b0) as [->|Hne].
    - rewrite Hops. apply paired_app.
      + apply paired_all_kept. intros i Hi. apply Hk1, in_or_app. left. exact Hi.
      + apply pr_pair; [left; reflexivity|]. apply paired_all_kept. intros i Hi. apply Hk1, in_or_app. right. exact Hi.
    - apply paired_all_kept. intros i Hi. apply (Hk2 b i Hin Hne Hi). }
  assert (Hinj : inj_on env (eq s)) by (intros u v <- <- _; reflexivity).
  apply sim_upto_halting, (sim_upto_mono env (cellsL env (eq s))); [intros x [s' [<- E]]; exact E|].
  apply (rsa_step_sound env (eq s) g start [s] (GAt start stk st) Hinj Hb Hl Hp); [|exact Hs].
  apply (iterate_closed g start Hb).
Qed.

(* one call of _apply_slot_to_stack, and the per-block fixpoint loop *)
Theorem apply_slot_to_stack_sound_partial env g start cur skip g' :
  apply_slot_to_stack g start cur skip = Some g' ->
  In cur (iterate g start) ->
  ids_bounded g start ->
  slot_ops_wf g (iterate g start) ->
  no_orphan_store g g' start ->
  inj_on env (removed_slot g g' start) ->
  forall stk st,
    safe_from (PL env (removed_slot g g' start)) env (g_blk g) (GAt start stk st) ->
    forall c, halting c ->
      (star env (g_blk g) (GAt start stk st) c ->
         exists c', star env (g_blk g') (GAt start stk st) c' /\ conf_eqx (cellsL env (removed_slot g g' start)) c c') /\
      (star env (g_blk g') (GAt start stk st) c ->
         exists c0, star env (g_blk g) (GAt start stk st) c0 /\ conf_eqx (cellsL env (removed_slot g g' start)) c0 c).
Proof.
  intros H Hc Hb W Hno Hinj stk st Hs. destruct (apply_slot_to_stack_steps _ _ _ _ _ Hc H) as [Ls S].
  apply sim_upto_halting, (rsteps_sound_partial env g start g' Ls S Hb W Hno Hinj); [|exact Hs].
  apply (iterate_closed g start Hb).
Qed.

Theorem opt_block_loop_sound_partial env n g start cur skip g' :
  opt_block_loop n g start cur skip = Some g' ->
  In cur (iterate g start) ->
  ids_bounded g start ->
  slot_ops_wf g (iterate g start) ->
  no_orphan_store g g' start ->
  inj_on env (removed_slot g g' start) ->
  forall stk st,
    safe_from (PL env (removed_slot g g' start)) env (g_blk g) (GAt start stk st) ->
    forall c, halting c ->
      (star env (g_blk g) (GAt start stk st) c ->
         exists c', star env (g_blk g') (GAt start stk st) c' /\ conf_eqx (cellsL env (removed_slot g g' start)) c c') /\
      (star env (g_blk g') (GAt start stk st) c ->
         exists c0, star env (g_blk g) (GAt start stk st) c0 /\ conf_eqx (cellsL env (removed_slot g g' start)) c0 c).
Proof.
  intros H Hc Hb W Hno Hinj stk st Hs. destruct (opt_block_loop_steps start skip cur n g g' Hc H) as [Ls S].
  apply sim_upto_halting, (rsteps_sound_partial env g start g' Ls S Hb W Hno Hinj); [|exact Hs].
  apply (iterate_closed g start Hb).
Qed.

(* the optimiser touches nothing but load/store ops of the removed slots *)
Definition same_shape (b b' : block) : Prop :=
  match b, b' with
  | BSimple _ n, BSimple _ n' => n' = n
  | BCond _ t f, BCond _ t' f' => t' = t /\ f' = f
  | _, _ => False
  end.

Theorem optimizer_preserves_non_slot_ops g start l :
  let g' := remove_slot_access g start l in
  (* the graph structure: same ids, same counter, same parent lists, same successors and block kinds *)
  g_next g' = g_next g /\ g_inc g' = g_inc g /\
  (forall b, match g_blk g b, g_blk g' b with
             | Some bb, Some bb' => same_shape bb bb'
             | None, None => True
             | _, _ => False
             end) /\
  (forall b, out_of g' b = out_of g b) /\
  iterate g' start = iterate g start /\
  (* the ops: in the blocks TealBlock.Iterate visits, the sub-sequence of the ops that [keep_op] keeps, in
     order; elsewhere untouched *)
  (forall b, get_ops g' b = if mem_id b (iterate g start) then filter (keep_op l) (get_ops g b) else get_ops g b) /\
  (* what is deleted: exactly the load/store ops all of whose slot arguments are in the removed set *)
  (forall i, keep_op l i = false <->
             (i_op i = O_store \/ i_op i = O_load) /\ (forall s, In s (instr_slots i) -> In s l)).
Proof.
  cbv zeta. split; [apply rsa_next|]. split; [apply rsa_inc|]. split; [|split; [|split; [|split]]].
  - intros b. rewrite rsa_blk. destruct (mem_id b (iterate g start)); destruct (g_blk g b) as [bb|]; cbn [option_map]; auto.
    all: destruct bb; cbn; auto.
  - intros b. apply rsa_out_of.
  - apply rsa_iterate.
  - intros b. apply rsa_get_ops.
  - intros i. apply keep_op_false.
Qed.

(* for load/store ops of the usual form (one slot argument) the deleted ops are the loads/stores of removed slots *)
Corollary keep_op_false_wf l i u :
  i_args i = [ASlot u] ->
  (keep_op l i = false <-> (i = mkI O_store [ASlot u] \/ i = mkI O_load [ASlot u]) /\ In u l).
Proof.
  intros Ea. rewrite keep_op_false. unfold instr_slots. rewrite Ea. cbn [flat_map app].
  destruct i as [o a]. cbn [i_op i_args] in *. subst a. split.
  - intros [[->| ->] H]; (split; [auto|apply H; left; reflexivity]).
  - intros [[E|E] H]; injection E as ->; (split; [auto|intros s [<-|[]]; exact H]).
Qed.

(* whole optimiser: edges untouched, every block keeps a sub-sequence of its ops, only load/store ops go *)
Theorem optimize_routine_preserves_non_slot_ops g start skip g' :
  optimize_routine g start skip = Some g' ->
  g_next g' = g_next g /\ g_inc g' = g_inc g /\
  (forall b, out_of g' b = out_of g b) /\
  iterate g' start = iterate g start /\
  (forall b, exists keep : instr -> bool,
      get_ops g' b = filter keep (get_ops g b) /\
      forall i, keep i = false -> i_op i = O_store \/ i_op i = O_load).
Proof.
  intros H. destruct (optimize_routine_steps _ _ _ _ H) as [Ls S]. clear H.
  induction S as [g|g g' cur L Ls Hc Hok S IH].
  - split; [reflexivity|]. split; [reflexivity|]. split; [reflexivity|]. split; [reflexivity|].
    intros b. exists (fun _ => true). split; [|discriminate].
    induction (get_ops g b) as [|x t IHt]; [reflexivity|]. cbn [filter]. rewrite <- IHt. reflexivity.
  - destruct IH as [A [B [C [D E]]]].
    split; [rewrite A; apply rsa_next|]. split; [rewrite B; apply rsa_inc|].
    split; [intros b; rewrite C; apply rsa_out_of|]. split; [rewrite D; apply rsa_iterate|].
    intros b. destruct (E b) as [keep [E1 E2]]. rewrite rsa_get_ops in E1.
    destruct (mem_id b (iterate g start)).
    + exists (fun i => keep_op L i && keep i). split.
      * rewrite E1. clear. induction (get_ops g b) as [|x t IHt]; [reflexivity|]. cbn [filter].
        destruct (keep_op L x); cbn [filter andb]; [destruct (keep x); rewrite IHt; reflexivity|exact IHt].
      * intros i Hi. apply andb_false_iff in Hi. destruct Hi as [Hi|Hi]; [|apply E2, Hi].
        apply keep_op_false in Hi. tauto.
    + exists keep. split; assumption.
Qed.

(* decidable forms of the static hypotheses *)
Definition ids_bounded_b (g : graph) (start : id) : bool :=
  Nat.ltb start (g_next g) &&
  forallb (fun b => forallb (fun x => Nat.ltb x (g_next g)) (out_of g b)) (seq 0 (g_next g)).

Lemma ids_bounded_b_sound g start : ids_bounded_b g start = true -> ids_bounded g start.
Proof.
  unfold ids_bounded_b. intros H. apply andb_true_iff in H. destruct H as [H1 H2].
  split; [apply Nat.ltb_lt, H1|]. intros b x Hb Hx. rewrite forallb_forall in H2.
  specialize (H2 b). rewrite forallb_forall in H2. apply Nat.ltb_lt, H2; [apply in_seq; lia|exact Hx].
Qed.

Definition slot_op_ok (i : instr) : bool :=
  match i_op i with
  | O_store | O_load => match i_args i with [ASlot _] => true | _ => false end
  | _ => true
  end.

Definition slot_ops_wf_b (g : graph) (order : list id) : bool :=
  forallb (fun b => forallb slot_op_ok (get_ops g b)) order.

Lemma slot_ops_wf_b_sound g order : slot_ops_wf_b g order = true -> slot_ops_wf g order.
Proof.
  unfold slot_ops_wf_b. intros H b i Hb Hi Ho. rewrite forallb_forall in H. specialize (H b Hb).
  rewrite forallb_forall in H. specialize (H i Hi). unfold slot_op_ok in H.
  destruct Ho as [Ho|Ho]; rewrite Ho in H; destruct (i_args i) as [|[| | |u|] [|]]; try discriminate; eauto.
Qed.

Definition loaded_slots (g : graph) (order : list id) : list N :=
  flat_map (fun i => if is_op i O_load then instr_slots i else []) (routine_ops g order).

Lemma has_load_iff g order u : has_load g order u <-> In u (loaded_slots g order).
Proof.
  unfold has_load, loaded_slots, routine_ops. split.
  - intros [b [i [Hb [Hi Hl]]]]. unfold load_of in Hl. apply andb_true_iff in Hl. destruct Hl as [H1 H2].
    apply in_flat_map. exists i. split; [apply in_flat_map; eauto|]. rewrite H1. apply mem_N_In, H2.
  - intros H. apply in_flat_map in H. destruct H as [i [Hi Hu]]. apply in_flat_map in Hi. destruct Hi as [b [Hb Hi]].
    destruct (is_op i O_load) eqn:E; [|destruct Hu]. exists b, i. split; [exact Hb|]. split; [exact Hi|].
    unfold load_of. rewrite E. apply mem_N_In, Hu.
Qed.

Definition no_orphan_b (g g' : graph) (start : id) : bool :=
  forallb (fun u => mem_N u (loaded_slots g' (iterate g start)) ||
                    Nat.leb (count (store_of u) (routine_ops g (iterate g start))) 1)
          (loaded_slots g (iterate g start)).

Lemma no_orphan_b_sound g g' start : no_orphan_b g g' start = true -> no_orphan_store g g' start.
Proof.
  unfold no_orphan_b. intros H u [H1 H2]. rewrite forallb_forall in H.
  apply has_load_iff in H1. specialize (H u H1). apply orb_true_iff in H. destruct H as [H|H].
  - exfalso. apply H2, has_load_iff, mem_N_In, H.
  - apply Nat.leb_le, H.
Qed.


Lemma star_det env G c d1 : star env G c d1 -> halting d1 -> forall d2, star env G c d2 -> halting d2 -> d1 = d2.
Proof.
  induction 1 as [c|c c' c'' E S IH]; intros H1 d2 S2 H2.
  - symmetry. apply (star_halting env G c d2 H1 S2).
  - inversion S2 as [|a b d E2 S2']; subst.
    + rewrite (gstep_halting env G d2 H2) in E. discriminate.
    + rewrite E in E2. injection E2 as <-. apply IH; assumption.
Qed.

Lemma grun_star env G : forall fuel c, star env G c (grun fuel env G c).
Proof.
  induction fuel as [|f IH]; intros c; cbn [grun]; [apply star_refl|].
  destruct (gstep env G c) as [c'|] eqn:E; [|apply star_refl]. eapply star_step; [exact E|apply IH].
Qed.

Definition ex_env : denv :=
  mkEnv (mkCtx true [] 0 [] [] 0%N) (fun u => u) [] [] true (fun _ => mkI O_err []).

Definition ex_st0 : mstate := init_state [] [] [].

(* The refutation: a second store of the cancelled slot. *)
(* def f(): x.store(Int(1)); x.store(Int(2)); return x.load()      (x = slot object 7) *)
Definition rf_ops : list instr :=
  [mkI O_int [AInt 1]; mkI O_store [ASlot 7]; mkI O_int [AInt 2]; mkI O_store [ASlot 7];
   mkI O_load [ASlot 7]; mkI O_retsub []].

Definition rf_g : graph :=
  mkG (fun b => match b with O => Some (BSimple rf_ops None) | _ => None end) (fun _ => []) 1.

Definition rf_g' : graph :=
  match optimize_routine rf_g 0 [] with Some x => x | None => rf_g end.

(* the graph is what the model of compileSubroutine produces for that subroutine *)
Definition rf_opts : copts := mkOpts 8 true true false (fun _ => 0%N) (fun _ _ => 0%N).
Definition rf_routine : routine :=
  mkRoutine 1 "f" TUint []
    (ESeq [EOp O_store [ASlot 7] TNone [EOp O_int [AInt 1] TUint []];
           EOp O_store [ASlot 7] TNone [EOp O_int [AInt 2] TUint []];
           EReturn (Some (EOp O_load [ASlot 7] TUint []))]) None.

Example rf_g_is_the_lowering :
  match compile_one rf_opts (Some rf_routine) (decl_body rf_opts rf_routine) with
  | COk c => (cr_start c, map (fun b => (b, g_blk (cr_graph c) b)) (iterate (cr_graph c) (cr_start c)))
             = (0, map (fun b => (b, g_blk rf_g b)) (iterate rf_g 0))
  | CErr _ => False
  end.
Proof. vm_compute. reflexivity. Qed.

Example rf_optimised_ops : get_ops rf_g' 0 = [mkI O_int [AInt 1]; mkI O_int [AInt 2]; mkI O_retsub []].
Proof. vm_compute. reflexivity. Qed.

Lemma rf_opt : optimize_routine rf_g 0 [] = Some rf_g'.
Proof. unfold rf_g'. destruct (optimize_routine rf_g 0 []) eqn:E; [reflexivity|]. vm_compute in E. discriminate. Qed.

Definition rf_st1 : mstate := set_scratch (set_scratch ex_st0 7 (VI 1)) 7 (VI 2).

Lemma rf_run : star ex_env (g_blk rf_g) (GAt 0 [] ex_st0) (GRet [VI 2] rf_st1).
Proof. exact (grun_star ex_env (g_blk rf_g) 2 (GAt 0 [] ex_st0)). Qed.

Lemma rf_run' : star ex_env (g_blk rf_g') (GAt 0 [] ex_st0) (GRet [VI 2; VI 1] ex_st0).
Proof. exact (grun_star ex_env (g_blk rf_g') 2 (GAt 0 [] ex_st0)). Qed.

Lemma rf_bounded : ids_bounded rf_g 0.
Proof. apply ids_bounded_b_sound. vm_compute. reflexivity. Qed.

Lemma rf_wf : slot_ops_wf rf_g (iterate rf_g 0).
Proof. apply slot_ops_wf_b_sound. vm_compute. reflexivity. Qed.

(* the hypothesis of [optimize_routine_sound_partial] that fails: slot 7 is removed and has two stores *)
Lemma rf_orphan : ~ no_orphan_store rf_g rf_g' 0.
Proof.
  intros H. specialize (H 7%N).
  assert (R : removed_slot rf_g rf_g' 0 7%N).
  { split; rewrite has_load_iff; [vm_compute; tauto|]. vm_compute. tauto. }
  specialize (H R). vm_compute in H. lia.
Qed.

Theorem optimizer_refuted :
  exists (g : graph) (start : id) (skip : list N) (g' : graph) (env : denv) (st : mstate)
         (stk1 : list value) (st1 : mstate) (stk2 : list value) (st2 : mstate),
    ids_bounded g start /\ slot_ops_wf g (iterate g start) /\
    optimize_routine g start skip = Some g' /\
    star env (g_blk g) (GAt start [] st) (GRet stk1 st1) /\
    star env (g_blk g') (GAt start [] st) (GRet stk2 st2) /\
    stk1 <> stk2 /\
    (* no exit of the optimised routine matches the original's, even if ALL scratch cells are ignored *)
    (~ exists c', star env (g_blk g') (GAt start [] st) c' /\ conf_eqx (fun _ => True) (GRet stk1 st1) c') /\
    ~ no_orphan_store g g' start.
Proof.
  exists rf_g, 0, [], rf_g', ex_env, ex_st0, [VI 2], rf_st1, [VI 2; VI 1], ex_st0.
  split; [exact rf_bounded|]. split; [exact rf_wf|]. split; [exact rf_opt|].
  split; [exact rf_run|]. split; [exact rf_run'|]. split; [discriminate|]. split; [|exact rf_orphan].
  intros [c' [S E]].
  assert (Hh : halting c') by (apply (conf_eqx_halting _ _ _ E); exact Logic.I).
  pose proof (star_det _ _ _ _ rf_run' Logic.I c' S Hh) as <-.
  cbn in E. destruct E as [E _]. discriminate E.
Qed.


(* the same body as the MAIN routine: the optimised text is `int 1; int 2; return` (DESIGN section 6); [return]
   looks only at the top of the stack, so the surplus value below it is not visible in the exit
   configuration of main — it is visible wherever the stack is handed on (retsub, above) *)
Definition rfm_g : graph :=
  mkG (fun b => match b with
                | O => Some (BSimple [mkI O_int [AInt 1]; mkI O_store [ASlot 7]; mkI O_int [AInt 2];
                                      mkI O_store [ASlot 7]; mkI O_load [ASlot 7]; mkI O_return_ []] None)
                | _ => None
                end) (fun _ => []) 1.

Example rf_main_variant :
  match optimize_routine rfm_g 0 [] with
  | Some g' =>
      get_ops g' 0 = [mkI O_int [AInt 1]; mkI O_int [AInt 2]; mkI O_return_ []] /\
      grun 2 ex_env (g_blk rfm_g) (GAt 0 [] ex_st0) = GExit (VI 2) rf_st1 /\
      grun 2 ex_env (g_blk g') (GAt 0 [] ex_st0) = GExit (VI 2) ex_st0 /\
      exec_ops ex_env [mkI O_int [AInt 1]; mkI O_int [AInt 2]] [] ex_st0 = BOk [VI 2; VI 1] ex_st0
  | None => False
  end.
Proof. vm_compute. repeat split; reflexivity. Qed.

(* Non-vacuity: a loop with one cancellable slot,
   i.store(0); While(i.load() < 1).Do(Seq(t.store(Int(1)), i.store(t.load()))); Return(i.load())
   (i = slot 5, t = slot 9) *)
Definition lp_g : graph :=
  mkG (fun b => match b with
                | 0 => Some (BSimple [mkI O_int [AInt 0]; mkI O_store [ASlot 5]] (Some 1))
                | 1 => Some (BCond [mkI O_load [ASlot 5]; mkI O_int [AInt 1]; mkI O_lt []] (Some 2) (Some 3))
                | 2 => Some (BSimple [mkI O_int [AInt 1]; mkI O_store [ASlot 9]; mkI O_load [ASlot 9];
                                      mkI O_store [ASlot 5]] (Some 1))
                | 3 => Some (BSimple [mkI O_load [ASlot 5]; mkI O_return_ []] None)
                | _ => None
                end) (fun _ => []) 4.

Definition lp_g' : graph := match optimize_routine lp_g 0 [] with Some x => x | None => lp_g end.

Lemma lp_opt : optimize_routine lp_g 0 [] = Some lp_g'.
Proof. unfold lp_g'. destruct (optimize_routine lp_g 0 []) eqn:E; [reflexivity|]. vm_compute in E. discriminate. Qed.

Example lp_optimised_ops :
  map (get_ops lp_g') (iterate lp_g' 0) =
  [[mkI O_int [AInt 0]; mkI O_store [ASlot 5]];
   [mkI O_load [ASlot 5]; mkI O_int [AInt 1]; mkI O_lt []];
   [mkI O_int [AInt 1]; mkI O_store [ASlot 5]];
   [mkI O_load [ASlot 5]; mkI O_return_ []]].
Proof. vm_compute. reflexivity. Qed.

Lemma lp_bounded : ids_bounded lp_g 0.
Proof. apply ids_bounded_b_sound. vm_compute. reflexivity. Qed.
Lemma lp_wf : slot_ops_wf lp_g (iterate lp_g 0).
Proof. apply slot_ops_wf_b_sound. vm_compute. reflexivity. Qed.
Lemma lp_no_orphan : no_orphan_store lp_g lp_g' 0.
Proof. apply no_orphan_b_sound. vm_compute. reflexivity. Qed.

Lemma lp_removed u : removed_slot lp_g lp_g' 0 u <-> u = 9%N.
Proof.
  unfold removed_slot. rewrite !has_load_iff. vm_compute. intuition congruence.
Qed.

(* walking through a block one op at a time; [reflexivity] runs [do_op] on the symbolic stack and state *)
Lemma ops_safe_step (P : instr -> list value -> Prop) env i t stk st s' st' :
  is_return (i_op i) || is_retsub (i_op i) = false -> P i stk ->
  do_op env (i_op i) (i_args i) stk st = DNorm s' st' -> ops_safe P env t s' st' ->
  ops_safe P env (i :: t) stk st.
Proof.
  intros Hn HP E Ht. apply orb_false_iff in Hn. destruct Hn as [Hn1 Hn2].
  cbn [ops_safe]. rewrite Hn1, Hn2, E. split; assumption.
Qed.

Lemma ops_safe_last (P : instr -> list value -> Prop) env i stk st : P i stk -> ops_safe P env [i] stk st.
Proof.
  intros HP. cbn [ops_safe]. destruct (is_return _); [exact Logic.I|]. destruct (is_retsub _); [exact Logic.I|].
  split; [exact HP|]. destruct (do_op _ _ _ _ _); exact Logic.I.
Qed.

(* slot 9 is the one removable slot *)
Lemma lp_safe (L : N -> Prop) stk st : (forall u, L u <-> u = 9%N) ->
  safe_from (PL ex_env L) ex_env (g_blk lp_g) (GAt 0 stk st).
Proof.
  intros HL b s a blk _ Eb.
  assert (K : forall o x stk', o <> O_store -> instr_reads ex_env (mkI o x) stk' <> Some 9%N ->
                               PL ex_env L (mkI o x) stk').
  { intros o x stk' H1 H2. split; [intros u _ E; injection E as E _; destruct (H1 E)|].
    intros c Hr [u [Hu E]]. apply HL in Hu. subst. destruct (H2 Hr). }
  assert (Kst : forall u stk', (u = 9%N -> stk' <> []) -> PL ex_env L (mkI O_store [ASlot u]) stk').
  { intros u stk' H. split; [|intros c Hr; discriminate Hr].
    intros u' Hu E. apply HL in Hu. subst u'. injection E as ->. apply H. reflexivity. }
  assert (Kld : forall stk', PL ex_env L (mkI O_load [ASlot 9]) stk').
  { intros stk'. split; [intros u _ E; discriminate E|]. intros c _ _. exists 9%N. split; [apply HL|]; reflexivity. }
  destruct b as [|[|[|[|b]]]]; cbn in Eb; try discriminate; injection Eb as <-; cbn [b_ops].
  - eapply ops_safe_step; [reflexivity|apply K; discriminate|reflexivity|].
    apply ops_safe_last, Kst. discriminate.
  - eapply ops_safe_step; [reflexivity|apply K; discriminate|reflexivity|].
    eapply ops_safe_step; [reflexivity|apply K; discriminate|reflexivity|].
    apply ops_safe_last, K; discriminate.
  - eapply ops_safe_step; [reflexivity|apply K; discriminate|reflexivity|].
    eapply ops_safe_step; [reflexivity|apply Kst; discriminate|reflexivity|].
    eapply ops_safe_step; [reflexivity|apply Kld|reflexivity|].
    apply ops_safe_last, Kst. discriminate.
  - eapply ops_safe_step; [reflexivity|apply K; discriminate|reflexivity|]. exact Logic.I.
Qed.

(* the hypotheses of the main theorem are jointly satisfiable, and the run it speaks about exists *)
Example lp_sound stk st c : halting c ->
  (star ex_env (g_blk lp_g) (GAt 0 stk st) c ->
     exists c', star ex_env (g_blk lp_g') (GAt 0 stk st) c' /\
                conf_eqx (cellsL ex_env (removed_slot lp_g lp_g' 0)) c c') /\
  (star ex_env (g_blk lp_g') (GAt 0 stk st) c ->
     exists c0, star ex_env (g_blk lp_g) (GAt 0 stk st) c0 /\
                conf_eqx (cellsL ex_env (removed_slot lp_g lp_g' 0)) c0 c).
Proof.
  exact (optimize_routine_sound_partial ex_env lp_g 0 [] lp_g' lp_opt lp_bounded lp_wf lp_no_orphan
           (fun u v _ _ H => H) stk st (lp_safe _ stk st lp_removed) c).
Qed.

Example lp_runs :
  grun 10 ex_env (g_blk lp_g) (GAt 0 [] ex_st0) =
    GExit (VI 1) (set_scratch (set_scratch (set_scratch ex_st0 5 (VI 0)) 9 (VI 1)) 5 (VI 1)) /\
  grun 10 ex_env (g_blk lp_g') (GAt 0 [] ex_st0) =
    GExit (VI 1) (set_scratch (set_scratch ex_st0 5 (VI 0)) 5 (VI 1)).
Proof. split; vm_compute; reflexivity. Qed.

(* ... and so are those of the single-slot theorem (slot 9 in block 2) *)
Example lp_cancel stk st c : halting c ->
  (star ex_env (g_blk lp_g) (GAt 0 stk st) c ->
     exists c', star ex_env (g_blk (remove_slot_access lp_g 0 [9%N])) (GAt 0 stk st) c' /\
                conf_eqx (fun x => x = 9%N) c c') /\
  (star ex_env (g_blk (remove_slot_access lp_g 0 [9%N])) (GAt 0 stk st) c ->
     exists c0, star ex_env (g_blk lp_g) (GAt 0 stk st) c0 /\ conf_eqx (fun x => x = 9%N) c0 c).
Proof.
  apply (opt_cancel_sound ex_env lp_g 0 9%N 2 [mkI O_int [AInt 1]] [mkI O_store [ASlot 5]] lp_bounded).
  - vm_compute. tauto.
  - reflexivity.
  - intros i [<-|[<-|[]]]; reflexivity.
  - intros b i Hb Hne Hi. vm_compute in Hb.
    destruct Hb as [<-|[<-|[<-|[<-|[]]]]]; try congruence; vm_compute in Hi;
      repeat (destruct Hi as [<-|Hi]; [reflexivity|]); destruct Hi.
  - apply lp_safe. intros u. split; intros H; symmetry; exact H.
Qed.


(* [no_orphan_store] is the class predicate of the known finding: it follows from Compile.opt_orphans = [] *)
Lemma rsa_loads_notin g start L u : ~ In u L ->
  loads_n (remove_slot_access g start L) (iterate g start) u = loads_n g (iterate g start) u.
Proof.
  intros Hu. unfold loads_n. rewrite rsa_routine_ops by apply incl_refl. apply count_filter_same. intros x _ Hp.
  apply load_of_iff in Hp. destruct (keep_op L x) eqn:E; [reflexivity|]. apply keep_op_false in E.
  destruct Hu. apply E, Hp.
Qed.

(* a slot whose loads all went had one load, and its stores went with it *)
Lemma rsteps_removed_counts start g g' Ls :
  rsteps start g g' Ls -> slot_ops_wf g (iterate g start) ->
  forall u, has_load g (iterate g start) u -> ~ has_load g' (iterate g start) u ->
  loads_n g (iterate g start) u <= 1 /\ stores_n g' (iterate g start) u = 0.
Proof.
  induction 1 as [g|g g' cur L Ls Hc Hok St IH]; intros W u H1 H2; [contradiction|]. rewrite rsa_iterate in IH.
  destruct (in_dec N.eq_dec u L) as [HuL|HuL].
  - split; [|apply (rsteps_after_removal _ _ _ _ _ u W HuL St)].
    destruct (astk_ok_wf _ _ _ _ u W Hc Hok HuL) as [i [_ [_ Hdep]]].
    exact (count_flat_map_le1 _ _ cur (S i) _ (iterate_nodup g start) Hdep).
  - rewrite <- (rsa_loads_notin g start L u HuL).
    apply (IH (rsa_wf g start L _ W) u); [|exact H2].
    apply has_load_count. rewrite (rsa_loads_notin g start L u HuL). apply has_load_count, H1.
Qed.

(* the count inequality of Compile.opt_orphans, for one routine *)
Definition orphan_free (g g' : graph) (start : id) : Prop :=
  forall u, stores_n g (iterate g start) u - stores_n g' (iterate g start) u
            <= loads_n g (iterate g start) u - loads_n g' (iterate g start) u.

Theorem orphan_free_no_orphan_store start g g' Ls :
  rsteps start g g' Ls -> slot_ops_wf g (iterate g start) -> orphan_free g g' start -> no_orphan_store g g' start.
Proof.
  intros S W Hof u [H1 H2]. destruct (rsteps_removed_counts _ _ _ _ S W u H1 H2) as [X Z].
  specialize (Hof u). unfold stores_n, loads_n in *. lia.
Qed.

Lemma in_insert_sorted x y l : In x (insert_sorted y l) <-> x = y \/ In x l.
Proof.
  induction l as [|z t IH]; cbn [insert_sorted In]; [intuition congruence|].
  destruct (N.eqb y z) eqn:E1.
  - apply N.eqb_eq in E1. subst z. cbn [In]. intuition congruence.
  - destruct (N.ltb y z); cbn [In]; [intuition congruence|]. rewrite IH. intuition congruence.
Qed.

Lemma in_sort_dedup x l : In x (sort_dedup l) <-> In x l.
Proof.
  unfold sort_dedup. induction l as [|y t IH]; cbn [fold_right In]; [tauto|].
  rewrite in_insert_sorted, IH. intuition congruence.
Qed.

Lemma flat_map_nil {A B} (f : A -> list B) l : flat_map f l = [] -> forall x, In x l -> f x = [].
Proof.
  induction l as [|y t IH]; intros H x []; cbn [flat_map] in H; apply app_eq_nil in H; destruct H as [H1 H2].
  - subst. exact H1.
  - apply IH; assumption.
Qed.

Lemma filter_nil {A} (p : A -> bool) l : filter p l = [] -> forall x, In x l -> p x = false.
Proof.
  intros H x Hx. destruct (p x) eqn:E; [|reflexivity].
  assert (In x (filter p l)) by (apply filter_In; auto). rewrite H in H0. destruct H0.
Qed.

Theorem opt_orphans_nil_no_orphan_store o p crs c g' :
  compile_rec (S (List.length (p_subs p))) o p None (p_main p) [] = COk crs ->
  In c crs ->
  optimize_routine (cr_graph c) (cr_start c) (skip_slots p crs) = Some g' ->
  slot_ops_wf (cr_graph c) (iterate (cr_graph c) (cr_start c)) ->
  opt_orphans o p = [] ->
  no_orphan_store (cr_graph c) g' (cr_start c).
Proof.
  intros Hc Hin Ho W Hnil. destruct c as [sub g start e]. cbn [cr_graph cr_start] in *.
  destruct (optimize_routine_steps _ _ _ _ Ho) as [Ls S].
  apply (orphan_free_no_orphan_store start g g' Ls S W).
  unfold opt_orphans in Hnil. rewrite Hc in Hnil.
  pose proof (flat_map_nil _ _ Hnil _ Hin) as X. cbn [cr_graph cr_start cr_sub cr_end] in X. rewrite Ho in X.
  intros u. destruct (in_dec N.eq_dec u (routine_slots (mkCR sub g start e))) as [Hu|Hu].
  - pose proof (filter_nil _ _ X u Hu) as Y. unfold count_slot_ops in Y. cbn [cr_graph cr_start] in Y.
    rewrite (rsteps_iterate _ _ _ _ S) in Y. apply Nat.ltb_ge in Y. exact Y.
  - assert (Z : stores_n g (iterate g start) u = 0).
    { apply count_zero. intros x Hx. destruct (store_of u x) eqn:E; [|reflexivity]. exfalso. apply Hu.
      destruct (proj1 (store_of_iff _ _) E) as [_ Hs]. unfold routine_slots. apply in_sort_dedup. cbn [cr_graph cr_start].
      unfold routine_ops in Hx. apply in_flat_map in Hx. destruct Hx as [b [Hb Hx]].
      apply in_flat_map. exists b. split; [exact Hb|]. apply in_flat_map. exists x. split; assumption. }
    rewrite Z. lia.
Qed.


Lemma instr_reads_cases env i stk c :
  instr_reads env i stk = Some c ->
  (exists u, i = mkI O_load [ASlot u] /\ c = e_asg env u) \/
  (i_op i = O_load /\ forall u, i_args i <> [ASlot u]) \/
  i_op i = O_loads.
Proof.
  destruct i as [o a]. unfold instr_reads. cbn [i_op i_args].
  destruct (slot_access o a) as [[[|] u]|] eqn:Es.
  - intros H. injection H as <-. left. exists u. split; [|reflexivity].
    unfold slot_access in Es. destruct a as [|x t]; [discriminate|]. destruct x; try discriminate. destruct t; [|discriminate].
    destruct (is_load o) eqn:El; [|destruct (is_store o); discriminate]. injection Es as <-.
    destruct o; try discriminate El. reflexivity.
  - discriminate.
  - destruct (args_to_imms env o a) as [im|]; [|discriminate]. intros H.
    destruct o; cbn in H; try discriminate H.
    + right. left. split; [reflexivity|]. intros u ->. cbn in Es. discriminate.
    + right. right. reflexivity.
Qed.

(* no [loads]; every [load] is the load of a variable that is removable itself or has a number no removable
   variable has; stores of removable variables find their operand *)
Theorem PL_static env (L : N -> Prop) i stk :
  i_op i <> O_loads ->
  (i_op i = O_load -> exists u, i_args i = [ASlot u] /\ (L u \/ ~ cellsL env L (e_asg env u))) ->
  (forall s, L s -> i = mkI O_store [ASlot s] -> stk <> []) ->
  PL env L i stk.
Proof.
  intros H1 H2 H3. split; [exact H3|]. intros c Hr Hc.
  destruct (instr_reads_cases env i stk c Hr) as [[u [-> ->]]|[[Ho Ha]|Ho]].
  - destruct (H2 eq_refl) as [u' [Ea [Hu|Hu]]]; injection Ea as <-; [exists u; auto|contradiction].
  - destruct (H2 Ho) as [u [Ea _]]. destruct (Ha u Ea).
  - contradiction.
Qed.

(* the pipeline form: for a routine of a program with no orphan store *)
Theorem compiled_routine_optimizer_sound env o p crs c g' :
  compile_rec (S (List.length (p_subs p))) o p None (p_main p) [] = COk crs ->
  In c crs ->
  optimize_routine (cr_graph c) (cr_start c) (skip_slots p crs) = Some g' ->
  opt_orphans o p = [] ->
  ids_bounded (cr_graph c) (cr_start c) ->
  slot_ops_wf (cr_graph c) (iterate (cr_graph c) (cr_start c)) ->
  inj_on env (removed_slot (cr_graph c) g' (cr_start c)) ->
  forall stk st,
    safe_from (PL env (removed_slot (cr_graph c) g' (cr_start c))) env (g_blk (cr_graph c)) (GAt (cr_start c) stk st) ->
    forall x, halting x ->
      (star env (g_blk (cr_graph c)) (GAt (cr_start c) stk st) x ->
         exists x', star env (g_blk g') (GAt (cr_start c) stk st) x' /\
                    conf_eqx (cellsL env (removed_slot (cr_graph c) g' (cr_start c))) x x') /\
      (star env (g_blk g') (GAt (cr_start c) stk st) x ->
         exists x0, star env (g_blk (cr_graph c)) (GAt (cr_start c) stk st) x0 /\
                    conf_eqx (cellsL env (removed_slot (cr_graph c) g' (cr_start c))) x0 x).
Proof.
  intros Hc Hin Ho Hnil Hb W Hinj stk st Hs.
  apply (optimize_routine_sound_partial env _ _ _ _ Ho Hb W
           (opt_orphans_nil_no_orphan_store o p crs c g' Hc Hin Ho W Hnil) Hinj stk st Hs).
Qed.
