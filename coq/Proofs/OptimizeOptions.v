(* Proofs/OptimizeOptions.v — how OptimizeOptions resolves its two tri-state settings against the
   program version (C03, "version-dependent defaults"), on the regenerated constants of Gen/Tables.v. *)
From Coq Require Import List Arith NArith String Bool Lia.
From PV Require Import Base.Sexp Comp.Lower Extract.Wire Extract.WireExpr Gen.Tables.
Import ListNotations.
Local Open Scope string_scope.

(* the Python methods OptimizeOptions.optimize_scratch_slots(version) / use_frame_pointers(version), with the
   regenerated constants of pyteal/compiler/compiler.py *)
Definition resolve_opt_slots (scratch_slots : option bool) (version : N) : bool :=
  match scratch_slots with
  | None => N.leb gen_DEFAULT_SCRATCH_SLOT_OPTIMIZE_VERSION version
  | Some b => b
  end.

(* None = TealInputError (verifyProgramVersion) *)
Definition resolve_frame_pointers (frame_pointers : option bool) (version : N) : option bool :=
  match frame_pointers with
  | None => Some (N.leb gen_FRAME_POINTERS_VERSION version)
  | Some true => if N.ltb version gen_FRAME_POINTERS_VERSION then None else Some true
  | Some false => Some false
  end.

(* the option reader of the model resolves the options exactly like that *)
Theorem options_resolved body v m ss fp v' ss' fp' :
  field "version" body = Some [v] -> field "mode" body = Some [Atom m] ->
  field "scratch-slots" body = Some [ss] -> field "frame-pointers" body = Some [fp] ->
  w_N v = Some v' -> w_tri ss = Some ss' -> w_tri fp = Some fp' ->
  match resolve_frame_pointers fp' v' with
  | None => w_opts body = Some (inr ErrInput)
  | Some f =>
      exists o, w_opts body = Some (inl o) /\
                o_version o = v' /\ o_app_mode o = String.eqb m "app" /\
                o_opt_slots o = resolve_opt_slots ss' v' /\ o_use_fp o = f
  end.
Proof.
  intros E1 E2 E3 E4 E5 E6 E7. unfold w_opts. rewrite E1, E2, E3, E4, E5, E6, E7.
  unfold resolve_frame_pointers, resolve_opt_slots.
  destruct fp' as [[|]|]; [destruct (N.ltb v' gen_FRAME_POINTERS_VERSION); [reflexivity|]|..].
  all: eexists; split; [reflexivity|]; cbn; repeat split; reflexivity.
Qed.

(* the defaults, made explicit: unset => on exactly from the constant's version upwards; an explicit
   setting is taken as is; frame_pointers=True below the frame-pointer version is an input error *)
Theorem option_defaults :
  (forall v, resolve_opt_slots None v = true <-> (gen_DEFAULT_SCRATCH_SLOT_OPTIMIZE_VERSION <= v)%N) /\
  (forall b v, resolve_opt_slots (Some b) v = b) /\
  (forall v, resolve_frame_pointers None v = Some true <-> (gen_FRAME_POINTERS_VERSION <= v)%N) /\
  (forall v, resolve_frame_pointers None v <> None) /\
  (forall v, resolve_frame_pointers (Some false) v = Some false) /\
  (forall v, resolve_frame_pointers (Some true) v = None <-> (v < gen_FRAME_POINTERS_VERSION)%N) /\
  (forall v, resolve_frame_pointers (Some true) v = Some true <-> (gen_FRAME_POINTERS_VERSION <= v)%N).
Proof.
  repeat split.
  - apply N.leb_le.
  - apply N.leb_le.
  - cbn. intros H. injection H as H. apply N.leb_le, H.
  - cbn. intros H. f_equal. apply N.leb_le, H.
  - discriminate.
  - cbn. destruct (N.ltb_spec v gen_FRAME_POINTERS_VERSION); [tauto|discriminate].
  - cbn. destruct (N.ltb_spec v gen_FRAME_POINTERS_VERSION); [reflexivity|lia].
  - cbn. destruct (N.ltb_spec v gen_FRAME_POINTERS_VERSION); [discriminate|tauto].
  - cbn. destruct (N.ltb_spec v gen_FRAME_POINTERS_VERSION); [lia|reflexivity].
Qed.

(* the values the documentation states (docstring of OptimizeOptions: slot optimisation by default from
   program version 9, frame pointers from version 8), against the regenerated constants *)
Theorem option_defaults_documented :
  gen_DEFAULT_SCRATCH_SLOT_OPTIMIZE_VERSION = 9%N /\ gen_FRAME_POINTERS_VERSION = 8%N /\
  map (resolve_opt_slots None) [2; 3; 4; 5; 6; 7; 8; 9; 10]%N =
    [false; false; false; false; false; false; false; true; true] /\
  map (resolve_frame_pointers None) [2; 3; 4; 5; 6; 7; 8; 9; 10]%N =
    [Some false; Some false; Some false; Some false; Some false; Some false; Some true; Some true; Some true].
Proof. repeat split; reflexivity. Qed.
