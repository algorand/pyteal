(* Proofs/ConstantsProof.v — C12: createConstantBlocks (Comp/Constants.v) preserves every site.
   Structure: (1) what a constant pseudo-op denotes, op by op; (2) the key extracted from a site,
   re-spelled the way createConstantBlocks emits it, denotes the same value (uses ConstantsLitProof);
   (3) list plumbing: frequency tables, stable descending sort, block membership, index look-up;
   (4) the emitted block lines and load ops read back; (5) the main theorem. *)
From Coq Require Import List Arith NArith Ascii String Bool Lia Sorting.Sorted.
From PV Require Import Base.Bytes Base.Sexp AVM.Syntax AVM.Machine AVM.Parse
  Comp.ConstantsLit Comp.Constants Comp.ConstantsSpec Proofs.BytesFacts Proofs.ConstantsLitProof.
Import ListNotations.
Local Open Scope string_scope.

Lemma ckey_eqb_eq a b : ckey_eqb a b = true <-> a = b.
Proof.
  destruct a, b; cbn; split; intros H; try discriminate; try congruence.
  - apply N.eqb_eq in H. congruence.
  - injection H as ->. apply N.eqb_refl.
  - apply bytes_eqb_eq in H. congruence.
  - injection H as ->. now apply bytes_eqb_eq.
  - apply String.eqb_eq in H. congruence.
  - injection H as ->. apply String.eqb_refl.
Qed.

Lemma ckey_eqb_refl a : ckey_eqb a a = true.
Proof. now apply ckey_eqb_eq. Qed.

Lemma ckey_eqb_neq a b : ckey_eqb a b = false <-> a <> b.
Proof.
  split; intros H.
  - intros E. apply ckey_eqb_eq in E. congruence.
  - destruct (ckey_eqb a b) eqn:E; [|reflexivity]. apply ckey_eqb_eq in E. contradiction.
Qed.

Definition keys (l : freqs) : list ckey := map fst l.
Definition wf_freqs (l : freqs) : Prop := NoDup (keys l) /\ Forall (fun kn => (1 <= snd kn)%nat) l.

Lemma bump_keys k l k' : In k' (keys (bump k l)) -> k' = k \/ In k' (keys l).
Proof.
  induction l as [|[k0 n] t IH]; cbn.
  - intros [H|[]]; auto.
  - destruct (ckey_eqb k k0) eqn:E; cbn; intros [H|H]; auto.
    destruct (IH H); auto.
Qed.

Lemma bump_keys_incl k l k' : In k' (keys l) -> In k' (keys (bump k l)).
Proof.
  induction l as [|[k0 n] t IH]; cbn; [intros []|].
  destruct (ckey_eqb k k0) eqn:E; cbn; intros [H|H]; auto.
Qed.

Lemma bump_skip k pre post : ~ In k (keys pre) -> bump k (pre ++ post)%list = (pre ++ bump k post)%list.
Proof.
  induction pre as [|[k0 n] t IH]; cbn; intros H; [reflexivity|].
  destruct (ckey_eqb k k0) eqn:E.
  - apply ckey_eqb_eq in E. exfalso. apply H. now left.
  - f_equal. apply IH. tauto.
Qed.

Lemma bump_wf k l : wf_freqs l -> wf_freqs (bump k l).
Proof.
  unfold wf_freqs. induction l as [|[k0 n] t IH]; cbn; intros [Hnd Hf].
  - split; [constructor; [intros []|constructor]|constructor; [cbn; lia|constructor]].
  - inversion Hnd as [|? ? Hnin Hnd']; subst. inversion Hf as [|? ? Hn Hf']; subst.
    destruct (ckey_eqb k k0) eqn:E; cbn.
    + split; [constructor; assumption|constructor; [cbn in *; lia|assumption]].
    + destruct (IH (conj Hnd' Hf')) as [IH1 IH2].
      split; [|constructor; assumption].
      constructor; [|exact IH1]. intros Hin. apply bump_keys in Hin. destruct Hin as [->|Hin]; [|contradiction].
      rewrite ckey_eqb_refl in E. discriminate.
Qed.

Lemma freq_of_in l : NoDup (keys l) -> forall k n, In (k, n) l -> freq_of k l = n.
Proof.
  induction l as [|[k0 n0] t IH]; cbn; intros Hnd k n Hin; [contradiction|].
  inversion Hnd as [|? ? Hnin Hnd']; subst.
  destruct Hin as [E|Hin].
  - injection E as -> ->. now rewrite ckey_eqb_refl.
  - destruct (ckey_eqb k k0) eqn:E.
    + apply ckey_eqb_eq in E. subst k0. exfalso. apply Hnin. change k with (fst (k, n)). now apply in_map.
    + now apply IH.
Qed.

Definition desc (a b : ckey * nat) : Prop := (snd b <= snd a)%nat.

Lemma insert_desc_in x l y : In y (insert_desc x l) <-> y = x \/ In y l.
Proof.
  induction l as [|z t IH]; cbn [insert_desc].
  - cbn. split; intros [H|H]; auto.
  - destruct (snd z <? snd x)%nat; cbn [In].
    + split; intros [H|H]; auto.
    + rewrite IH. split; [intros [H|[H|H]]|intros [H|[H|H]]]; auto.
Qed.

Lemma insert_desc_sorted x l : StronglySorted desc l -> StronglySorted desc (insert_desc x l).
Proof.
  induction l as [|z t IH]; cbn [insert_desc]; intros Hs.
  - constructor; constructor.
  - inversion Hs as [|? ? Hs' Hall]; subst.
    destruct (Nat.ltb_spec (snd z) (snd x)) as [Hlt|Hge].
    + constructor; [exact Hs|]. constructor; [unfold desc; lia|].
      rewrite Forall_forall in *. intros w Hw. specialize (Hall w Hw). unfold desc in *. lia.
    + constructor; [now apply IH|].
      rewrite Forall_forall in *. intros w Hw. apply insert_desc_in in Hw.
      destruct Hw as [->|Hw]; [exact Hge|now apply Hall].
Qed.

Lemma sort_desc_gen l : forall acc, StronglySorted desc acc ->
  StronglySorted desc (fold_left (fun a x => insert_desc x a) l acc) /\
  (forall y, In y (fold_left (fun a x => insert_desc x a) l acc) <-> In y l \/ In y acc).
Proof.
  induction l as [|x t IH]; cbn; intros acc Hs.
  - split; [exact Hs|intuition].
  - destruct (IH (insert_desc x acc) (insert_desc_sorted x acc Hs)) as [H1 H2].
    split; [exact H1|]. intros y. rewrite H2, insert_desc_in. intuition.
Qed.

Lemma sort_desc_sorted l : StronglySorted desc (sort_desc l).
Proof. apply (sort_desc_gen l [] (SSorted_nil _)). Qed.

Lemma sort_desc_in l y : In y (sort_desc l) <-> In y l.
Proof. unfold sort_desc. rewrite (proj2 (sort_desc_gen l [] (SSorted_nil _))). cbn. intuition. Qed.

(* the sort is stable: equal frequencies stay in place *)
Lemma insert_desc_last x l : Forall (fun y => snd x <= snd y)%nat l -> insert_desc x l = (l ++ [x])%list.
Proof.
  induction 1 as [|y t Hy _ IH]; cbn [insert_desc app]; [reflexivity|].
  rewrite (proj2 (Nat.ltb_ge _ _) Hy). now rewrite IH.
Qed.

Lemma sort_desc_flat n l : Forall (fun x => snd x = n) l -> sort_desc l = l.
Proof.
  unfold sort_desc. change l with ([] ++ l)%list at 3.
  assert (G : Forall (fun x : ckey * nat => snd x = n) []) by constructor. revert G.
  generalize (@nil (ckey * nat)). induction l as [|x t IH]; intros acc Ha Hl; cbn [fold_left].
  - now rewrite app_nil_r.
  - inversion Hl as [|? ? Hx Ht]; subst.
    rewrite insert_desc_last by (eapply Forall_impl; [|exact Ha]; cbn; intros ? ->; lia).
    rewrite IH by (try apply Forall_app; auto). now rewrite <- app_assoc.
Qed.

(* a monotone filter keeps a descending list's entries in place up to any kept entry *)
Lemma filter_keeps_prefix (P : ckey * nat -> bool) l :
  (forall a b, desc a b -> P b = true -> P a = true) ->
  StronglySorted desc l ->
  forall idx x, nth_error l idx = Some x -> P x = true -> nth_error (filter P l) idx = Some x.
Proof.
  intros Hmono. induction l as [|y t IH]; intros Hs idx x Hn Hp.
  - destruct idx; discriminate Hn.
  - inversion Hs as [|? ? Hs' Hall]; subst. destruct idx as [|i]; cbn in Hn.
    + injection Hn as ->. cbn. rewrite Hp. reflexivity.
    + assert (Hy : P y = true).
      { apply (Hmono y x); [|exact Hp]. rewrite Forall_forall in Hall. apply Hall. eapply nth_error_In; exact Hn. }
      cbn. rewrite Hy. cbn. now apply IH.
Qed.

Lemma index_of_spec k l : forall idx, index_of k l = Some idx -> nth_error l idx = Some k.
Proof.
  induction l as [|x t IH]; cbn; intros idx H; [discriminate|].
  destruct (ckey_eqb k x) eqn:E.
  - injection H as <-. apply ckey_eqb_eq in E. now subst.
  - destruct (index_of k t) as [j|]; [|discriminate]. injection H as <-. cbn. now apply IH.
Qed.

Lemma index_of_skip k pre post : ~ In k pre -> index_of k (pre ++ k :: post) = Some (List.length pre).
Proof.
  induction pre as [|x t IH]; cbn; intros H.
  - now rewrite ckey_eqb_refl.
  - rewrite (proj2 (ckey_eqb_neq k x)) by (intros ->; tauto). rewrite IH by tauto. reflexivity.
Qed.

Lemma int_block_from_incl l : forall i k, In k (int_block_from i l) -> In k (keys l).
Proof.
  induction l as [|kn t IH]; cbn; intros i k H; [contradiction|].
  destruct (int_block_keep i kn); cbn in H.
  - destruct H as [H|H]; [now left|right; eapply IH; exact H].
  - right; eapply IH; exact H.
Qed.

(* the load of block entry [idx], short form below 4 *)
Definition load_kind (kd : ckind) : nat -> list arg -> instr :=
  match kd with
  | CKInt => load_op O_intc_0 O_intc_1 O_intc_2 O_intc_3 O_intc
  | _ => load_op O_bytec_0 O_bytec_1 O_bytec_2 O_bytec_3 O_bytec
  end.

Definition key_arg (kd : ckind) : ckey -> arg :=
  match kd with CKInt => int_key_arg | _ => bytes_key_arg end.

(* the push emitted for a key outside its block *)
Definition push_kind (kd : ckind) (k : ckey) (orig : list arg) : instr :=
  mkI (match kd with CKInt => O_pushint | _ => O_pushbytes end) (key_arg kd k :: cmt orig).

Definition block_vals (kd : ckind) (ib : list N) (bb : list bytes) : list sval :=
  match kd with CKInt => map SVInt ib | _ => map SVBytes bb end.

Lemma long_index_load kd b args :
  long_index (load_kind kd b args) = if (b <? 4)%nat then None else Some (N.of_nat b).
Proof. destruct kd; destruct b as [|[|[|[|b]]]]; reflexivity. Qed.

(* the four pseudo-ops createConstantBlocks rewrites *)
Lemma const_ops o args : is_const_instr (mkI o args) = true ->
  o = O_int \/ o = O_byte \/ o = O_addr \/ o = O_method_signature.
Proof. destruct o; intros H; try discriminate H; auto. Qed.

Section Sites.
Variable addr_hash : bytes -> bytes.
Variable sig_hash : string -> bytes.
Variable sigma : string -> string.
Variable msel : list (string * bytes).
Hypothesis Hmsel : msel_consistent sig_hash msel.

Notation denote := (denote sigma msel).
Notation parsed_of := (parsed_of sigma msel).
Notation arg_token := (arg_token sigma).
Notation arg_tokens := (arg_tokens sigma).
Notation extract_key := (extract_key addr_hash sig_hash).

(* the value a key denotes once it is spelled the way createConstantBlocks spells it *)
Definition tok_sval (kd : ckind) (t : string) : option sval :=
  match kd with
  | CKInt => option_map SVInt (parse_int_arg t)
  | CKBytes => match parse_bytes_arg [t] with Some (b, []) => Some (SVBytes b) | _ => None end
  | CKNone => None
  end.

Definition key_sval (kd : ckind) (k : ckey) : option sval :=
  match arg_token (key_arg kd k) with Some t => tok_sval kd t | None => None end.

Lemma tmpl_not_comment s : is_tmpl_name s = true -> String.eqb s "//" = false.
Proof.
  intros H. destruct (String.eqb s "//") eqn:E; [|reflexivity].
  apply String.eqb_eq in E. subst s. discriminate H.
Qed.

Lemma hex_spelling_not_tmpl b : is_tmpl_name (hex_spelling b) = false.
Proof. reflexivity. Qed.

Lemma key_sval_bytes b : key_sval CKBytes (KBytes b) = Some (SVBytes b).
Proof.
  unfold key_sval, tok_sval. cbn [key_arg bytes_key_arg ConstantsSpec.arg_token]. unfold subst_tok.
  change ("0x" ++ bytes_to_hex b) with (hex_spelling b).
  rewrite hex_spelling_not_tmpl, parse_bytes_arg_hex_spelling. reflexivity.
Qed.

Lemma extract_bytes_kind s k : extract_bytes [AStr s] = Some k -> is_tmpl_name s = false -> exists b, k = KBytes b.
Proof.
  unfold extract_bytes. intros H Ht. rewrite Ht in H.
  assert (G : forall x : option bytes, option_map KBytes x = Some k -> exists b, k = KBytes b).
  { intros [b|] E; [|discriminate E]. injection E as <-. eauto. }
  destruct (_ && _) in H; [eapply G; exact H|].
  destruct (String.prefix "0x" s) in H; [eapply G; exact H|].
  destruct (_ && _) in H.
  { destruct (correct_b32_padding _) in H; [eapply G; exact H|discriminate H]. }
  destruct (_ && _) in H; [eapply G; exact H|discriminate H].
Qed.

Lemma denote_int_tok a r tk : is_comment_arg a = false -> arg_token a = Some tk ->
  denote (mkI O_int (a :: r)) <> None -> denote (mkI O_int (a :: r)) = option_map SVInt (parse_int_arg tk).
Proof.
  intros Hc Ht. unfold ConstantsSpec.denote, ConstantsSpec.parsed_of. cbn [i_op i_args ConstantsSpec.arg_tokens].
  rewrite Hc, Ht. destruct (arg_tokens r) as [[|x y]|]; cbn -[parse_int_arg]; try congruence.
  intros _. destruct (parse_int_arg tk); reflexivity.
Qed.

Lemma denote_byte_tok s : String.eqb s "//" = false ->
  denote (mkI O_byte [AStr s]) =
  match parse_bytes_arg [subst_tok sigma s] with Some (b, []) => Some (SVBytes b) | _ => None end.
Proof.
  intros Hc. unfold ConstantsSpec.denote, ConstantsSpec.parsed_of.
  cbn [i_op i_args ConstantsSpec.arg_tokens is_comment_arg ConstantsSpec.arg_token]. rewrite Hc.
  cbn -[parse_bytes_arg].
  destruct (parse_bytes_arg [subst_tok sigma s]) as [[b [|x y]]|]; reflexivity.
Qed.

Lemma denote_addr_tok s : is_tmpl_name s = false -> String.eqb s "//" = false ->
  denote (mkI O_addr [AStr s]) =
  if (String.length s =? 58)%nat then option_map (fun d => SVBytes (firstn 32 d)) (decode_base32 s) else None.
Proof.
  intros Ht Hc. unfold ConstantsSpec.denote, ConstantsSpec.parsed_of.
  cbn [i_op i_args ConstantsSpec.arg_tokens is_comment_arg ConstantsSpec.arg_token]. rewrite Hc. unfold subst_tok. rewrite Ht.
  cbn -[decode_base32 Nat.eqb String.length firstn].
  destruct (String.length s =? 58)%nat; [|reflexivity].
  destruct (decode_base32 s); reflexivity.
Qed.

Lemma denote_method_tok s : is_tmpl_name s = false -> String.eqb s "//" = false ->
  denote (mkI O_method_signature [AStr s]) =
  match parse_string_literal s with
  | Some sg => option_map SVBytes (alookup String.eqb (string_of_bytes sg) msel)
  | None => None
  end.
Proof.
  intros Ht Hc. unfold ConstantsSpec.denote, ConstantsSpec.parsed_of.
  cbn [i_op i_args ConstantsSpec.arg_tokens is_comment_arg ConstantsSpec.arg_token]. rewrite Hc. unfold subst_tok. rewrite Ht.
  cbn -[parse_string_literal alookup].
  destruct (parse_string_literal s) as [sg|]; [|reflexivity].
  destruct (alookup String.eqb (string_of_bytes sg) msel); reflexivity.
Qed.

Lemma comment_arg_denotes_nothing o s r : String.eqb s "//" = true ->
  is_const_instr (mkI o (AStr s :: r)) = true -> denote (mkI o (AStr s :: r)) = None.
Proof.
  intros Hc Hk. unfold ConstantsSpec.denote, ConstantsSpec.parsed_of.
  cbn [i_op i_args ConstantsSpec.arg_tokens is_comment_arg]. rewrite Hc.
  destruct (const_ops _ _ Hk) as [->|[->|[->| ->]]]; reflexivity.
Qed.

(* a site with a key has one argument: an integer (for int) or a string *)
Lemma const_site_args i k : extract_key i = Some k ->
  (exists n, i_op i = O_int /\ i_args i = [AInt n]) \/ (exists s, i_args i = [AStr s]).
Proof.
  destruct i as [o args]. unfold Constants.extract_key. cbn [i_op i_args].
  destruct o; try discriminate; destruct args as [|[n|s|l|sl|sb] [|a2 r]]; try discriminate; eauto.
Qed.

Lemma site_key_value i k v :
  is_const_instr i = true ->
  extract_key i = Some k -> denote i = Some v ->
  no_addr_template_site (COp i) -> plain_method_site (COp i) ->
  key_sval (const_kind (i_op i)) k = Some v.
Proof.
  intros Hc Hex Hden Hna Hpm. destruct i as [o args].
  destruct (const_site_args _ _ Hex) as [(n & Ho & Ha)|(s & Ha)]; cbn [i_op i_args] in *; subst.
  { cbn in Hex. injection Hex as <-.
    rewrite (denote_int_tok (AInt n) [] (N_to_dec n)) in Hden by (reflexivity || congruence). exact Hden. }
  destruct (const_ops _ _ Hc) as [->|[->|[->| ->]]];
    unfold Constants.extract_key, no_addr_template_site, plain_method_site in *; cbn [i_op i_args const_kind] in *.
  - (* int *)
    cbn [extract_int] in Hex. destruct (is_tmpl_name s) eqn:Ht.
    + injection Hex as <-.
      rewrite (denote_int_tok (AStr s) [] (subst_tok sigma s)) in Hden
        by (try reflexivity; try congruence; cbn; now apply tmpl_not_comment).
      exact Hden.
    + destruct (assoc_str s int_enum_values) as [n|] eqn:Hn; [|discriminate Hex]. injection Hex as <-.
      destruct (int_enum_agrees _ _ Hn) as [P1 P2].
      destruct (String.eqb s "//") eqn:Ec.
      { apply String.eqb_eq in Ec. subst s. discriminate Hn. }
      rewrite (denote_int_tok (AStr s) [] s) in Hden
        by (try congruence; cbn; try exact Ec; unfold subst_tok; now rewrite Ht).
      rewrite P1 in Hden. cbn in Hden. injection Hden as <-.
      unfold key_sval, tok_sval. cbn [key_arg int_key_arg ConstantsSpec.arg_token]. now rewrite P2.
  - (* byte *)
    destruct (String.eqb s "//") eqn:Ec.
    { apply String.eqb_eq in Ec. subst s. discriminate Hex. }
    rewrite (denote_byte_tok s Ec) in Hden.
    destruct (is_tmpl_name s) eqn:Ht.
    + unfold extract_bytes in Hex. rewrite Ht in Hex. injection Hex as <-. exact Hden.
    + destruct (extract_bytes_kind _ _ Hex Ht) as [b ->].
      unfold subst_tok in Hden. rewrite Ht in Hden.
      destruct (parse_bytes_arg [s]) as [[b' [|x y]]|] eqn:Hp; try discriminate Hden.
      injection Hden as <-.
      rewrite (extract_bytes_agrees _ _ _ _ Hex Hp). apply key_sval_bytes.
  - (* addr *)
    cbn [extract_addr] in Hex. rewrite Hna in Hex.
    destruct (String.eqb s "//") eqn:Ec.
    { rewrite comment_arg_denotes_nothing in Hden by (assumption || reflexivity). discriminate Hden. }
    rewrite (denote_addr_tok s Hna Ec) in Hden.
    destruct (String.length s =? 58)%nat eqn:Hl; [|discriminate Hden].
    destruct (decode_base32 s) as [d|] eqn:Hd; [|discriminate Hden].
    assert (Ev : v = SVBytes (firstn 32 d)) by (unfold option_map in Hden; congruence).
    clear Hden. destruct s as [|c s']; [discriminate Hl|].
    destruct (decode_address addr_hash (los (String c s'))) as [key|] eqn:Hk; [|discriminate Hex].
    injection Hex as <-.
    rewrite Ev, (decode_address_agrees _ _ _ _ Hk Hl Hd). apply key_sval_bytes.
  - (* method *)
    assert (Hk : exists b, k = KBytes b).
    { unfold extract_method in Hex. destruct (los s) as [|q l]; [discriminate Hex|].
      destruct (_ && _); [|discriminate Hex]. injection Hex as <-. eauto. }
    destruct Hk as [b ->].
    assert (Ht : is_tmpl_name s = false).
    { unfold extract_method in Hex. destruct s as [|q s']; [discriminate Hex|]. cbn [los] in Hex.
      destruct (Ascii.eqb q """") eqn:Eq; [|discriminate Hex]. apply Ascii.eqb_eq in Eq. subst q. reflexivity. }
    destruct (String.eqb s "//") eqn:Ec.
    { rewrite comment_arg_denotes_nothing in Hden by (assumption || reflexivity). discriminate Hden. }
    rewrite (denote_method_tok s Ht Ec) in Hden.
    destruct (parse_string_literal s) as [sg|] eqn:Hp; [|discriminate Hden].
    destruct (alookup String.eqb (string_of_bytes sg) msel) as [sel|] eqn:Hs; [|discriminate Hden].
    cbn in Hden. injection Hden as <-.
    rewrite (Hmsel _ _ Hs).
    rewrite <- (method_sig_agrees _ _ _ _ Hex Hpm Hp). apply key_sval_bytes.
Qed.

Notation load_value := ConstantsSpec.load_value.

Lemma nth_error_N_nat {A} (l : list A) idx : nth_error l (N.to_nat (N.of_nat idx)) = nth_error l idx.
Proof. now rewrite Nat2N.id. Qed.

Lemma parsed_long o n orig : (o = O_intc \/ o = O_bytec) ->
  parsed_of (mkI o (AInt n :: cmt orig)) = Some (mkP o [IInt n]).
Proof.
  intros [-> | ->]; unfold ConstantsSpec.parsed_of, cmt;
    cbn [i_op i_args ConstantsSpec.arg_tokens is_comment_arg ConstantsSpec.arg_token];
    cbn -[generic_imm N_to_dec]; now rewrite generic_dec.
Qed.

Lemma load_kind_op kd ib bb idx orig :
  exists p', parsed_of (load_kind kd idx orig) = Some p' /\ imm_fits p' /\
             load_value ib bb p' = nth_error (block_vals kd ib bb) idx.
Proof.
  destruct kd; destruct idx as [|[|[|[|idx]]]].
  5,10,15: eexists; (split; [apply parsed_long; auto|]); (split; [exact I|]);
    unfold ConstantsSpec.load_value; cbn [p_op p_imms block_vals]; now rewrite nth_error_N_nat, nth_error_map.
  all: eexists; (split; [reflexivity|]); (split; [exact I|]); symmetry; apply nth_error_map.
Qed.

(* a key that denotes something is never spelled as the comment marker *)
Lemma key_sval_inv kd k v : key_sval kd k = Some v ->
  exists t, is_comment_arg (key_arg kd k) = false /\ arg_token (key_arg kd k) = Some t /\ tok_sval kd t = Some v.
Proof.
  unfold key_sval. destruct (arg_token (key_arg kd k)) as [t|] eqn:Ht; [|discriminate]. intros Hv.
  exists t. repeat split; try assumption.
  destruct k as [m|b|s]; [now destruct kd..|].
  replace (key_arg kd (KTmpl s)) with (AStr s) in * by now destruct kd.
  cbn in *. destruct (String.eqb s "//") eqn:Ec; [|reflexivity].
  apply String.eqb_eq in Ec. subst s. injection Ht as <-. now destruct kd.
Qed.

Lemma tok_sval_int t v : tok_sval CKInt t = Some v -> exists n, parse_int_arg t = Some n /\ v = SVInt n.
Proof. cbn. destruct (parse_int_arg t) as [n|]; [|discriminate]. intros E. injection E as <-. eauto. Qed.

Lemma tok_sval_bytes t v : tok_sval CKBytes t = Some v ->
  exists b, parse_bytes_arg [t] = Some (b, []) /\ v = SVBytes b.
Proof.
  unfold tok_sval. destruct (parse_bytes_arg [t]) as [[b [|x y]]|]; try discriminate.
  intros E. injection E as <-. eauto.
Qed.

Lemma parse_int_arg_lt t n : parse_int_arg t = Some n -> (n < 18446744073709551616)%N.
Proof.
  unfold parse_int_arg. destruct (parse_uint t) as [m|].
  - destruct (N.ltb_spec m 18446744073709551616); [intros E; now injection E as <-|discriminate].
  - unfold named_int.
    repeat (match goal with |- (if ?c then _ else _) = _ -> _ => destruct c; [intros E; injection E as <-; reflexivity|] end).
    discriminate.
Qed.

Lemma push_kind_op kd k orig v : key_sval kd k = Some v ->
  exists p', parsed_of (push_kind kd k orig) = Some p' /\ imm_fits p' /\
             forall ib bb, load_value ib bb p' = Some v.
Proof.
  intros H. destruct (key_sval_inv _ _ _ H) as (t & Hc & Ht & Hv).
  unfold ConstantsSpec.parsed_of, push_kind, cmt. cbn [i_op i_args ConstantsSpec.arg_tokens]. rewrite Hc, Ht.
  destruct kd; [| |discriminate Hv].
  - destruct (tok_sval_int _ _ Hv) as (n & Hn & ->). cbn -[parse_int_arg]. rewrite Hn.
    eexists. split; [reflexivity|]. split; [exact (parse_int_arg_lt _ _ Hn)|reflexivity].
  - destruct (tok_sval_bytes _ _ Hv) as (b & Hb & ->). cbn -[parse_bytes_arg]. rewrite Hb.
    eexists. split; [reflexivity|]. split; [exact I|reflexivity].
Qed.

(* block lines *)
Definition int_vals (ks : list ckey) (vals : list N) : Prop :=
  Forall2 (fun k n => key_sval CKInt k = Some (SVInt n)) ks vals.
Definition bytes_vals (ks : list ckey) (vals : list bytes) : Prop :=
  Forall2 (fun k b => key_sval CKBytes k = Some (SVBytes b)) ks vals.

Lemma int_block_tokens ks vals : int_vals ks vals ->
  exists toks, arg_tokens (map int_key_arg ks) = Some toks /\ parse_int_args toks = Some vals.
Proof.
  induction 1 as [|k n ks vals Hk _ IH].
  - exists []. split; reflexivity.
  - destruct IH as (toks & Ha & Hp).
    destruct (key_sval_inv _ _ _ Hk) as (t & Hc & Ht & Hv). cbn [key_arg] in Hc, Ht.
    destruct (tok_sval_int _ _ Hv) as (n' & Hn & E). injection E as <-.
    exists (t :: toks). cbn [map ConstantsSpec.arg_tokens parse_int_args]. now rewrite Hc, Ht, Ha, Hn, Hp.
Qed.

Lemma parse_bytes_arg_rest t v rest : parse_bytes_arg [t] = Some (v, []) ->
  parse_bytes_arg (t :: rest) = Some (v, rest).
Proof.
  unfold parse_bytes_arg.
  destruct (String.eqb t "base64" || String.eqb t "b64"); [discriminate|].
  destruct (String.eqb t "base32" || String.eqb t "b32"); [discriminate|].
  assert (G : forall x : option bytes, option_map (fun b => (b, @nil string)) x = Some (v, []) ->
                                       option_map (fun b => (b, rest)) x = Some (v, rest)).
  { intros [b|] E; [|discriminate E]. cbn in *. now injection E as ->. }
  destruct (paren_body "base64" t); [apply G|].
  destruct (paren_body "b64" t); [apply G|].
  destruct (paren_body "base32" t); [apply G|].
  destruct (paren_body "b32" t); [apply G|].
  destruct (decode_hex0x t); [intros E; now injection E as ->|apply G].
Qed.

Lemma parse_bytes_args_all toks vals :
  Forall2 (fun t b => parse_bytes_arg [t] = Some (b, [])) toks vals ->
  forall fuel, (List.length toks < fuel)%nat -> parse_bytes_args fuel toks = Some vals.
Proof.
  induction 1 as [|t b toks vals Ht _ IH]; intros fuel Hf.
  - destruct fuel; [inversion Hf|reflexivity].
  - destruct fuel as [|f]; [inversion Hf|]. cbn [parse_bytes_args].
    rewrite (parse_bytes_arg_rest _ _ toks Ht). rewrite IH by (cbn in Hf; lia). reflexivity.
Qed.

Lemma bytes_block_tokens ks vals : bytes_vals ks vals ->
  exists toks, arg_tokens (map bytes_key_arg ks) = Some toks /\
               Forall2 (fun t b => parse_bytes_arg [t] = Some (b, [])) toks vals.
Proof.
  induction 1 as [|k b ks vals Hk _ IH].
  - exists []. split; [reflexivity|constructor].
  - destruct IH as (toks & Ha & Hp).
    destruct (key_sval_inv _ _ _ Hk) as (t & Hc & Ht & Hv). cbn [key_arg] in Hc, Ht.
    destruct (tok_sval_bytes _ _ Hv) as (b' & Hn & E). injection E as <-.
    exists (t :: toks). cbn [map ConstantsSpec.arg_tokens]. rewrite Hc, Ht, Ha. split; [reflexivity|].
    constructor; assumption.
Qed.

Lemma imm_ints_map vals : imm_ints (map IInt vals) = Some vals.
Proof. induction vals as [|v t IH]; cbn; [reflexivity|]. now rewrite IH. Qed.
Lemma imm_bytes_map vals : imm_bytes (map IBytes vals) = Some vals.
Proof. induction vals as [|v t IH]; cbn; [reflexivity|]. now rewrite IH. Qed.

Lemma blocks_after_prologue iks bks ivals bvals :
  int_vals iks ivals -> bytes_vals bks bvals ->
  blocks_after sigma msel (block_prologue iks bks) [] [] = Some (ivals, bvals).
Proof.
  intros Hi Hb. unfold block_prologue.
  destruct (int_block_tokens _ _ Hi) as (it & Hia & Hip).
  destruct (bytes_block_tokens _ _ Hb) as (bt & Hba & Hbp).
  assert (PI : iks <> [] -> parsed_of (mkI O_intcblock (map int_key_arg iks)) = Some (mkP O_intcblock (map IInt ivals))).
  { intros _. unfold ConstantsSpec.parsed_of. cbn [i_op i_args]. rewrite Hia. cbn -[parse_int_args]. now rewrite Hip. }
  assert (PB : parsed_of (mkI O_bytecblock (map bytes_key_arg bks)) = Some (mkP O_bytecblock (map IBytes bvals))).
  { unfold ConstantsSpec.parsed_of. cbn [i_op i_args]. rewrite Hba. cbn -[parse_bytes_args].
    rewrite (parse_bytes_args_all _ _ Hbp) by lia. reflexivity. }
  destruct iks as [|ik iks']; destruct bks as [|bk bks'].
  - inversion Hi; inversion Hb; subst. reflexivity.
  - inversion Hi; subst. cbn [app blocks_after]. rewrite PB. cbn [p_op p_imms]. now rewrite imm_bytes_map.
  - inversion Hb; subst. cbn [app blocks_after]. rewrite PI by discriminate. cbn [p_op p_imms]. now rewrite imm_ints_map.
  - cbn [app blocks_after]. rewrite PI by discriminate. cbn [p_op p_imms]. rewrite imm_ints_map.
    cbn [blocks_after]. rewrite PB. cbn [p_op p_imms]. now rewrite imm_bytes_map.
Qed.

Definition has_site (ops : list comp) (kd : ckind) (k : ckey) : Prop :=
  exists i, In (COp i) ops /\ const_kind (i_op i) = kd /\ extract_key i = Some k.

Lemma bump_site ops0 kd i k0 (f f' : freqs) :
  In (COp i) ops0 -> const_kind (i_op i) = kd -> extract_key i = Some k0 ->
  (forall k, In k (keys f') -> In k (keys (bump k0 f)) \/ has_site ops0 kd k) ->
  forall k, In k (keys f') -> In k (keys f) \/ has_site ops0 kd k.
Proof.
  intros Hin Hkd Hx H k Hk. destruct (H k Hk) as [Hb|Hs]; [|now right].
  apply bump_keys in Hb. destruct Hb as [->|Hb]; [right; exists i; auto|now left].
Qed.

(* the first loop over a part of ops0: the byte table stays well formed, every new key comes from a site *)
Lemma count_consts_inv ops0 ops : incl ops ops0 -> forall fi fb fi' fb',
  count_consts addr_hash sig_hash ops fi fb = Some (fi', fb') ->
  (wf_freqs fb -> wf_freqs fb') /\
  (forall k, In k (keys fi') -> In k (keys fi) \/ has_site ops0 CKInt k) /\
  (forall k, In k (keys fb') -> In k (keys fb) \/ has_site ops0 CKBytes k).
Proof.
  induction ops as [|c t IH]; intros Hincl fi fb fi' fb' H.
  - cbn in H. injection H as <- <-. auto.
  - specialize (IH (fun x Hx => Hincl x (or_intror Hx))). pose proof (Hincl c (or_introl eq_refl)) as Hc.
    destruct c as [i|l cm|pv]; cbn [count_consts] in H; [|exact (IH _ _ _ _ H)..].
    destruct (const_kind (i_op i)) eqn:Hkd; [| |exact (IH _ _ _ _ H)];
      (destruct (extract_key i) as [k0|] eqn:Hx; [|discriminate H]);
      destruct (IH _ _ _ _ H) as (B & C & D).
    + split; [exact B|]. split; [exact (bump_site _ _ i k0 _ _ Hc Hkd Hx C)|exact D].
    + split; [auto using bump_wf|]. split; [exact C|exact (bump_site _ _ i k0 _ _ Hc Hkd Hx D)].
Qed.

Lemma wf_nil : wf_freqs []. Proof. split; constructor. Qed.

Definition input_ok (ops : list comp) : Prop :=
  Forall (fun c => well_formed_site sigma msel c /\ no_addr_template_site c /\ plain_method_site c) ops.

Lemma site_has_value ops kd k : input_ok ops -> kd <> CKNone -> has_site ops kd k -> exists v, key_sval kd k = Some v.
Proof.
  intros Hok Hkd (i & Hin & Hk & Hx).
  unfold input_ok in Hok. rewrite Forall_forall in Hok. destruct (Hok _ Hin) as (Hw & Hna & Hpm).
  assert (Hc : is_const_instr i = true) by (unfold is_const_instr; rewrite Hk; destruct kd; congruence).
  cbn in Hw. specialize (Hw Hc). destruct (denote i) as [v|] eqn:Hd; [|congruence].
  exists v. rewrite <- Hk. eapply site_key_value; eassumption.
Qed.

Lemma keys_have_int_vals ks : (forall k, In k ks -> exists v, key_sval CKInt k = Some v) ->
  exists vals, int_vals ks vals.
Proof.
  induction ks as [|k t IH]; intros H; [exists []; constructor|].
  destruct IH as [vals Hv]; [intros k' Hk'; apply H; now right|].
  destruct (H k (or_introl eq_refl)) as [v Hk]. destruct (key_sval_inv _ _ _ Hk) as (tk & _ & _ & Ht).
  destruct (tok_sval_int _ _ Ht) as (n & _ & ->). exists (n :: vals). constructor; assumption.
Qed.

Lemma keys_have_bytes_vals ks : (forall k, In k ks -> exists v, key_sval CKBytes k = Some v) ->
  exists vals, bytes_vals ks vals.
Proof.
  induction ks as [|k t IH]; intros H; [exists []; constructor|].
  destruct IH as [vals Hv]; [intros k' Hk'; apply H; now right|].
  destruct (H k (or_introl eq_refl)) as [v Hk]. destruct (key_sval_inv _ _ _ Hk) as (tk & _ & _ & Ht).
  destruct (tok_sval_bytes _ _ Ht) as (b & _ & ->). exists (b :: vals). constructor; assumption.
Qed.

Lemma forall2_nth {A B} (R : A -> B -> Prop) l1 l2 : Forall2 R l1 l2 ->
  forall idx a, nth_error l1 idx = Some a -> exists b, nth_error l2 idx = Some b /\ R a b.
Proof.
  induction 1 as [|x y l1 l2 Hxy _ IH]; intros idx a Hn; [destruct idx; discriminate Hn|].
  destruct idx as [|idx]; cbn in *; [injection Hn as <-; eauto|eauto].
Qed.

Lemma forall2_impl_in {A B} (P : A -> Prop) (R R' : A -> B -> Prop) l l' :
  Forall P l -> Forall2 R l l' -> (forall a b, P a -> R a b -> R' a b) -> Forall2 R' l l'.
Proof.
  intros Hp Hf Hi. induction Hf as [|a b l l' Hr _ IH]; [constructor|].
  inversion Hp; subst. constructor; auto.
Qed.

(* a constant site becomes the push of its key, or the load of the index at which the key stands in the int
   block resp. in the sorted list of byte keys (there only if the key occurs more than once) *)
Lemma rewrite_comp_inv iks fb sb i c' :
  rewrite_comp addr_hash sig_hash iks fb sb (COp i) = Some c' ->
  if is_const_instr i then
    exists k, extract_key i = Some k /\
      (c' = COp (push_kind (const_kind (i_op i)) k (i_args i)) \/
       exists idx, c' = COp (load_kind (const_kind (i_op i)) idx (i_args i)) /\
                   match const_kind (i_op i) with
                   | CKInt => nth_error iks idx = Some k
                   | _ => nth_error (map fst sb) idx = Some k /\ (freq_of k fb =? 1)%nat = false
                   end)
  else c' = COp i.
Proof.
  cbn [rewrite_comp]. unfold is_const_instr. destruct (const_kind (i_op i)); [| |now injection 1].
  - destruct (extract_key i) as [k|]; [|discriminate]. intros H. exists k. split; [reflexivity|].
    destruct (index_of k iks) as [idx|] eqn:Hidx; injection H as <-; [|now left].
    right. exists idx. split; [reflexivity|]. exact (index_of_spec _ _ _ Hidx).
  - destruct (extract_key i) as [k|]; [|discriminate]. intros H. exists k. split; [reflexivity|].
    destruct (freq_of k fb =? 1)%nat eqn:Hf; [injection H as <-; now left|].
    destruct (index_of k (map fst sb)) as [idx|] eqn:Hidx; [|discriminate H]. injection H as <-.
    right. exists idx. split; [reflexivity|]. split; [exact (index_of_spec _ _ _ Hidx)|reflexivity].
Qed.

Lemma rewrite_comp_ok iks fb sb ivals bvals c c' :
  wf_freqs fb ->
  int_vals iks ivals ->
  bytes_vals (byte_block_of sb) bvals ->
  sb = sort_desc fb ->
  well_formed_site sigma msel c -> no_addr_template_site c -> plain_method_site c ->
  rewrite_comp addr_hash sig_hash iks fb sb c = Some c' ->
  site_ok sigma msel ivals bvals c c'.
Proof.
  intros Hwf Hiv Hbv Hsb Hw Hna Hpm H.
  destruct c as [i|l cm|pv]; [|cbn in H; injection H as <-; reflexivity..].
  apply rewrite_comp_inv in H. unfold site_ok. destruct (is_const_instr i) eqn:Hc; [|exact H].
  destruct H as (k & Hx & H).
  cbn in Hw. specialize (Hw Hc). destruct (denote i) as [v|] eqn:Hd; [|congruence].
  pose proof (site_key_value i k v Hc Hx Hd Hna Hpm) as Hkv.
  destruct H as [->|(idx & -> & Hidx)].
  { destruct (push_kind_op _ k (i_args i) v Hkv) as (p' & Hp & Hfit & Hl).
    eexists _, p'. split; [reflexivity|]. split; [exact Hp|]. split; [exact Hfit|].
    intros v' Hv'. injection Hv' as <-. apply Hl. }
  destruct (load_kind_op (const_kind (i_op i)) ivals bvals idx (i_args i)) as (p' & Hp & Hfit & Hl).
  eexists _, p'. split; [reflexivity|]. split; [exact Hp|]. split; [exact Hfit|].
  intros v' Hv'. injection Hv' as <-. rewrite Hl.
  unfold is_const_instr in Hc. destruct (const_kind (i_op i)); [| |discriminate Hc]; cbn [block_vals].
  - destruct (forall2_nth _ _ _ Hiv _ _ Hidx) as (n & Hn & Hkn). rewrite nth_error_map, Hn. cbn. congruence.
  - destruct Hidx as [Hidx Hf1].
    (* the entry found in the sorted key list sits at the same index of the byte block *)
    destruct (nth_error sb idx) as [[k' n]|] eqn:Hsb_idx.
    2:{ rewrite nth_error_map, Hsb_idx in Hidx. discriminate Hidx. }
    rewrite nth_error_map, Hsb_idx in Hidx. cbn in Hidx. injection Hidx as ->.
    assert (Hin : In (k, n) fb).
    { apply (sort_desc_in fb). rewrite <- Hsb. eapply nth_error_In; exact Hsb_idx. }
    destruct Hwf as [Hnd Hpos].
    pose proof (freq_of_in fb Hnd k n Hin) as Hfreq.
    assert (Hn1 : (1 <= n)%nat) by (rewrite Forall_forall in Hpos; apply (Hpos _ Hin)).
    apply Nat.eqb_neq in Hf1.
    assert (Hkeep : (fun kn : ckey * nat => (1 <? snd kn)%nat) (k, n) = true) by (cbn [snd]; apply Nat.ltb_lt; lia).
    assert (Hblock : nth_error (byte_block_of sb) idx = Some k).
    { unfold byte_block_of. rewrite nth_error_map.
      rewrite (filter_keeps_prefix (fun kn => (1 <? snd kn)%nat) sb) with (x := (k, n)); try assumption; [reflexivity| |].
      - intros a b Hab Hb. unfold desc in Hab. apply Nat.ltb_lt in Hb. apply Nat.ltb_lt. lia.
      - rewrite Hsb. apply sort_desc_sorted. }
    destruct (forall2_nth _ _ _ Hbv _ _ Hblock) as (b & Hb & Hkb). rewrite nth_error_map, Hb. cbn. congruence.
Qed.

Lemma rewrite_all_forall2 iks fb sb ops : forall body,
  rewrite_all addr_hash sig_hash iks fb sb ops = Some body ->
  Forall2 (fun c c' => rewrite_comp addr_hash sig_hash iks fb sb c = Some c') ops body.
Proof.
  induction ops as [|c t IH]; intros body H; cbn [rewrite_all] in H.
  - injection H as <-. constructor.
  - destruct (rewrite_comp addr_hash sig_hash iks fb sb c) as [c'|] eqn:Hc; [|discriminate H].
    destruct (rewrite_all addr_hash sig_hash iks fb sb t) as [r|]; [|discriminate H].
    injection H as <-. constructor; [exact Hc|now apply IH].
Qed.

Lemma rewrite_all_app iks fb sb a b :
  rewrite_all addr_hash sig_hash iks fb sb (a ++ b) =
  match rewrite_all addr_hash sig_hash iks fb sb a, rewrite_all addr_hash sig_hash iks fb sb b with
  | Some x, Some y => Some (x ++ y)%list
  | _, _ => None
  end.
Proof.
  induction a as [|c t IH]; cbn [app rewrite_all].
  - now destruct (rewrite_all addr_hash sig_hash iks fb sb b).
  - rewrite IH. destruct (rewrite_comp addr_hash sig_hash iks fb sb c); [|reflexivity].
    destruct (rewrite_all addr_hash sig_hash iks fb sb t); [|reflexivity].
    now destruct (rewrite_all addr_hash sig_hash iks fb sb b).
Qed.

(* what createConstantBlocks returns: block lines for keys that occur at sites, then the input rewritten
   component by component *)
Lemma ccb_inv ops out : create_constant_blocks addr_hash sig_hash ops = Some out ->
  exists iks fb body,
    out = (block_prologue iks (byte_block_of (sort_desc fb)) ++ body)%list /\ wf_freqs fb /\
    Forall2 (fun c c' => rewrite_comp addr_hash sig_hash iks fb (sort_desc fb) c = Some c') ops body /\
    (forall k, In k iks -> has_site ops CKInt k) /\
    (forall k, In k (byte_block_of (sort_desc fb)) -> has_site ops CKBytes k).
Proof.
  unfold create_constant_blocks, make_plan. intros H.
  destruct (count_consts addr_hash sig_hash ops [] []) as [[fi fb]|] eqn:Hcount; [|discriminate H].
  cbn [pl_int_block pl_fb pl_sorted_bytes pl_byte_block] in H.
  destruct (rewrite_all addr_hash sig_hash (int_block_from 0 (sort_desc fi)) fb (sort_desc fb) ops) as [body|] eqn:Hrw;
    [|discriminate H].
  injection H as <-.
  destruct (count_consts_inv ops ops (incl_refl _) _ _ _ _ Hcount) as (Wb & Ki & Kb).
  assert (Hs : forall (f : freqs) k n, In (k, n) (sort_desc f) -> In k (keys f)).
  { intros f k n Hin. apply (proj1 (sort_desc_in _ _)) in Hin. change k with (fst (k, n)). now apply in_map. }
  exists (int_block_from 0 (sort_desc fi)), fb, body.
  split; [reflexivity|]. split; [exact (Wb wf_nil)|]. split; [|split].
  - exact (rewrite_all_forall2 _ _ _ _ _ Hrw).
  - intros k Hk. apply int_block_from_incl, in_map_iff in Hk. destruct Hk as ([k' n] & <- & Hin).
    destruct (Ki k' (Hs _ _ _ Hin)) as [[]|Hk]. exact Hk.
  - intros k Hk. apply in_map_iff in Hk. destruct Hk as ([k' n] & <- & Hin). apply filter_In in Hin.
    destruct (Kb k' (Hs _ _ _ (proj1 Hin))) as [[]|Hk]. exact Hk.
Qed.

Theorem constants_sites_preserved ops out :
  create_constant_blocks addr_hash sig_hash ops = Some out ->
  input_ok ops ->
  exists pro body ib bb,
    out = (pro ++ body)%list /\
    Forall (fun c => exists i, c = COp i /\ (i_op i = O_intcblock \/ i_op i = O_bytecblock)) pro /\
    blocks_after sigma msel pro [] [] = Some (ib, bb) /\
    Forall2 (site_ok sigma msel ib bb) ops body.
Proof.
  intros H Hok. destruct (ccb_inv ops out H) as (iks & fb & body & -> & Wb & Hrw & Hik & Hbk).
  (* every block entry denotes a value *)
  destruct (keys_have_int_vals iks) as [ivals Hiv].
  { intros k Hk. eapply site_has_value; [exact Hok|discriminate|exact (Hik k Hk)]. }
  destruct (keys_have_bytes_vals (byte_block_of (sort_desc fb))) as [bvals Hbv].
  { intros k Hk. eapply site_has_value; [exact Hok|discriminate|exact (Hbk k Hk)]. }
  exists (block_prologue iks (byte_block_of (sort_desc fb))), body, ivals, bvals.
  split; [reflexivity|]. split; [|split].
  - unfold block_prologue.
    destruct iks; destruct (byte_block_of (sort_desc fb)); cbn [app];
      repeat constructor; eexists; (split; [reflexivity|cbn; auto]).
  - apply blocks_after_prologue; assumption.
  - apply (forall2_impl_in _ _ _ _ _ Hok Hrw). intros c c' (Hw & Hna & Hpm) Hc.
    eapply rewrite_comp_ok; try eassumption. reflexivity.
Qed.

End Sites.

(* the hypotheses on the input, decided *)
Definition site_okb (sigma : string -> string) (msel : list (string * bytes)) (c : comp) : bool :=
  match c with
  | COp i =>
      (negb (is_const_instr i) || match denote sigma msel i with Some _ => true | None => false end) &&
      match i_op i, i_args i with
      | O_addr, [AStr s] => negb (is_tmpl_name s)
      | O_method_signature, [AStr s] => negb (has_backslash s)
      | _, _ => true
      end
  | _ => true
  end.

Lemma input_okb_sound sigma msel ops : forallb (site_okb sigma msel) ops = true -> input_ok sigma msel ops.
Proof.
  intros H. apply Forall_forall. intros c Hc. apply (proj1 (forallb_forall _ _) H) in Hc.
  destruct c as [i|l cm|pv]; [|repeat split..]. apply andb_prop in Hc as [Hw Ha]. split.
  - intros Hci. rewrite Hci in Hw. cbn in Hw. now destruct (denote sigma msel i).
  - cbn. destruct (i_op i); try (split; exact I);
      destruct (i_args i) as [|[n|s|l|sl|sb] [|a2 r]]; try (split; exact I);
      apply negb_true_iff in Ha; split; (exact Ha || exact I).
Qed.
