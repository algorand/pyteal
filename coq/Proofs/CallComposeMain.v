(* Proofs/CallComposeMain.v — property C02, the COMPOSITION over the call graph (scratch-slot calling
   convention, no spill code).

   [call_k n]: what a call of routine f does, to depth n — the declaration body of f (prologue
   [store]s of the arguments, then the body; parameter i is [load <slot of parameter i>]) evaluated by
   the source semantics in f's own environment ON THE CALLER'S OPERAND STACK, nested calls answered by
   [call_k (n-1)]; [DRet] hands the whole stack back, [DExit] ends the program.
   [denote_k N] = the source semantics of the main routine with [call_k N] as the meaning of calls.

   [linked_calls_realized] / [linked_routine_correct]: if every routine's code satisfies the one-routine
   end-to-end statement for EVERY oracle ([unit_correct], which is what the CallX copy of the C01 chain
   proves: CallX/SlotComposeFinal.v), and the codes are laid out in L as flatten_subroutines does
   ([unit_placed]), then the linked program L, run with a call stack and no oracle at all
   (Comp/LinkedSem.v), computes [denote_k]: induction on n, [link_star] at every level. Any call graph
   (also recursive ones: [call_k] is defined by recursion on the depth, not on the graph).

   Everything is parametric in an oracle transformer [W sub] per routine: the oracle the routine's SOURCE
   is evaluated with is [W sub orc] when its CODE runs with [orc].  W = identity: the code is the
   routine's own code.  For a routine whose re-entrant calls are wrapped in spill code W is the
   wrapping of Proofs/CallComposeSpill.v (a wrapped call = the outcome of the spill segment). *)
From Coq Require Import List Arith NArith String Bool Lia.
From PV Require Import Base.Bytes AVM.Syntax AVM.Machine Src.Expr Src.Denote Src.DenoteCall
  Comp.Blocks Comp.Lower Comp.Passes Comp.GraphSem Comp.LinearSem Comp.LinkedSem Comp.Compile
  Proofs.LowerFrame Proofs.LowerShape Proofs.NormalizeLowered Proofs.EndToEndExits
  CallX.Denote CallX.GraphSem CallX.LinearSem CallX.LowerCorrect CallX.EndToEndGlue CallX.EndToEnd
  Proofs.CallComposeLink.
Import ListNotations.
Local Open Scope string_scope.

(* the linked machine looks at the environment only through ctx, slot numbering, selectors *)
Lemma old_args_to_imms_irrel (e1 e2 : Src.Denote.denv) o l :
  Src.Denote.e_asg e1 = Src.Denote.e_asg e2 -> Src.Denote.e_msel e1 = Src.Denote.e_msel e2 ->
  Src.Denote.args_to_imms e1 o l = Src.Denote.args_to_imms e2 o l.
Proof.
  intros A M. induction l as [|a t IH]; [reflexivity|]. cbn [Src.Denote.args_to_imms]. rewrite IH.
  destruct a; cbn [Src.Denote.arg_to_imm]; rewrite ?A, ?M; reflexivity.
Qed.

Lemma old_do_op_irrel (e1 e2 : Src.Denote.denv) o imms stk st :
  Src.Denote.e_ctx e1 = Src.Denote.e_ctx e2 ->
  Src.Denote.e_asg e1 = Src.Denote.e_asg e2 -> Src.Denote.e_msel e1 = Src.Denote.e_msel e2 ->
  Src.Denote.do_op e1 o imms stk st = Src.Denote.do_op e2 o imms stk st.
Proof.
  intros C A M. unfold Src.Denote.do_op. rewrite (old_args_to_imms_irrel e1 e2 o imms A M), C, A. reflexivity.
Qed.

Lemma pstep_irrel (e1 e2 : Src.Denote.denv) L c :
  Src.Denote.e_ctx e1 = Src.Denote.e_ctx e2 ->
  Src.Denote.e_asg e1 = Src.Denote.e_asg e2 -> Src.Denote.e_msel e1 = Src.Denote.e_msel e2 ->
  pstep e1 L c = pstep e2 L c.
Proof.
  intros C A M. destruct c as [fr pc stk st| | | |]; try reflexivity. cbn [pstep].
  destruct (nth_error L pc) as [[i|l cm|v]|]; try reflexivity.
  unfold pstep_op. rewrite (old_do_op_irrel e1 e2 _ _ stk st C A M). reflexivity.
Qed.

Lemma pstar_irrel (e1 e2 : Src.Denote.denv) L c c' :
  Src.Denote.e_ctx e1 = Src.Denote.e_ctx e2 ->
  Src.Denote.e_asg e1 = Src.Denote.e_asg e2 -> Src.Denote.e_msel e1 = Src.Denote.e_msel e2 ->
  pstar e1 L c c' -> pstar e2 L c c'.
Proof.
  intros C A M. induction 1 as [c|c c1 c2 S1 _ IH]; [apply pstar_refl|].
  eapply pstar_step; [|exact IH]. rewrite <- (pstep_irrel e1 e2 L c C A M). exact S1.
Qed.

Section Compose.
  Variable o : copts.
  Variable cx : ctx.
  Variable look : N -> N.                       (* the slot assignment *)
  Variable msel : list (string * bytes).
  Variable subs : list routine.                 (* the program's subroutines *)
  (* per routine: the oracle its source sees, given the oracle its code runs with *)
  Variable W : option routine -> (N -> list value -> mstate -> callres) -> (N -> list value -> mstate -> callres).

  (* the environment in which routine [sub] is evaluated, calls answered by [orc] *)
  Definition envk (sub : option routine) (orc : N -> list value -> mstate -> callres) : denv :=
    mkEnv cx look msel subs
          (match sub with Some _ => true | None => false end)
          (match sub with Some r => param_instr o r | None => main_param end)
          orc.

  Lemma envk_consistent sub orc : consistent (envk sub orc) (routine_ctx o sub).
  Proof. destruct sub; split; reflexivity. Qed.

  (* the environment of the linked machine *)
  Definition lenv : Src.Denote.denv := Src.Denote.mkEnv cx look msel subs false main_param.

  Fixpoint call_k (n : nat) (f : N) (stk : list value) (st : mstate) : callres :=
    match n with
    | O => CNone
    | S m =>
        match find_routine subs f with
        | None => CNone
        | Some r =>
            match denote (envk (Some r) (W (Some r) (call_k m))) m (root_ast (decl_body o r)) stk st with
            | DRet s' st' => CRet s' st'
            | DExit v st' => CExit v st'
            | DFail => CFail
            | _ => CNone
            end
        end
    end.

  (* the source semantics of a routine body with calls *)
  Definition denote_k (n : nat) (sub : option routine) (fuel : nat) (e : expr) (stk : list value) (st : mstate) : dout :=
    denote (envk sub (W sub (call_k n))) fuel e stk st.

  (* the one-routine end-to-end statement, for every oracle *)
  Definition unit_correct (sub : option routine) (ast0 : expr) (code : list comp) : Prop :=
    forall orc fuel stk st h,
      halt_of (denote (envk sub (W sub orc)) fuel (root_ast ast0) stk st) = Some h ->
      CallX.LinearSem.lstar (envk sub orc) code (LAt 0 stk st) h.

  Variable L : list comp.                       (* the linked program *)
  Variable res : N -> option string.            (* routine id -> entry label *)

  (* routine r sits in L behind its entry label *)
  Definition unit_placed (r : routine) : Prop :=
    exists lbl e cm pre code,
      res (r_id r) = Some lbl /\
      nth_error L e = Some (CLabel lbl cm) /\
      placed L (S e) res pre code /\
      linkable code = true /\
      unit_correct (Some r) (decl_body o r) code.

  Hypothesis HN : NoDup (labels_of L).
  Hypothesis Hsubs : forall f r, find_routine subs f = Some r -> r_id r = f /\ unit_placed r.

  Lemma halt_of_claimed r h : halt_of r = Some h ->
    match r with DRet _ _ | DExit _ _ | DFail => claimed h | _ => True end.
  Proof. destruct r; cbn; intros H; try exact Logic.I; injection H as <-; exact Logic.I. Qed.

  (* a routine (the main routine, or any routine entered with a call stack [fr]) whose calls, to depth n,
     the linked program realizes *)
  Lemma linked_routine_under n sub ast0 base pre code :
    realizes lenv L res (call_k n) ->
    placed L base res pre code -> linkable code = true -> unit_correct sub ast0 code ->
    forall fuel fr stk st h,
      halt_of (denote_k n sub fuel (root_ast ast0) stk st) = Some h -> claimed h ->
      pstar lenv L (PAt fr base stk st) (emb base fr h).
  Proof.
    intros HR Pl Lk UC fuel fr stk st h Hh Cl. unfold denote_k in Hh.
    pose proof (UC (call_k n) fuel stk st h Hh) as Run.
    assert (HR' : realizes (old_env (envk sub (call_k n))) L res (call_k n)).
    { intros f' stk' st' NC'. destruct (HR f' stk' st' NC') as (e' & Ee' & Run'). exists e'. split; [exact Ee'|].
      intros fr' ret'. eapply pstar_irrel; [| | |exact (Run' fr' ret')]; reflexivity. }
    pose proof (link_star (envk sub (call_k n)) L base res pre code Pl Lk HN HR' fr _ _ Run Cl) as PR.
    cbn [emb] in PR. rewrite Nat.add_0_r in PR.
    eapply pstar_irrel; [| | |exact PR]; reflexivity.
  Qed.

  (* every answer of [call_k n] is realized by the linked program *)
  Theorem linked_calls_realized : forall n, realizes lenv L res (call_k n).
  Proof.
    induction n as [|m IH]; intros f stk st NC; [destruct (NC eq_refl)|].
    cbn [call_k] in NC |- *.
    destruct (find_routine subs f) as [r|] eqn:Fr; [|destruct (NC eq_refl)].
    destruct (Hsubs f r Fr) as [Eid (lbl & e & cm & pre & code & Rl & Ne & Pl & Lk & UC)]. subst f.
    exists e. split.
    { unfold entry_of. rewrite Rl. exact (find_label_nodup L HN e lbl cm Ne). }
    intros fr ret.
    (* the step over the entry label, then the declaration body with one more return address *)
    eapply pstar_step; [cbn [pstep]; rewrite Ne; reflexivity|].
    pose proof (fun h => linked_routine_under m (Some r) (decl_body o r) (S e) pre code IH Pl Lk UC m (ret :: fr) stk st h) as T.
    unfold denote_k in T.
    destruct (denote (envk (Some r) (W (Some r) (call_k m))) m (root_ast (decl_body o r)) stk st);
      try destruct (NC eq_refl); exact (T _ eq_refl Logic.I).
  Qed.

  Theorem linked_routine_correct sub ast0 base pre code :
    placed L base res pre code -> linkable code = true -> unit_correct sub ast0 code ->
    forall n fuel fr stk st h,
      halt_of (denote_k n sub fuel (root_ast ast0) stk st) = Some h -> claimed h ->
      pstar lenv L (PAt fr base stk st) (emb base fr h).
  Proof.
    intros Pl Lk UC n. exact (linked_routine_under n sub ast0 base pre code (linked_calls_realized n) Pl Lk UC).
  Qed.
End Compose.
