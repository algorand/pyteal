(* Proofs/LabelInjective.v — C04: the labels PyTeal writes into a program are pairwise distinct.

   Naming (pyteal/compiler/flatten.py flattenBlocks + flattenSubroutines, subroutines.py
   resolveSubroutines; modelled in Comp/Passes.v [label_of], Comp/Compile.v [sanitize],
   [flatten_subroutines]):
     - the i-th subroutine (index i in the order of subroutine ids) gets the label
           sanitize(name) ++ "_" ++ decimal(i)         sanitize = delete every char outside [A-Za-z0-9]
     - block k of the main routine gets   "main_" ++ "l" ++ decimal(k)
     - block k of subroutine i gets       sanitize(name) ++ "_" ++ decimal(i) ++ "_" ++ "l" ++ decimal(k)
   Theorem [label_injective_lemma]: two labels with the same text have the same (routine index, block index)
   — whatever the subroutine names are (a subroutine called "main", an empty sanitised name, names that
   differ only in deleted characters, names ending in digits, ...).  The proof only uses: a sanitised
   name contains no underscore; a decimal numeral is a non-empty string of digits; the numeral of a
   number determines the number. *)
From Coq Require Import List Arith NArith Ascii String Bool Lia.
From PV Require Import Base.Sexp Comp.Passes Comp.Compile Proofs.TextFacts.
Import ListNotations.
Local Open Scope string_scope.

Inductive lab : Type :=
| LMain (k : nat)                                  (* block k of the main routine *)
| LEntry (name : string) (idx : N)                 (* entry label of subroutine number idx *)
| LInner (name : string) (idx : N) (k : nat).      (* block k of subroutine number idx *)

Definition sub_label (name : string) (idx : N) : string := sanitize name ++ "_" ++ N_to_dec idx.

Definition label_text (l : lab) : string :=
  match l with
  | LMain k => "main_" ++ label_of k
  | LEntry n i => sub_label n i
  | LInner n i k => (sub_label n i ++ "_") ++ label_of k
  end.

(* what a label denotes: (routine: None = main / Some idx, block: None = the entry label itself) *)
Definition lab_key (l : lab) : option N * option nat :=
  match l with
  | LMain k => (None, Some k)
  | LEntry _ i => (Some i, None)
  | LInner _ i k => (Some i, Some k)
  end.

Local Notation L := list_ascii_of_string.

Definition us : ascii := "_"%char.
Definition no_us (l : list ascii) : Prop := Forall (fun c => c <> us) l.

Lemma split_at_us : forall a b x y, no_us a -> no_us b ->
  (a ++ us :: x = b ++ us :: y)%list -> a = b /\ x = y.
Proof.
  induction a as [|c a IH]; intros b x y Ha Hb H.
  - destruct b as [|d b]; cbn in H.
    + injection H as ->. auto.
    + injection H as Hd _. inversion Hb as [|? ? Hne _]; subst. congruence.
  - destruct b as [|d b]; cbn in H.
    + injection H as Hc _. inversion Ha as [|? ? Hne _]; subst. congruence.
    + injection H as -> H. inversion Ha; inversion Hb; subst.
      destruct (IH b x y) as [-> ->]; auto.
Qed.

Lemma is_alnum_not_us c : is_alnum c = true -> c <> us.
Proof. intros H ->. vm_compute in H. discriminate. Qed.

Lemma sanitize_no_us n : no_us (L (sanitize n)).
Proof.
  unfold sanitize. rewrite los_sol.
  apply Forall_forall. intros c Hc. apply filter_In in Hc. apply is_alnum_not_us. tauto.
Qed.

Lemma digit_not_us c : is_digit c = true -> c <> us.
Proof. intros H ->. vm_compute in H. discriminate. Qed.

Lemma digit_not_l c : is_digit c = true -> c <> "l"%char.
Proof. intros H ->. vm_compute in H. discriminate. Qed.

Lemma dec_no_us n : no_us (L (N_to_dec n)).
Proof.
  apply Forall_forall. intros c Hc. apply digit_not_us.
  exact (proj1 (forallb_forall _ _) (N_to_dec_digits n) c Hc).
Qed.

(* a numeral starts with a digit *)
Lemma dec_head n : exists c t, L (N_to_dec n) = c :: t /\ is_digit c = true.
Proof.
  pose proof (N_to_dec_digits n) as H. pose proof (N_to_dec_nonempty n) as Hne.
  destruct (N_to_dec n) as [|c t]; [congruence|]. exists c, (L t). split; [reflexivity|].
  cbn in H. now apply andb_true_iff in H.
Qed.

Definition lbl (k : nat) : list ascii := "l"%char :: L (N_to_dec (N.of_nat k)).

Lemma L_label_of k : L (label_of k) = lbl k.
Proof. unfold label_of. now rewrite los_app. Qed.

Lemma L_sub_label n i : L (sub_label n i) = (L (sanitize n) ++ us :: L (N_to_dec i))%list.
Proof. unfold sub_label. rewrite !los_app. reflexivity. Qed.

Lemma L_main k : L (label_text (LMain k)) = (L "main" ++ us :: lbl k)%list.
Proof. cbn [label_text]. rewrite los_app, L_label_of. reflexivity. Qed.

Lemma L_entry n i : L (label_text (LEntry n i)) = (L (sanitize n) ++ us :: L (N_to_dec i))%list.
Proof. apply L_sub_label. Qed.

Lemma L_inner n i k :
  L (label_text (LInner n i k)) = (L (sanitize n) ++ us :: (L (N_to_dec i) ++ us :: lbl k))%list.
Proof.
  cbn [label_text]. rewrite !los_app, L_sub_label, L_label_of.
  rewrite <- !app_assoc. reflexivity.
Qed.

Lemma main_no_us : no_us (L "main").
Proof. repeat constructor; intros H; vm_compute in H; discriminate. Qed.

Lemma lbl_inj a b : lbl a = lbl b -> a = b.
Proof.
  unfold lbl. intros H. injection H as H. apply los_inj in H. apply N_to_dec_inj in H. lia.
Qed.

(* a numeral is neither "l..." nor contains an underscore *)
Lemma dec_not_lbl i k : L (N_to_dec i) <> lbl k.
Proof.
  intros H. destruct (dec_head i) as [c [t [E Hd]]]. rewrite E in H. unfold lbl in H.
  injection H as -> _. now apply digit_not_l in Hd.
Qed.

Lemma dec_not_with_us i j x : L (N_to_dec i) <> (L (N_to_dec j) ++ us :: x)%list.
Proof.
  intros H. pose proof (dec_no_us i) as Hn. rewrite H in Hn.
  apply Forall_app in Hn. destruct Hn as [_ Hn]. inversion Hn as [|? ? Hne _]; subst. congruence.
Qed.

Lemma lbl_not_dec_us k j x : lbl k <> (L (N_to_dec j) ++ us :: x)%list.
Proof.
  intros H. destruct (dec_head j) as [c [t [E Hd]]]. rewrite E in H. unfold lbl in H. cbn in H.
  injection H as <- _. now apply digit_not_l in Hd.
Qed.

Lemma label_injective_lemma a b : label_text a = label_text b -> lab_key a = lab_key b.
Proof.
  intros H. apply (f_equal L) in H.
  destruct a as [k1|n1 i1|n1 i1 k1], b as [k2|n2 i2|n2 i2 k2];
    rewrite ?L_main, ?L_entry, ?L_inner in H; cbn [lab_key].
  - apply split_at_us in H; try apply main_no_us. destruct H as [_ H]. apply lbl_inj in H. now subst.
  - apply split_at_us in H; [|apply main_no_us|apply sanitize_no_us]. destruct H as [_ H].
    symmetry in H. now apply dec_not_lbl in H.
  - apply split_at_us in H; [|apply main_no_us|apply sanitize_no_us]. destruct H as [_ H].
    now apply lbl_not_dec_us in H.
  - apply split_at_us in H; [|apply sanitize_no_us|apply main_no_us]. destruct H as [_ H].
    now apply dec_not_lbl in H.
  - apply split_at_us in H; try apply sanitize_no_us. destruct H as [_ H].
    apply los_inj in H. apply N_to_dec_inj in H. now subst.
  - apply split_at_us in H; try apply sanitize_no_us. destruct H as [_ H].
    now apply dec_not_with_us in H.
  - apply split_at_us in H; [|apply sanitize_no_us|apply main_no_us]. destruct H as [_ H].
    symmetry in H. now apply lbl_not_dec_us in H.
  - apply split_at_us in H; try apply sanitize_no_us. destruct H as [_ H].
    symmetry in H. now apply dec_not_with_us in H.
  - apply split_at_us in H; try apply sanitize_no_us. destruct H as [_ H].
    apply split_at_us in H; try apply dec_no_us. destruct H as [Hi Hk].
    apply los_inj in Hi. apply N_to_dec_inj in Hi. apply lbl_inj in Hk. now subst.
Qed.

(* The model's own subroutine label is [sub_label] of the sanitised name and the index. *)
Example sub_label_shape : sub_label "a b-c" 1 = "abc_1" /\ sub_label "" 0 = "_0" /\ sub_label "main" 0 = "main_0".
Proof. vm_compute. auto. Qed.

(* the cases that look as if they could collide are all kept apart *)
Example label_cases :
  label_text (LInner "main" 0 0) = "main_0_l0" /\ label_text (LMain 0) = "main_l0" /\
  label_text (LEntry "a_1" 0) = "a1_0" /\ label_text (LEntry "a" 10) = "a_10" /\
  label_text (LInner "a" 1 0) = "a_1_l0" /\ label_text (LEntry "a1l0" 2) = "a1l0_2".
Proof. vm_compute. repeat split. Qed.
