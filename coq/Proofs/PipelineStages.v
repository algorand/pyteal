(* Proofs/PipelineStages.v — [compile_components] (Comp/Compile.v) read as a chain of stages, each feeding
   the next unless it failed: compileSubroutine over the call graph, the scratch-slot optimiser, slot
   assignment, then (the emit stage) sortBlocks + flattenBlocks per routine, recursion spilling,
   subroutine resolution and the version/mode sweep.  Proofs about the pipeline use the equation below and
   the two inversions of [cbind] instead of unfolding the function; a program whose only routine is the
   main routine gets the emit stage in closed form. *)
From Coq Require Import List Arith NArith String Bool.
From PV Require Import AVM.Syntax Src.Expr Comp.Blocks Comp.Lower Comp.Passes Comp.Compile Comp.Assemble.
Import ListNotations.

Definition cbind {A B} (x : cres A) (f : A -> cres B) : cres B :=
  match x with COk a => f a | CErr e => CErr e end.

Lemma cbind_ok {A B} (x : cres A) (f : A -> cres B) b : cbind x f = COk b -> exists a, x = COk a /\ f a = COk b.
Proof. destruct x as [a|e]; [eauto|discriminate]. Qed.

Lemma cbind_err {A B} (x : cres A) (f : A -> cres B) e :
  cbind x f = CErr e -> x = CErr e \/ exists a, x = COk a /\ f a = CErr e.
Proof. destruct x as [a|e0]; [eauto|intros H; injection H as ->; left; reflexivity]. Qed.

Definition opt_stage (skip : list N) (crs : list croutine) : cres (list croutine) :=
  fold_right (fun c acc =>
                match acc, optimize_routine (cr_graph c) (cr_start c) skip with
                | COk l, Some g => COk (mkCR (cr_sub c) g (cr_start c) (cr_end c) :: l)
                | COk _, None => CErr CrashRecursion
                | CErr e, _ => CErr e
                end) (COk []) crs.

Definition sort_flatten_all (crs2 : list croutine) : cres (list flat_routine) :=
  fold_right (fun c acc =>
                match acc with
                | CErr e => CErr e
                | COk l =>
                    match sort_blocks (cr_graph c) (cr_start c) (cr_end c) with
                    | None => CErr ErrInternal
                    | Some order =>
                        match flatten_blocks (cr_graph c) order with
                        | Some ops => COk (mkFR (cr_sub c) ops :: l)
                        | None => CErr CrashAssertion
                        end
                    end
                end) (COk []) crs2.

(* everything after slot assignment *)
Definition emit_stage (o : copts) (modes : opc -> bool * bool) (p : prog)
    (crs2 : list croutine) (locals : list (option N * list N)) : cres (list comp) :=
  cbind (sort_flatten_all crs2) (fun frs =>
  cbind (spill (o_version o) p frs locals) (fun frs2 =>
  match verify_ops o modes (flatten_subroutines frs2) with
  | Some e => CErr e
  | None => COk (CPragma (o_version o) :: flatten_subroutines frs2)
  end)).

Lemma compile_components_stages o modes p :
  compile_components o modes p =
  if negb ((2 <=? o_version o) && (o_version o <=? 10))%N then CErr ErrInput else
  cbind (compile_rec (S (List.length (p_subs p))) o p None (p_main p) []) (fun crs =>
  cbind (if o_opt_slots o then opt_stage (skip_slots p crs) crs else COk crs) (fun crs1 =>
  cbind (assign_slots p crs1) (fun '(crs2, locals, _) => emit_stage o modes p crs2 locals))).
Proof. reflexivity. Qed.

Lemma compile_model_ok o modes p lines :
  compile_model o modes p = COk lines <->
  exists comps, compile_components o modes p = COk comps /\ assemble_all comps = Some lines.
Proof.
  unfold compile_model. split.
  - destruct (compile_components o modes p) as [comps|e]; [|discriminate].
    destruct (assemble_all comps) as [ls|] eqn:A; [|discriminate]. intros H. injection H as <-. eauto.
  - intros (comps & -> & ->). reflexivity.
Qed.

Lemma find_sub_in p s r : find_sub p s = Some r -> In r (p_subs p).
Proof. unfold find_sub. intros H. apply find_some in H. exact (proj1 H). Qed.

Lemma fold_step_err {A} (F : cres (list croutine) -> A -> cres (list croutine)) :
  (forall e x, F (CErr e) x = CErr e) -> forall l e, fold_left F l (CErr e) = CErr e.
Proof. intros HF. induction l as [|x t IH]; intros e; [reflexivity|]. cbn [fold_left]. rewrite HF. apply IH. Qed.

(* what compile_rec returns: routines that are compile_one results of [sub]/[ast] or of declaration bodies
   of the program, or the first compile_one error among those, or the model's own "unsupported" *)
Section Rec.
  Variable o : copts.
  Variable p : prog.

  Definition from (sub : option routine) (ast : expr) (cr : croutine) : Prop :=
    compile_one o sub ast = COk cr \/
    exists r, In r (p_subs p) /\ compile_one o (Some r) (decl_body o r) = COk cr.

  Definition rec_post (sub : option routine) (ast : expr) (acc : list croutine) (r : cres (list croutine)) : Prop :=
    match r with
    | COk res => forall cr, In cr res -> In cr acc \/ from sub ast cr
    | CErr e => (exists m, e = Unsupported m) \/ compile_one o sub ast = CErr e \/
                exists r, In r (p_subs p) /\ compile_one o (Some r) (decl_body o r) = CErr e
    end.

  Lemma compile_rec_post : forall fuel sub ast acc, rec_post sub ast acc (compile_rec fuel o p sub ast acc).
  Proof.
    induction fuel as [|f IH]; intros sub ast acc; [left; eexists; reflexivity|].
    cbn [compile_rec]. destruct (compile_one o sub ast) as [cr0|e] eqn:E0; [|right; left; exact E0].
    set (news := filter _ _). clearbody news.
    assert (P1 : rec_post sub ast acc (COk (acc ++ [cr0]))).
    { intros c Hc. apply in_app_or in Hc. destruct Hc as [Hc|[<-|[]]]; [left; exact Hc|right; left; exact E0]. }
    revert P1. generalize (COk (acc ++ [cr0])). 
    induction news as [|s t IHn]; intros racc P1; cbn [fold_left]; [exact P1|].
    apply IHn. destruct racc as [a|e]; [|exact P1].
    destruct (existsb _ a); [exact P1|].
    destruct (find_sub p s) as [r|] eqn:Fs; [|left; eexists; reflexivity].
    specialize (IH (Some r) (decl_body o r) a).
    destruct (compile_rec f o p (Some r) (decl_body o r) a) as [a2|e2]; cbn [rec_post] in IH |- *.
    - intros c Hc. destruct (IH c Hc) as [Hin|[Hd|Hd]]; [exact (P1 c Hin)| |right; right; exact Hd].
      right. right. exists r. split; [exact (find_sub_in p s r Fs)|exact Hd].
    - destruct IH as [M|[Hd|Hd]]; [left; exact M| |right; right; exact Hd].
      right. right. exists r. split; [exact (find_sub_in p s r Fs)|exact Hd].
  Qed.
End Rec.

Lemma compile_one_sub o sub ast cr : compile_one o sub ast = COk cr -> cr_sub cr = sub.
Proof.
  intros E. unfold compile_one in E.
  destruct (check_expr _ _ _ _); [discriminate E|].
  destruct (has_bad_continue _ _); [discriminate E|].
  destruct (lower _ _ _ _ _) as [[s en] g0].
  destruct (add_incoming g0 s) as [g1 d].
  destruct (negb (validate_tree g1 s)); [discriminate E|].
  match type of E with (match ?R with COk _ => _ | CErr _ => _ end) = _ => destruct R as [[g2 s2]|] end; [|discriminate E].
  destruct (negb (validate_tree g2 s2)); [discriminate E|].
  destruct (normalize g2 s2) as [g3 s3].
  destruct (negb (validate_tree g3 s3)); [discriminate E|].
  injection E as <-. reflexivity.
Qed.

(* a main routine that calls nothing is the only routine compiled *)
Lemma compile_rec_main_no_subs o p cr :
  compile_one o None (p_main p) = COk cr ->
  graph_subs (cr_graph cr) (cr_start cr) = [] ->
  forall fuel, compile_rec (S fuel) o p None (p_main p) [] = COk [cr].
Proof. intros E HG fuel. cbn [compile_rec]. rewrite E, HG. reflexivity. Qed.

Lemma rewrite_instr_id f i : (forall a, In a (i_args i) -> f a = a) -> rewrite_instr f i = i.
Proof.
  destruct i as [o args]. unfold rewrite_instr. cbn [i_op i_args]. intros H. f_equal.
  induction args as [|a t IH]; [reflexivity|]. cbn [map].
  rewrite (H a (or_introl eq_refl)), IH; [reflexivity|]. intros x Hx. apply H. right. exact Hx.
Qed.

Lemma flatten_subroutines_main code :
  flatten_subroutines [mkFR None code] = map (prefix_labels "main_") code.
Proof.
  unfold flatten_subroutines. cbn [flat_map fr_sub fr_ops sort_dedup fold_right app find].
  rewrite !app_nil_r. f_equal.
  induction code as [|c t IH]; [reflexivity|]. cbn [map]. rewrite IH. f_equal.
  destruct c as [i|l cm|v]; try reflexivity. f_equal. apply rewrite_instr_id.
  intros [n|s|l|u|sb] _; reflexivity.
Qed.

Lemma emit_main_only o modes p c locals order code :
  cr_sub c = None ->
  sort_blocks (cr_graph c) (cr_start c) (cr_end c) = Some order ->
  flatten_blocks (cr_graph c) order = Some code ->
  emit_stage o modes p [c] locals =
  match verify_ops o modes (map (prefix_labels "main_") code) with
  | Some e => CErr e
  | None => COk (CPragma (o_version o) :: map (prefix_labels "main_") code)
  end.
Proof.
  intros Sub HS HF. unfold emit_stage, sort_flatten_all. cbn [fold_right]. rewrite HS, HF, Sub.
  unfold spill. cbn [cbind flat_map fr_sub app existsb map orb].
  rewrite flatten_subroutines_main. reflexivity.
Qed.

Definition resolved_arg (a : arg) : bool := match a with ASlot _ | ASub _ => false | _ => true end.
Definition resolved_comp (c : comp) : bool :=
  match c with COp i => forallb resolved_arg (i_args i) | _ => true end.

Lemma assemble_args_total l : forallb resolved_arg l = true -> exists r, assemble_args l = Some r.
Proof.
  induction l as [|a t IH]; cbn [forallb assemble_args]; intros H; [eauto|].
  apply andb_prop in H. destruct H as [Ha Ht]. destruct (IH Ht) as (r & Er). rewrite Er.
  destruct a; cbn [resolved_arg assemble_arg] in *; try discriminate Ha; eauto.
Qed.

Lemma assemble_comp_total c : resolved_comp c = true -> exists s, assemble_comp c = Some s.
Proof.
  destruct c as [i|l [cm|]|v]; cbn [resolved_comp assemble_comp]; intros H; eauto.
  unfold assemble_instr. destruct (assemble_args_total _ H) as (r & Er). rewrite Er. eauto.
Qed.

Theorem assemble_all_total l : forallb resolved_comp l = true -> exists lines, assemble_all l = Some lines.
Proof.
  induction l as [|c t IH]; cbn [forallb assemble_all]; intros H; [eauto|].
  apply andb_prop in H. destruct H as [Hc Ht].
  destruct (assemble_comp_total c Hc) as (s & Es). destruct (IH Ht) as (r & Er). rewrite Es, Er. eauto.
Qed.
