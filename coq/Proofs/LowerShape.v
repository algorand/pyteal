(* Proofs/LowerShape.v — what the NormalizeBlocks theorems need to know about the graph that lowering
   produces (Comp/Lower.v), for ALL recipes:
     closed     every edge points to an allocated id,
     cond_full  every conditional block has both branches,
     no incoming lists are written,
     the start of a fragment is a fresh id, and NO block has an edge to it unless the fragment is
     "headed by a loop" ([head_loop]: following first operands / conditions / For-initialisers from
     the root one reaches a While) — the root of a routine never is (compile_one wraps a loop in Seq).
   One induction over the recipe ([lower_ok]) with a four-part postcondition [fpost].  It is a traversal of
   its own and not an instance of [LowerFrame.lower_inv]: [fpost] bounds the block ids numerically
   (g_next g <= s < g_next g', every edge below g_next), which the composition rules of [frag_rules] do
   not carry, and it is stated without the [wf] premise those rules thread.  The frame property is used
   only for the [wf] of the routine's graph. *)
From Coq Require Import List Arith NArith String Bool Lia.
From PV Require Import Base.Bytes AVM.Syntax Src.Expr Comp.Blocks Comp.WideRatio Comp.Lower
  Comp.SimCheck Proofs.LowerFrame.
Import ListNotations.

(* where the start block of a fragment comes from *)
Fixpoint head_loop (e : expr) : bool :=
  match e with
  | EWhile _ _ => true
  | EFor ini _ _ _ => head_loop ini
  | EOp _ _ _ (a :: _) | ENary _ _ (a :: _) | EMulti _ _ (a :: _) _ | ECall _ _ (a :: _) => head_loop a
  | EIf c _ _ => head_loop c
  | ECond ((c, _) :: _) => head_loop c
  | EAssert [c] _ => head_loop c
  | EReturn (Some x) | EExit x => head_loop x
  | _ => false
  end.

Definition opt_lt (o : option id) (n : nat) : Prop := match o with Some x => x < n | None => True end.

Definition closed (g : graph) : Prop :=
  forall i b x, g_blk g i = Some b -> In x (outgoing b) -> x < g_next g.

Definition no_edge_to (g : graph) (s : id) : Prop :=
  forall i b, g_blk g i = Some b -> ~ In s (outgoing b).

Definition good (g : graph) : Prop := closed g /\ cond_full g /\ forall x, g_inc g x = [].

Definition fpost (g : graph) (s : id) (g' : graph) (hl : bool) : Prop :=
  good g' /\ g_next g <= s /\ s < g_next g' /\ (hl = false -> no_edge_to g' s).

Lemma opt_lt_mono o n m : opt_lt o n -> n <= m -> opt_lt o m.
Proof. destruct o; cbn; [lia|auto]. Qed.

Lemma simple_edges o k n : opt_lt k n -> forall x, In x (outgoing (BSimple o k)) -> x < n.
Proof. destruct k as [y|]; cbn; [intros H x [E|[]]; subst; exact H|intros _ x []]. Qed.

Lemma cond_edges o t f n : t < n -> f < n -> forall x, In x (outgoing (BCond o (Some t) (Some f))) -> x < n.
Proof. cbn. intros H1 H2 x [E|[E|[]]]; subst; assumption. Qed.

Lemma full_cond o t f : full_b (BCond o (Some t) (Some f)).
Proof. split; discriminate. Qed.

Lemma good_empty : good empty_graph.
Proof. repeat split; intros; cbn in *; try discriminate. Qed.

Lemma add_block_good g b i g1 :
  good g -> full_b b -> (forall x, In x (outgoing b) -> x < g_next g) ->
  add_block g b = (i, g1) -> fpost g i g1 false.
Proof.
  intros (C & F & Z) Fb Eb E. unfold add_block in E. inversion E; subst; clear E.
  (* every edge of the new graph points below the new block *)
  assert (K : forall j bj x, upd (g_blk g) (g_next g) (Some b) j = Some bj -> In x (outgoing bj) -> x < g_next g).
  { intros j bj x Ej Ix. unfold upd in Ej. destruct (Nat.eqb_spec j (g_next g)).
    - injection Ej as Ej. subst bj. exact (Eb x Ix).
    - exact (C j bj x Ej Ix). }
  unfold fpost, good, closed, cond_full, no_edge_to. cbn [g_next g_blk g_inc]. repeat split; try lia.
  - intros j bj x Ej Ix. specialize (K j bj x Ej Ix). lia.
  - intros j bj Ej. unfold upd in Ej.
    destruct (Nat.eqb_spec j (g_next g)); [injection Ej as Ej; subst; exact Fb|eapply F; eauto].
  - exact Z.
  - intros _ j bj Ej Ix. specialize (K j bj _ Ej Ix). lia.
Qed.

Lemma reserve_good g i g1 :
  good g -> reserve g = (i, g1) -> i = g_next g /\ g_next g1 = S i /\ good g1.
Proof.
  intros (C & F & Z) E. unfold reserve in E. inversion E; subst; clear E. cbn [g_next].
  split; [reflexivity|]. split; [reflexivity|]. repeat split.
  - intros j bj x Ej Ix. cbn [g_blk g_next] in *. specialize (C j bj x Ej Ix). lia.
  - exact F.
  - exact Z.
Qed.

Lemma define_good g i b :
  good g -> full_b b -> (forall x, In x (outgoing b) -> x < g_next g) ->
  good (define g i b) /\ g_next (define g i b) = g_next g.
Proof.
  intros (C & F & Z) Fb Eb. unfold define. cbn [g_next]. split; [|reflexivity]. repeat split.
  - intros j bj x Ej Ix. cbn [g_blk g_next] in *. unfold upd in Ej.
    destruct (Nat.eqb_spec j i); [injection Ej as Ej; subst bj; auto|eapply C; eauto].
  - intros j bj Ej. cbn [g_blk] in Ej. unfold upd in Ej.
    destruct (Nat.eqb_spec j i); [injection Ej as Ej; subst; exact Fb|eapply F; eauto].
  - exact Z.
Qed.

Lemma define_no_edge g i b s :
  no_edge_to g s -> ~ In s (outgoing b) -> no_edge_to (define g i b) s.
Proof.
  intros N Nb j bj Ej. unfold define in Ej. cbn [g_blk] in Ej. unfold upd in Ej.
  destruct (Nat.eqb_spec j i); [injection Ej as Ej; subst; exact Nb|eapply N; eauto].
Qed.

Arguments add_block : simpl never.
Arguments reserve : simpl never.
Arguments define : simpl never.

(* what a lowering step needs of the graph it starts from, and what it leaves for the next one *)
Section Ready.
  Variable pre : graph -> Prop.
  Hypothesis pre_mono : forall g g', pre g -> g_next g <= g_next g' -> pre g'.

  Definition rdy (k : option id) (g : graph) : Prop := good g /\ pre g /\ opt_lt k (g_next g).

  Lemma fpost_rdy {g k s g' hl} : rdy k g -> fpost g s g' hl -> rdy (Some s) g'.
  Proof.
    intros (_ & P & _) (G' & L & U & _). split; [exact G'|]. split; [apply (pre_mono g); [exact P|lia]|exact U].
  Qed.

  Lemma fpost_trans {g s1 g1 h1 s2 g2 h2} : fpost g s1 g1 h1 -> fpost g1 s2 g2 h2 -> fpost g s2 g2 h2.
  Proof. intros (_ & L1 & U1 & _) (G2 & L2 & U2 & N2). split; [exact G2|]. split; [lia|]. split; assumption. Qed.

  Lemma add_simple_f {g o k i g1} : rdy k g -> add_block g (BSimple o k) = (i, g1) -> fpost g i g1 false.
  Proof. intros (G & _ & K) E. exact (add_block_good _ (BSimple o k) _ _ G Logic.I (simple_edges _ _ _ K) E). Qed.

  Lemma add_cond_f {g k o t f i g1} :
    rdy k g -> t < g_next g -> f < g_next g -> add_block g (BCond o (Some t) (Some f)) = (i, g1) ->
    fpost g i g1 false.
  Proof.
    intros (G & _) T F E. exact (add_block_good _ (BCond o (Some t) (Some f)) _ _ G (full_cond _ _ _) (cond_edges _ _ _ _ T F) E).
  Qed.

  Lemma rdy_any {g k k'} : rdy k g -> opt_lt k' (g_next g) -> rdy k' g.
  Proof. intros (G & P & _) K. split; [exact G|split; assumption]. Qed.

  Lemma fpost_base {g g1 s g2 h} : g_next g <= g_next g1 -> fpost g1 s g2 h -> fpost g s g2 h.
  Proof. intros L (G2 & L2 & U2 & N2). split; [exact G2|]. split; [lia|]. split; assumption. Qed.

  (* a block in front of the fragment built from g0 to g1 *)
  Lemma step_block {g0 k0 x g1 h o i g2} :
    rdy k0 g0 -> fpost g0 x g1 h -> add_block g1 (BSimple o (Some x)) = (i, g2) -> fpost g0 i g2 false.
  Proof. intros R F E. exact (fpost_trans F (add_simple_f (fpost_rdy R F) E)). Qed.
End Ready.

Arguments fpost_rdy {pre} pre_mono {g k s g' hl}.
Arguments step_block {pre} pre_mono {g0 k0 x g1 h o i g2}.
Arguments add_simple_f {pre g o k i g1}.
Arguments add_cond_f {pre g k o t f i g1}.
Arguments rdy_any {pre g k k'}.

Section Helpers.
  Variable lw : expr -> option id -> graph -> (id * id) * graph.
  Variable pre : graph -> Prop.
  Hypothesis pre_mono : forall g g', pre g -> g_next g <= g_next g' -> pre g'.

  Definition lw_shape (e : expr) : Prop :=
    forall k g r, good g -> pre g -> opt_lt k (g_next g) -> lw e k g = r ->
      fpost g (fst (fst r)) (snd r) (head_loop e).

  Local Notation rdy := (rdy pre).

  Lemma lw_shape_rdy e : lw_shape e -> forall k g s en g', rdy k g -> lw e k g = ((s, en), g') -> fpost g s g' (head_loop e).
  Proof. intros H k g s en g' (G & P & K) E. exact (H _ _ _ G P K E). Qed.

  (* an expression in front of the fragment built from g0 to g1 *)
  Lemma step_lw {e g0 k0 x g1 h s en g2} : lw_shape e ->
    rdy k0 g0 -> fpost g0 x g1 h -> lw e (Some x) g1 = ((s, en), g2) -> fpost g0 s g2 (head_loop e).
  Proof.
    intros He R F E. exact (fpost_trans F (lw_shape_rdy _ He _ _ _ _ _ (fpost_rdy pre_mono R F) E)).
  Qed.

  (* a right-to-left chain: the start is the start of the FIRST element *)
  Definition chain_post (g : graph) (k ks : option id) (g' : graph) (es : list expr) : Prop :=
    rdy ks g' /\ g_next g <= g_next g' /\
    match es with
    | [] => ks = k /\ g' = g
    | e :: _ => exists s, ks = Some s /\ fpost g s g' (head_loop e)
    end.

  Lemma chain_nil {g k} : rdy k g -> chain_post g k k g [].
  Proof. intros R. split; [exact R|]. split; [lia|split; reflexivity]. Qed.

  (* the next element [e], lowered from g1 to g2 with start s, in front of a chain *)
  Lemma chain_step {g k kt g1 t e s g2} :
    rdy k g -> chain_post g k kt g1 t -> fpost g1 s g2 (head_loop e) -> chain_post g k (Some s) g2 (e :: t).
  Proof.
    intros R0 (R1 & M1 & _) F2. pose proof F2 as (_ & L2 & U2 & _).
    split; [exact (fpost_rdy pre_mono R1 F2)|]. split; [lia|].
    exists s. split; [reflexivity|]. destruct F2 as (G2 & _ & _ & N2). split; [exact G2|]. split; [lia|]. split; assumption.
  Qed.

  (* a chain in front of the fragment built from g to g1 *)
  Lemma chain_after {g k x g1 h ks g2 es} :
    rdy k g -> fpost g x g1 h -> chain_post g1 (Some x) ks g2 es ->
    fpost g (or_else ks x) g2 (match es with [] => h | e :: _ => head_loop e end).
  Proof.
    intros R F (_ & _ & T). destruct es as [|e t]; [destruct T as [-> ->]; exact F|].
    destruct T as (s & -> & F2). exact (fpost_trans F F2).
  Qed.

  Lemma lower_chain_ok es : Forall lw_shape es ->
    forall k g ks endo g', rdy k g -> lower_chain lw es k g = ((ks, endo), g') -> chain_post g k ks g' es.
  Proof.
    induction 1 as [|e t He Ht IH]; intros k g ks endo g' R E; cbn [lower_chain] in E.
    - injection E as <- _ <-. exact (chain_nil R).
    - destruct (lower_chain lw t k g) as [[kt endt'] g1] eqn:E1.
      destruct (lw e kt g1) as [[s en] g2] eqn:E2. injection E as <- _ <-.
      apply (IH _ _ _ _ _ R) in E1. exact (chain_step R E1 (lw_shape_rdy _ He _ _ _ _ _ (proj1 E1) E2)).
  Qed.

  (* NaryExpr / WideRatio: every element is followed by an operation block *)
  Lemma chain_op_step {g k kt g1 t ops opb g2 e s en g3} : lw_shape e ->
    rdy k g -> chain_post g k kt g1 t -> add_block g1 (BSimple ops kt) = (opb, g2) ->
    lw e (Some opb) g2 = ((s, en), g3) -> chain_post g k (Some s) g3 (e :: t).
  Proof.
    intros He R0 C1 E2 E3. apply (chain_step R0 C1).
    exact (step_lw He (proj1 C1) (add_simple_f (proj1 C1) E2) E3).
  Qed.

  Lemma lower_nary_rest_ok op l : Forall lw_shape l ->
    forall k g ks endo g', rdy k g -> lower_nary_rest lw op l k g = ((ks, endo), g') -> chain_post g k ks g' l.
  Proof.
    induction 1 as [|e t He Ht IH]; intros k g ks endo g' R E; cbn [lower_nary_rest] in E.
    - injection E as <- _ <-. exact (chain_nil R).
    - destruct (lower_nary_rest lw op t k g) as [[kt endt'] g1] eqn:E1.
      destruct (add_block g1 (BSimple [I op []] kt)) as [opb g2] eqn:E2.
      destruct (lw e (Some opb) g2) as [[s en] g3] eqn:E3. injection E as <- _ <-.
      exact (chain_op_step He R (IH _ _ _ _ _ R E1) E2 E3).
  Qed.

  Lemma lower_wide_rest_ok l : Forall lw_shape l ->
    forall k g ks endo g', rdy k g -> lower_wide_rest lw l k g = ((ks, endo), g') -> chain_post g k ks g' l.
  Proof.
    induction 1 as [|e t He Ht IH]; intros k g ks endo g' R E; cbn [lower_wide_rest] in E.
    - injection E as <- _ <-. exact (chain_nil R).
    - destruct (lower_wide_rest lw t k g) as [[kt endt'] g1] eqn:E1.
      destruct (add_block g1 (BSimple mul_step_ops kt)) as [mb g2] eqn:E2.
      destruct (lw e (Some mb) g2) as [[s en] g3] eqn:E3. injection E as <- _ <-.
      exact (chain_op_step He R (IH _ _ _ _ _ R E1) E2 E3).
  Qed.

  Definition arms_post (g : graph) (errb st : id) (g' : graph) (l : list (expr * expr)) : Prop :=
    rdy (Some st) g' /\ g_next g <= g_next g' /\
    match l with
    | [] => st = errb /\ g' = g
    | (c, _) :: _ => fpost g st g' (head_loop c)
    end.

  Lemma lower_cond_arms_ok l : Forall (fun a => lw_shape (fst a) /\ lw_shape (snd a)) l ->
    forall (en errb : id) g st g', rdy (Some errb) g -> en < g_next g ->
      lower_cond_arms lw l en errb g = (st, g') -> arms_post g errb st g' l.
  Proof.
    induction 1 as [|[cnd pred] t [Hc Hp] Ht IH]; intros en errb g st g' R Ken E; cbn [lower_cond_arms] in E.
    - injection E as <- <-. split; [exact R|]. split; [lia|split; reflexivity].
    - cbn [fst snd] in *.
      destruct (lower_cond_arms lw t en errb g) as [fls g1] eqn:E1.
      destruct (lw pred (Some en) g1) as [[ps pe] g2] eqn:E2.
      destruct (add_block g2 (BCond [] (Some ps) (Some fls))) as [br g3] eqn:E3.
      destruct (lw cnd (Some br) g3) as [[cs ce] g4] eqn:E4. injection E as <- <-.
      destruct (IH _ _ _ _ _ R Ken E1) as (R1 & M1 & _).
      assert (Re : rdy (Some en) g1) by (apply (rdy_any R1); cbn; lia).
      pose proof (lw_shape_rdy _ Hp _ _ _ _ _ Re E2) as F2. pose proof F2 as (_ & L2 & U2 & _).
      assert (Kf : fls < g_next g2) by (destruct R1 as (_ & _ & K1); cbn in K1; lia).
      pose proof (add_cond_f (fpost_rdy pre_mono Re F2) U2 Kf E3) as F3.
      pose proof (step_lw Hc Re (fpost_trans F2 F3) E4) as F4.
      split; [exact (fpost_rdy pre_mono Re F4)|]. pose proof F4 as (_ & L4 & U4 & _).
      split; [lia|exact (fpost_base M1 F4)].
  Qed.

  (* multiplyFactors always ends with a fresh start block *)
  Lemma lower_factors_ok fs : Forall lw_shape fs ->
    forall k g st en g', rdy k g -> lower_factors lw fs k g = ((st, en), g') -> fpost g st g' false.
  Proof.
    intros HF k g st en g' R E. unfold lower_factors in E.
    destruct fs as [|f0 [|f1 rest]].
    - destruct (add_block g (BSimple [] k)) as [b g1] eqn:E1. injection E as <- _ <-.
      exact (add_simple_f R E1).
    - inversion HF as [|? ? H0 _]; subst.
      destruct (lw f0 k g) as [[s0 e0] g1] eqn:E1.
      destruct (add_block g1 (BSimple [I1 O_int 0] (Some s0))) as [hw g2] eqn:E2.
      destruct (add_block g2 (BSimple [] (Some hw))) as [st0 g3] eqn:E3. injection E as <- _ <-.
      exact (step_block pre_mono R (step_block pre_mono R (lw_shape_rdy _ H0 _ _ _ _ _ R E1) E2) E3).
    - inversion HF as [|? ? H0 HF1]; subst. inversion HF1 as [|? ? H1 HR]; subst.
      destruct (lower_wide_rest lw rest k g) as [[krest endrest] g1] eqn:E1.
      destruct (add_block g1 (BSimple [I0 O_mulw] krest)) as [m2 g2] eqn:E2.
      destruct (lw f1 (Some m2) g2) as [[s1 e1] g3] eqn:E3.
      destruct (lw f0 (Some s1) g3) as [[s0 e0] g4] eqn:E4.
      destruct (add_block g4 (BSimple [] (Some s0))) as [st0 g5] eqn:E5. injection E as <- _ <-.
      destruct (lower_wide_rest_ok _ HR _ _ _ _ _ R E1) as (R1 & M1 & _).
      apply (fpost_base M1).
      exact (step_block pre_mono R1 (step_lw H0 R1 (step_lw H1 R1 (add_simple_f R1 E2) E3) E4) E5).
  Qed.

  Lemma lower_comment_lines_ok lines : forall k g ks g', rdy k g ->
    lower_comment_lines lines k g = (ks, g') -> rdy ks g' /\ g_next g <= g_next g'.
  Proof.
    induction lines as [|l t IH]; intros k g ks g' R E; cbn [lower_comment_lines] in E.
    - injection E as <- <-. split; [exact R|lia].
    - destruct (lower_comment_lines t k g) as [kt g1] eqn:E1.
      destruct (add_block g1 (BSimple [mkI O_comment [AStr l]] kt)) as [b g2] eqn:E2. injection E as <- <-.
      destruct (IH _ _ _ _ R E1) as [R1 M1]. pose proof (add_simple_f R1 E2) as F2.
      split; [exact (fpost_rdy pre_mono R1 F2)|destruct F2 as (_ & L & U & _); lia].
  Qed.

  Lemma lower_stores_ok outs : forall kk first g kst lastst g', rdy kk g ->
    lower_stores outs kk first g = (kst, lastst, g') -> rdy kst g' /\ g_next g <= g_next g'.
  Proof.
    induction outs as [|s t IH]; intros kk first g kst lastst g' R E; cbn [lower_stores] in E.
    - injection E as <- _ <-. split; [exact R|lia].
    - destruct (add_block g (BSimple [I O_store [ASlot s]] kk)) as [b g1] eqn:E1.
      pose proof (add_simple_f R E1) as F1.
      destruct (IH _ _ _ _ _ _ (fpost_rdy pre_mono R F1) E) as [R2 M2].
      split; [exact R2|destruct F1 as (_ & L & U & _); lia].
  Qed.

  Variable version : N.
  Variable comment : option (list string).

  Lemma lower_assert1_ok cnd : lw_shape cnd ->
    forall k g s en g', rdy k g -> lower_assert1 lw version comment cnd k g = ((s, en), g') ->
      fpost g s g' (head_loop cnd).
  Proof.
    intros Hc k g s en g' R E. unfold lower_assert1 in E.
    destruct (N.leb 3 version).
    - destruct (add_block g (BSimple [I O_assert_ []] k)) as [opb g1] eqn:E1.
      pose proof (add_simple_f R E1) as F1.
      destruct comment as [lines|].
      + destruct (lower_comment_lines lines (Some opb) g1) as [ks ga] eqn:E2.
        destruct (add_block ga (BSimple [] ks)) as [st gb] eqn:E3.
        destruct (lw cnd (Some st) gb) as [[cs ce] g3] eqn:E4. injection E as <- _ <-.
        destruct (lower_comment_lines_ok _ _ _ _ _ (fpost_rdy pre_mono R F1) E2) as [Ra Ma].
        apply (fpost_base (g1:=ga)); [destruct F1 as (_ & L & U & _); lia|].
        exact (step_lw Hc Ra (add_simple_f Ra E3) E4).
      + destruct (lw cnd (Some opb) g1) as [[cs ce] g3] eqn:E4. injection E as <- _ <-.
        exact (step_lw Hc R F1 E4).
    - destruct (add_block g (BSimple [] k)) as [en0 g1] eqn:E1.
      destruct (add_block g1 (BSimple [I O_err []] None)) as [errb g2] eqn:E2.
      destruct (add_block g2 (BCond [] (Some en0) (Some errb))) as [br g3] eqn:E3.
      destruct (lw cnd (Some br) g3) as [[cs ce] g4] eqn:E4. injection E as <- _ <-.
      pose proof (add_simple_f R E1) as F1. pose proof F1 as (_ & L1 & U1 & _).
      pose proof (fpost_rdy pre_mono R F1) as R1.
      pose proof (add_simple_f (rdy_any (k':=None) R1 Logic.I) E2) as F2. pose proof F2 as (_ & L2 & U2 & _).
      pose proof (fpost_rdy pre_mono R1 F2) as R2.
      assert (T3 : en0 < g_next g2) by lia.
      pose proof (add_cond_f R2 T3 U2 E3) as F3.
      exact (step_lw Hc R (fpost_trans F1 (fpost_trans F2 F3)) E4).
  Qed.
End Helpers.

Arguments lw_shape_rdy {lw pre e} _ {k g s en g'}.
Arguments step_lw {lw pre} pre_mono {e g0 k0 x g1 h s en g2}.
Arguments chain_after {pre g k x g1 h ks g2 es}.
Arguments lower_chain_ok {lw pre} pre_mono {es} _ {k g ks endo g'}.
Arguments lower_nary_rest_ok {lw pre} pre_mono {op l} _ {k g ks endo g'}.
Arguments lower_wide_rest_ok {lw pre} pre_mono {l} _ {k g ks endo g'}.
Arguments lower_cond_arms_ok {lw pre} pre_mono {l} _ {en errb g st g'}.
Arguments lower_factors_ok {lw pre} pre_mono {fs} _ {k g st en g'}.
Arguments lower_stores_ok {pre} pre_mono {outs kk first g kst lastst g'}.
Arguments lower_assert1_ok {lw pre} pre_mono {version comment cnd} _ {k g s en g'}.

Definition ctx_ok (c : lctx) (g : graph) : Prop :=
  opt_lt (l_brk c) (g_next g) /\ opt_lt (l_cont c) (g_next g).

Lemma ctx_ok_mono c g g' : ctx_ok c g -> g_next g <= g_next g' -> ctx_ok c g'.
Proof. intros [A B] L. split; eapply opt_lt_mono; eauto. Qed.

Lemma Forall_inst {A} (P : lctx -> A -> Prop) l c : Forall (fun a => forall c, P c a) l -> Forall (P c) l.
Proof. intros H. eapply Forall_impl; [|exact H]. intros a Ha. apply Ha. Qed.

(* the context of a loop's parts: the end block and the start of the continue target are allocated *)
Lemma rdy_loop sr pm (en0 : id) co g (x : id) :
  good g -> en0 < g_next g -> opt_lt co (g_next g) -> x < g_next g ->
  rdy (ctx_ok (mkL sr (Some en0) co pm)) (Some x) g.
Proof. intros G A B C. split; [exact G|]. split; [split; assumption|exact C]. Qed.

Theorem lower_ok o e : forall c, lw_shape (lower o c) (ctx_ok c) e.
Proof.
  induction e using expr_ind'; intros c k g [[s_ en_] g'] G P K E; cbn [fst snd];
    assert (R : rdy (ctx_ok c) k g) by (split; [|split]; assumption); clear G K; cbn [lower] in E;
    pose proof (ctx_ok_mono c) as M.
  - (* EOp *)
    destruct (add_block g (BSimple [I o0 imms] k)) as [opb g1] eqn:E1.
    destruct (lower_chain (lower o c) args (Some opb) g1) as [[ks x] g2] eqn:E2. injection E as <- _ <-.
    pose proof (add_simple_f R E1) as F1.
    exact (chain_after R F1 (lower_chain_ok M (Forall_inst _ _ c H) (fpost_rdy M R F1) E2)).
  - (* ENary *)
    destruct args as [|a1 rest].
    + destruct (add_block g (BSimple [] k)) as [b g1] eqn:E1. injection E as <- _ <-.
      exact (add_simple_f R E1).
    + inversion H as [|? ? H1 HR]; subst.
      destruct (lower_nary_rest (lower o c) o0 rest k g) as [[krest endrest] g1] eqn:E1.
      destruct (lower o c a1 krest g1) as [[s1 e1] g2] eqn:E2. injection E as <- _ <-.
      destruct (lower_nary_rest_ok M (Forall_inst _ _ c HR) R E1) as (R1 & M1 & _).
      exact (fpost_base M1 (lw_shape_rdy (H1 c) R1 E2)).
  - (* ESeq *)
    destruct (lower_chain (lower o c) es k g) as [[ks en0] g1] eqn:E1.
    destruct (add_block g1 (BSimple [] ks)) as [st g2] eqn:E2. injection E as <- _ <-.
    destruct (lower_chain_ok M (Forall_inst _ _ c H) R E1) as (R1 & M1 & _).
    exact (fpost_base M1 (add_simple_f R1 E2)).
  - (* EIf *)
    destruct (add_block g (BSimple [] k)) as [en0 g1] eqn:E1.
    destruct (lower o c e2 (Some en0) g1) as [[ths the] g2] eqn:E2.
    pose proof (add_simple_f R E1) as F1. pose proof F1 as (_ & L1 & U1 & _).
    pose proof (fpost_rdy M R F1) as R1.
    pose proof (lw_shape_rdy (IHe2 c) R1 E2) as F2. pose proof F2 as (_ & L2 & U2 & _).
    pose proof (fpost_rdy M R1 F2) as R2.
    assert (X : exists els g3, (match el with
                                | Some x => let '((s0, _), g'0) := lower o c x (Some en0) g2 in (s0, g'0)
                                | None => (en0, g2)
                                end) = (els, g3) /\ rdy (ctx_ok c) (Some els) g3 /\ g_next g2 <= g_next g3).
    { assert (Re : rdy (ctx_ok c) (Some en0) g2).
      { apply (rdy_any R2). cbn. lia. }
      destruct el as [x|]; [|exists en0, g2; split; [reflexivity|split; [exact Re|lia]]].
      destruct (lower o c x (Some en0) g2) as [[s0 e0] g3] eqn:E3. exists s0, g3. split; [reflexivity|].
      pose proof (lw_shape_rdy (opt_all_some _ _ H c) Re E3) as F3.
      split; [exact (fpost_rdy M Re F3)|destruct F3 as (_ & L & U & _); lia]. }
    destruct X as (els & g3 & E3 & R3 & M3). rewrite E3 in E.
    destruct (add_block g3 (BCond [] (Some ths) (Some els))) as [br g4] eqn:E4.
    destruct (lower o c e1 (Some br) g4) as [[cs ce] g5] eqn:E5. injection E as <- _ <-.
    assert (T4 : ths < g_next g3) by lia.
    pose proof (add_cond_f R3 T4 (proj2 (proj2 R3)) E4) as F4.
    apply (fpost_base (g1:=g3)); [lia|]. exact (step_lw M (IHe1 c) R3 F4 E5).
  - (* ECond *)
    destruct (add_block g (BSimple [] k)) as [en0 g1] eqn:E1.
    destruct (add_block g1 (BSimple [I O_err []] None)) as [errb g2] eqn:E2.
    destruct (lower_cond_arms (lower o c) arms en0 errb g2) as [st g3] eqn:E3. injection E as <- _ <-.
    pose proof (add_simple_f R E1) as F1. pose proof F1 as (_ & L1 & U1 & _).
    pose proof (add_simple_f (rdy_any (k':=None) (fpost_rdy M R F1) Logic.I) E2) as F2.
    pose proof F2 as (_ & L2 & U2 & _). pose proof (fpost_trans F1 F2) as F12.
    assert (A : Forall (fun a => lw_shape (lower o c) (ctx_ok c) (fst a) /\ lw_shape (lower o c) (ctx_ok c) (snd a)) arms).
    { eapply Forall_impl; [|exact H]. intros a [Ha Hb]. split; [apply Ha|apply Hb]. }
    assert (Ken : en0 < g_next g2) by lia.
    destruct (lower_cond_arms_ok M A (fpost_rdy M R F12) Ken E3) as (_ & M3 & T3).
    destruct arms as [|[c0 p0] rest]; [destruct T3 as [-> ->]; exact F12|].
    apply (fpost_base (g1:=g2)); [lia|exact T3].
  - (* EWhile *)
    destruct (add_block g (BSimple [] k)) as [en0 g1] eqn:E1.
    destruct (reserve g1) as [br g2] eqn:E2.
    destruct (lower o (mkL (l_sub_ret c) (Some en0) None (l_param c)) e1 (Some br) g2) as [[cs ce] g3] eqn:E3.
    destruct (lower o (mkL (l_sub_ret c) (Some en0) (Some cs) (l_param c)) e2 (Some cs) g3) as [[ds de] g4] eqn:E4.
    injection E as <- _ <-.
    destruct (add_simple_f R E1) as (G1 & L1 & U1 & _).
    destruct (reserve_good _ _ _ G1 E2) as (I2 & X2 & G2).
    destruct (lw_shape_rdy (IHe1 _) (rdy_loop _ (l_param c) en0 None g2 br G2 ltac:(lia) Logic.I ltac:(lia)) E3)
      as (G3 & L3 & U3 & _).
    destruct (lw_shape_rdy (IHe2 _) (rdy_loop _ (l_param c) en0 (Some cs) g3 cs G3 ltac:(lia) U3 U3) E4)
      as (G4 & L4 & U4 & _).
    assert (T : ds < g_next g4) by lia. assert (F : en0 < g_next g4) by lia.
    destruct (define_good g4 br (BCond [] (Some ds) (Some en0)) G4 (full_cond _ _ _)
                (cond_edges _ _ _ _ T F)) as [Gd Nd].
    split; [exact Gd|]. rewrite Nd. split; [lia|]. split; [lia|discriminate].
  - (* EFor *)
    destruct (add_block g (BSimple [] k)) as [en0 g1] eqn:E1.
    destruct (reserve g1) as [br g2] eqn:E2.
    destruct (lower o (mkL (l_sub_ret c) (Some en0) None (l_param c)) e2 (Some br) g2) as [[cs ce] g3] eqn:E3.
    destruct (lower o (mkL (l_sub_ret c) (Some en0) None (l_param c)) e3 (Some cs) g3) as [[ss se] g4] eqn:E4.
    destruct (lower o (mkL (l_sub_ret c) (Some en0) (Some ss) (l_param c)) e4 (Some ss) g4) as [[ds de] g5] eqn:E5.
    destruct (lower o (mkL (l_sub_ret c) (Some en0) None (l_param c)) e1 (Some cs) g5) as [[is_ ie] g6] eqn:E6.
    injection E as <- _ <-.
    destruct (add_simple_f R E1) as (G1 & L1 & U1 & _).
    destruct (reserve_good _ _ _ G1 E2) as (I2 & X2 & G2).
    destruct (lw_shape_rdy (IHe2 _) (rdy_loop _ (l_param c) en0 None g2 br G2 ltac:(lia) Logic.I ltac:(lia)) E3)
      as (G3 & L3 & U3 & _).
    destruct (lw_shape_rdy (IHe3 _) (rdy_loop _ (l_param c) en0 None g3 cs G3 ltac:(lia) Logic.I U3) E4)
      as (G4 & L4 & U4 & _).
    destruct (lw_shape_rdy (IHe4 _) (rdy_loop _ (l_param c) en0 (Some ss) g4 ss G4 ltac:(lia) U4 U4) E5)
      as (G5 & L5 & U5 & _).
    destruct (lw_shape_rdy (IHe1 _) (rdy_loop _ (l_param c) en0 None g5 cs G5 ltac:(lia) Logic.I ltac:(lia)) E6)
      as (G6 & L6 & U6 & N6).
    assert (T : ds < g_next g6) by lia. assert (F : en0 < g_next g6) by lia.
    destruct (define_good g6 br (BCond [] (Some ds) (Some en0)) G6 (full_cond _ _ _)
                (cond_edges _ _ _ _ T F)) as [Gd Nd].
    split; [exact Gd|]. rewrite Nd. split; [lia|]. split; [lia|].
    intros HL. apply define_no_edge; [exact (N6 HL)|]. cbn. intros [Q|[Q|[]]]; lia.
  - (* EBreak *)
    destruct (add_block g (BSimple [] (l_brk c))) as [b g1] eqn:E1. injection E as <- _ <-.
    exact (add_simple_f (rdy_any R (proj1 P)) E1).
  - (* EContinue *)
    destruct (add_block g (BSimple [] (l_cont c))) as [b g1] eqn:E1. injection E as <- _ <-.
    exact (add_simple_f (rdy_any R (proj2 P)) E1).
  - (* EAssert *)
    destruct conds as [|c1 [|c2 rest]].
    + cbn [lower_asserts] in E.
      destruct (add_block g (BSimple [] k)) as [st g2] eqn:E2. injection E as <- _ <-.
      exact (add_simple_f R E2).
    + exact (lower_assert1_ok M (Forall_inv H c) R E).
    + (* several conditions: the chain of their single-condition Asserts *)
      change (lower_asserts (lower o c) (o_version o) cm)
        with (lower_chain (lower_assert1 (lower o c) (o_version o) cm)) in E.
      destruct (lower_chain (lower_assert1 (lower o c) (o_version o) cm) (c1 :: c2 :: rest) k g)
        as [[ks en0] g1] eqn:E1.
      destruct (add_block g1 (BSimple [] ks)) as [st g2] eqn:E2. injection E as <- _ <-.
      assert (A : Forall (lw_shape (lower_assert1 (lower o c) (o_version o) cm) (ctx_ok c)) (c1 :: c2 :: rest)).
      { eapply Forall_impl; [|exact H]. intros a Ha k0 g0 [[sa ea] ga] G0 P0 K0 Ea.
        exact (lower_assert1_ok M (Ha c) (conj G0 (conj P0 K0)) Ea). }
      destruct (lower_chain_ok M A R E1) as (R1 & M1 & _).
      exact (fpost_base M1 (add_simple_f R1 E2)).
  - (* EReturn *)
    destruct (add_block g (BSimple [I match l_sub_ret c with Some _ => O_retsub | None => O_return_ end []] k))
      as [opb g1] eqn:E1.
    pose proof (add_simple_f R E1) as F1.
    destruct v as [x|]; [|injection E as <- _ <-; exact F1].
    destruct (lower o c x (Some opb) g1) as [[s0 e0] g2] eqn:E2. injection E as <- _ <-.
    exact (step_lw M (opt_all_some _ _ H c) R F1 E2).
  - (* EExit *)
    destruct (add_block g (BSimple [I O_return_ []] k)) as [opb g1] eqn:E1.
    destruct (lower o c e (Some opb) g1) as [[s0 e0] g2] eqn:E2. injection E as <- _ <-.
    exact (step_lw M (IHe c) R (add_simple_f R E1) E2).
  - (* EMulti *)
    destruct (lower_stores outs k None g) as [[kst lastst] g1] eqn:E1.
    destruct (add_block g1 (BSimple [I o0 imms] kst)) as [opb g2] eqn:E2.
    destruct (lower_chain (lower o c) args (Some opb) g2) as [[ks x] g3] eqn:E3. injection E as <- _ <-.
    destruct (lower_stores_ok M R E1) as [R1 M1].
    pose proof (add_simple_f R1 E2) as F2. apply (fpost_base M1).
    exact (chain_after R1 F2 (lower_chain_ok M (Forall_inst _ _ c H) (fpost_rdy M R1 F2) E3)).
  - (* ECall *)
    destruct (add_block g (BSimple [I O_callsub [ASub s]] k)) as [opb g1] eqn:E1.
    destruct (lower_chain (lower o c) args (Some opb) g1) as [[ks x] g2] eqn:E2. injection E as <- _ <-.
    pose proof (add_simple_f R E1) as F1.
    exact (chain_after R F1 (lower_chain_ok M (Forall_inst _ _ c H) (fpost_rdy M R F1) E2)).
  - (* EWide *)
    destruct (add_block g (BSimple combine_ops k)) as [cb g1] eqn:E1.
    destruct (lower_factors (lower o c) ds (Some cb) g1) as [[dstart dend] g2] eqn:E2.
    destruct (lower_factors (lower o c) ns (Some dstart) g2) as [[nstart nend] g3] eqn:E3.
    injection E as <- _ <-.
    pose proof (add_simple_f R E1) as F1.
    pose proof (fpost_trans F1 (lower_factors_ok M (Forall_inst _ _ c H0) (fpost_rdy M R F1) E2)) as F2.
    exact (fpost_trans F2 (lower_factors_ok M (Forall_inst _ _ c H) (fpost_rdy M R F2) E3)).
  - (* EParam *)
    destruct (add_block g (BSimple [l_param c i] k)) as [b g1] eqn:E1. injection E as <- _ <-.
    exact (add_simple_f R E1).
Qed.

Theorem lower_root_shape o c e s en g :
  l_brk c = None -> l_cont c = None ->
  lower o c e None empty_graph = ((s, en), g) ->
  wf g /\ cond_full g /\ (forall x, g_inc g x = []) /\
  (head_loop e = false -> forall p, ~ In s (out_of g p)).
Proof.
  intros B C E.
  assert (P : ctx_ok c empty_graph) by (split; [rewrite B|rewrite C]; exact Logic.I).
  pose proof (lower_ok o e c None empty_graph _ good_empty P Logic.I E) as X. cbn [fst snd] in X.
  destruct X as ((Cl & F & Z) & _ & _ & N).
  split; [exact (frame_wf _ _ (lower_frame o e c None empty_graph (s, en) g wf_empty E))|].
  split; [exact F|]. split; [exact Z|].
  intros HL p I. unfold out_of in I. destruct (g_blk g p) as [b|] eqn:Eb; [|destruct I].
  exact (N HL p b Eb I).
Qed.
