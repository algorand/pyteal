(* Proofs/NormalizeGraph.v — bookkeeping for the NormalizeBlocks proofs: edge substitution [esub]
   (what replaceOutgoing may do to a block), its instances, and what the two [fold_left]s of the pass
   bodies do to blocks and incoming lists.  No semantics occurs.  [bskip], [rd], [map_out] are those
   of Proofs/NormalizeSem.v; CallX/NormalizeCorrect.v uses these lemmas for the copies of
   CallX/NormalizeSem.v, which have the same bodies and are convertible. *)
From Coq Require Import List Arith NArith String Bool Lia.
From PV Require Import Base.Bytes AVM.Syntax AVM.Machine Src.Expr Src.Denote
  Comp.Blocks Comp.Lower Comp.Passes Comp.GraphSem Comp.SimCheck Proofs.LowerFrame Proofs.NormalizeSem.
Import ListNotations.

Lemma opt_id_is_true o x : opt_id_is o x = true <-> o = Some x.
Proof.
  destruct o as [y|]; cbn; [|split; discriminate].
  destruct (Nat.eqb_spec x y); split; intros H; congruence.
Qed.

Lemma opt_id_is_false o x : opt_id_is o x = false <-> o <> Some x.
Proof.
  destruct (opt_id_is o x) eqn:E.
  - apply opt_id_is_true in E. split; [discriminate|congruence].
  - split; [|reflexivity]. intros _ H. apply opt_id_is_true in H. congruence.
Qed.

Lemma mem_id_In x l : mem_id x l = true <-> In x l.
Proof.
  induction l as [|y t IH]; cbn; [split; [discriminate|tauto]|].
  rewrite orb_true_iff, IH. destruct (Nat.eqb_spec x y); split; intros [H|H]; auto; try discriminate.
Qed.

Lemma mem_id_false x l : mem_id x l = false <-> ~ In x l.
Proof.
  rewrite <- mem_id_In. destruct (mem_id x l); split; congruence.
Qed.

Lemma rd_old old new : rd old new old = new.
Proof. unfold rd. rewrite Nat.eqb_refl. reflexivity. Qed.
Lemma rd_other old new x : x <> old -> rd old new x = x.
Proof. unfold rd. intros H. destruct (Nat.eqb_spec x old); [contradiction|reflexivity]. Qed.
Lemma rd_same old x : rd old old x = x.
Proof. unfold rd. destruct (Nat.eqb_spec x old); congruence. Qed.

Definition osub (old new : id) (o o' : option id) : Prop :=
  o' = o \/ (o = Some old /\ o' = Some new).

Definition esub (old new : id) (b b' : block) : Prop :=
  match b, b' with
  | BSimple o n, BSimple o' n' => o' = o /\ osub old new n n'
  | BCond o t f, BCond o' t' f' => o' = o /\ osub old new t t' /\ osub old new f f'
  | _, _ => False
  end.

Lemma osub_refl old new o : osub old new o o.
Proof. left. reflexivity. Qed.

Lemma osub_trans old new a b c : osub old new a b -> osub old new b c -> osub old new a c.
Proof.
  intros [H1|[H1 H1']] [H2|[H2 H2']]; subst.
  - left; reflexivity.
  - right; split; reflexivity.
  - right; split; reflexivity.
  - right; split; congruence.
Qed.

Lemma esub_refl old new b : esub old new b b.
Proof. destruct b; cbn; repeat split; apply osub_refl. Qed.

Lemma esub_trans old new a b c : esub old new a b -> esub old new b c -> esub old new a c.
Proof.
  destruct a, b, c; cbn; try contradiction.
  - intros [E1 H1] [E2 H2]. split; [congruence|eapply osub_trans; eauto].
  - intros (E1 & H1 & K1) (E2 & H2 & K2). repeat split; [congruence| |]; eapply osub_trans; eauto.
Qed.

Inductive esub_spec (old new : id) : block -> block -> Prop :=
| es_simple o n n' : osub old new n n' -> esub_spec old new (BSimple o n) (BSimple o n')
| es_cond o t f t' f' : osub old new t t' -> osub old new f f' ->
    esub_spec old new (BCond o t f) (BCond o t' f').

Lemma esubP old new b b' : esub old new b b' -> esub_spec old new b b'.
Proof.
  destruct b as [o n|o t f], b' as [o' n'|o' t' f']; cbn; try contradiction.
  - intros [E H]. subst o'. constructor. exact H.
  - intros (E & H1 & H2). subst o'. constructor; assumption.
Qed.

Lemma esub_set_ops old new b b' o : esub old new b b' -> esub old new (set_ops b o) (set_ops b' o).
Proof. intros H. destruct (esubP _ _ _ _ H); cbn; repeat split; assumption. Qed.

Lemma osub_some old new o o' : osub old new o o' -> (o = None <-> o' = None).
Proof. intros [H|[H H']]; subst; [tauto|split; discriminate]. Qed.

Lemma esub_full old new b b' : esub old new b b' -> full_b b -> full_b b'.
Proof.
  intros H. destruct (esubP _ _ _ _ H) as [|o t f t' f' H1 H2]; cbn; [tauto|].
  intros [F1 F2]. apply osub_some in H1, H2. tauto.
Qed.

Lemma full_set_ops b o : full_b b -> full_b (set_ops b o).
Proof. destruct b; cbn; tauto. Qed.

Definition oin (x : id) (o : option id) : Prop := o = Some x.

Lemma in_outgoing x b :
  In x (outgoing b) <->
  match b with BSimple _ n => oin x n | BCond _ t f => oin x t \/ oin x f end.
Proof.
  unfold oin. destruct b as [o [n|]|o [t|] [f|]]; cbn; intuition congruence.
Qed.

Lemma osub_in old new o o' x : osub old new o o' -> oin x o' -> oin x o \/ (oin old o /\ x = new).
Proof.
  unfold oin. intros [H|[H H']] E; subst; [left; reflexivity|].
  right. split; [reflexivity|congruence].
Qed.

Lemma esub_out old new b b' x :
  esub old new b b' -> In x (outgoing b') ->
  In x (outgoing b) \/ (In old (outgoing b) /\ x = new).
Proof.
  intros H. rewrite !in_outgoing. destruct (esubP _ _ _ _ H) as [o n n' H1|o t f t' f' H1 H2].
  - apply osub_in. exact H1.
  - intros [E|E].
    + destruct (osub_in _ _ _ _ _ H1 E) as [K|[K K']]; tauto.
    + destruct (osub_in _ _ _ _ _ H2 E) as [K|[K K']]; tauto.
Qed.

Lemma esub_no_old old new b b' :
  esub old new b b' -> old <> new -> ~ In old (outgoing b) -> ~ In old (outgoing b').
Proof.
  intros H N K I. destruct (esub_out _ _ _ _ _ H I) as [E|[_ E]]; [contradiction|congruence].
Qed.

Lemma osub_complete old new o o' :
  osub old new o o' -> o' <> Some old -> o' = option_map (rd old new) o.
Proof.
  intros [H|[H H']] N; subst.
  - destruct o as [x|]; [|reflexivity]. cbn. rewrite rd_other; [reflexivity|congruence].
  - cbn. rewrite rd_old. reflexivity.
Qed.

Lemma esub_complete_map old new b b' :
  esub old new b b' -> ~ In old (outgoing b') -> b' = map_out (rd old new) b.
Proof.
  intros H. rewrite in_outgoing. unfold oin.
  destruct (esubP _ _ _ _ H); cbn [map_out]; intros N; f_equal; apply osub_complete; tauto.
Qed.

Lemma osub_same x o o' : osub x x o o' -> o' = o.
Proof. intros [H|[H H']]; congruence. Qed.

Lemma esub_same x b b' : esub x x b b' -> b' = b.
Proof.
  intros H. destruct (esubP _ _ _ _ H) as [o n n' H1|o t f t' f' H1 H2].
  - apply osub_same in H1. congruence.
  - apply osub_same in H1, H2. congruence.
Qed.

Lemma esub_bskip (G : bgraph) old new b b' :
  G old = Some (BSimple [] (Some new)) -> esub old new b b' -> bskip G b b'.
Proof.
  intros HG.
  assert (K : forall o o', osub old new o o' -> oskip G o o').
  { intros o o' [H|[H H']]; subst.
    - destruct o; cbn; [left; reflexivity|exact Logic.I].
    - cbn. right. exact HG. }
  intros H. destruct (esubP _ _ _ _ H); cbn; repeat split; auto.
Qed.

Lemma osub_hit old new o : opt_id_is o old = true -> osub old new o (Some new).
Proof. intros E. right. split; [apply opt_id_is_true; exact E|reflexivity]. Qed.

Lemma replace_outgoing_elif_esub b old new : esub old new b (replace_outgoing_elif b old new).
Proof.
  destruct b as [o n|o t f]; cbn [replace_outgoing_elif].
  - destruct (opt_id_is n old) eqn:E; [|apply esub_refl]. split; [reflexivity|apply osub_hit; exact E].
  - destruct (opt_id_is t old) eqn:E.
    + repeat split; [apply osub_hit; exact E|apply osub_refl].
    + destruct (opt_id_is f old) eqn:E'; [|apply esub_refl].
      repeat split; [apply osub_refl|apply osub_hit; exact E'].
Qed.

Lemma replace_outgoing_esub b old new : esub old new b (replace_outgoing b old new).
Proof.
  assert (K : forall n, osub old new n (if opt_id_is n old then Some new else n)).
  { intros n. destruct (opt_id_is n old) eqn:E; [apply osub_hit; exact E|apply osub_refl]. }
  destruct b as [o n|o t f]; cbn [replace_outgoing].
  - destruct (opt_id_is n old) eqn:E; [|apply esub_refl]. split; [reflexivity|apply osub_hit; exact E].
  - repeat split; apply K.
Qed.

Lemma replace_outgoing_elif_complete b old new :
  dist_b b -> old <> new -> ~ In old (outgoing (replace_outgoing_elif b old new)).
Proof.
  intros D N. rewrite in_outgoing. unfold oin.
  destruct b as [o n|o t f]; cbn [replace_outgoing_elif].
  - destruct (opt_id_is n old) eqn:E; [intros H; congruence|].
    apply opt_id_is_false in E. exact E.
  - destruct (opt_id_is t old) eqn:E.
    + apply opt_id_is_true in E. subst t. intros [H|H]; [congruence|].
      subst f. cbn in D. congruence.
    + apply opt_id_is_false in E. destruct (opt_id_is f old) eqn:E'.
      * intros [H|H]; congruence.
      * apply opt_id_is_false in E'. tauto.
Qed.

Lemma replace_outgoing_complete b old new :
  old <> new -> ~ In old (outgoing (replace_outgoing b old new)).
Proof.
  intros N. rewrite in_outgoing. unfold oin.
  destruct b as [o n|o t f]; cbn [replace_outgoing].
  - destruct (opt_id_is n old) eqn:E; [intros H; congruence|].
    apply opt_id_is_false in E. exact E.
  - destruct (opt_id_is t old) eqn:E, (opt_id_is f old) eqn:E';
      try apply opt_id_is_false in E; try apply opt_id_is_false in E'; intros [H|H]; congruence.
Qed.

Lemma dist_esub b b' old new :
  dist_b b -> esub old new b b' -> (old = new \/ ~ In new (outgoing b)) -> dist_b b'.
Proof.
  intros D H [E|K].
  - subst. apply esub_same in H. subst. exact D.
  - rewrite in_outgoing in K. unfold oin in K.
    destruct (esubP _ _ _ _ H) as [|o t f t' f' [H1|[H1 H1']] [H2|[H2 H2']]]; subst; cbn in *.
    + exact Logic.I.
    + exact D.
    + destruct t as [t|]; [|exact Logic.I]. intros Q. subst. tauto.
    + destruct f as [f|]; [|exact Logic.I]. intros Q. subst. tauto.
    + congruence.
Qed.

Lemma dist_set_ops b o : dist_b b -> dist_b (set_ops b o).
Proof. destruct b; cbn; tauto. Qed.

Lemma out_of_blk g i b : g_blk g i = Some b -> out_of g i = outgoing b.
Proof. intros E. unfold out_of. rewrite E. reflexivity. Qed.

Lemma out_of_in g i x : In x (out_of g i) -> exists b, g_blk g i = Some b /\ In x (outgoing b).
Proof. unfold out_of. destruct (g_blk g i) as [b|]; [eauto|intros []]. Qed.

Lemma out_of_ext g h b : g_blk g = g_blk h -> out_of g b = out_of h b.
Proof. intros E. unfold out_of. rewrite E. reflexivity. Qed.

Lemma reach_trans g a b c : reach g a b -> reach g b c -> reach g a c.
Proof. intros H1 H2. induction H2; [exact H1|eapply reach_step; eauto]. Qed.

Lemma reach_mono g g' a b :
  (forall p x, In x (out_of g p) -> In x (out_of g' p)) -> reach g a b -> reach g' a b.
Proof. intros H. induction 1; [apply reach_refl|eapply reach_step; eauto]. Qed.

Lemma out_single g p x : cond_full g -> out_of g p = [x] ->
  exists o, g_blk g p = Some (BSimple o (Some x)).
Proof.
  intros F. unfold out_of. destruct (g_blk g p) as [b|] eqn:E; [|discriminate].
  specialize (F p b E). destruct b as [o [n|]|o [t|] [f|]]; cbn in *; try discriminate; try tauto.
  intros H. injection H as H. subst. eauto.
Qed.

Lemma count_id_notin x l : ~ In x l -> count_id x l = 0.
Proof.
  induction l as [|y t IH]; [reflexivity|]. cbn. intros N.
  destruct (Nat.eqb_spec x y); [exfalso; apply N; left; congruence|].
  apply IH. intros H. apply N. right. exact H.
Qed.

Lemma count_id_nodup x l : NoDup l -> In x l -> count_id x l = 1.
Proof.
  induction 1 as [|y t N ND IH]; [intros []|]. cbn. intros [E|I].
  - subst. rewrite Nat.eqb_refl, (count_id_notin x t N). reflexivity.
  - destruct (Nat.eqb_spec x y); [subst; contradiction|]. apply IH. exact I.
Qed.

Lemma count_id_in x l : count_id x l <> 0 -> In x l.
Proof.
  induction l as [|y t IH]; cbn; [congruence|].
  destruct (Nat.eqb_spec x y); [left; congruence|]. intros H. right. apply IH. exact H.
Qed.

Lemma remove_first_in x y l : In y l -> y <> x -> In y (remove_first x l).
Proof.
  induction l as [|z t IH]; [intros []|]. cbn. intros [E|I] N.
  - subst. destruct (Nat.eqb_spec x y); [congruence|left; reflexivity].
  - destruct (Nat.eqb_spec x z); [exact I|right; apply IH; assumption].
Qed.

Lemma remove_first_incl x l : incl (remove_first x l) l.
Proof.
  induction l as [|z t IH]; [intros y []|]. cbn.
  destruct (Nat.eqb_spec x z); intros y H; [right; exact H|].
  destruct H as [H|H]; [left; exact H|right; apply IH; exact H].
Qed.

Lemma remove_first_nodup x l : NoDup l -> NoDup (remove_first x l).
Proof.
  induction 1 as [|z t N ND IH]; [constructor|]. cbn.
  destruct (Nat.eqb_spec x z); [exact ND|].
  constructor; [|exact IH]. intros H. apply N. eapply remove_first_incl. exact H.
Qed.

Lemma nodup_snoc {A} (x : A) l : NoDup l -> ~ In x l -> NoDup (l ++ [x]).
Proof. intros N K. apply (NoDup_Add (Add_app x l [])). rewrite app_nil_r. split; assumption. Qed.

Section Folds.
  Variable ro : block -> id -> id -> block.
  Hypothesis ro_sub : forall b old new, esub old new b (ro b old new).

  (* pass 1: re-point the members of prev.incoming *)
  Definition f1 (old new : id) (g : graph) (i : id) : graph :=
    match g_blk g i with Some ib => set_blk g i (ro ib old new) | None => g end.

  Lemma f1_inc old new g i : g_inc (f1 old new g i) = g_inc g /\ g_next (f1 old new g i) = g_next g.
  Proof. unfold f1. destruct (g_blk g i); split; reflexivity. Qed.

  Lemma f1_blk old new g i j :
    g_blk (f1 old new g i) j =
    if Nat.eqb j i then option_map (fun b => ro b old new) (g_blk g i) else g_blk g j.
  Proof.
    unfold f1. destruct (Nat.eqb_spec j i) as [E|E].
    - subst. destruct (g_blk g i) eqn:Eb; cbn; [apply upd_same|exact Eb].
    - destruct (g_blk g i); cbn; [apply upd_other; exact E|reflexivity].
  Qed.

  Lemma fold1_inc old new l : forall g,
    g_inc (fold_left (f1 old new) l g) = g_inc g /\ g_next (fold_left (f1 old new) l g) = g_next g.
  Proof.
    induction l as [|a t IH]; intros g; cbn [fold_left]; [split; reflexivity|].
    destruct (IH (f1 old new g a)) as [H1 H2]. destruct (f1_inc old new g a) as [K1 K2].
    split; congruence.
  Qed.

  Lemma fold1_blk old new l : forall g i,
    match g_blk g i with
    | None => g_blk (fold_left (f1 old new) l g) i = None
    | Some b => exists b', g_blk (fold_left (f1 old new) l g) i = Some b' /\ esub old new b b'
    end.
  Proof.
    induction l as [|a t IH]; intros g i; cbn [fold_left].
    - destruct (g_blk g i) as [b|]; [|reflexivity]. exists b. split; [reflexivity|apply esub_refl].
    - specialize (IH (f1 old new g a) i). rewrite f1_blk in IH.
      destruct (Nat.eqb_spec i a) as [E|E].
      + subst a. destruct (g_blk g i) as [b|]; cbn [option_map] in IH; [|exact IH].
        destruct IH as (b' & H1 & H2). exists b'. split; [exact H1|].
        eapply esub_trans; [apply ro_sub|exact H2].
      + exact IH.
  Qed.

  Lemma fold1_notin old new l : forall g i, ~ In i l -> g_blk (fold_left (f1 old new) l g) i = g_blk g i.
  Proof.
    induction l as [|a t IH]; intros g i N; cbn [fold_left]; [reflexivity|].
    rewrite IH by (intros H; apply N; right; exact H).
    rewrite f1_blk. destruct (Nat.eqb_spec i a); [|reflexivity].
    subst. exfalso. apply N. left. reflexivity.
  Qed.

  Lemma fold1_complete old new l : forall g i b,
    In i l -> g_blk g i = Some b -> old <> new -> ~ In old (outgoing (ro b old new)) ->
    exists b', g_blk (fold_left (f1 old new) l g) i = Some b' /\ ~ In old (outgoing b').
  Proof.
    induction l as [|a t IH]; intros g i b I E N C; [destruct I|]. cbn [fold_left].
    destruct (Nat.eq_dec a i) as [Q|Q].
    - subst a. pose proof (fold1_blk old new t (f1 old new g i) i) as H.
      rewrite f1_blk, Nat.eqb_refl, E in H. cbn [option_map] in H.
      destruct H as (b' & H1 & H2). exists b'. split; [exact H1|].
      eapply esub_no_old; eauto.
    - destruct I as [I|I]; [contradiction|].
      apply (IH (f1 old new g a) i b I); auto.
      rewrite f1_blk. destruct (Nat.eqb_spec i a); [congruence|exact E].
  Qed.

  (* pass 2: re-point the members of block.incoming and register them with the successor *)
  Definition f2 (old new : id) (g : graph) (p : id) : graph :=
    let g' := match g_blk g p with Some pb => set_blk g p (ro pb old new) | None => g end in
    if mem_id p (g_inc g' new) then g' else set_inc g' new (g_inc g' new ++ [p]).

  Lemma f2_f1 old new g p :
    g_blk (f2 old new g p) = g_blk (f1 old new g p) /\ g_next (f2 old new g p) = g_next g.
  Proof.
    unfold f2, f1. destruct (g_blk g p); cbn; destruct (mem_id p _); split; reflexivity.
  Qed.

  Lemma f2_inc old new g p x :
    g_inc (f2 old new g p) x =
    if Nat.eqb x new then (if mem_id p (g_inc g new) then g_inc g new else g_inc g new ++ [p])
    else g_inc g x.
  Proof.
    unfold f2.
    assert (K : g_inc (match g_blk g p with Some pb => set_blk g p (ro pb old new) | None => g end) = g_inc g)
      by (destruct (g_blk g p); reflexivity).
    rewrite K. destruct (mem_id p (g_inc g new)) eqn:M.
    - rewrite K. destruct (Nat.eqb_spec x new); congruence.
    - cbn [set_inc g_inc]. rewrite K. unfold upd. destruct (Nat.eqb_spec x new); reflexivity.
  Qed.

  Lemma f1_blk_ext old new g h a : g_blk g = g_blk h -> g_blk (f1 old new g a) = g_blk (f1 old new h a).
  Proof. intros E. unfold f1. rewrite E. destruct (g_blk h a); unfold set_blk, define; cbn [g_blk]; rewrite E; reflexivity. Qed.

  (* on the blocks, pass 2 does what pass 1 does *)
  Lemma fold2_fold1 old new l : forall g h, g_blk g = g_blk h ->
    g_blk (fold_left (f2 old new) l g) = g_blk (fold_left (f1 old new) l h).
  Proof.
    induction l as [|a t IH]; intros g h E; cbn [fold_left]; [exact E|].
    apply IH. rewrite (proj1 (f2_f1 old new g a)). apply f1_blk_ext. exact E.
  Qed.

  Lemma fold2_blk old new l : forall g i,
    match g_blk g i with
    | None => g_blk (fold_left (f2 old new) l g) i = None
    | Some b => exists b', g_blk (fold_left (f2 old new) l g) i = Some b' /\ esub old new b b'
    end.
  Proof. intros g i. rewrite (fold2_fold1 old new l g g eq_refl). apply fold1_blk. Qed.

  Lemma fold2_next old new l : forall g, g_next (fold_left (f2 old new) l g) = g_next g.
  Proof.
    induction l as [|a t IH]; intros g; cbn [fold_left]; [reflexivity|].
    rewrite IH. apply f2_f1.
  Qed.

  Lemma fold2_notin old new l : forall g i, ~ In i l -> g_blk (fold_left (f2 old new) l g) i = g_blk g i.
  Proof. intros g i. rewrite (fold2_fold1 old new l g g eq_refl). apply fold1_notin. Qed.

  Lemma fold2_complete old new l : forall g i b,
    In i l -> g_blk g i = Some b -> old <> new -> ~ In old (outgoing (ro b old new)) ->
    exists b', g_blk (fold_left (f2 old new) l g) i = Some b' /\ ~ In old (outgoing b').
  Proof. intros g i b. rewrite (fold2_fold1 old new l g g eq_refl). apply fold1_complete. Qed.

  Lemma fold2_inc_other old new l : forall g x, x <> new ->
    g_inc (fold_left (f2 old new) l g) x = g_inc g x.
  Proof.
    induction l as [|a t IH]; intros g x N; cbn [fold_left]; [reflexivity|].
    rewrite IH by exact N. rewrite f2_inc. destruct (Nat.eqb_spec x new); [contradiction|reflexivity].
  Qed.

  Lemma fold2_inc_new old new l : forall g,
    incl (g_inc g new) (g_inc (fold_left (f2 old new) l g) new) /\
    incl l (g_inc (fold_left (f2 old new) l g) new) /\
    (NoDup (g_inc g new) -> NoDup (g_inc (fold_left (f2 old new) l g) new)).
  Proof.
    induction l as [|a t IH]; intros g; cbn [fold_left].
    - repeat split; [apply incl_refl|intros x []|auto].
    - destruct (IH (f2 old new g a)) as (H1 & H2 & H3).
      assert (K : g_inc (f2 old new g a) new =
                  if mem_id a (g_inc g new) then g_inc g new else g_inc g new ++ [a])
        by (rewrite f2_inc, Nat.eqb_refl; reflexivity).
      assert (Ka : In a (g_inc (f2 old new g a) new)).
      { rewrite K. destruct (mem_id a (g_inc g new)) eqn:M; [apply mem_id_In; exact M|].
        apply in_or_app. right. left. reflexivity. }
      assert (Ki : incl (g_inc g new) (g_inc (f2 old new g a) new)).
      { rewrite K. destruct (mem_id a (g_inc g new)); [apply incl_refl|apply incl_appl, incl_refl]. }
      repeat split.
      + eapply incl_tran; eauto.
      + intros x [E|I]; [subst; apply H1; exact Ka|apply H2; exact I].
      + intros ND. apply H3. rewrite K. destruct (mem_id a (g_inc g new)) eqn:M; [exact ND|].
        apply nodup_snoc; [exact ND|]. apply mem_id_false. exact M.
  Qed.
End Folds.

Lemma tree_valid_of_cov g s : inc_covers g s -> (forall x, NoDup (g_inc g x)) -> tree_valid g s.
Proof. intros C N p b R I. apply count_id_nodup; [apply N|apply (C p b R I)]. Qed.

Lemma cov_of_tree_valid g s : tree_valid g s -> inc_covers g s.
Proof. intros T p b R I. apply count_id_in. rewrite (T p b R I). discriminate. Qed.
