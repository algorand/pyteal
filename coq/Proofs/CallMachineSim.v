(* Proofs/CallMachineSim.v — properties C02 and C01: the WHOLE-RUN machine bridge for LINKED code and, as its
   call-free case, for the list of ONE routine.
   For the linked-program semantics with a CALL STACK (Comp/LinkedSem.v [pstep]): every step of [pstep] — ordinary
   operation, b/bz/bnz, [callsub <label>] pushing a return position, [retsub] popping it, and every halting
   outcome — is matched by [Machine.step] on the program the assembler builds ([link msel code], Proofs/StageELink.v),
   the call stack of return POSITIONS (indices into the component list) being related to the machine's frames of
   return PCs (indices into the list of real instructions) by [mpc].  Hence a run [pstar] to a halting
   configuration gives the verdict of [Machine.run].  The step simulation is that of Proofs/CallMachineFpSem.v, of
   which [pstep] is the fragment without frame instructions ([fstep_conservative]); the list semantics
   (Comp/LinearSem.v [lstep]) is in turn [pstep] with an empty call stack, up to [callsub] ([lstep_pstep]).

   Coverage: the scratch-slot convention.  [proto], [frame_dig], [frame_bury], constant blocks, [switch]/[match]
   and the opcodes [exec_op] does not model are [PUnsup] in Comp/LinkedSem.v: no claim is made for a run that
   reaches one of them.  All frames on the call stack are frames WITHOUT [proto]. *)
From Coq Require Import List Arith NArith Ascii String Bool Lia.
From PV Require Import AVM.Syntax AVM.Machine Src.Denote Comp.LinearSem Comp.LinkedSem Proofs.MachineStep
  Proofs.StageELink Proofs.CallComposeMachine Proofs.CallMachineFpSem.
Import ListNotations.

(* the machine frames a call stack of list positions stands for: return pc = number of real instructions
   before the return position, no [proto] *)
Definition mframes (code : list comp) (fr : list nat) : list frame := frames_of (map (mpc code) fr).

Definition prel (code : list comp) (fr : list nat) (pc : nat) (stk : list value) (st : mstate) (m : mach) : Prop :=
  m_pc m = mpc code pc /\ m_stack m = stk /\ m_st m = st /\ m_calls m = mframes code fr.

(* the verdict the machine gives when the linked program halts; [PUnsup] (the semantics is inconclusive) has none *)
Definition pverdict_of (h : pconf) : option verdict :=
  match h with
  | PExit v _ => Some (exit_verdict v)
  | PEnd stk _ => Some (end_verdict stk)
  | PFail => Some VFail
  | PUnsup _ => None
  | PAt _ _ _ _ => None
  end.

(* the machine at the moment of the verdict *)
Definition pfinal_ok (h : pconf) (m : mach) : Prop :=
  match h with
  | PExit v st => m_st m = st /\ hd_error (m_stack m) = Some v
  | PEnd stk st => m_st m = st /\ m_stack m = stk
  | _ => True
  end.

(* [prel] is [frel] of the embedded call stack *)
Lemma frel_emb code fr fcs pc stk st m :
  frel code (map (fun r => mkFF r None) fr) fcs pc stk st m <-> prel code fr pc stk st m /\ m_from_callsub m = fcs.
Proof.
  unfold frel, prel, fframes, mframes, frames_of. rewrite !map_map. cbn [ff_ret ff_proto]. tauto.
Qed.

Section PSim.
  Variable env : denv.
  Variable code : list comp.
  Variable P : program.
  Hypothesis LS : linked (e_msel env) code P.
  Hypothesis TG : targets_ok code = true.

  Lemma psim_step fr pc stk st m c' :
    prel code fr pc stk st m -> List.length stk <= STACK_MAX ->
    pstep env code (PAt fr pc stk st) = Some c' ->
    match c' with
    | PAt fr' pc' stk' st' =>
        (exists m', step (e_ctx env) P m = Running m' /\ prel code fr' pc' stk' st' m') \/
        (prel code fr' pc' stk' st' m /\ fr' = fr /\ exists c, nth_error code pc = Some c /\ real c = false)
    | PUnsup _ => True
    | h => exists v, pverdict_of h = Some v /\ step (e_ctx env) P m = Done v m /\ pfinal_ok h m
    end.
  Proof.
    intros R Hh Hstep.
    assert (NU : (exists o, c' = PUnsup o) \/ forall o, c' <> PUnsup o)
      by (destruct c'; try (right; discriminate); left; eexists; reflexivity).
    destruct NU as [[o ->]|NU]; [exact I|].
    destruct (fstep_conservative env code _ _ Hstep NU (m_from_callsub m)) as [fcs' FS]. cbn [embF] in FS.
    (* no frame instruction at pc: the position is linked as the frame-pointer semantics expects *)
    assert (Hat : at_pos (e_msel env) code (pr_code P) pc (option_map norm_comp (nth_error code pc))).
    { pose proof (linked_at _ _ _ LS pc) as H. cbn [pstep] in Hstep.
      destruct (nth_error code pc) as [[i| |]|]; try exact H. cbn [option_map norm_comp].
      destruct (frame_op i) as [f|] eqn:Ef; [|rewrite (norm_none i Ef); exact H].
      destruct (pstep_op_frame_unsup env code fr pc i stk st f Ef) as [o E].
      injection Hstep as <-. destruct (NU o E). }
    pose proof (fsim_at env code P (proj2 (proj2 LS)) TG _ _ pc stk st m _ Hat
                  (proj2 (frel_emb code fr _ pc stk st m) (conj R eq_refl)) Hh FS) as Sim.
    destruct c' as [fr' pc' stk' st'|stk' st'|v' st'| |o]; try exact Sim. cbn [embF fsim_concl] in Sim.
    destruct Sim as [(m' & St & R')|(R' & E & Hc)].
    - left. exists m'. split; [exact St|exact (proj1 (proj1 (frel_emb _ _ _ _ _ _ _) R'))].
    - right. split; [exact (proj1 (proj1 (frel_emb _ _ _ _ _ _ _) R'))|]. split; [|exact Hc].
      apply (f_equal (map ff_ret)) in E. rewrite !map_map in E. cbn [ff_ret] in E. rewrite !map_id in E. exact E.
  Qed.
End PSim.

(* the step-for-step statement in one piece, for the property file *)
Theorem machine_simulates_linked env code P :
  link (e_msel env) code = Some P -> targets_ok code = true ->
  forall fr pc stk st m c', prel code fr pc stk st m -> List.length stk <= STACK_MAX ->
    pstep env code (PAt fr pc stk st) = Some c' ->
    match c' with
    | PAt fr' pc' stk' st' =>
        (exists m', step (e_ctx env) P m = Running m' /\ prel code fr' pc' stk' st' m') \/
        (prel code fr' pc' stk' st' m /\ fr' = fr /\ exists c, nth_error code pc = Some c /\ real c = false)
    | PUnsup _ => True
    | h => exists v, pverdict_of h = Some v /\ step (e_ctx env) P m = Done v m /\ pfinal_ok h m
    end.
Proof. intros LK TG. exact (psim_step env code P (link_linked _ _ _ LK) TG). Qed.

(* the two call rules, spelled out: what the machine does at a callsub / retsub of the linked list *)
Corollary machine_linked_callsub env code P :
  link (e_msel env) code = Some P -> targets_ok code = true ->
  forall fr pc stk st m i l p,
    prel code fr pc stk st m -> List.length stk <= STACK_MAX ->
    nth_error code pc = Some (COp i) -> call_label i = Some l -> find_label l code = Some p ->
    exists m', step (e_ctx env) P m = Running m' /\ prel code (S pc :: fr) p stk st m'.
Proof.
  intros LK TG fr pc stk st m i l p R Hh En Ecl Ep.
  assert (Hs : pstep env code (PAt fr pc stk st) = Some (PAt (S pc :: fr) p stk st)).
  { cbn [pstep]. rewrite En. f_equal. unfold pstep_op.
    destruct (call_label_inv i l Ecl) as [Eo _]. rewrite Eo. cbn [is_return is_retsub].
    rewrite Ecl, Ep. reflexivity. }
  pose proof (machine_simulates_linked env code P LK TG fr pc stk st m _ R Hh Hs) as Sim. cbn iota in Sim.
  destruct Sim as [Sim|(_ & _ & c & Ec & Rc)]; [exact Sim|].
  rewrite En in Ec. injection Ec as <-. cbn [real] in Rc.
  destruct (call_label_inv i l Ecl) as [Eo _]. rewrite Eo in Rc. discriminate Rc.
Qed.

Corollary machine_linked_retsub env code P :
  link (e_msel env) code = Some P -> targets_ok code = true ->
  forall fr ret pc stk st m i,
    prel code (ret :: fr) pc stk st m -> List.length stk <= STACK_MAX ->
    nth_error code pc = Some (COp i) -> i_op i = O_retsub ->
    exists m', step (e_ctx env) P m = Running m' /\ prel code fr ret stk st m'.
Proof.
  intros LK TG fr ret pc stk st m i R Hh En Eo.
  assert (Hs : pstep env code (PAt (ret :: fr) pc stk st) = Some (PAt fr ret stk st)).
  { cbn [pstep]. rewrite En. f_equal. unfold pstep_op. rewrite Eo. reflexivity. }
  pose proof (machine_simulates_linked env code P LK TG (ret :: fr) pc stk st m _ R Hh Hs) as Sim. cbn iota in Sim.
  destruct Sim as [Sim|(_ & _ & c & Ec & Rc)]; [exact Sim|].
  rewrite En in Ec. injection Ec as <-. cbn [real] in Rc. rewrite Eo in Rc. discriminate Rc.
Qed.

(* the operand stack stays within the AVM's limit along the run from c0 *)
Definition pstack_bounded (env : denv) (code : list comp) (c0 : pconf) : Prop :=
  forall fr pc stk st, pstar env code c0 (PAt fr pc stk st) -> List.length stk <= STACK_MAX.

Lemma pstar_star env code c c' : pstar env code c c' <-> star (pstep env code) c c'.
Proof.
  split; induction 1 as [|? ? ? S1 _ IH]; try constructor.
  - exact (star_step _ _ _ _ S1 IH).
  - exact (pstar_step _ _ _ _ _ S1 IH).
Qed.

(* the instance of Proofs/MachineStep.v [bridge] *)
Definition pheight (c : pconf) : nat := match c with PAt _ _ stk _ => List.length stk | _ => 0 end.
Definition prel_conf (code : list comp) (c : pconf) (m : mach) : Prop :=
  match c with PAt fr pc stk st => prel code fr pc stk st m | _ => False end.

Lemma pstack_bounded_star env code c : pstack_bounded env code c -> bounded (pstep env code) pheight c.
Proof.
  intros B d H. destruct d as [fr pc stk st| | | |]; try apply Nat.le_0_l.
  exact (B fr pc stk st (proj2 (pstar_star env code _ _) H)).
Qed.

(* the whole-run bridge, for any program that is a linked program for the list *)
Theorem pbridge_linked env code P :
  linked (e_msel env) code P -> targets_ok code = true ->
  forall fr pc stk st h m v, pstar env code (PAt fr pc stk st) h -> prel code fr pc stk st m ->
    pverdict_of h = Some v -> pstack_bounded env code (PAt fr pc stk st) ->
    exists n m', (forall k, n <= k -> run k (e_ctx env) P m = (v, m')) /\ pfinal_ok h m'.
Proof.
  intros LS TG fr pc stk st h m v H R V B.
  refine (bridge (pstep env code) pheight (prel_conf code) pverdict_of pfinal_ok (e_ctx env) P _ _ _ _
            (proj1 (pstar_star env code _ _) H) m v R V (pstack_bounded_star env code _ B)).
  - intros [fr0 pc0 stk0 st0| | | |] m0 R0; try contradiction. reflexivity.
  - intros [fr0 pc0 stk0 st0| | | |] c' m0 R0 Hh S1; try contradiction.
    pose proof (psim_step env code P LS TG fr0 pc0 stk0 st0 m0 c' R0 Hh S1) as Sim.
    destruct c' as [fr' pc' stk' st'|stk' st'|v' st'| |o].
    2-4: right; right; split; [reflexivity|right; exact Sim].
    + destruct Sim as [Sim|(R1 & _)]; [left; exact Sim|right; left; exact R1].
    + right. right. split; [reflexivity|left; reflexivity].
Qed.

Theorem pmachine_bridge env code P :
  link (e_msel env) code = Some P -> targets_ok code = true ->
  forall c0 h, pstar env code c0 h ->
  forall fr pc stk st m v, c0 = PAt fr pc stk st -> prel code fr pc stk st m ->
    pverdict_of h = Some v -> pstack_bounded env code c0 ->
    exists n m', (forall k, n <= k -> run k (e_ctx env) P m = (v, m')) /\ pfinal_ok h m'.
Proof.
  intros LK TG c0 h H fr pc stk st m v -> R V B.
  exact (pbridge_linked env code P (link_linked _ _ _ LK) TG fr pc stk st h m v H R V B).
Qed.

Lemma prel_init code st : prel code [] 0 [] st (init_mach st).
Proof. repeat split. cbn. now rewrite mpc_0. Qed.

Corollary pmachine_bridge_init env code P :
  link (e_msel env) code = Some P -> targets_ok code = true ->
  forall st h v, pstar env code (PAt [] 0 [] st) h -> pverdict_of h = Some v ->
    pstack_bounded env code (PAt [] 0 [] st) ->
    exists n m', (forall k, n <= k -> run k (e_ctx env) P (init_mach st) = (v, m')) /\ pfinal_ok h m'.
Proof.
  intros LK TG st h v H V B.
  exact (pmachine_bridge env code P LK TG _ h H [] 0 [] st (init_mach st) v eq_refl (prel_init code st) V B).
Qed.

(* a checker for [pstack_bounded] on terminating runs (for examples) *)
Fixpoint pbounded_run (fuel : nat) (env : denv) (code : list comp) (c : pconf) : bool :=
  match c with
  | PAt _ _ stk _ =>
      (List.length stk <=? STACK_MAX)%nat &&
      match fuel with
      | O => false
      | S f => match pstep env code c with Some c' => pbounded_run f env code c' | None => true end
      end
  | _ => true
  end.

Lemma pbounded_run_sound env code : forall fuel c, pbounded_run fuel env code c = true -> pstack_bounded env code c.
Proof.
  intros fuel c H fr pc stk st R. apply pstar_star in R.
  refine (bounded_by (pstep env code) pheight (fun f => pbounded_run f env code) _ fuel c H _ R).
  intros f [fr0 pc0 stk0 st0| | | |] H0; try (split; [apply Nat.le_0_l|discriminate]).
  destruct f as [|f]; cbn [pbounded_run] in H0; apply andb_true_iff in H0 as [Hl Hn]; [discriminate Hn|].
  split; [apply Nat.leb_le; exact Hl|]. intros c' S1. rewrite S1 in Hn. exists f. split; [reflexivity|exact Hn].
Qed.

(* the list of one routine: [lstep] is [pstep] with an empty call stack *)
Definition lemb (c : lconf) : pconf :=
  match c with
  | LAt pc stk st => PAt [] pc stk st
  | LEnd stk st => PEnd stk st
  | LExit v st => PExit v st
  | LRet _ _ | LFail => PFail          (* retsub with an empty call stack *)
  | LUnsup o => PUnsup o
  end.

(* a [callsub] is outside the list semantics; everything else is the same step *)
Lemma lstep_pstep env code pc stk st c' :
  lstep env code (LAt pc stk st) = Some c' -> (forall o, c' <> LUnsup o) ->
  pstep env code (PAt [] pc stk st) = Some (lemb c').
Proof.
  cbn [lstep pstep]. destruct (nth_error code pc) as [[i|l cm|v]|]; intros H NU; injection H as <-; try reflexivity.
  f_equal. unfold lstep_op, pstep_op in *.
  destruct (is_return (i_op i)); [destruct stk; reflexivity|].
  destruct (is_retsub (i_op i)); [reflexivity|].
  destruct (call_label i) as [l|] eqn:Ecl.
  { destruct (call_label_inv i l Ecl) as [Eo Ea]. destruct i as [o a]. cbn [i_op i_args] in *. subst o a.
    destruct (NU O_callsub eq_refl). }
  destruct (jump_of i) as [[[| |] l]|].
  - unfold goto, pgoto. destruct (find_label l code); reflexivity.
  - destruct stk as [|x s']; [reflexivity|]. destruct (truthy x) as [[|]|]; try reflexivity.
    unfold goto, pgoto. destruct (find_label l code); reflexivity.
  - destruct stk as [|x s']; [reflexivity|]. destruct (truthy x) as [[|]|]; try reflexivity.
    unfold goto, pgoto. destruct (find_label l code); reflexivity.
  - destruct (do_op env (i_op i) (i_args i) stk st); reflexivity.
Qed.

(* [retsub] halts the list with the stack and state it found *)
Lemma lstep_ret env code pc stk st s' st' : lstep env code (LAt pc stk st) = Some (LRet s' st') -> s' = stk /\ st' = st.
Proof.
  cbn [lstep]. destruct (nth_error code pc) as [[i|l cm|v]|]; try discriminate. unfold lstep_op.
  destruct (is_return (i_op i)); [destruct stk; discriminate|].
  destruct (is_retsub (i_op i)); [intros H; injection H as <- <-; split; reflexivity|].
  destruct (jump_of i) as [[[| |] l]|]; unfold goto;
    try (destruct stk as [|x s]; [discriminate|]; destruct (truthy x) as [[|]|]; try discriminate).
  1-3: destruct (find_label l code); discriminate.
  destruct (do_op env (i_op i) (i_args i) stk st); discriminate.
Qed.

Section LSim.
  Variable env : denv.
  Variable code : list comp.
  Variable P : program.
  Hypothesis LS : linked (e_msel env) code P.
  Hypothesis TG : targets_ok code = true.

  Lemma lsim_step pc stk st m c' :
    rel code pc stk st m -> List.length stk <= STACK_MAX ->
    lstep env code (LAt pc stk st) = Some c' ->
    match c' with
    | LAt pc' stk' st' =>
        (exists m', step (e_ctx env) P m = Running m' /\ rel code pc' stk' st' m') \/
        (rel code pc' stk' st' m /\ exists c, nth_error code pc = Some c /\ real c = false)
    | LUnsup _ => True
    | h => exists v, verdict_of h = Some v /\ step (e_ctx env) P m = Done v m /\ final_ok h m
    end.
  Proof.
    intros R Hh Hstep.
    assert (NU : (exists o, c' = LUnsup o) \/ forall o, c' <> LUnsup o)
      by (destruct c'; try (right; discriminate); left; eexists; reflexivity).
    destruct NU as [[o ->]|NU]; [exact I|].
    (* [rel] is [prel] with the empty call stack *)
    pose proof (psim_step env code P LS TG [] pc stk st m _ R Hh (lstep_pstep env code pc stk st c' Hstep NU)) as Sim.
    destruct c' as [pc' stk' st'|stk' st'|v' st'|stk' st'| |o]; try exact Sim; cbn [lemb] in Sim.
    - destruct Sim as [Sim|(R' & _ & Hc)]; [left; exact Sim|right; split; [exact R'|exact Hc]].
    - destruct Sim as (v & V & St & _). exists v. split; [exact V|]. split; [exact St|].
      destruct (lstep_ret env code pc stk st _ _ Hstep) as [-> ->]. destruct R as (_ & Rstk & Rst & _). split; assumption.
  Qed.
End LSim.

(* the step-for-step statement in one piece, for the property file: the machine does not move exactly when
   the list steps over a label, a pragma or a comment *)
Theorem machine_simulates_list env code P :
  link (e_msel env) code = Some P -> targets_ok code = true ->
  forall pc stk st m c', rel code pc stk st m -> List.length stk <= STACK_MAX ->
    lstep env code (LAt pc stk st) = Some c' ->
    match c' with
    | LAt pc' stk' st' =>
        (exists m', step (e_ctx env) P m = Running m' /\ rel code pc' stk' st' m') \/
        (rel code pc' stk' st' m /\ exists c, nth_error code pc = Some c /\ real c = false)
    | LUnsup _ => True
    | h => exists v, verdict_of h = Some v /\ step (e_ctx env) P m = Done v m /\ final_ok h m
    end.
Proof. intros LK TG. exact (lsim_step env code P (link_linked _ _ _ LK) TG). Qed.

Lemma lstar_star env code c c' : lstar env code c c' <-> star (lstep env code) c c'.
Proof.
  split; induction 1 as [|? ? ? S1 _ IH]; try constructor.
  - exact (star_step _ _ _ _ S1 IH).
  - exact (lstar_step _ _ _ _ _ S1 IH).
Qed.

Definition lheight (c : lconf) : nat := match c with LAt _ stk _ => List.length stk | _ => 0 end.
Definition rel_conf (code : list comp) (c : lconf) (m : mach) : Prop :=
  match c with LAt pc stk st => rel code pc stk st m | _ => False end.

Lemma stack_bounded_star env code c : stack_bounded env code c -> bounded (lstep env code) lheight c.
Proof.
  intros B d H. destruct d as [pc stk st| | | | |]; try apply Nat.le_0_l.
  exact (B pc stk st (proj2 (lstar_star env code _ _) H)).
Qed.

Theorem bridge_linked env code P :
  linked (e_msel env) code P -> targets_ok code = true ->
  forall pc stk st h m v, lstar env code (LAt pc stk st) h -> rel code pc stk st m ->
    verdict_of h = Some v -> stack_bounded env code (LAt pc stk st) ->
    exists n m', (forall k, n <= k -> run k (e_ctx env) P m = (v, m')) /\ final_ok h m'.
Proof.
  intros LS TG pc stk st h m v H R V B.
  refine (bridge (lstep env code) lheight (rel_conf code) verdict_of final_ok (e_ctx env) P _ _ _ _
            (proj1 (lstar_star env code _ _) H) m v R V (stack_bounded_star env code _ B)).
  - intros [pc0 stk0 st0| | | | |] m0 R0; try contradiction. reflexivity.
  - intros [pc0 stk0 st0| | | | |] c' m0 R0 Hh S1; try contradiction.
    pose proof (lsim_step env code P LS TG pc0 stk0 st0 m0 c' R0 Hh S1) as Sim.
    destruct c' as [pc' stk' st'|stk' st'|v' st'|stk' st'| |o].
    2-5: right; right; split; [reflexivity|right; exact Sim].
    + destruct Sim as [Sim|(R1 & _)]; [left; exact Sim|right; left; exact R1].
    + right. right. split; [reflexivity|left; reflexivity].
Qed.

Theorem machine_bridge env code P :
  link (e_msel env) code = Some P -> targets_ok code = true ->
  forall c0 h, lstar env code c0 h ->
  forall pc stk st m v, c0 = LAt pc stk st -> rel code pc stk st m ->
    verdict_of h = Some v -> stack_bounded env code c0 ->
    exists n m', (forall k, n <= k -> run k (e_ctx env) P m = (v, m')) /\ final_ok h m'.
Proof.
  intros LK TG c0 h H pc stk st m v -> R V B.
  exact (bridge_linked env code P (link_linked _ _ _ LK) TG pc stk st h m v H R V B).
Qed.

Lemma rel_init code st : rel code 0 [] st (init_mach st).
Proof. exact (prel_init code st). Qed.

Corollary machine_bridge_init env code P :
  link (e_msel env) code = Some P -> targets_ok code = true ->
  forall st h v, lstar env code (LAt 0 [] st) h -> verdict_of h = Some v ->
    stack_bounded env code (LAt 0 [] st) ->
    exists n m', (forall k, n <= k -> run k (e_ctx env) P (init_mach st) = (v, m')) /\ final_ok h m'.
Proof.
  intros LK TG st h v H V B.
  exact (machine_bridge env code P LK TG _ h H 0 [] st (init_mach st) v eq_refl (rel_init code st) V B).
Qed.

(* a checker for [stack_bounded] on terminating runs (for examples) *)
Fixpoint bounded_run (fuel : nat) (env : denv) (code : list comp) (c : lconf) : bool :=
  match c with
  | LAt _ stk _ =>
      (List.length stk <=? STACK_MAX)%nat &&
      match fuel with
      | O => false
      | S f => match lstep env code c with Some c' => bounded_run f env code c' | None => true end
      end
  | _ => true
  end.

Lemma bounded_run_sound env code : forall fuel c, bounded_run fuel env code c = true -> stack_bounded env code c.
Proof.
  intros fuel c H pc stk st R. apply lstar_star in R.
  refine (bounded_by (lstep env code) lheight (fun f => bounded_run f env code) _ fuel c H _ R).
  intros f [pc0 stk0 st0| | | | |] H0; try (split; [apply Nat.le_0_l|discriminate]).
  destruct f as [|f]; cbn [bounded_run] in H0; apply andb_true_iff in H0 as [Hl Hn]; [discriminate Hn|].
  split; [apply Nat.leb_le; exact Hl|]. intros c' S1. rewrite S1 in Hn. exists f. split; [reflexivity|exact Hn].
Qed.
