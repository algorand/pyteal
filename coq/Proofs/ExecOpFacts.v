(* Proofs/ExecOpFacts.v — what holds of Machine.exec_op and Machine.step opcode by opcode.
   The opcode table is traversed here, and nowhere else, for
     [exec_op_ok_spec]  a successful run: it succeeds on every extension of the stack and leaves the
                        extension alone; it consumed and pushed what the signature of AVM/StackSig.v says;
     [exec_op_uniform]  outside load/store/loads/stores the scratch space is neither read nor written, and
                        only the machine's own opcodes ([ctl_op]) are answered with [ONot];
     [opc_of_name]      opcode names determine the opcode.
   The stack manipulators are one function of the signature, polymorphic in the cell ([rearrange]).
   The rest are corollaries and small facts about association lists, typed contexts and [step]. *)
From Coq Require Import List Arith NArith Ascii String Bool Lia.
From PV Require Import Base.Bytes AVM.Syntax AVM.Ops AVM.Machine AVM.StackSig.
Import ListNotations.
Local Open Scope list_scope.

Lemma opc_of_name o :
  (if String.eqb (opc_name o) "//" then Some O_comment else parse_opc (opc_name o)) = Some o.
Proof. destruct o; vm_compute; reflexivity. Qed.

Lemma opc_name_inj a b : opc_name a = opc_name b -> a = b.
Proof.
  intros E. pose proof (opc_of_name a) as Ha. rewrite E, opc_of_name in Ha. injection Ha as <-. reflexivity.
Qed.

Lemma opc_eqb_eq a b : opc_eqb a b = true <-> a = b.
Proof.
  unfold opc_eqb. rewrite String.eqb_eq. split; [apply opc_name_inj | intros <-; reflexivity].
Qed.

Lemma alookup_aremove {B} i j (l : list (N * B)) :
  alookup N.eqb j (aremove N.eqb i l) = if N.eqb j i then None else alookup N.eqb j l.
Proof.
  induction l as [|[k v] t IH]; cbn [aremove alookup].
  - destruct (N.eqb j i); reflexivity.
  - destruct (N.eqb_spec i k) as [<-|Nik].
    + rewrite IH. destruct (N.eqb j i); reflexivity.
    + cbn [alookup]. destruct (N.eqb_spec j k) as [->|Njk]; [|exact IH].
      destruct (N.eqb_spec k i) as [->|_]; [contradiction|reflexivity].
Qed.

Lemma scratch_get_aset sc i v j :
  scratch_get (aset N.eqb i v sc) j = if N.eqb j i then v else scratch_get sc j.
Proof.
  unfold scratch_get, aset. cbn [alookup]. rewrite alookup_aremove. destruct (N.eqb j i); reflexivity.
Qed.

Lemma scratch_get_set st i v j :
  scratch_get (s_scratch (set_scratch st i v)) j = if N.eqb j i then v else scratch_get (s_scratch st) j.
Proof. apply scratch_get_aset. Qed.

Lemma insert_at_app {A} n (x : A) l r s : insert_at n x l = Some s -> insert_at n x (l ++ r) = Some (s ++ r).
Proof.
  revert l s. induction n as [|n IH]; intros l s H; cbn [insert_at] in *.
  - injection H as <-. reflexivity.
  - destruct l as [|h t]; [discriminate H|]. cbn [app insert_at].
    destruct (insert_at n x t) as [q|] eqn:E; [|discriminate H]. injection H as <-. rewrite (IH t q E). reflexivity.
Qed.

Lemma remove_at_app {A} n (l : list A) r x s : remove_at n l = Some (x, s) -> remove_at n (l ++ r) = Some (x, s ++ r).
Proof.
  revert l s. induction n as [|n IH]; intros l s H; destruct l as [|h t]; cbn [remove_at app] in *; try discriminate H.
  - injection H as <- <-. reflexivity.
  - destruct (remove_at n t) as [[y q]|] eqn:E; [|discriminate H]. injection H as <- <-. rewrite (IH t q E). reflexivity.
Qed.

Lemma list_update_app {A} (l : list A) i x r : (i < List.length l)%nat -> list_update (l ++ r) i x = list_update l i x ++ r.
Proof.
  revert i. induction l as [|h t IH]; intros i H; cbn [List.length] in H; [lia|].
  destruct i as [|i]; cbn [app list_update]; [reflexivity|]. rewrite IH by lia. reflexivity.
Qed.

Lemma nth_error_app_l {A} (l r : list A) n v : nth_error l n = Some v -> nth_error (l ++ r) n = Some v.
Proof. intros H. rewrite nth_error_app1; [exact H|]. apply nth_error_Some. congruence. Qed.

Lemma skipn_app_le {A} n (l r : list A) : (n <= List.length l)%nat -> skipn n (l ++ r) = skipn n l ++ r.
Proof. intros H. rewrite skipn_app. replace (n - List.length l)%nat with 0%nat by lia. reflexivity. Qed.

(* Case analysis of a hypothesis that is a tree of matches: split on the innermost discriminee
   (a variable is replaced, anything else is remembered by an equation) until the hypothesis is
   absurd or a leaf; [destr_any] is for a discriminee with a match under a binder ([log] tests its budget on a
   [flat_map] over the trace, whose function is a match). *)
Ltac destr_match H :=
  match type of H with
  | context [match ?x with _ => _ end] =>
      lazymatch x with
      | context [match _ with _ => _ end] => fail
      | _ => tryif is_var x then destruct x else destruct x eqn:?
      end
  end.
Ltac destr_any H :=
  match type of H with
  | context [match ?x with _ => _ end] => tryif is_var x then destruct x else destruct x eqn:?
  end.
Ltac break_all H := repeat (first [discriminate H | destr_match H | destr_any H]).

(* the same for the goal, one step, without equations *)
Ltac destr_goal :=
  match goal with
  | |- context [match ?x with _ => _ end] =>
      lazymatch x with
      | context [match _ with _ => _ end] => fail
      | _ => destruct x
      end
  | |- context [if ?c then _ else _] => destruct c
  end.

(* the opcodes that exec_op leaves to the machine *)
Definition ctl_op (o : opc) : bool :=
  match o with
  | O_err | O_bnz | O_bz | O_b | O_return_ | O_callsub | O_retsub | O_proto | O_frame_dig | O_frame_bury
  | O_intcblock | O_intc | O_intc_0 | O_intc_1 | O_intc_2 | O_intc_3
  | O_bytecblock | O_bytec | O_bytec_0 | O_bytec_1 | O_bytec_2 | O_bytec_3
  | O_switch | O_match_ => true
  | _ => false
  end.

Lemma exec_op_ctl cx o imms stk st : ctl_op o = true -> exec_op cx o imms stk st = ONot.
Proof. destruct o; intros H; try discriminate H; reflexivity. Qed.

(* The stack manipulators move cells without looking at them.  What they do is one function of the
   signature, polymorphic in the cell: [sig_apply] is it on abstract cells, [exec_op] on values. *)
Definition rearrange {A} (sd : sigd) (s : list A) : option (list A) :=
  match sd with
  | SDup => match s with a :: r => Some (a :: a :: r) | _ => None end
  | SDup2 => match s with b :: a :: r => Some (b :: a :: b :: a :: r) | _ => None end
  | SSwap => match s with b :: a :: r => Some (a :: b :: r) | _ => None end
  | SDig n => match nth_error s n with Some t => Some (t :: s) | None => None end
  | SCover n => match s with a :: r => insert_at n a r | [] => None end
  | SUncover n => match remove_at n s with Some (x, r) => Some (x :: r) | None => None end
  | SBury n =>
      match s with
      | a :: r => match n with
                  | O => None
                  | S k => if (n <=? List.length r)%nat then Some (list_update r k a) else None
                  end
      | [] => None
      end
  | SPopn n => if (n <=? List.length s)%nat then Some (skipn n s) else None
  | SDupn n => match s with a :: r => Some (repeat a n ++ a :: r) | [] => None end
  | _ => None
  end.

Definition rearranging (sd : sigd) : bool :=
  match sd with
  | SDup | SDup2 | SSwap | SDig _ | SCover _ | SUncover _ | SBury _ | SPopn _ | SDupn _ => true
  | _ => false
  end.

Lemma sig_apply_rearrange strict sd s : rearranging sd = true -> sig_apply strict sd s = rearrange sd s.
Proof. destruct sd; intros H; try discriminate H; reflexivity. Qed.

Lemma rearrange_rearranging {A} sd (s s' : list A) : rearrange sd s = Some s' -> rearranging sd = true.
Proof. destruct sd; intros H; try discriminate H; reflexivity. Qed.

Lemma rearrange_app {A} sd (s s' rest : list A) :
  rearrange sd s = Some s' -> rearrange sd (s ++ rest) = Some (s' ++ rest).
Proof.
  intros H. destruct sd; cbn [rearrange] in *; try discriminate H.
  - (* dup *) destruct s as [|a r]; [discriminate H|]. injection H as <-. reflexivity.
  - (* dup2 *) destruct s as [|b [|a r]]; try discriminate H. injection H as <-. reflexivity.
  - (* swap *) destruct s as [|b [|a r]]; try discriminate H. injection H as <-. reflexivity.
  - (* dig *)
    destruct (nth_error s n) as [v|] eqn:E; [|discriminate H]. injection H as <-.
    rewrite (nth_error_app_l _ rest _ _ E). reflexivity.
  - (* cover *) destruct s as [|a r]; [discriminate H|]. exact (insert_at_app _ _ _ rest _ H).
  - (* uncover *)
    destruct (remove_at n s) as [[x q]|] eqn:E; [|discriminate H]. injection H as <-.
    rewrite (remove_at_app _ _ rest _ _ E). reflexivity.
  - (* bury *)
    destruct s as [|a r]; [discriminate H|]. destruct n as [|k]; [discriminate H|]. cbn [app].
    destruct (Nat.leb_spec (S k) (List.length r)) as [L|L]; [|discriminate H]. injection H as <-.
    rewrite app_length. destruct (Nat.leb_spec (S k) (List.length r + List.length rest)) as [L'|L']; [|lia].
    rewrite list_update_app by lia. reflexivity.
  - (* popn *)
    destruct (Nat.leb_spec n (List.length s)) as [L|L]; [|discriminate H]. injection H as <-.
    rewrite app_length. destruct (Nat.leb_spec n (List.length s + List.length rest)) as [L'|L']; [|lia].
    rewrite skipn_app_le by lia. reflexivity.
  - (* dupn *)
    destruct s as [|a r]; [discriminate H|]. injection H as <-. cbn [app]. rewrite <- app_assoc. reflexivity.
Qed.

Definition rearr_op (o : opc) : bool :=
  match o with
  | O_dup | O_dup2 | O_swap | O_dig | O_cover | O_uncover | O_bury | O_popn | O_dupn => true
  | _ => false
  end.

(* the signature, except that the machine does not limit the depth of bury and popn to a byte *)
Definition rearr_of (o : opc) (imms : list imm) : sigd :=
  match o, imms with
  | O_bury, [IInt n] => SBury (N.to_nat n)
  | O_popn, [IInt n] => SPopn (N.to_nat n)
  | _, _ => sig_of o imms
  end.

Lemma rearr_of_sig o imms :
  rearr_of o imms = sig_of o imms \/ sig_of o imms = SUnknown /\ exists n, imms = [IInt n] /\ (255 < n)%N.
Proof.
  destruct o; try (left; reflexivity).
  all: destruct imms as [|[n|?|?] [|? ?]]; try (left; reflexivity).
  all: cbv beta iota delta [rearr_of sig_of imm_nat]; destruct (N.leb_spec n 255); eauto.
Qed.

Lemma arg1_imms imms : arg1 (imms_to_args imms) = match imms with [IInt n] => Some n | _ => None end.
Proof. destruct imms as [|[n|?|?] [|[?|?|?] ?]]; reflexivity. Qed.

Lemma exec_op_rearrange cx o imms stk st : rearr_op o = true ->
  exec_op cx o imms stk st = match rearrange (rearr_of o imms) stk with Some s => OOk s st | None => OFail end.
Proof.
  intros Hr. destruct o; try discriminate Hr; clear Hr.
  all: cbv beta iota delta [exec_op exec_pure rearr_of sig_of imm_nat]; rewrite ?arg1_imms.
  - (* dup *) destruct stk; reflexivity.
  - (* dup2 *) destruct stk as [|b [|a r]]; reflexivity.
  - (* dig *)
    destruct imms as [|[n|?|?] [|? ?]]; try reflexivity. destruct (N.leb n 255); [|reflexivity].
    cbn [rearrange]. destruct (nth_error stk (N.to_nat n)); reflexivity.
  - (* swap *) destruct stk as [|b [|a r]]; reflexivity.
  - (* cover *)
    destruct stk as [|a r]; destruct imms as [|[n|?|?] [|? ?]]; try reflexivity; destruct (N.leb n 255); try reflexivity.
    cbn [rearrange]. destruct (insert_at (N.to_nat n) a r); reflexivity.
  - (* uncover *)
    destruct imms as [|[n|?|?] [|? ?]]; try reflexivity. destruct (N.leb n 255); [|reflexivity].
    cbn [rearrange]. destruct (remove_at (N.to_nat n) stk) as [[x q]|]; reflexivity.
  - (* popn *)
    destruct imms as [|[n|?|?] [|? ?]]; try reflexivity. cbn [rearrange].
    destruct (N.leb_spec n (N.of_nat (List.length stk))), (Nat.leb_spec (N.to_nat n) (List.length stk)); try lia; reflexivity.
  - (* dupn *)
    destruct stk as [|a r]; destruct imms as [|[n|?|?] [|? ?]]; try reflexivity; destruct (N.leb n 255); reflexivity.
  - (* bury *)
    destruct stk as [|a r]; destruct imms as [|[n|?|?] [|? ?]]; try reflexivity. cbn [rearrange].
    destruct (N.eqb_spec n 0) as [->|Z]; [reflexivity|].
    destruct (N.to_nat n) as [|k] eqn:En; [lia|]. rewrite <- En.
    destruct (N.leb_spec n (N.of_nat (List.length r))), (Nat.leb_spec (N.to_nat n) (List.length r)); try lia; [|reflexivity].
    replace (N.to_nat (n - 1)) with k by lia. reflexivity.
Qed.

(* typed contexts: a field read has the type the table of AVM/StackSig.v gives the field *)
Lemma ty_le_TA : forall a, ty_le a TA = true.
Proof. destruct a; reflexivity. Qed.

Lemma has_ty_TA : forall v, has_ty v TA.
Proof. intro v. unfold has_ty. apply ty_le_TA. Qed.

Lemma alookup_typed : forall (fty : string -> ty) l f v,
  fields_typed fty l -> alookup String.eqb f l = Some v -> has_ty v (fty f).
Proof.
  induction l as [|[k w] l IH]; intros f v T H; cbn in H; try discriminate.
  inversion T as [|x y Hx Hy]; subst. cbn in Hx.
  destruct (String.eqb f k) eqn:E.
  - apply String.eqb_eq in E. subst. inversion H; subst. assumption.
  - eapply IH; eauto.
Qed.

Lemma fld_typed : forall t f v, txn_typed t -> fld t f = Some v -> has_ty v (txn_field_ty f).
Proof. intros t f v [T _] H. eapply alookup_typed; eauto. Qed.

Lemma alookup_arr_typed : forall (fty : string -> ty) l f arr,
  arrays_typed fty l -> alookup String.eqb f l = Some arr -> Forall (fun v => has_ty v (fty f)) arr.
Proof.
  induction l as [|[k w] l IH]; intros f arr T H; cbn in H; try discriminate.
  inversion T as [|x y Hx Hy]; subst. cbn in Hx.
  destruct (String.eqb f k) eqn:E.
  - apply String.eqb_eq in E. subst. inversion H; subst. assumption.
  - eapply IH; eauto.
Qed.

Lemma nth_N_In : forall A (l : list A) i x, nth_N l i = Some x -> In x l.
Proof. intros A l i x H. unfold nth_N in H. destruct (N.ltb _ _); try discriminate. eapply nth_error_In; eauto. Qed.

Lemma arr_typed : forall t f arr i v, txn_typed t -> alookup String.eqb f (t_arrays t) = Some arr ->
  nth_N arr i = Some v -> has_ty v (txn_field_ty f).
Proof.
  intros t f arr i v [_ T] H N. pose proof (alookup_arr_typed _ _ _ _ T H) as F.
  rewrite Forall_forall in F. apply F. eapply nth_N_In; eauto.
Qed.

Lemma cur_txn_typed : forall cx t, ctx_typed cx -> cur_txn cx = Some t -> txn_typed t.
Proof. intros cx t [G _] H. unfold cur_txn in H. rewrite Forall_forall in G. apply G. eapply nth_error_In; eauto. Qed.

Lemma group_typed : forall cx k t, ctx_typed cx -> nth_N (c_group cx) k = Some t -> txn_typed t.
Proof. intros cx k t [G _] H. rewrite Forall_forall in G. apply G. eapply nth_N_In; eauto. Qed.

Lemma glob_typed : forall cx f v, ctx_typed cx -> alookup String.eqb f (c_globals cx) = Some v -> has_ty v (global_field_ty f).
Proof. intros cx f v [_ G] H. eapply alookup_typed; eauto. Qed.

Ltac solve_ty :=
  first [ apply has_ty_TA
        | reflexivity
        | eapply fld_typed; [ first [eapply cur_txn_typed; eassumption | eapply group_typed; eassumption] | eassumption ]
        | eapply arr_typed; [ first [eapply cur_txn_typed; eassumption | eapply group_typed; eassumption] | eassumption | eassumption ]
        | eapply glob_typed; eassumption ].

(* What a successful run looks like.  One traversal of the successful runs of exec_op: [break_all] exposes
   the cells the opcode consumed (and the tests made on them) and what it pushed.  On that shape the run on an
   extended stack takes the same branches, and the claims about the signature compute (the type of a field
   read comes from the typed context).  The stack manipulators ([rearr_op]) have no [SFix] signature, and
   the number of cells the depth-addressed ones take depends on the immediate: they go through [rearrange].
   The three claims stand under a name so that the case analysis carries a small goal; it is unfolded at the
   leaves.  [itxn_field] is excepted from the third: the machine accepts any value, the signature wants the
   field's type. *)
Definition ok_spec cx o imms stk st stk' st' : Prop :=
  (rearr_op o = false -> forall rest, exec_op cx o imms (stk ++ rest) st = OOk (stk' ++ rest) st') /\
  (forall pops pushes, ctx_typed cx -> sig_of o imms = SFix pops pushes ->
     skipn (List.length pushes) stk' = skipn (List.length pops) stk /\
     Forall2 has_ty (firstn (List.length pushes) stk') pushes /\
     (List.length pops <= List.length stk)%nat) /\
  (o <> O_itxn_field -> rearr_op o = false -> operands_ok (sig_of o imms) stk = true).

Lemma exec_op_ok_spec cx o imms stk st stk' st' :
  exec_op cx o imms stk st = OOk stk' st' -> ok_spec cx o imms stk st stk' st'.
Proof.
  intros H.
  destruct o.
  all: cbv beta iota zeta delta [exec_op exec_pure oki okb okbool push_field push_afield] in H.
  all: break_all H.
  all: injection H as <- <-.
  all: unfold ok_spec.
  (* the frame, the signature's shape and types, the operands *)
  all: split;
    [ intros D rest;
      first [ discriminate D
            | cbv beta iota zeta delta [exec_op exec_pure oki okb okbool push_field push_afield]; cbn [app];
              repeat match goal with E : ?x = _ |- context [?x] => rewrite E end; reflexivity ]
    | split;
      [ intros pops pushes CT Hs; cbv beta iota delta [sig_of] in Hs;
        first [ discriminate Hs
              | unfold imm_nat in Hs; break_all Hs; fail
              | injection Hs as <- <-;
                split; [reflexivity | split; [repeat (constructor; [solve_ty|]); constructor
                                             | cbn [List.length UU U1 B1 BB A1]; repeat apply le_n_S; apply Nat.le_0_l]] ]
      | intros N D; first [discriminate D | congruence | reflexivity] ] ].
Qed.

Lemma exec_op_frame_all cx o imms stk st s' st' rest :
  exec_op cx o imms stk st = OOk s' st' -> exec_op cx o imms (stk ++ rest) st = OOk (s' ++ rest) st'.
Proof.
  intros H. destruct (rearr_op o) eqn:Hd; [|exact (proj1 (exec_op_ok_spec _ _ _ _ _ _ _ H) Hd rest)].
  rewrite exec_op_rearrange in * by exact Hd.
  destruct (rearrange (rearr_of o imms) stk) as [s|] eqn:E; [|discriminate H].
  injection H as <- <-. rewrite (rearrange_app _ _ _ rest E). reflexivity.
Qed.

Definition set_sc (sc : list (N * value)) (st : mstate) : mstate :=
  mkSt sc (s_global st) (s_local st) (s_boxes st) (s_itxn st) (s_last_itxn st) (s_trace st).

Definition uses_scratch (o : opc) : bool :=
  match o with O_load | O_store | O_loads | O_stores => true | _ => false end.

Definition ores_sc (sc : list (N * value)) (r : ores) : ores :=
  match r with OOk s st => OOk s (set_sc sc st) | _ => r end.

Lemma set_sc_same st : set_sc (s_scratch st) st = st.
Proof. destruct st; reflexivity. Qed.

(* a run as a function of the scratch space alone: the scratch space is handed through to the result and
   decides nothing; [ONot] is the answer to the machine's own opcodes only *)
Inductive sc_uniform (o : opc) : (list (N * value) -> ores) -> Prop :=
| un_ok s g l b i li t : sc_uniform o (fun sc => OOk s (mkSt sc g l b i li t))
| un_fail : sc_uniform o (fun _ => OFail)
| un_unsup : sc_uniform o (fun _ => OUnsup)
| un_not : ctl_op o = true -> sc_uniform o (fun _ => ONot).

(* The pure opcodes never see the state.  For the others the run is unfolded under the binder and split on
   every test it makes: no test mentions the scratch component, and each leaf is one of the four shapes.
   (One copy of the run in the goal: stated as an equation between two runs the same traversal costs
   several times as much.) *)
Lemma exec_op_uniform cx o imms stk g l b i li t : uses_scratch o = false ->
  sc_uniform o (fun sc => exec_op cx o imms stk (mkSt sc g l b i li t)).
Proof.
  intros Hs. unfold exec_op.
  destruct (exec_pure o (imms_to_args imms) stk) as [s| |]; [constructor | constructor | ].
  destruct o; try discriminate Hs; clear Hs; try (constructor; reflexivity).
  all: cbv beta iota zeta delta [s_scratch s_global s_local s_boxes s_itxn s_last_itxn s_trace
         set_scratch set_global set_local set_boxes add_event set_itxn submit_itxn
         push_field push_afield last_itxn itxn_txn].
  all: repeat destr_goal.
  all: constructor.
Qed.

Lemma sc_uniform_inv o F : sc_uniform o F ->
  forall sc0 sc, F sc = ores_sc sc (F sc0) /\ (F sc0 = ONot -> ctl_op o = true).
Proof. intros [] sc0 sc; split; try reflexivity; try discriminate; auto. Qed.

Lemma exec_op_set_sc cx o imms stk st sc : uses_scratch o = false ->
  exec_op cx o imms stk (set_sc sc st) = ores_sc sc (exec_op cx o imms stk st).
Proof.
  intros Hs. destruct st as [sc0 g l b i li t].
  exact (proj1 (sc_uniform_inv _ _ (exec_op_uniform cx o imms stk g l b i li t Hs) sc0 sc)).
Qed.

Lemma exec_op_not_inv cx o imms stk st : exec_op cx o imms stk st = ONot -> ctl_op o = true.
Proof.
  intros H. destruct (uses_scratch o) eqn:Hs.
  - destruct o; try discriminate Hs; cbv beta iota delta [exec_op exec_pure] in H; break_all H.
  - destruct st as [sc0 g l b i li t].
    exact (proj2 (sc_uniform_inv _ _ (exec_op_uniform cx o imms stk g l b i li t Hs) sc0 sc0) H).
Qed.

(* only store and stores write the scratch space *)
Lemma exec_op_keeps_scratch cx o imms stk st s' st' :
  exec_op cx o imms stk st = OOk s' st' -> o <> O_store -> o <> O_stores -> s_scratch st' = s_scratch st.
Proof.
  intros H N1 N2. destruct (uses_scratch o) eqn:Hs.
  - destruct o; try discriminate Hs; try congruence.
    all: cbv beta iota delta [exec_op exec_pure] in H; break_all H; injection H as <- <-; reflexivity.
  - pose proof (exec_op_set_sc cx o imms stk st (s_scratch st) Hs) as E.
    rewrite set_sc_same, H in E. injection E as ->. reflexivity.
Qed.

Lemma step_done_same cx p m v mf : step cx p m = Done v mf -> mf = m.
Proof.
  assert (match step cx p m with Done _ mf => mf = m | Running _ => True end) as K.
  { unfold step. repeat destr_goal; first [reflexivity | exact I]. }
  intros H. rewrite H in K. exact K.
Qed.

(* [run] keeps every invariant of the [Running] steps and, unless the fuel runs out, stops in a state whose
   step is the verdict *)
Lemma run_invariant cx p (I : mach -> Prop) :
  (forall m m', I m -> step cx p m = Running m' -> I m') ->
  forall fuel m v mf, I m -> run fuel cx p m = (v, mf) ->
  I mf /\ (v = VOutOfFuel \/ step cx p mf = Done v mf).
Proof.
  intros Hs. induction fuel as [|f IH]; intros m v mf Im H; cbn in H.
  - injection H as <- <-. auto.
  - destruct (step cx p m) as [m1|v1 m1] eqn:E.
    + exact (IH _ _ _ (Hs _ _ Im E) H).
    + injection H as <- <-. pose proof (step_done_same _ _ _ _ _ E) as ->. auto.
Qed.
