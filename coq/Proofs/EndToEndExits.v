(* Proofs/EndToEndExits.v — the "single exit" fact about the graph that lowering produces, needed to
   compose the stages of C01 (Props/C01_end_to_end.v):

     a block that can be LEFT WITHOUT A SUCCESSOR (no outgoing edge and no return/retsub/err among its
     operations — a "fall-off" block) is created by [lower e k] only as the END block of the fragment
     and only when the continuation [k] is None; the end block is always a simple block whose
     successor is exactly [k].

   This is what makes the flattened code correct at the place where the linear machine runs off a
   block: sortBlocks puts the end block last, so falling off it is falling off the code.  The fact is
   NOT unconditional: a Break/Continue outside a loop and a Continue in a loop header are lowered to
   blocks without a successor.  PyTeal rejects the former while lowering ([check_expr]) and the model
   excludes the latter ([has_bad_continue]); both checks are part of [compile_one], and they are the
   hypotheses here.  An instance of the traversal of Proofs/LowerFrame.v. *)
From Coq Require Import List Arith NArith String Bool Lia.
From PV Require Import Base.Bytes AVM.Syntax Src.Expr Comp.Blocks Comp.WideRatio Comp.Lower
  Proofs.LowerFrame.
Import ListNotations.

(* a block control can fall off: no successor and no halting operation *)
Definition falloff (bb : block) : Prop :=
  existsb is_term_op (b_ops bb) = false /\ outgoing bb = [].

(* every fall-off block of g' is an unchanged block of g, or is the block [ex] *)
Definition ex_post (g g' : graph) (ex : option id) : Prop :=
  forall i bb, g_blk g' i = Some bb -> falloff bb -> g_blk g i = Some bb \/ ex = Some i.

Definition kex (k : option id) (en : id) : option id :=
  match k with None => Some en | Some _ => None end.

(* the end block is a simple block whose successor is the continuation — or, for a fragment that ends
   in Break/Continue, the loop exit / continue target (the alternatives [A]) *)
Definition endblk (A : option id -> Prop) (g : graph) (en : id) (k : option id) : Prop :=
  exists ops n, g_blk g en = Some (BSimple ops n) /\ (n = k \/ A n).

Definition xpost (A : option id -> Prop) (g : graph) (k : option id) (en : id) (g' : graph) : Prop :=
  ex_post g g' (kex k en) /\ endblk A g' en k.

Lemma ex_refl g x : ex_post g g x.
Proof. intros i bb E _. left. exact E. Qed.

Lemma ex_trans_l a b c x : ex_post a b x -> ex_post b c None -> ex_post a c x.
Proof.
  intros H1 H2 i bb E F. destruct (H2 i bb E F) as [E'|E']; [|discriminate E'].
  exact (H1 i bb E' F).
Qed.

Lemma ex_trans_r a b c y : ex_post a b None -> ex_post b c y -> ex_post a c y.
Proof.
  intros H1 H2 i bb E F. destruct (H2 i bb E F) as [E'|E']; [|right; exact E'].
  destruct (H1 i bb E' F) as [E''|E'']; [left; exact E''|discriminate E''].
Qed.

Lemma kex_some k0 en : kex (Some k0) en = None.
Proof. reflexivity. Qed.

Lemma falloff_simple ops k : falloff (BSimple ops k) -> k = None.
Proof. intros [_ O]. destruct k; [discriminate O|reflexivity]. Qed.

Lemma falloff_cond ops t f : ~ falloff (BCond ops (Some t) (Some f)).
Proof. intros [_ O]. discriminate O. Qed.

Lemma falloff_err k : ~ falloff (BSimple [I O_err []] k).
Proof. intros [T _]. discriminate T. Qed.

Lemma first_err_acc (l : list (option cerr)) : forall e : cerr,
  fold_left (fun (acc x : option cerr) => match acc with Some _ => acc | None => x end) l (Some e) = Some e.
Proof. induction l as [|a t IH]; intros e; cbn [fold_left]; [reflexivity|apply IH]. Qed.

Lemma first_err_none_iff l : first_err l = None <-> Forall (fun x => x = None) l.
Proof.
  unfold first_err. induction l as [|x t IH]; cbn [fold_left]; [split; [constructor|reflexivity]|].
  destruct x as [e|].
  - rewrite first_err_acc. split; [discriminate|intros H; inversion H; discriminate].
  - split; [intros H; constructor; [reflexivity|apply IH; exact H]|intros H; apply IH; inversion H; assumption].
Qed.

Lemma first_err_cons x l : first_err (x :: l) = None -> x = None /\ first_err l = None.
Proof.
  intros H. apply first_err_none_iff, Forall_cons_iff in H. destruct H as [H1 H2].
  split; [exact H1|apply first_err_none_iff; exact H2].
Qed.

Lemma first_err_app l1 l2 : first_err (l1 ++ l2) = None -> first_err l1 = None /\ first_err l2 = None.
Proof.
  intros H. apply first_err_none_iff, Forall_app in H. destruct H as [H1 H2].
  split; apply first_err_none_iff; assumption.
Qed.

Lemma first_err_map {A} (f : A -> option cerr) l :
  first_err (map f l) = None -> Forall (fun a => f a = None) l.
Proof. intros H. apply first_err_none_iff, Forall_map in H. exact H. Qed.

Lemma existsb_false {A} (h : A -> bool) l : existsb h l = false -> Forall (fun a => h a = false) l.
Proof.
  induction l as [|a t IH]; cbn [existsb]; intros H; [constructor|].
  apply orb_false_iff in H. destruct H as [Ha Ht]. constructor; [exact Ha|exact (IH Ht)].
Qed.

(* the loop context provides what the two checks rely on: inside a loop ([il]) there is a break
   target, and unless we are in a loop header ([pb]) there is a continue target *)
Definition ctl (c : lctx) (il pb : bool) : Prop :=
  (il = true -> l_brk c <> None) /\ (il = true -> pb = false -> l_cont c <> None).

Lemma ctl_header sr (en : id) pm : ctl (mkL sr (Some en) None pm) true true.
Proof. split; cbn [l_brk l_cont]; [intros _; discriminate|intros _ Q; discriminate Q]. Qed.

Lemma ctl_body sr (en s : id) pm : ctl (mkL sr (Some en) (Some s) pm) true false.
Proof. split; cbn [l_brk l_cont]; [intros _; discriminate|intros _ _; discriminate]. Qed.

Definition okp (o : copts) (c : lctx) (il pb : bool) (e : expr) : Prop :=
  check_expr o (l_sub_ret c) il e = None /\ has_bad_continue pb e = false.

Lemma okp_list o c il pb (l : list expr) :
  first_err (map (check_expr o (l_sub_ret c) il) l) = None ->
  existsb (has_bad_continue pb) l = false ->
  Forall (okp o c il pb) l.
Proof.
  intros H1 H2. exact (Forall_and (first_err_map _ _ H1) (existsb_false _ _ H2)).
Qed.

Lemma okp_arms o c il pb (arms : list (expr * expr)) :
  first_err (flat_map (fun a => [check_expr o (l_sub_ret c) il (fst a); check_expr o (l_sub_ret c) il (snd a)]) arms) = None ->
  existsb (fun a => has_bad_continue pb (fst a) || has_bad_continue pb (snd a)) arms = false ->
  Forall (okp o c il pb) (flat_map (fun a => [fst a; snd a]) arms).
Proof.
  induction arms as [|a t IH]; cbn [flat_map existsb app]; intros H1 H2; [constructor|].
  destruct (first_err_cons _ _ H1) as [A1 H1']. destruct (first_err_cons _ _ H1') as [A2 H1''].
  apply orb_false_iff in H2. destruct H2 as [B12 H2']. apply orb_false_iff in B12. destruct B12 as [B1 B2].
  constructor; [split; assumption|constructor; [split; assumption|exact (IH H1'' H2')]].
Qed.

Lemma check_return_some o sub il x :
  check_expr o sub il (EReturn (Some x)) = None -> check_expr o sub il x = None.
Proof.
  cbn [check_expr]. destruct sub as [rt|].
  - destruct (N.ltb (o_version o) 4); [discriminate|].
    destruct rt; try discriminate; destruct (types_match (type_of x) _); try discriminate; auto.
  - destruct (types_match (type_of x) TUint); [auto|discriminate].
Qed.

(* what a passed check says about the parts of each kind of recipe *)
Lemma okp_subs o c il pb e : okp o c il pb e -> Forall (okp o c il pb) (subs e).
Proof.
  destruct e as [op imms ? l|? ? l|l|cnd th el|arms|? ?|? ? ? ?| | |l ?|v|v|op imms l ?|? ? l|ns ds|?];
    intros [Ck Hb]; cbn [check_expr has_bad_continue subs] in *; try (constructor; fail);
    try (apply okp_list; assumption).
  - destruct (op_version_ok o op imms); [apply okp_list; assumption|discriminate Ck].
  - destruct (first_err_cons _ _ Ck) as [C1 Ck2]. destruct (first_err_cons _ _ Ck2) as [C2 Ck3].
    destruct (first_err_cons _ _ Ck3) as [C3 _].
    apply orb_false_iff in Hb. destruct Hb as [Hb12 Hb3]. apply orb_false_iff in Hb12. destruct Hb12 as [Hb1 Hb2].
    constructor; [split; assumption|constructor; [split; assumption|]].
    destruct el; [constructor; [split; assumption|constructor]|constructor].
  - apply okp_arms; assumption.
  - destruct v as [x|]; [|constructor].
    constructor; [split; [exact (check_return_some _ _ _ _ Ck)|exact Hb]|constructor].
  - constructor; [split; assumption|constructor].
  - destruct (op_version_ok o op imms); [apply okp_list; assumption|discriminate Ck].
  - destruct (N.ltb (o_version o) 4); [discriminate Ck|apply okp_list; assumption].
  - destruct (N.ltb (o_version o) 5); [discriminate Ck|].
    destruct (first_err_app _ _ Ck) as [Ckn Ckd]. apply orb_false_iff in Hb. destruct Hb as [Hbn Hbd].
    apply Forall_app. split; apply okp_list; assumption.
Qed.

(* the side condition of the traversal: the loop context fits, the two checks pass, and a further
   condition [side] on the recipe that passes to its parts *)
Section Checked.
  Variable o : copts.
  Variable side : expr -> Prop.
  Hypothesis side_subs : forall e, side e -> Forall side (subs e).
  Hypothesis side_while : forall c b, side (EWhile c b) -> side c /\ side b.
  Hypothesis side_for : forall i c s b, side (EFor i c s b) -> side i /\ side c /\ side s /\ side b.

  Definition okx (c : lctx) (il pb : bool) (e : expr) : Prop := ctl c il pb /\ okp o c il pb e /\ side e.

  Lemma okx_rules : part_rules okx (fun t => t <> None) (side (ECond [])).
  Proof.
    constructor.
    - intros c il pb e (Ct & Ok & Hs).
      pose proof (Forall_and (okp_subs _ _ _ _ _ Ok) (side_subs _ Hs)) as H.
      eapply Forall_impl; [|exact H]. intros a [A B]. split; [exact Ct|split; assumption].
    - intros c il pb cnd b (Ct & [Ck Hb] & Hs) en cs. cbn [check_expr has_bad_continue] in Ck, Hb.
      destruct (first_err_cons _ _ Ck) as [C1 Ck2]. destruct (first_err_cons _ _ Ck2) as [C2 _].
      apply orb_false_iff in Hb. destruct Hb as [Hb1 Hb2]. destruct (side_while _ _ Hs) as [S1 S2].
      split; (split; [apply ctl_header || apply ctl_body|split; [split; assumption|assumption]]).
    - intros c il pb i cnd s b (Ct & [Ck Hb] & Hs) en ss c1. cbn [check_expr has_bad_continue] in Ck, Hb.
      destruct (first_err_cons _ _ Ck) as [C1 Ck2]. destruct (first_err_cons _ _ Ck2) as [C2 Ck3].
      destruct (first_err_cons _ _ Ck3) as [C4 Ck4]. destruct (first_err_cons _ _ Ck4) as [C3 _].
      apply orb_false_iff in Hb. destruct Hb as [Hb123 Hb4]. apply orb_false_iff in Hb123. destruct Hb123 as [Hb12 Hb3].
      apply orb_false_iff in Hb12. destruct Hb12 as [Hb1 Hb2]. destruct (side_for _ _ _ _ Hs) as (S1 & S2 & S3 & S4).
      repeat split; try assumption; try apply ctl_header; apply ctl_body.
    - intros c il pb (Ct & [Ck _] & _). cbn [check_expr] in Ck.
      destruct il; [exact (proj1 Ct eq_refl)|discriminate Ck].
    - intros c il pb (Ct & [Ck Hb] & _). cbn [check_expr] in Ck.
      destruct il; [exact (proj2 Ct eq_refl Hb)|discriminate Ck].
    - intros c il pb (_ & _ & Hs). exact Hs.
  Qed.
End Checked.

Lemma add_block_ex g b i g1 x :
  wf g -> add_block g b = (i, g1) -> (falloff b -> x = Some i) -> ex_post g g1 x.
Proof.
  intros W E Hx j bb Ej Fj.
  destruct (add_block_spec _ _ _ _ W E) as ((_ & K & W1) & Bi & Ii & Ni).
  destruct (Nat.lt_ge_cases j (g_next g)) as [L|L].
  - left. rewrite <- (K j L). exact Ej.
  - destruct (Nat.eq_dec j i) as [Q|Q].
    + subst j. rewrite Bi in Ej. injection Ej as Ej. subst bb. right. exact (Hx Fj).
    + rewrite (W1 j) in Ej by lia. discriminate Ej.
Qed.

Lemma add_simple_x A g ops k i g1 :
  wf g -> add_block g (BSimple ops k) = (i, g1) -> xpost A g k i g1.
Proof.
  intros W E. split; [|exists ops, k; split; [apply (add_block_spec _ _ _ _ W E)|left; reflexivity]].
  eapply add_block_ex; eauto. intros Fa. rewrite (falloff_simple _ _ Fa). reflexivity.
Qed.

Lemma add_cond_x g ops t f i g1 :
  wf g -> add_block g (BCond ops (Some t) (Some f)) = (i, g1) -> ex_post g g1 None.
Proof. intros W E. eapply add_block_ex; eauto. intros Fa. destruct (falloff_cond _ _ _ Fa). Qed.

Lemma reserve_x g i g1 : reserve g = (i, g1) -> ex_post g g1 None.
Proof. intros E j bb Ej _. left. unfold reserve in E. injection E as _ <-. exact Ej. Qed.

Lemma define_cond_x g i ops t f :
  wf g -> i < g_next g -> ex_post g (define g i (BCond ops (Some t) (Some f))) None.
Proof.
  intros W L j bb Ej Fj. destruct (define_spec g i (BCond ops (Some t) (Some f)) W L) as (_ & _ & Bi & Bo).
  destruct (Nat.eq_dec j i) as [Q|Q].
  - subst j. rewrite Bi in Ej. injection Ej as Ej. subst bb. destruct (falloff_cond _ _ _ Fj).
  - left. rewrite <- (Bo j Q). exact Ej.
Qed.

Lemma endblk_frame A g1 g2 en k : frame g1 g2 -> wf g1 -> endblk A g1 en k -> endblk A g2 en k.
Proof. intros F W (ops & n & E & H). exists ops, n. split; [exact (frame_keeps _ _ _ _ F W E)|exact H]. Qed.

(* a fragment survives an extension of the graph that adds no fall-off block *)
Lemma xpost_ext A g k en g1 g2 :
  frame g g1 -> frame g1 g2 -> xpost A g k en g1 -> ex_post g1 g2 None -> xpost A g k en g2.
Proof.
  intros F1 F2 [X1 B1] X2.
  split; [exact (ex_trans_l _ _ _ _ X1 X2)|exact (endblk_frame _ _ _ _ _ F2 (frame_wf _ _ F1) B1)].
Qed.

Lemma exits_rules A : frag_rules (fun g k _ en g' => xpost A g k en g') (fun g g' => ex_post g g' None) True.
Proof.
  constructor.
  - intros g ops k b g' W E. exact (add_simple_x _ _ _ _ _ _ W E).
  - intros g k s2 e2 g1 s1 e1 g2 _ F1 F2 H1 [X2 _]. exact (xpost_ext _ _ _ _ _ _ F1 F2 H1 X2).
  - intros g k s en g1 g2 _ F1 F2 H1 X2. exact (xpost_ext _ _ _ _ _ _ F1 F2 H1 X2).
  - intros g k s en g1 ops f br g2 _ F1 H1 E.
    exact (xpost_ext _ _ _ _ _ _ F1 (proj1 (add_block_spec _ _ _ _ (frame_wf _ _ F1) E)) H1
             (add_cond_x _ _ _ _ _ _ (frame_wf _ _ F1) E)).
  - intros _ g k s s' en g' H. exact H.
  - intros g. apply ex_refl.
  - intros a b d _ _ _. apply ex_trans_l.
  - intros g k0 s en g' _ _ [X _]. exact X.
  - intros g i g' W E. eapply add_block_ex; eauto. intros Fa. destruct (falloff_err _ Fa).
  - intros g ops t f i g' W E. exact (add_cond_x _ _ _ _ _ _ W E).
Qed.

Theorem lower_exits o e : forall c il pb, ctl c il pb -> okp o c il pb e ->
  forall k g s en g', wf g -> lower o c e k g = ((s, en), g') -> xpost (actx c) g k en g'.
Proof.
  intros c il pb Ct Ok k g s en g' W E.
  refine (proj2 (lower_inv o (okx o (fun _ => True)) (fun t => t <> None) True
                   (fun c g k _ en g' => xpost (actx c) g k en g') (fun g g' => ex_post g g' None)
                   (okx_rules o _ _ _ _) (fun c => exits_rules (actx c)) _ _
                   e c il pb (conj Ct (conj Ok Logic.I)) k g s en g' E W)).
  - intros x _. apply Forall_forall. intros y _. exact Logic.I.
  - intros; split; exact Logic.I.
  - intros; repeat split.
  - (* Break, Continue *)
    intros c0 g0 k0 t b g1 W0 At T E0. split.
    + eapply add_block_ex; eauto. intros Fa. destruct (T (falloff_simple _ _ Fa)).
    + exists [], t. split; [apply (add_block_spec _ _ _ _ W0 E0)|right; exact At].
  - (* loops *)
    intros c0 k0 g0 en0 g1 br g2 cs ce g3 g5 s1 ie g4 ds c1 W0 E1 E2 F3 [X3 _] F5 X5 F4 H4.
    destruct (add_block_spec _ _ _ _ W0 E1) as (F1 & _).
    destruct (reserve_spec _ _ _ (frame_wf _ _ F1) E2) as (F2 & _ & I2 & N2).
    assert (F24 : frame g2 g4) by (eapply frame_trans; [exact F3|eapply frame_trans; eauto]).
    assert (Lbr : br < g_next g4) by (destruct F24 as (L & _); lia).
    eapply (xpost_ext _ _ _ _ g1); [exact F1| |exact (add_simple_x _ _ _ _ _ _ W0 E1)|].
    + apply define_frame; [eapply frame_trans; eauto|lia].
    + cbn [kex] in X3.
      assert (X4 : ex_post g5 g4 None) by (destruct H4 as [[_ ->]|[X4 _]]; [apply ex_refl|exact X4]).
      eapply ex_trans_l; [|exact (define_cond_x _ _ _ _ _ (frame_wf _ _ F4) Lbr)].
      eapply ex_trans_l; [|exact X4]. eapply ex_trans_l; [|exact X5].
      eapply ex_trans_l; [exact (reserve_x _ _ _ E2)|exact X3].
Qed.
