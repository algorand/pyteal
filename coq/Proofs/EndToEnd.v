(* Proofs/EndToEnd.v — property C01 for ONE routine, composed from the stage theorems:
     lowering (LowerCorrect) -> addIncoming + NormalizeBlocks (NormalizeLowered) -> sortBlocks
     (SortCorrect) -> flattenBlocks (FlattenCorrect),
   glued by Proofs/EndToEndExits.v (the lowered graph has one exit) and Proofs/EndToEndGlue.v
   (NormalizeBlocks keeps it; the normalised graph is well-formed).
   The composition is made in CallX/EndToEnd.v, for the semantics with a call oracle.  A run the
   statements here speak about has a halting outcome, so it is a run of the oracle evaluator too
   ([halt_of_lift]). *)
From Coq Require Import List Arith NArith String Bool Lia.
From PV Require Import Base.Bytes AVM.Syntax AVM.Machine Src.Expr Src.Denote
  Comp.Blocks Comp.Lower Comp.Passes Comp.GraphSem Comp.LinearSem Comp.SimCheck Comp.Compile
  Proofs.LowerFrame Proofs.LowerCorrect Proofs.LowerShape
  Proofs.NormalizeLowered Proofs.FlattenCorrect Proofs.SortCorrect
  Proofs.EndToEndGlue Proofs.OracleTransfer.
From PV Require CallX.EndToEnd.
Import ListNotations.

(* what an outcome of the source semantics is on the block graph / on the linear machine when the
   fragment is a whole routine (no continuation, no enclosing loop): normal completion — and a
   Break/Continue that escaped, which the checks of compile_one exclude — is "ran off the end" *)
Definition ghalt_of (r : dout) : option gconf :=
  match r with
  | DNorm s st | DBrk s st | DCont s st | DEnd s st => Some (GEnd s st)
  | DRet s st => Some (GRet s st)
  | DExit v st => Some (GExit v st)
  | DFail => Some GFail
  | DFuel | DUnsup _ => None
  end.

Definition halt_of (r : dout) : option lconf :=
  match r with
  | DNorm s st | DBrk s st | DCont s st | DEnd s st => Some (LEnd s st)
  | DRet s st => Some (LRet s st)
  | DExit v st => Some (LExit v st)
  | DFail => Some LFail
  | DFuel | DUnsup _ => None
  end.

Lemma ghalt_of_lift env fuel e stk st h : ghalt_of (denote env fuel e stk st) = Some h ->
  CallX.EndToEnd.ghalt_of (X.denote (lift env) fuel e stk st) = Some h.
Proof. intros H. rewrite denote_lift_eq; [exact H|]. intros o E. rewrite E in H. discriminate H. Qed.

Lemma halt_of_lift env fuel e stk st h : halt_of (denote env fuel e stk st) = Some h ->
  CallX.EndToEnd.halt_of (X.denote (lift env) fuel e stk st) = Some h.
Proof. intros H. rewrite denote_lift_eq; [exact H|]. intros o E. rewrite E in H. discriminate H. Qed.

Lemma ghalt_props r h : ghalt_of r = Some h -> halting h /\ gfinal h = true /\ ok_out h.
Proof. exact (CallX.EndToEnd.ghalt_props r h). Qed.

Lemma exits_single_exit g start en : exits_at g en -> single_exit g start en.
Proof. intros X. apply single_exit_agree. exact (CallX.EndToEnd.exits_single_exit g start en X). Qed.

Lemma exits_start_first g (start : id) en : exits_at g en -> start <> en \/ out_of g start = [].
Proof. exact (CallX.EndToEnd.exits_start_first g start en). Qed.

(* the routine's graph, entered at its start block, computes what the source semantics prescribes *)
Theorem routine_graph_correct o sub ast0 cr :
  (match sub with Some r => r_deferred r | None => None end) = None ->
  compile_one o sub ast0 = COk cr ->
  head_loop (root_ast ast0) = false ->
  forall env, consistent env (routine_ctx o sub) ->
  forall fuel stk st h, ghalt_of (denote env fuel (root_ast ast0) stk st) = Some h ->
    star env (g_blk (cr_graph cr)) (GAt (cr_start cr) stk st) h.
Proof.
  intros D E HL env Hc fuel stk st h Hh. apply star_lift.
  exact (CallX.EndToEnd.routine_graph_correct o sub ast0 cr D E HL (lift env) Hc fuel stk st h
           (ghalt_of_lift _ _ _ _ _ _ Hh)).
Qed.

Theorem routine_end_to_end o sub ast0 cr order code :
  (match sub with Some r => r_deferred r | None => None end) = None ->
  compile_one o sub ast0 = COk cr ->
  head_loop (root_ast ast0) = false ->
  sort_blocks (cr_graph cr) (cr_start cr) (cr_end cr) = Some order ->
  flatten_blocks (cr_graph cr) order = Some code ->
  pos_of (cr_graph cr) order (cr_start cr) = 0 /\
  forall env, consistent env (routine_ctx o sub) ->
  forall fuel stk st h, halt_of (denote env fuel (root_ast ast0) stk st) = Some h ->
    lstar env code (LAt 0 stk st) h /\
    forall c2, lstar env code (LAt 0 stk st) c2 -> lfinal c2 = true -> c2 = h.
Proof.
  intros D E HL HS HF.
  destruct (CallX.EndToEnd.routine_end_to_end o sub ast0 cr order code D E HL HS HF) as [P Q].
  split; [exact P|]. intros env Hc fuel stk st h Hh.
  apply lstar_unique_lift. exact (Q (lift env) Hc fuel stk st h (halt_of_lift _ _ _ _ _ _ Hh)).
Qed.

(* compile_one wraps a routine that does not end in a return: a statement in Seq(.., Return()), a
   value in Return(value).  The root is loop-headed only if the recipe itself is. *)
Lemma root_head_loop ast0 : head_loop ast0 = false -> head_loop (root_ast ast0) = false.
Proof. exact (CallX.EndToEnd.root_head_loop ast0). Qed.

(* a statement without return (in particular a bare loop) is always wrapped in a Seq *)
Lemma root_head_loop_stmt ast0 :
  has_return ast0 = false -> type_of ast0 = TNone -> head_loop (root_ast ast0) = false.
Proof. exact (CallX.EndToEnd.root_head_loop_stmt ast0). Qed.

(* the body compileSubroutine builds for a subroutine declaration is a Seq: never loop-headed *)
Lemma decl_body_root_head_loop o r : head_loop (root_ast (decl_body o r)) = false.
Proof. exact (CallX.EndToEnd.decl_body_root_head_loop o r). Qed.

(* the end-to-end theorem for a subroutine as compile_rec compiles it (no deferred expression, i.e. not
   an ABI-returning subroutine): no side condition left *)
Theorem subroutine_end_to_end o r cr order code :
  r_deferred r = None ->
  compile_one o (Some r) (decl_body o r) = COk cr ->
  sort_blocks (cr_graph cr) (cr_start cr) (cr_end cr) = Some order ->
  flatten_blocks (cr_graph cr) order = Some code ->
  pos_of (cr_graph cr) order (cr_start cr) = 0 /\
  forall env, consistent env (routine_ctx o (Some r)) ->
  forall fuel stk st h, halt_of (denote env fuel (root_ast (decl_body o r)) stk st) = Some h ->
    lstar env code (LAt 0 stk st) h /\
    forall c2, lstar env code (LAt 0 stk st) c2 -> lfinal c2 = true -> c2 = h.
Proof.
  intros D E HS HF.
  exact (routine_end_to_end o (Some r) (decl_body o r) cr order code D E (decl_body_root_head_loop o r) HS HF).
Qed.
