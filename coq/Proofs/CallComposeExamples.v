(* Proofs/CallComposeExamples.v — property C02, two worked programs for the composed theorems of
   Proofs/CallComposeProgram.v: their text, the outcome of the source semantics and the run of the linked
   program, each by evaluation (Proofs/CallMachineExamples.v instantiates the theorems on them).
   ex_prog: main has a loop calling f; f calls g twice, the second call while the first result is on
   the stack (calls nested to depth 2, a call in operand position); g has an If with an early Return. *)
From Coq Require Import List Arith NArith String Bool Lia.
From PV Require Import Base.Bytes Base.Sexp AVM.Syntax AVM.Machine Src.Expr Src.Denote Src.DenoteCall
  Comp.Blocks Comp.Lower Comp.Passes Comp.GraphSem Comp.LinearSem Comp.LinkedSem Comp.Compile Comp.Assemble
  Proofs.LowerShape Proofs.NormalizeLowered Proofs.SlotComposeAssign Proofs.FlattenCorrect
  CallX.Denote CallX.EndToEnd
  Proofs.CallComposeLink Proofs.CallComposeMain Proofs.CallComposeLayout Proofs.CallComposeSpill
  Proofs.CallComposeSpillPass Proofs.CallComposeProgram.
Import ListNotations.
Local Open Scope string_scope.
Local Open Scope list_scope.

(* a decidable NoDup for label lists *)
Fixpoint nodup_b (l : list string) : bool :=
  match l with
  | [] => true
  | x :: t => negb (existsb (String.eqb x) t) && nodup_b t
  end.

Lemma nodup_b_sound l : nodup_b l = true -> NoDup l.
Proof.
  induction l as [|x t IH]; intros H; [constructor|]. cbn [nodup_b] in H. apply andb_prop in H. destruct H as [H1 H2].
  constructor; [|exact (IH H2)]. intros Hin. apply negb_true_iff in H1.
  assert (existsb (String.eqb x) t = true) by (apply existsb_exists; exists x; split; [exact Hin|apply String.eqb_refl]).
  congruence.
Qed.

Definition x_int (n : N) : expr := EOp O_int [AInt n] TUint [].
Definition x_ld (u : N) : expr := EOp O_load [ASlot u] TUint [].
Definition x_st (u : N) (e : expr) : expr := EOp O_store [ASlot u] TNone [e].

(* g(x): if x > 5 then return x - 5; return x + 1 *)
Definition ex_g : routine :=
  mkRoutine 2 "g" TUint [(false, 301%N)]
    (ESeq [ EIf (EOp O_gt [] TUint [EParam 0; x_int 5]) (EReturn (Some (EOp O_minus [] TUint [EParam 0; x_int 5]))) None;
            EReturn (Some (ENary O_add TUint [EParam 0; x_int 1])) ]) None.
(* f(x): return g(x) + g(x + 10) *)
Definition ex_f : routine :=
  mkRoutine 1 "f" TUint [(false, 300%N)]
    (EReturn (Some (ENary O_add TUint [ECall 2 TUint [EParam 0]; ECall 2 TUint [ENary O_add TUint [EParam 0; x_int 10]]]))) None.
(* acc := 0; i := 0; while i < 3 { acc := acc + f(i); i := i + 1 }; return acc *)
Definition ex_main : expr :=
  ESeq [ x_st 256 (x_int 0); x_st 257 (x_int 0);
         EWhile (EOp O_lt [] TUint [x_ld 257; x_int 3])
                (ESeq [ x_st 256 (ENary O_add TUint [x_ld 256; ECall 1 TUint [x_ld 257]]);
                        x_st 257 (ENary O_add TUint [x_ld 257; x_int 1]) ]);
         EReturn (Some (x_ld 256)) ].
Definition ex_prog : prog := mkProgram ex_main [ex_f; ex_g] [].
Definition ex_opts : copts := mkOpts 6 true false false (fun _ => 0%N) (fun _ _ => 0%N).
Definition ex_modes : opc -> bool * bool := fun _ => (true, true).

Definition ex_comps : list comp :=
  match compile_components ex_opts ex_modes ex_prog with COk c => c | CErr _ => [] end.
Definition ex_L : list comp := tl ex_comps.
Definition ex_asg : list (N * N) := match model_assignment ex_opts ex_prog with COk a => a | CErr _ => [] end.
Definition ex_st0 : mstate := init_state [] [] [].
Definition ex_lenv : Src.Denote.denv := lenv ex_ctx (look_of ex_asg) [] [ex_f; ex_g].
Definition ex_final : mstate :=
  match prun 400 ex_lenv ex_L (PAt [] 0 [] ex_st0) with PExit _ st => st | _ => ex_st0 end.

(* the text of the program, for the reader *)
Example ex_text : assemble_all ex_comps =
  Some ["#pragma version 6"; "int 0"; "store 0"; "int 0"; "store 1"; "main_l1:"; "load 1"; "int 3"; "<";
        "bz main_l3"; "load 0"; "load 1"; "callsub f_0"; "+"; "store 0"; "load 1"; "int 1"; "+"; "store 1";
        "b main_l1"; "main_l3:"; "load 0"; "return"; "
// f
f_0:"; "store 2"; "load 2"; "callsub g_1"; "load 2"; "int 10"; "+"; "callsub g_1"; "+"; "retsub"; "
// g
g_1:"; "store 3"; "load 3"; "int 5"; ">"; "bz g_1_l2"; "load 3"; "int 5"; "-"; "retsub"; "g_1_l2:"; "load 3";
        "int 1"; "+"; "retsub"].
Proof. vm_compute. reflexivity. Qed.

(* the compiler, the slot assignment and the fuelled runner are each evaluated once; the examples below use
   these equations and never unfold ex_asg, ex_L or ex_final again *)
Lemma ex_compiles : compile_components ex_opts ex_modes ex_prog = COk ex_comps.
Proof.
  unfold ex_comps. destruct (compile_components ex_opts ex_modes ex_prog) eqn:E; [reflexivity|].
  vm_compute in E. discriminate E.
Qed.

Lemma ex_asg_eq : ex_asg = [(301, 3); (300, 2); (257, 1); (256, 0)]%N.
Proof. vm_compute. reflexivity. Qed.

Lemma ex_run : prun 400 ex_lenv ex_L (PAt [] 0 [] ex_st0)
               = PExit (VI 24) (mkSt [(1, VI 3); (0, VI 24); (3, VI 12); (2, VI 2)]%N [] [] [] None [] []).
Proof. vm_compute. reflexivity. Qed.

Lemma ex_final_eq : ex_final = mkSt [(1, VI 3); (0, VI 24); (3, VI 12); (2, VI 2)]%N [] [] [] None [] [].
Proof. unfold ex_final. rewrite ex_run. reflexivity. Qed.

(* the outcomes that [call_correct_nonrecursive] relates, for ex_prog: the source semantics, and a run of the
   linked program (call stack, no oracle) from pc 0 to [return], both with 24 = sum over i<3 of g(i) + g(i+10)
   and the same final state; the run is the one the fuelled runner computes *)
Example program_linked_example :
  compile_components ex_opts ex_modes ex_prog = COk ex_comps /\
  ex_comps = CPragma 6 :: ex_L /\
  denote_k ex_opts ex_ctx (look_of ex_asg) [] [ex_f; ex_g] idW 100 None 100 (root_ast ex_main) [] ex_st0 = DExit (VI 24) ex_final /\
  pstar ex_lenv ex_L (PAt [] 0 [] ex_st0) (PExit (VI 24) ex_final) /\
  prun 400 ex_lenv ex_L (PAt [] 0 [] ex_st0) = PExit (VI 24) ex_final.
Proof.
  split; [exact ex_compiles|]. split; [exact (components_pragma _ _ _ _ ex_compiles eq_refl)|].
  rewrite ex_final_eq. split; [rewrite ex_asg_eq; vm_compute; reflexivity|].
  split; [rewrite <- ex_run; apply prun_pstar|exact ex_run].
Qed.

(* what the call-aware source semantics of Src/DenoteCall.v says about the same program: the same result.
   (The scratch contents differ: [denote_c] binds parameters by value and restores the callee's local
   slots, the compiled code stores the arguments into the parameters' slots and leaves them there.) *)
Example program_denote_c_example :
  let ce := mkCEnv (Src.Denote.mkEnv ex_ctx (look_of ex_asg) [] [ex_f; ex_g] false main_param) (fun _ => []) in
  exists st', denote_c ce 100 None [] (with_implicit_return ex_main) [] ex_st0 = DExit (VI 24) st' /\
              s_trace st' = s_trace ex_final /\
              scratch_get (s_scratch st') 0 = scratch_get (s_scratch ex_final) 0 /\
              scratch_get (s_scratch st') 3 = VI 0 /\ scratch_get (s_scratch ex_final) 3 = VI 12.
Proof.
  rewrite ex_asg_eq, ex_final_eq. eexists. split; [vm_compute; reflexivity|]. repeat split; reflexivity.
Qed.

(* recursion with a live local: fact(n) = if n == 0 then 1 else (x := n; fact(n - 1) * x);
   x and the parameter are local slots of fact; the recursive call is wrapped in spill code. *)
Definition ex_fact : routine :=
  mkRoutine 1 "fact" TUint [(false, 300%N)]
    (ESeq [ EIf (EOp O_eq [] TUint [EParam 0; x_int 0]) (EReturn (Some (x_int 1))) None;
            x_st 310 (EParam 0);
            EReturn (Some (ENary O_mul TUint [ECall 1 TUint [EOp O_minus [] TUint [EParam 0; x_int 1]]; x_ld 310])) ]) None.
Definition rec_main : expr := EReturn (Some (ENary O_add TUint [ECall 1 TUint [x_int 4]; x_int 1])).
Definition rec_prog : prog := mkProgram rec_main [ex_fact] [].
Definition rec_comps : list comp :=
  match compile_components ex_opts ex_modes rec_prog with COk c => c | CErr _ => [] end.
Definition rec_L : list comp := tl rec_comps.
Definition rec_asg : list (N * N) := match model_assignment ex_opts rec_prog with COk a => a | CErr _ => [] end.
Definition rec_lenv : Src.Denote.denv := lenv ex_ctx (look_of rec_asg) [] [ex_fact].
Definition rec_final : mstate :=
  match prun 600 rec_lenv rec_L (PAt [] 0 [] ex_st0) with PExit _ st => st | _ => ex_st0 end.

Example rec_text : assemble_all rec_comps =
  Some ["#pragma version 6"; "int 4"; "callsub fact_0"; "int 1"; "+"; "return"; "
// fact
fact_0:"; "store 0"; "load 0"; "int 0"; "=="; "bz fact_0_l2"; "int 1"; "retsub"; "fact_0_l2:"; "load 0"; "store 1";
        "load 0"; "int 1"; "-"; "load 0"; "load 1"; "uncover 2"; "callsub fact_0"; "cover 2"; "store 1"; "store 0";
        "load 1"; "*"; "retsub"].
Proof. vm_compute. reflexivity. Qed.

Definition rec_frs : list flat_routine :=
  match compile_rec 2 ex_opts rec_prog None rec_main [] with
  | COk crs => match assign_slots rec_prog crs with
               | COk (crs', _, _) => match fold_right flat_step (COk []) crs' with COk frs => frs | CErr _ => [] end
               | CErr _ => [] end
  | CErr _ => [] end.
Definition rec_locals : list (option N * list N) :=
  match model_assignment_locals ex_opts rec_prog with COk (_, l) => l | CErr _ => [] end.
Definition rec_W := W_spill ex_opts ex_ctx (look_of rec_asg) [] [ex_fact] 6 rec_prog rec_frs rec_locals.

Lemma rec_compiles : compile_components ex_opts ex_modes rec_prog = COk rec_comps.
Proof.
  unfold rec_comps. destruct (compile_components ex_opts ex_modes rec_prog) eqn:E; [reflexivity|].
  vm_compute in E. discriminate E.
Qed.

Lemma rec_asg_eq : rec_asg = [(310, 1); (300, 0)]%N.
Proof. vm_compute. reflexivity. Qed.

Lemma rec_run : prun 600 rec_lenv rec_L (PAt [] 0 [] ex_st0)
                = PExit (VI 25) (mkSt [(0, VI 4); (1, VI 4)]%N [] [] [] None [] []).
Proof. vm_compute. reflexivity. Qed.

Lemma rec_final_eq : rec_final = mkSt [(0, VI 4); (1, VI 4)]%N [] [] [] None [] [].
Proof. unfold rec_final. rewrite rec_run. reflexivity. Qed.

(* the outcomes that [call_correct_recursive] relates, for rec_prog: the source-side semantics
   [denote_k] (a re-entrant call = the outcome of its spill segment) and a run of the linked program with
   the spill code to [return], both with 25 = 4! + 1 and the same final state *)
Example program_linked_recursion_example :
  compile_components ex_opts ex_modes rec_prog = COk rec_comps /\
  rec_comps = CPragma 6 :: rec_L /\
  denote_k ex_opts ex_ctx (look_of rec_asg) [] [ex_fact] rec_W 100 None 100 (root_ast rec_main) [] ex_st0
    = DExit (VI 25) rec_final /\
  pstar rec_lenv rec_L (PAt [] 0 [] ex_st0) (PExit (VI 25) rec_final) /\
  prun 600 rec_lenv rec_L (PAt [] 0 [] ex_st0) = PExit (VI 25) rec_final.
Proof.
  split; [exact rec_compiles|]. split; [exact (components_pragma _ _ _ _ rec_compiles eq_refl)|].
  rewrite rec_final_eq. split; [rewrite rec_asg_eq; vm_compute; reflexivity|].
  split; [rewrite <- rec_run; apply prun_pstar|exact rec_run].
Qed.
