(* Proofs/AssignableProof.v — C19: whatever type_spec_is_assignable_to admits has the same ARC-4 layout.
   All statements are about the model ABI/Assignable.v and hold for arbitrarily nested specs. *)
From Coq Require Import List NArith Ascii String Bool Lia.
From PV Require Import Base.Bytes ABI.Types ABI.Spec ABI.Layout ABI.Descr ABI.Assignable
  Proofs.ABISpecProof Proofs.ABILayoutProof Proofs.ABIDescrProof.
Import ListNotations.

Definition tuple_elems (t : ty) : list ty := match t with TTuple _ ts => ts | _ => [] end.

Lemma all2_zip_fix : forall (f : ty -> ty -> bool) l1 l2,
    (fix go (l1 l2 : list ty) : bool :=
       match l1, l2 with
       | x :: r1, y :: r2 => f x y && go r1 r2
       | _, _ => true
       end) l1 l2 = all2_zip f l1 l2.
Proof. induction l1 as [|x r IH]; intros [|y r2]; simpl; try reflexivity. rewrite IH; reflexivity. Qed.

Lemma isinst_array : forall b, isinst b C_Array = match value_spec b with Some _ => true | None => false end.
Proof. destruct b as [| | | | | | | [?|] ? | | | k | k]; try reflexivity; destruct k; reflexivity. Qed.

(* the fixpoint is the literal transcription of the Python text *)
Theorem assignable_eqn : forall a b,
    assignable a b =
    if isinst a C_NamedTuple && isinst b C_NamedTuple then py_eq a b
    else if isinst a C_Tuple && isinst b C_Tuple then
      if negb (N.eqb (length_static a) (length_static b)) then false
      else all2_zip assignable (tuple_elems a) (tuple_elems b)
    else if isinst a C_Array && isinst b C_Array then
      match value_spec a, value_spec b with
      | Some ea, Some eb => if negb (assignable ea eb) then false else array_case a b
      | _, _ => false
      end
    else if isinst a C_Uint && isinst b C_Uint then N.eqb (uint_size a) (uint_size b)
    else isinst a (cls_of b) || String.eqb (py_str a) (py_str b).
Proof.
  (* the class tests on [a] evaluate once [a]'s constructor is known; [b] is looked at only where the Python
     text does: whether it is an array spec (its value spec), and for a tuple [a] its class *)
  intros a b.
  destruct a as [| | n | | | ea n | ea | [ia|] tas | n | | ka | ka]; try reflexivity;
    try (cbn [assignable]; rewrite (isinst_array b); destruct (value_spec b); reflexivity).
  - destruct b as [| | | | | | | [ib|] tbs | | | kb | kb]; try reflexivity; try (destruct kb; reflexivity).
    cbn [assignable]. rewrite all2_zip_fix. reflexivity.
  - destruct b as [| | | | | | | [ib|] tbs | | | kb | kb]; try reflexivity; try (destruct kb; reflexivity);
      cbn [assignable]; rewrite all2_zip_fix; reflexivity.
  - destruct ka; reflexivity.
Qed.

(* the fallback (isinstance / str equality) never relates specs of different kinds *)
Inductive kind : Type := KTuple | KArray | KUint | KOther.

Definition kind_of (t : ty) : kind :=
  match t with
  | TTuple _ _ => KTuple
  | TAddress | TString | TStaticArray _ _ | TDynArray _ | TStaticBytes _ | TDynBytes => KArray
  | TByte | TUint _ => KUint
  | TBool | TTxn _ | TRef _ => KOther
  end.

Ltac kill_same_kind Hk :=
  try (destruct Hk as [Hk|Hk]; [exfalso; apply Hk; reflexivity | discriminate Hk]).

Lemma isinst_sound : forall a b,
    isinst a (cls_of b) = true -> kind_of a <> kind_of b \/ kind_of a = KOther -> canon a = canon b.
Proof.
  intros a b H Hk.
  destruct a as [| | n | | | ea n | ea | [[ca nsa]|] tas | n | | ka | ka];
    destruct b as [| | m | | | eb m | eb | [[cb nsb]|] tbs | m | | kb | kb];
    try discriminate H; try reflexivity;
    try (destruct ka; discriminate H); try (destruct kb; discriminate H); kill_same_kind Hk.
  destruct ka, kb; try discriminate H; reflexivity.
Qed.


Lemma str_eq_sound : forall a b,
    py_str a = py_str b -> kind_of a <> kind_of b \/ kind_of a = KOther -> canon a = canon b.
Proof.
  intros a b H Hk.
  assert (Hs : sck a = sck b) by (rewrite <- !sclass_py_str, H; reflexivity).
  destruct a as [| | n | | | ea n | ea | nma tas | n | | ka | ka];
    destruct b as [| | m | | | eb m | eb | nmb tbs | m | | kb | kb];
    try discriminate Hs; try reflexivity; try discriminate H;
    try (destruct ka; discriminate H); try (destruct kb; discriminate H); kill_same_kind Hk;
    destruct ka, kb; try discriminate H; reflexivity.
Qed.

Theorem fallback_sound : forall a b,
    fallback a b = true -> kind_of a <> kind_of b \/ kind_of a = KOther -> canon a = canon b.
Proof.
  intros a b H Hk. unfold fallback in H. apply orb_true_iff in H as [H|H].
  - apply isinst_sound; assumption.
  - apply String.eqb_eq in H. apply str_eq_sound; assumption.
Qed.

Lemma isinst_uint_inv : forall t, isinst t C_Uint = true -> t = TByte \/ exists n, t = TUint n.
Proof.
  destruct t as [| | n | | | | | [?|] ? | | | k | k]; intro H; try discriminate H; eauto; destruct k; discriminate H.
Qed.

Lemma uint_size_sound : forall a b, isinst a C_Uint = true -> isinst b C_Uint = true ->
    N.eqb (uint_size a) (uint_size b) = true -> canon a = canon b.
Proof.
  intros a b Ha Hb H. apply N.eqb_eq in H.
  destruct (isinst_uint_inv a Ha) as [->|[n ->]], (isinst_uint_inv b Hb) as [->|[m ->]]; cbn in *; congruence.
Qed.

Lemma assignable_flat_sound : forall a b,
    kind_of a = KUint \/ kind_of a = KOther -> assignable_flat a b = true -> canon a = canon b.
Proof.
  intros a b Ha H. unfold assignable_flat in H.
  destruct (isinst a C_Uint && isinst b C_Uint) eqn:E.
  - apply andb_true_iff in E as [E1 E2]. apply uint_size_sound; assumption.
  - apply fallback_sound; [exact H|].
    destruct Ha as [Ha|Ha]; [|right; exact Ha].
    left. rewrite Ha. intro Hb.
    assert (E1 : isinst a C_Uint = true) by (destruct a; try discriminate Ha; reflexivity).
    assert (E2 : isinst b C_Uint = true)
      by (destruct b as [| | m | | | eb m | eb | nmb tbs | m | | kb | kb]; try discriminate Hb; reflexivity).
    rewrite E1, E2 in E. discriminate E.
Qed.

Lemma array_case_sound : forall a b ea eb,
    value_spec a = Some ea -> value_spec b = Some eb -> canon ea = canon eb ->
    array_case a b = true -> canon a = canon b.
Proof.
  intros a b ea eb Ha Hb Hc H.
  destruct a as [| | n | | | xa n | xa | nma tas | n | | ka | ka]; simpl in Ha; try discriminate Ha;
    destruct b as [| | m | | | xb m | xb | nmb tbs | m | | kb | kb]; simpl in Hb; try discriminate Hb;
    injection Ha as <-; injection Hb as <-;
    unfold array_case, isinst in H;
    cbn [cls_of subclass subclass_fuel pyclass_eqb parent andb orb length_static] in H;
    try discriminate H;
    simpl in Hc; simpl;
    try (apply N.eqb_eq in H; subst);
    try rewrite Hc; try rewrite <- Hc; try reflexivity.
Qed.

Lemma value_spec_kind : forall t, value_spec t = None -> kind_of t <> KArray.
Proof. destruct t; simpl; intros H; try discriminate H; discriminate. Qed.

(* the array branch, whatever the element test *)
Lemma array_branch_sound : forall a b ea (elt : ty -> bool),
    value_spec a = Some ea -> (forall eb, elt eb = true -> canon ea = canon eb) ->
    match value_spec b with
    | Some eb => if negb (elt eb) then false else array_case a b
    | None => fallback a b
    end = true -> canon a = canon b.
Proof.
  intros a b ea elt Ha Helt H. destruct (value_spec b) as [eb|] eqn:Eb.
  - destruct (elt eb) eqn:Ee; [|discriminate H].
    eapply array_case_sound; [exact Ha | exact Eb | exact (Helt eb Ee) | exact H].
  - apply fallback_sound; [exact H|]. left. intro Hk. apply (value_spec_kind b Eb). rewrite <- Hk.
    destruct a; try discriminate Ha; reflexivity.
Qed.

Theorem assignable_same_layout : forall a b, assignable a b = true -> canon a = canon b.
Proof.
  pose proof (fun eb => assignable_flat_sound TByte eb (or_introl eq_refl)) as Hbyte.
  induction a as [| | n | | | ea n IH | ea IH | nm tas IH | n | | k | k] using ty_ind'; intros b H;
    try (apply assignable_flat_sound; [(left; reflexivity) || (right; reflexivity) | exact H]);
    try (apply (array_branch_sound _ b TByte (assignable_flat TByte)); [reflexivity | exact Hbyte | exact H]);
    try (apply (array_branch_sound _ b ea (assignable ea)); [reflexivity | exact IH | exact H]).
  (* tuples *)
  destruct b as [| | m | | | eb m | eb | nmb tbs | m | | kb | kb];
    try (apply fallback_sound; [exact H | left; discriminate]).
  cbn [assignable] in H.
  assert (Hlist : (if negb (N.eqb (length_static (TTuple nm tas)) (length_static (TTuple nmb tbs))) then false
                   else all2_zip assignable tas tbs) = true -> canon (TTuple nm tas) = canon (TTuple nmb tbs)).
  { clear H. intro H. cbn [length_static] in H.
    destruct (N.eqb (N.of_nat (List.length tas)) (N.of_nat (List.length tbs))) eqn:El; cbn [negb] in H; [|discriminate H].
    apply N.eqb_eq in El. apply Nat2N.inj in El.
    simpl. f_equal. revert tbs El H.
    induction IH as [|x r Hx _ IHr]; intros [|y r2] El H; simpl in El; try discriminate El; [reflexivity|].
    simpl in H. apply andb_true_iff in H as [Ha Hb]. simpl.
    rewrite (Hx _ Ha), (IHr r2); [reflexivity | congruence | exact Hb]. }
  rewrite all2_zip_fix in H.
  destruct nm as [ia|]; destruct nmb as [ib|]; try (apply Hlist; exact H).
  apply py_eq_sound. exact H.
Qed.

Theorem same_layout_indistinguishable : forall a b : ty, canon a = canon b ->
    is_dynamic a = is_dynamic b /\ static_len a = static_len b /\
    forall v : val, val_has_type a v = val_has_type b v /\ arc4_encode a v = arc4_encode b v.
Proof.
  intros a b H. destruct (same_layout_same_descr a b H) as [Hd Hl].
  split; [exact Hd|]. split; [exact Hl|]. intro v.
  split; [apply same_layout_same_values | apply same_layout_same_encoding]; exact H.
Qed.

(* the bytes of an admitted argument are an encoding of the expected type, of the same value *)
Theorem assignable_same_encoding : forall a b, assignable a b = true ->
    is_dynamic a = is_dynamic b /\ static_len a = static_len b /\
    forall v, val_has_type a v = val_has_type b v /\ arc4_encode a v = arc4_encode b v.
Proof. intros a b H. exact (same_layout_indistinguishable a b (assignable_same_layout a b H)). Qed.

Theorem admitted_bytes_valid_for_target : forall (a b : ty) (v : val) (bs : bytes),
    assignable a b = true -> arc4_encode a v = Some bs ->
    arc4_encode b v = Some bs /\ val_has_type b v = true.
Proof.
  intros a b v bs H He. destruct (assignable_same_encoding a b H) as [_ [_ Hv]].
  destruct (Hv v) as [Ht Henc]. split.
  - rewrite <- Henc. exact He.
  - rewrite <- Ht. exact (encode_typed a v bs He).
Qed.

(* contrapositive: a call / assignment between differently laid out types is rejected *)
Theorem different_layout_rejected : forall a b, canon a <> canon b -> call_admits a b = false.
Proof.
  intros a b Hne. unfold call_admits. destruct (assignable a b) eqn:E; [|reflexivity].
  exfalso. apply Hne. apply assignable_same_layout. exact E.
Qed.

(* every spec is assignable to itself *)
Theorem assignable_refl : forall a, assignable a a = true.
Proof.
  assert (Hflat_byte : assignable_flat TByte TByte = true) by reflexivity.
  induction a as [| | n | | | ea n IH | ea IH | nm tas IH | n | | k | k] using ty_ind'.
  - reflexivity.
  - reflexivity.
  - cbn [assignable]. unfold assignable_flat, isinst. cbn [cls_of subclass subclass_fuel pyclass_eqb parent andb orb uint_size].
    apply N.eqb_refl.
  - reflexivity.
  - reflexivity.
  - cbn [assignable value_spec]. rewrite IH. cbn [negb]. unfold array_case, isinst.
    cbn [cls_of subclass subclass_fuel pyclass_eqb parent andb orb length_static]. apply N.eqb_refl.
  - cbn [assignable value_spec]. rewrite IH. reflexivity.
  - cbn [assignable]. destruct nm as [i|].
    + apply py_eq_refl.
    + rewrite N.eqb_refl. cbn [negb].
      induction IH as [|x r Hx _ IHr]; [reflexivity|]. rewrite Hx. exact IHr.
  - cbn [assignable value_spec]. rewrite Hflat_byte. cbn [negb]. unfold array_case, isinst.
    cbn [cls_of subclass subclass_fuel pyclass_eqb parent andb orb length_static]. apply N.eqb_refl.
  - reflexivity.
  - destruct k; reflexivity.
  - destruct k; reflexivity.
Qed.

Lemma canon_txn_inv : forall t, canon t = LTxn -> exists k, t = TTxn k.
Proof. destruct t; simpl; intro H; try discriminate H. eexists; reflexivity. Qed.

Lemma canon_ref_inv : forall t k, canon t = LRef k -> t = TRef k.
Proof. destruct t; simpl; intros k' H; try discriminate H. congruence. Qed.

(* a transaction spec is accepted exactly where the same spec or the generic `txn` is expected *)
Theorem assignable_txn_iff : forall k1 b,
    assignable (TTxn k1) b = true <-> exists k2, b = TTxn k2 /\ (k2 = k1 \/ k2 = TxAny).
Proof.
  intros k1 b; split.
  - intro H. destruct (canon_txn_inv b (eq_sym (assignable_same_layout _ _ H))) as [k2 ->].
    exists k2; split; [reflexivity|].
    destruct k1, k2; vm_compute in H; try discriminate H; auto.
  - intros [k2 [-> [-> | ->]]]; [apply assignable_refl | destruct k1; reflexivity].
Qed.

Theorem assignable_to_txn : forall a k, assignable a (TTxn k) = true -> exists k1, a = TTxn k1.
Proof. intros a k H. apply canon_txn_inv. apply (assignable_same_layout _ _ H). Qed.

(* a reference spec is assignable to and from the identical spec only *)
Theorem assignable_ref_iff : forall k b, assignable (TRef k) b = true <-> b = TRef k.
Proof.
  intros k b; split.
  - intro H. apply canon_ref_inv. symmetry. apply (assignable_same_layout _ _ H).
  - intros ->. apply assignable_refl.
Qed.

Theorem assignable_to_ref : forall a k, assignable a (TRef k) = true -> a = TRef k.
Proof. intros a k H. apply canon_ref_inv. apply (assignable_same_layout _ _ H). Qed.

Theorem reference_specs : forall (k : ref_kind) (b : ty),
    (assignable (TRef k) b = true <-> b = TRef k) /\ (assignable b (TRef k) = true -> b = TRef k).
Proof. intros k b. split; [apply assignable_ref_iff | apply assignable_to_ref]. Qed.

(* the relation is directional (not symmetric): the documented asymmetries *)
Lemma assignable_not_symmetric :
  assignable TAddress (TStaticBytes 32) = true /\ assignable (TStaticBytes 32) TAddress = false /\
  assignable TString TDynBytes = true /\ assignable TDynBytes TString = false /\
  assignable (TTxn TxPay) (TTxn TxAny) = true /\ assignable (TTxn TxAny) (TTxn TxPay) = false.
Proof. vm_compute. repeat split; reflexivity. Qed.

(* the direct-assignment gates (dst.set(value)) *)
Lemma py_eq_sound_sym : forall a b, py_eq a b = true -> canon b = canon a.
Proof. intros a b H. symmetry. apply py_eq_sound. exact H. Qed.

Theorem set_admits_same_layout : forall src dst,
    set_admits src dst = true -> canon src = canon (set_target dst).
Proof.
  intros src dst H.
  destruct dst as [| | n | | | e n | e | nm ts | n | | k | k]; cbn [set_admits set_target] in *;
    try discriminate H.
  - apply py_eq_sound; exact H.
  - apply andb_true_iff in H as [Hi Hs]. rewrite N.eqb_sym in Hs. exact (uint_size_sound src TByte Hi eq_refl Hs).
  - apply andb_true_iff in H as [Hi Hs]. rewrite N.eqb_sym in Hs. exact (uint_size_sound src (TUint n) Hi eq_refl Hs).
  - apply orb_true_iff in H as [H|H]; apply py_eq_sound in H; exact H.
  - apply orb_true_iff in H as [H|H]; apply py_eq_sound in H; exact H.
  - apply py_eq_sound_sym; exact H.
  - apply py_eq_sound_sym; exact H.
  - destruct ts as [|x [|y r]]; try discriminate H.
    apply andb_true_iff in H as [H _]. apply py_eq_sound_sym; exact H.
  - apply py_eq_sound_sym; exact H.
  - apply py_eq_sound_sym; exact H.
Qed.

Theorem elem_admits_same_layout : forall src slot, elem_admits src slot = true -> canon src = canon slot.
Proof. intros src slot H. apply andb_true_iff in H as [H _]. apply py_eq_sound_sym. exact H. Qed.

Theorem computed_admits_same_layout : forall src dst,
    computed_admits src dst = true -> canon src = canon dst.
Proof.
  intros src dst H.
  destruct dst; cbn [computed_admits] in H; try discriminate H;
    try (apply py_eq_sound_sym; exact H).
  apply orb_true_iff in H as [H|H]; apply py_eq_sound in H; exact H.
Qed.

(* the three gates together, with the encoding consequence *)
Theorem set_gates_same_encoding : forall src dst,
    (set_admits src dst = true -> forall v, arc4_encode src v = arc4_encode (set_target dst) v) /\
    (elem_admits src dst = true -> forall v, arc4_encode src v = arc4_encode dst v) /\
    (computed_admits src dst = true -> forall v, arc4_encode src v = arc4_encode dst v).
Proof.
  intros src dst. repeat split; intros H v; apply same_layout_same_encoding.
  - apply set_admits_same_layout; exact H.
  - apply elem_admits_same_layout; exact H.
  - apply computed_admits_same_layout; exact H.
Qed.

Theorem store_into_admits_same_layout : forall src dst,
    store_into_admits src dst = true ->
    canon src = canon dst /\ forall v, arc4_encode src v = arc4_encode dst v.
Proof.
  intros src dst H. assert (Hc : canon src = canon dst) by (apply py_eq_sound_sym; exact H).
  split; [exact Hc|]. intro v. apply same_layout_same_encoding. exact Hc.
Qed.

(* type_spec_from_algosdk reads a signature type as the spec of the SAME type, or refuses *)
Theorem from_algosdk_same_type : forall t p, from_algosdk t = Some p -> p = t.
Proof. intros t p H. unfold from_algosdk in H. destruct (sdk_supported t); congruence. Qed.

Theorem method_arg_admits_same_layout : forall arg param,
    method_arg_admits arg param = true ->
    canon arg = canon param /\ forall v, arc4_encode arg v = arc4_encode param v.
Proof.
  intros arg param H. unfold method_arg_admits in H.
  destruct (from_algosdk param) as [p|] eqn:E; [|discriminate H].
  apply from_algosdk_same_type in E. subst p.
  assert (Hc : canon arg = canon param) by (apply assignable_same_layout; exact H).
  split; [exact Hc|]. intro v. apply same_layout_same_encoding. exact Hc.
Qed.
