(* Proofs/StageELiterals.v — stage E: the literal spellings PyTeal's constructors emit (C13's models in
   Lit/BaseN.v: Bytes in every form, Int, Addr, MethodSignature) are in the printable class of StageEText, and the
   immediate the assembler reads is the literal's specified value. *)
From Coq Require Import List Arith NArith ZArith Ascii String Bool Lia.
From PV Require Import Base.Sexp AVM.Syntax AVM.Machine AVM.Parse Lit.Escape Lit.BaseN Lit.Spec Proofs.TextFacts
  Proofs.LitEscapeProof Proofs.LitLineProof Proofs.LitBaseNProof Proofs.LitFinalProof.
From PV Require Proofs.C18Text Proofs.StageELink Proofs.StageEText.
Import ListNotations.
Local Open Scope list_scope.
Local Open Scope string_scope.

(* the alphabets of the literal spellings do not contain the line feed *)
Lemma hex_nolf c : is_hex c = true -> negb (Ascii.eqb c (chr 10)) = true.
Proof. intros H. pose proof (payload_char c) as P. rewrite H in P. now apply andb_prop in P. Qed.
Lemma b32_nolf c : is_b32 c || is_pad c = true -> negb (Ascii.eqb c (chr 10)) = true.
Proof. intros H. pose proof (payload_char c) as P. rewrite H, orb_true_r in P. now apply andb_prop in P. Qed.
Lemma b64_nolf c : b64c c = true -> negb (Ascii.eqb c (chr 10)) = true.
Proof. intros H. apply b64c_not_special in H. apply negb_true_iff. now apply orb_false_iff in H. Qed.

Lemma Some_inj {A} (a b : A) : Some a = Some b -> a = b.
Proof. intros H. injection H as H. exact H. Qed.

(* no spelling contains a raw line feed *)
Lemma bytes_payload_no_nl a s : bytes_payload a = Some s -> StageEText.no_nlb s = true.
Proof.
  unfold StageEText.no_nlb. change C18Text.newline with (chr 10).
  destruct a as [u|b|base v]; cbn [bytes_payload].
  - intros E. apply Some_inj in E. subst s. rewrite list_of_escape_str. unfold escape_list. cbn [forallb].
    rewrite forallb_app. cbn [forallb]. now rewrite body_no_newline.
  - intros E. apply Some_inj in E. subst s. rewrite los_app, forallb_app, los_sol.
    now rewrite (forallb_impl _ _ hex_nolf _ (hex_lower_is_hex b)).
  - destruct (String.eqb base "base32").
    { destruct (valid_base32 v) eqn:V; [|discriminate]. intros E. apply Some_inj in E. subst s.
      rewrite !los_app, !forallb_app. now rewrite (forallb_impl _ _ b32_nolf _ (valid32_chars _ V)). }
    destruct (String.eqb base "base64").
    { destruct (valid_base64 v) eqn:V; [|discriminate]. intros E. apply Some_inj in E. subst s.
      rewrite !los_app, !forallb_app. now rewrite (forallb_impl _ _ b64_nolf _ (valid64_chars _ V)). }
    destruct (String.eqb base "base16"); [|discriminate].
    destruct (valid_base16 (strip0x v)) eqn:V; [|discriminate]. intros E. apply Some_inj in E. subst s.
    rewrite los_app, forallb_app. now rewrite (forallb_impl _ _ hex_nolf _ (valid16_chars _ V)).
Qed.

Lemma byte_word : StageEText.word "byte" = true. Proof. vm_compute. reflexivity. Qed.

(* Bytes(...) in every accepted form: printable, and read back as the specified value *)
Theorem bytes_literal_printable msel a s :
  bytes_payload a = Some s ->
  StageEText.printable_instr msel (mkI O_byte [AStr s]) = true /\
  exists b, bytes_value a = Some b /\ StageELink.imm_of_arg msel O_byte (AStr s) = Some (IBytes b).
Proof.
  intros P. pose proof (bytes_literal_correct msel a) as C.
  assert (L : bytes_line a = Some ("byte " ++ s)) by (unfold bytes_line; rewrite P; reflexivity).
  destruct (bytes_value a) as [b|] eqn:V; [|rewrite L in C; discriminate C].
  destruct C as (line & L' & R). rewrite L in L'. apply Some_inj in L'. subst line.
  unfold reads_as in R. change ("byte " ++ s) with ("byte" ++ " " ++ s) in R.
  rewrite (StageEText.tokens_cons "byte" s byte_word) in R.
  rewrite parse_stmt_byte in R.
  destruct (parse_bytes_arg (tokens_of_line s)) as [[b' rest]|] eqn:Pb; [|discriminate R].
  destruct rest; [|discriminate R]. unfold push_bytes in R. injection R as ->.
  split.
  - unfold StageEText.printable_instr. cbn [i_op i_args StageEText.kind_of]. rewrite Pb, (bytes_payload_no_nl a s P). reflexivity.
  - exists b. split; [reflexivity|]. cbn [StageELink.imm_of_arg]. rewrite Pb. reflexivity.
Qed.

(* Int(n), 0 <= n < 2^64 *)
Theorem int_literal_printable msel z n :
  int_value z = Some n ->
  StageEText.printable_instr msel (mkI O_int [AInt n]) = true /\ int_line z = Some ("int " ++ N_to_dec n).
Proof.
  unfold int_value, int_line. destruct ((0 <=? z)%Z && (z <? 18446744073709551616)%Z) eqn:R; [|discriminate].
  intros E. injection E as <-. split; [|reflexivity].
  unfold StageEText.printable_instr. cbn [i_op i_args StageEText.kind_of].
  apply andb_true_iff in R as [R1 R2]. apply Z.leb_le in R1. apply Z.ltb_lt in R2. apply N.ltb_lt. lia.
Qed.
