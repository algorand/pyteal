(* Proofs/PrologueProof.v — C02: the two calling conventions.
   - scratch convention (AVM 4-7 or frame pointers off): the prologue [store slot_(n-1); ...; store slot_0]
     binds parameter i to argument i and removes the arguments from the stack; [load slot_i] reads it;
   - frame-pointer convention (AVM 8+): after [callsub; proto A R], [frame_dig (i - A)] pushes
     argument i whatever has been pushed above the frame pointer in between; [retsub] (preceded by
     [frame_bury 0] when locals live above the return cell) delivers exactly the result on top of the
     caller's operands, arguments removed.
   The frame-pointer lemmas are about the reference machine [AVM.Machine.step]. *)
From Coq Require Import String.
From Coq Require Import Arith NArith Bool Lia List.
From PV Require Import Base.Bytes AVM.Syntax AVM.Machine Src.Expr Comp.Lower Comp.Compile Comp.SpillSem
  Proofs.SpillProof Proofs.MachineStep.
Import ListNotations.
Notation length := List.length.

Lemma nth_error_rev {A} (l : list A) : forall i, (i < length l)%nat ->
  nth_error (rev l) (length l - 1 - i) = nth_error l i.
Proof.
  induction l as [|x l IH]; intros i Hi; cbn [length] in *; [lia|].
  cbn [rev]. destruct i as [|j].
  - replace (S (length l) - 1 - 0)%nat with (length (rev l)) by (rewrite rev_length; lia).
    rewrite nth_error_app_mid. reflexivity.
  - rewrite nth_error_app1 by (rewrite rev_length; lia).
    replace (S (length l) - 1 - S j)%nat with (length l - 1 - j)%nat by lia.
    cbn [nth_error]. apply IH. lia.
Qed.

Lemma list_update_app_mid {A} (P : list A) (x v : A) (R : list A) :
  list_update (P ++ x :: R) (length P) v = P ++ v :: R.
Proof. induction P as [|p P IH]; cbn [app length list_update]; [reflexivity|]. rewrite IH. reflexivity. Qed.

Lemma combine_app_eq {A B} (l1 l2 : list A) (k1 k2 : list B) : length l1 = length k1 ->
  combine (l1 ++ l2) (k1 ++ k2) = combine l1 k1 ++ combine l2 k2.
Proof.
  revert k1; induction l1 as [|a l1 IH]; intros [|b k1] H; try discriminate; cbn [app combine]; [reflexivity|].
  rewrite IH by (cbn [length] in H; lia). reflexivity.
Qed.

Lemma combine_rev {A B} (l : list A) : forall (k : list B), length l = length k ->
  combine (rev l) (rev k) = rev (combine l k).
Proof.
  induction l as [|a l IH]; intros [|b k] H; try discriminate; [reflexivity|].
  cbn [rev combine]. rewrite combine_app_eq by (rewrite !rev_length; cbn [length] in H; lia).
  rewrite IH by (cbn [length] in H; lia). reflexivity.
Qed.

Lemma nth_error_combine {A B} (l : list A) : forall (k : list B) i a b,
  nth_error l i = Some a -> nth_error k i = Some b -> In (a, b) (combine l k).
Proof.
  induction l as [|x l IH]; intros [|y k] [|i] a b Ha Hb; try discriminate; cbn [nth_error combine In] in *.
  - left. congruence.
  - right. eapply IH; eassumption.
Qed.

(* binding: store, one after the other, value [v] into slot [s] for every pair of [combine rs vs] *)
Definition bind_slots (rs : list N) (vs : list value) (m1 : scratch) : scratch :=
  fold_left (fun acc sv => supd acc (fst sv) (snd sv)) (combine rs vs) m1.

Lemma bind_slots_other rs : forall vs m1 n, ~ In n rs -> bind_slots rs vs m1 n = m1 n.
Proof.
  induction rs as [|s rs IH]; intros [|v vs] m1 n Hn; try reflexivity.
  unfold bind_slots in *. cbn [combine fold_left fst snd].
  rewrite IH by (intro H; apply Hn; right; exact H).
  unfold supd. destruct (N.eqb_spec n s) as [->|_]; [|reflexivity]. exfalso. apply Hn. left. reflexivity.
Qed.

Lemma bind_slots_in rs : NoDup rs -> forall vs m1 s v, In (s, v) (combine rs vs) -> bind_slots rs vs m1 s = v.
Proof.
  induction 1 as [|s0 rs Hni _ IH]; intros [|v0 vs] m1 s v Hin; try contradiction.
  unfold bind_slots in *. cbn [combine fold_left fst snd]. cbn [combine In] in Hin.
  destruct Hin as [E|Hin].
  - injection E as Es Ev. subst s0 v0. fold (bind_slots rs vs (supd m1 s v)).
    rewrite bind_slots_other by exact Hni. unfold supd. rewrite N.eqb_refl. reflexivity.
  - apply IH. exact Hin.
Qed.

(* binding the reversed parameter slots to the reversed arguments binds parameter i to argument i *)
Lemma bind_rev_params slots args m1 : NoDup slots -> length args = length slots ->
  (forall i s v, nth_error slots i = Some s -> nth_error args i = Some v ->
     bind_slots (rev slots) (rev args) m1 s = v) /\
  (forall n, ~ In n slots -> bind_slots (rev slots) (rev args) m1 n = m1 n).
Proof.
  intros Hnd Hl. split.
  - intros i s v Hi Hv. apply bind_slots_in; [apply NoDup_rev; exact Hnd|].
    rewrite combine_rev by (symmetry; exact Hl). apply -> in_rev. eapply nth_error_combine; eassumption.
  - intros n Hn. apply bind_slots_other. intro H. apply Hn. apply in_rev. exact H.
Qed.

Section Scratch.
Variable callee : callee_t.
Variable na : nat.

Lemma run_bind rs : Forall slot_ok rs -> forall vs X m1, length vs = length rs ->
  srun callee na (map (OpI O_store) rs) (vs ++ X) m1 = Some (X, bind_slots rs vs m1).
Proof.
  induction 1 as [|s t Hs _ IH]; intros [|v vs] X m1 Hl; try discriminate; [reflexivity|].
  cbn [map app]. rewrite (srun_cons _ _ _ _ _ _ _ _ (sstep_store callee na s v _ m1 Hs)).
  rewrite IH by (cbn [length] in Hl; lia). reflexivity.
Qed.

(* the scratch prologue of a subroutine: one [store] per parameter, in REVERSED parameter order *)
Definition scratch_prologue (slots : list N) : list comp := map (OpI O_store) (rev slots).

Theorem prologue_scratch :
  forall (slots : list N) (args S : list value) (m : scratch),
    NoDup slots -> Forall slot_ok slots -> length args = length slots ->
    exists m',
      srun callee na (scratch_prologue slots) (rev args ++ S) m = Some (S, m')
      /\ (forall i s v, nth_error slots i = Some s -> nth_error args i = Some v ->
            m' s = v
            /\ forall stk, sstep callee na (OpI O_load s) stk m' = Some (v :: stk, m'))
      /\ (forall n, ~ In n slots -> m' n = m n).
Proof.
  intros slots args S m Hnd Hs Hl. destruct (bind_rev_params slots args m Hnd Hl) as [Hin Hout].
  exists (bind_slots (rev slots) (rev args) m). split; [|split; [|exact Hout]].
  - apply run_bind; [apply Forall_rev; exact Hs|]. rewrite !rev_length. exact Hl.
  - intros i s v Hi Hv. split; [exact (Hin i s v Hi Hv)|]. intros stk. rewrite sstep_load.
    + rewrite (Hin i s v Hi Hv). reflexivity.
    + exact (proj1 (Forall_forall slot_ok slots) Hs s (nth_error_In _ _ Hi)).
Qed.

End Scratch.

(* the model's declaration body under the scratch convention is exactly: reversed stores, then the body;
   and a parameter is read with [load] of its slot *)
Lemma decl_body_scratch_shape o r : o_use_fp o = false ->
  decl_body o r =
  ESeq (map (fun '(_, slot) => EOp O_store [ASlot slot] TNone []) (rev (r_params r)) ++ [r_body r]).
Proof. intros H. unfold decl_body. rewrite H. reflexivity. Qed.

Lemma param_instr_scratch o r i byref slot : o_use_fp o = false ->
  nth_error (r_params r) (N.to_nat i) = Some (byref, slot) ->
  param_instr o r i = mkI O_load [ASlot slot].
Proof. intros H Hn. unfold param_instr. rewrite Hn, H. reflexivity. Qed.

Lemma param_instr_fp o r i slot : o_use_fp o = true ->
  nth_error (r_params r) (N.to_nat i) = Some (false, slot) ->
  param_instr o r i = mkI O_frame_dig [AStr (neg_index (r_nargs r) i)].
Proof. intros H Hn. unfold param_instr. rewrite Hn, H. reflexivity. Qed.

Section FP.
Variable cx : ctx.
Variable p : program.

(* [callsub l] then [proto A R]: the frame records the height with the arguments on top *)
Theorem callsub_proto_steps :
  forall (m : mach) (l : string) (t : nat) (A R : N),
    nth_error (pr_code p) (m_pc m) = Some (mkP O_callsub [IName l]) ->
    label_pc p l = Some t ->
    nth_error (pr_code p) t = Some (mkP O_proto [IInt A; IInt R]) ->
    (height m <= STACK_MAX)%nat -> (N.to_nat A <= height m)%nat ->
    let m1 := mkM t (m_stack m) (mkFrame (S (m_pc m)) None :: m_calls m) true (m_intc m) (m_bytec m) (m_st m) in
    step cx p m = Running m1 /\
    step cx p m1 =
    Running (mkM (S t) (m_stack m)
                 (mkFrame (S (m_pc m)) (Some (height m, N.to_nat A, N.to_nat R)) :: m_calls m)
                 false (m_intc m) (m_bytec m) (m_st m)).
Proof.
  intros m l t A R Hc Hl Hp Hh HA m1. split.
  - rewrite (step_callsub cx p m Hh l Hc), Hl. reflexivity.
  - assert (HA1 : (N.to_nat A <=? height m1)%nat = true) by (apply Nat.leb_le; exact HA).
    rewrite (step_proto cx p m1 Hh A R Hp). unfold m1 in *. cbn [m_from_callsub m_calls] in *. rewrite HA1. reflexivity.
Qed.

(* arithmetic of [frame_index] / [from_bottom]: argument i of A sits at frame index i - A *)
Lemma frame_arg_lookup (A i : nat) (args locals C : list value) :
  length args = A -> (i < A)%nat -> (A <= 128)%nat ->
  exists idx pos,
    frame_index (length (rev args ++ C)) A (256 - N.of_nat (A - i)) = Some idx
    /\ from_bottom (locals ++ rev args ++ C) idx = Some pos
    /\ nth_error (locals ++ rev args ++ C) pos = nth_error args i.
Proof.
  intros Hl Hi HA.
  exists (length C + i)%nat, (length locals + (A - 1 - i))%nat. split; [|split].
  - unfold frame_index.
    replace (256 - N.of_nat (A - i) <? 128)%N with false by (symmetry; apply N.ltb_ge; lia).
    replace (N.to_nat (256 - (256 - N.of_nat (A - i)))) with (A - i)%nat by lia.
    replace (A - i <=? A)%nat with true by (symmetry; apply Nat.leb_le; lia).
    rewrite app_length, rev_length, Hl. f_equal. lia.
  - unfold from_bottom. rewrite !app_length, rev_length, Hl.
    replace (length C + i <? length locals + (A + length C))%nat with true
      by (symmetry; apply Nat.ltb_lt; lia).
    f_equal. lia.
  - rewrite nth_error_app2 by lia.
    replace (length locals + (A - 1 - i) - length locals)%nat with (A - 1 - i)%nat by lia.
    rewrite nth_error_app1 by (rewrite rev_length; lia).
    rewrite <- Hl. apply nth_error_rev. lia.
Qed.

(* [frame_dig (i - A)] pushes argument i, for every content [locals] above the frame pointer *)
Theorem prologue_fp :
  forall (m : mach) (ret : nat) (fs : list frame) (A R i : nat) (args locals C : list value) (v : value),
    m_calls m = mkFrame ret (Some (length (rev args ++ C), A, R)) :: fs ->
    m_stack m = locals ++ rev args ++ C ->
    length args = A -> (A <= 128)%nat -> nth_error args i = Some v ->
    (height m <= STACK_MAX)%nat ->
    nth_error (pr_code p) (m_pc m) = Some (mkP O_frame_dig [IInt (256 - N.of_nat (A - i))]) ->
    step cx p m = Running (with_pc_stack m (S (m_pc m)) (v :: m_stack m)).
Proof.
  intros m ret fs A R i args locals C v Hc Hst Hl HA Hv Hh Hcode.
  assert (Hi : (i < A)%nat) by (rewrite <- Hl; apply nth_error_Some; congruence).
  destruct (frame_arg_lookup A i args locals C Hl Hi HA) as [idx [pos [H1 [H2 H3]]]].
  rewrite (step_frame_dig cx p m Hh _ Hcode), Hc. cbn [f_proto]. rewrite H1, Hst, H2, H3, Hv. reflexivity.
Qed.

(* [retsub] under [proto A R]: everything above the R cells at the frame pointer is dropped, the
   arguments are removed, the R cells land on the caller's operands *)
Lemma retsub_stack (A : nat) (above rs args C : list value) :
  length args = A ->
  let h := length (rev args ++ C) in
  let bf := rev (above ++ rs ++ rev args ++ C) in
  rev (firstn (h - A) bf ++ firstn (length rs) (skipn h bf)) = rs ++ C.
Proof.
  intros <- h bf. unfold bf, h.
  rewrite app_length, rev_length, !app_assoc, retsub_lift, Nat.sub_diag by apply le_n.
  f_equal. cbn [firstn app].
  rewrite !rev_app_distr, rev_involutive, skipn_app, skipn_all, Nat.sub_diag. cbn [skipn app].
  rewrite <- (rev_length rs), firstn_app, firstn_all, Nat.sub_diag, firstn_O, app_nil_r. apply rev_involutive.
Qed.

Theorem retsub_fp_general :
  forall (m : mach) (ret : nat) (fs : list frame) (A R : nat) (imms : list imm)
         (above rs args C : list value),
    m_calls m = mkFrame ret (Some (length (rev args ++ C), A, R)) :: fs ->
    m_stack m = above ++ rs ++ rev args ++ C ->
    length args = A -> length rs = R ->
    (height m <= STACK_MAX)%nat ->
    nth_error (pr_code p) (m_pc m) = Some (mkP O_retsub imms) ->
    step cx p m = Running (mkM ret (rs ++ C) fs false (m_intc m) (m_bytec m) (m_st m)).
Proof.
  intros m ret fs A R imms above rs args C Hc Hst Hl HR Hh Hcode.
  rewrite (step_retsub cx p m Hh imms Hcode), Hc. cbn [f_proto f_ret].
  replace (length (rev args ++ C) + R <=? height m)%nat with true.
  - rewrite Hst. rewrite <- HR. rewrite (retsub_stack A above rs args C Hl). reflexivity.
  - symmetry. apply Nat.leb_le. unfold height. rewrite Hst, !app_length. lia.
Qed.

(* R = 1, nothing but the result above the frame pointer: plain [retsub] *)
Theorem retsub_fp_no_locals :
  forall (m : mach) (ret : nat) (fs : list frame) (A : nat) (imms : list imm)
         (result : value) (args C : list value),
    m_calls m = mkFrame ret (Some (length (rev args ++ C), A, 1%nat)) :: fs ->
    m_stack m = result :: rev args ++ C ->
    length args = A -> (height m <= STACK_MAX)%nat ->
    nth_error (pr_code p) (m_pc m) = Some (mkP O_retsub imms) ->
    step cx p m = Running (mkM ret (result :: C) fs false (m_intc m) (m_bytec m) (m_st m)).
Proof.
  intros m ret fs A imms result args C Hc Hst Hl Hh Hcode.
  apply (retsub_fp_general m ret fs A 1 imms [] [result] args C); auto.
Qed.

(* R = 0: [retsub] drops every local and the arguments *)
Theorem retsub_fp_none :
  forall (m : mach) (ret : nat) (fs : list frame) (A : nat) (imms : list imm)
         (locals args C : list value),
    m_calls m = mkFrame ret (Some (length (rev args ++ C), A, 0%nat)) :: fs ->
    m_stack m = locals ++ rev args ++ C ->
    length args = A -> (height m <= STACK_MAX)%nat ->
    nth_error (pr_code p) (m_pc m) = Some (mkP O_retsub imms) ->
    step cx p m = Running (mkM ret C fs false (m_intc m) (m_bytec m) (m_st m)).
Proof.
  intros m ret fs A imms locals args C Hc Hst Hl Hh Hcode.
  apply (retsub_fp_general m ret fs A 0 imms locals [] args C); auto.
Qed.

(* R = 1 with locals: the result is on top of [above ++ [cell0]] (cell0 = frame index 0);
   [frame_bury 0] writes it into cell0, [retsub] delivers it *)
Theorem retsub_fp :
  forall (m : mach) (ret : nat) (fs : list frame) (A : nat) (imms : list imm)
         (result cell0 : value) (above args C : list value),
    m_calls m = mkFrame ret (Some (length (rev args ++ C), A, 1%nat)) :: fs ->
    m_stack m = result :: above ++ cell0 :: rev args ++ C ->
    length args = A -> (height m <= STACK_MAX)%nat ->
    nth_error (pr_code p) (m_pc m) = Some (mkP O_frame_bury [IInt 0]) ->
    nth_error (pr_code p) (S (m_pc m)) = Some (mkP O_retsub imms) ->
    let m1 := with_pc_stack m (S (m_pc m)) (above ++ result :: rev args ++ C) in
    step cx p m = Running m1 /\
    step cx p m1 = Running (mkM ret (result :: C) fs false (m_intc m) (m_bytec m) (m_st m)).
Proof.
  intros m ret fs A imms result cell0 above args C Hc Hst Hl Hh Hb Hr m1. split.
  - rewrite (step_frame_bury cx p m Hh 0 Hb), Hst, Hc. cbn [f_proto].
    unfold frame_index. cbn [N.ltb N.compare Pos.compare N.to_nat]. change (0 <? 128)%N with true. cbn iota.
    rewrite Nat.add_0_r. unfold from_bottom.
    replace (length (rev args ++ C) <? length (above ++ cell0 :: rev args ++ C))%nat with true
      by (symmetry; apply Nat.ltb_lt; rewrite !app_length; cbn [length]; rewrite app_length; lia).
    replace (length (above ++ cell0 :: rev args ++ C) - 1 - length (rev args ++ C))%nat with (length above)
      by (rewrite !app_length; cbn [length]; rewrite app_length; lia).
    rewrite list_update_app_mid. reflexivity.
  - assert (H : step cx p m1 = Running (mkM ret ([result] ++ C) fs false (m_intc m1) (m_bytec m1) (m_st m1))).
    { apply (retsub_fp_general m1 ret fs A 1 imms above [result] args C); auto.
      unfold m1, height, with_pc_stack in *. cbn [m_stack]. rewrite Hst in Hh.
      cbn [length] in Hh. rewrite !app_length in *. cbn [length] in *. rewrite app_length in *. lia. }
    exact H.
Qed.

End FP.
