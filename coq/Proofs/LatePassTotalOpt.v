(* Proofs/LatePassTotalOpt.v — the scratch-slot optimiser does not disturb the late passes (C20):
     * [optimize_routine] always returns a graph (since the repair f003506 of /repo the current block is
       located by identity, the structural comparison that could diverge is gone: [div := false] in
       Comp/Passes.v), so compile_components never reports CrashRecursion;
     * it only deletes load/store operations of blocks, so the facts sortBlocks / flattenBlocks rely on
       (well-formedness, both branches, single exit, end block reachable, every edge to a defined block)
       survive, as they survive the slot rewrite;
   hence the "never a crash" theorem for the compile model holds with the optimiser ON as well. *)
From Coq Require Import List Arith NArith String Bool Lia.
From PV Require Import Base.Bytes AVM.Syntax AVM.Machine Src.Expr Src.Denote
  Comp.Blocks Comp.Lower Comp.Passes Comp.GraphSem Comp.LinearSem Comp.SimCheck Comp.Compile Comp.Assemble
  Proofs.LowerFrame Proofs.LowerShape Proofs.NormalizeSem Proofs.NormalizeGraph Proofs.NormalizeLowered Proofs.FlattenCorrect
  Proofs.OptimizeSem Proofs.OptimizeCorrect
  Proofs.EndToEndExits Proofs.EndToEndGlue Proofs.EndToEnd Proofs.EndToEndOpt
  Proofs.SlotCompose Proofs.SlotComposeAssign Proofs.SlotComposeCover Proofs.SlotComposePipeline
  Proofs.LatePassTotalReach Proofs.LatePassTotalNorm Proofs.LatePassTotal Proofs.LatePassTotalProgram
  Proofs.SortCorrect Proofs.PipelineStages.
Import ListNotations.

Local Notation reach := SortCorrect.reach.

Lemma deps_scan_no_crash g cur slot pos : forall blocks, deps_scan g blocks cur false slot pos <> DepCrash.
Proof.
  induction blocks as [|b t IH]; cbn [deps_scan]; [discriminate|].
  destruct (Nat.eqb b cur).
  - destruct (block_has_load g b slot (Some pos)); [discriminate|exact IH].
  - destruct (block_has_load g b slot None); [discriminate|exact IH].
Qed.

Lemma no_crash_in_res g order cur (cands : list (N * nat)) :
  existsb (fun '(_, d) => match d with DepCrash => true | _ => false end)
          (map (fun '(s, pos) => (s, deps_scan g order cur false s pos)) cands) = false.
Proof.
  induction cands as [|[s pos] t IH]; [reflexivity|]. cbn [map existsb]. rewrite IH.
  pose proof (deps_scan_no_crash g cur s pos order) as K.
  destruct (deps_scan g order cur false s pos); try reflexivity. congruence.
Qed.

Lemma apply_slot_to_stack_total g start cur skip : exists g1, apply_slot_to_stack g start cur skip = Some g1.
Proof.
  unfold apply_slot_to_stack. cbv zeta.
  match goal with |- exists g1, match ?c with [] => _ | _ :: _ => _ end = _ => destruct c as [|c0 ct] eqn:Ec end;
    [eauto|].
  rewrite no_crash_in_res. eauto.
Qed.

Lemma opt_block_loop_total start cur skip : forall n g, exists g', opt_block_loop n g start cur skip = Some g'.
Proof.
  induction n as [|k IH]; intros g; cbn [opt_block_loop]; [eauto|].
  destruct (apply_slot_to_stack_total g start cur skip) as (g1 & E). rewrite E.
  destruct (instrs_eqb _ _); [eauto|apply IH].
Qed.

Theorem optimize_routine_total g start skip : exists g', optimize_routine g start skip = Some g'.
Proof.
  unfold optimize_routine. generalize (iterate g start) as blocks. intros blocks. revert g.
  induction blocks as [|b t IH]; intros g; cbn [fold_left]; [eauto|].
  destruct (opt_block_loop_total start b skip (List.length (get_ops g b)) g) as (g1 & E). rewrite E. apply IH.
Qed.

Lemma rsa_defined g start L i : g_blk g i <> None -> g_blk (remove_slot_access g start L) i <> None.
Proof.
  intros N. rewrite rsa_blk. destruct (mem_id i (iterate g start)); [|exact N].
  destruct (g_blk g i); [discriminate|congruence].
Qed.

Lemma rsa_full g start L : cond_full g -> cond_full (remove_slot_access g start L).
Proof.
  intros F i b E. rewrite rsa_blk in E. destruct (mem_id i (iterate g start)); [|exact (F i b E)].
  destruct (g_blk g i) as [b0|] eqn:E0; [|discriminate E]. cbn [option_map] in E. injection E as <-.
  unfold filter_block. apply full_set_ops. exact (F i b0 E0).
Qed.

Lemma rsteps_blocks start g g' Ls :
  rsteps start g g' Ls -> (cond_full g -> cond_full g') /\ forall i, g_blk g i <> None -> g_blk g' i <> None.
Proof.
  induction 1 as [g|g g' cur L Ls Hc Hok S [IHf IHd]]; [split; auto|]. split.
  - intros F. apply IHf, rsa_full, F.
  - intros i N. apply IHd, rsa_defined, N.
Qed.

(* the optimiser keeps the edges, so whatever the late passes need of the graph survives it *)
Theorem optimize_keeps_late c skip g' :
  optimize_routine (cr_graph c) (cr_start c) skip = Some g' ->
  late_ok c -> late_ok (mkCR (cr_sub c) g' (cr_start c) (cr_end c)).
Proof.
  intros H (W & F & X & R & D & Ds).
  destruct (optimize_keeps_shape _ _ _ _ _ H W X) as [W' X'].
  destruct (optimize_routine_preserves_non_slot_ops _ _ _ _ H) as (_ & _ & O & _).
  destruct (optimize_routine_steps _ _ _ _ H) as [Ls S]. destruct (rsteps_blocks _ _ _ _ S) as [Kf Kd].
  split; [exact W'|]. split; [exact (Kf F)|]. split; [exact X'|]. split; [|split].
  - eapply reach_mono; [|exact R]. intros p x. rewrite O. exact (fun I => I).
  - intros p x I. rewrite O in I. exact (Kd x (D p x I)).
  - exact (Kd _ Ds).
Qed.

Lemma opt_stage_total skip crs :
  (forall c, In c crs -> late_ok c) ->
  exists crs1, opt_stage skip crs = COk crs1 /\ forall c, In c crs1 -> late_ok c.
Proof.
  induction crs as [|c t IH]; intros H; [exists []; split; [reflexivity|intros c []]|].
  destruct (IH (fun x Hx => H x (or_intror Hx))) as (l & E & Hl).
  destruct (optimize_routine_total (cr_graph c) (cr_start c) skip) as (g' & Eo).
  exists (mkCR (cr_sub c) g' (cr_start c) (cr_end c) :: l). split.
  - unfold opt_stage in *. cbn [fold_right]. rewrite E, Eo. reflexivity.
  - intros x [<-|Hx]; [exact (optimize_keeps_late c skip g' Eo (H c (or_introl eq_refl)))|exact (Hl x Hx)].
Qed.

Theorem compile_components_no_crash_opt o modes p e :
  (forall r, In r (p_subs p) -> r_deferred r = None /\ nec (r_body r) = true) ->
  nec (root_ast (p_main p)) = true ->
  compile_components o modes p = CErr e -> is_crash e = false.
Proof. apply components_no_crash. intros _ crs. apply opt_stage_total. Qed.

Theorem compile_model_no_crash_opt o modes p e :
  (forall r, In r (p_subs p) -> r_deferred r = None /\ nec (r_body r) = true) ->
  nec (root_ast (p_main p)) = true ->
  compile_model o modes p = CErr e -> is_crash e = false.
Proof.
  intros HS Hm. revert e. apply model_no_crash. intros e. exact (compile_components_no_crash_opt o modes p e HS Hm).
Qed.
