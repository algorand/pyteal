(* Proofs/CallComposeProgram.v — property C02: the pipeline [compile_components] (optimiser off) inverted
   down to the linked component list, and the composed statement for a whole program, whatever pass
   stands between the flat routines and the linker ([program_core]; the two instances are in
   Proofs/CallComposeFinal.v). *)
From Coq Require Import List Arith NArith String Bool Lia.
From PV Require Import Base.Bytes Base.Sexp AVM.Syntax AVM.Machine Src.Expr Src.Denote Src.DenoteCall
  Comp.Blocks Comp.Lower Comp.Passes Comp.GraphSem Comp.LinearSem Comp.LinkedSem Comp.Compile
  Proofs.LowerFrame Proofs.LowerShape Proofs.NormalizeLowered Proofs.EndToEndExits
  Proofs.SlotComposeAssign Proofs.PipelineStages
  CallX.Denote CallX.GraphSem CallX.LinearSem CallX.LowerCorrect CallX.EndToEndGlue CallX.EndToEnd
  CallX.SlotCompose CallX.SlotComposeEnd CallX.SlotComposeFinal
  Proofs.CallComposeLink Proofs.CallComposeMain Proofs.CallComposeLayout
  Proofs.CallComposeSpill Proofs.CallComposeSpillPass.
Import ListNotations.
Local Open Scope string_scope.
Local Open Scope list_scope.

Definition sub_origin (o : copts) (p : prog) (c : croutine) : Prop :=
  exists r, cr_sub c = Some r /\ In r (p_subs p) /\ compile_one o (Some r) (decl_body o r) = COk c.

Section Rec.
  Variable o : copts.
  Variable p : prog.

  (* the list compile_rec returns: what it was given, then the routine itself, then subroutines *)
  Lemma compile_rec_shape : forall fuel sub ast acc res,
    compile_rec fuel o p sub ast acc = COk res ->
    exists cr rest, res = acc ++ cr :: rest /\ compile_one o sub ast = COk cr /\ Forall (sub_origin o p) rest.
  Proof.
    induction fuel as [|f IH]; intros sub ast acc res H; [discriminate H|].
    cbn [compile_rec] in H.
    destruct (compile_one o sub ast) as [cr0|e] eqn:E0; [|discriminate H].
    match type of H with
    | fold_left ?F ?news (COk ?acc1) = _ => set (FF := F) in H; set (nws := news) in H; set (a1 := acc1) in H
    end.
    assert (P1 : exists rest1, a1 = acc ++ cr0 :: rest1 /\ Forall (sub_origin o p) rest1).
    { exists []. split; [reflexivity|constructor]. }
    clearbody a1. clearbody nws.
    revert a1 P1 H. induction nws as [|s t IHn]; intros a1 P1 H.
    - cbn [fold_left] in H. injection H as <-. destruct P1 as (rest1 & -> & F1). exists cr0, rest1. auto.
    - cbn [fold_left] in H. unfold FF at 2 in H.
      destruct (existsb (fun c => match cr_key c with Some k => N.eqb k s | None => false end) a1).
      + exact (IHn a1 P1 H).
      + destruct (find_sub p s) as [r|] eqn:Fs.
        * destruct (compile_rec f o p (Some r) (decl_body o r) a1) as [a2|e] eqn:E2.
          -- apply (IHn a2); [|exact H].
             destruct (IH _ _ _ _ E2) as (cr' & rest' & -> & E' & F').
             destruct P1 as (rest1 & -> & F1).
             exists (rest1 ++ cr' :: rest'). split; [rewrite <- app_assoc; reflexivity|].
             apply Forall_app. split; [exact F1|]. constructor; [|exact F'].
             exists r. split; [exact (compile_one_sub _ _ _ _ E')|]. split; [exact (find_sub_in p s r Fs)|exact E'].
          -- rewrite fold_step_err in H; [discriminate H|]. intros e0 x. reflexivity.
        * rewrite fold_step_err in H; [discriminate H|]. intros e0 x. reflexivity.
  Qed.
End Rec.

(* one step of [sort_flatten_all] (Proofs/PipelineStages.v): [fold_right flat_step (COk [])] is that stage *)
Definition flat_step (c : croutine) (acc : cres (list flat_routine)) : cres (list flat_routine) :=
  match acc with
  | CErr e => CErr e
  | COk l =>
      match sort_blocks (cr_graph c) (cr_start c) (cr_end c) with
      | None => CErr ErrInternal
      | Some order =>
          match flatten_blocks (cr_graph c) order with
          | Some ops => COk (mkFR (cr_sub c) ops :: l)
          | None => CErr CrashAssertion
          end
      end
  end.

Definition flat_rel (c : croutine) (fr : flat_routine) : Prop :=
  fr_sub fr = cr_sub c /\
  exists order, sort_blocks (cr_graph c) (cr_start c) (cr_end c) = Some order /\
                flatten_blocks (cr_graph c) order = Some (fr_ops fr).

Lemma flat_inv : forall crs frs, fold_right flat_step (COk []) crs = COk frs -> Forall2 flat_rel crs frs.
Proof.
  induction crs as [|c t IH]; intros frs H; cbn [fold_right] in H.
  - injection H as <-. constructor.
  - unfold flat_step at 1 in H.
    destruct (fold_right flat_step (COk []) t) as [l|e] eqn:Et; [|discriminate H].
    destruct (sort_blocks (cr_graph c) (cr_start c) (cr_end c)) as [order|] eqn:Es; [|discriminate H].
    destruct (flatten_blocks (cr_graph c) order) as [ops|] eqn:Ef; [|discriminate H].
    injection H as <-. constructor; [|exact (IH l eq_refl)].
    split; [reflexivity|]. exists order. split; [exact Es|exact Ef].
Qed.

(* compile_components, optimiser off: every intermediate result *)
Lemma compile_components_stages_inv o modes p comps :
  compile_components o modes p = COk comps -> o_opt_slots o = false ->
  exists crs crs' locals asg frs frs2,
    compile_rec (S (List.length (p_subs p))) o p None (p_main p) [] = COk crs /\
    assign_slots p crs = COk (crs', locals, asg) /\
    fold_right flat_step (COk []) crs' = COk frs /\
    spill (o_version o) p frs locals = COk frs2 /\
    comps = CPragma (o_version o) :: flatten_subroutines frs2.
Proof.
  intros H Ho. rewrite compile_components_stages, Ho in H.
  destruct (negb _); [discriminate H|].
  apply cbind_ok in H as (crs & E1 & H). cbn [cbind] in H. apply cbind_ok in H as ([[crs' locals] asg] & E2 & H).
  unfold emit_stage in H. apply cbind_ok in H as (frs & E3 & H). apply cbind_ok in H as (frs2 & E4 & H).
  destruct (verify_ops o modes (flatten_subroutines frs2)); [discriminate H|].
  injection H as <-.
  exists crs, crs', locals, asg, frs, frs2. repeat split; reflexivity || assumption.
Qed.

(* the stages up to the flat routines as one function, for evaluating them on a given program in one go *)
Definition flat_stage (o : copts) (p : prog) : cres (list (N * N) * list flat_routine) :=
  match compile_rec (S (List.length (p_subs p))) o p None (p_main p) [] with
  | COk crs =>
      match assign_slots p crs with
      | COk (crs', _, asg) =>
          match fold_right flat_step (COk []) crs' with COk frs => COk (asg, frs) | CErr e => CErr e end
      | CErr e => CErr e
      end
  | CErr e => CErr e
  end.

Lemma flat_stage_eq o p crs crs' locals asg frs :
  compile_rec (S (List.length (p_subs p))) o p None (p_main p) [] = COk crs ->
  assign_slots p crs = COk (crs', locals, asg) ->
  fold_right flat_step (COk []) crs' = COk frs ->
  flat_stage o p = COk (asg, frs).
Proof. intros HR HA HF. unfold flat_stage. rewrite HR, HA, HF. reflexivity. Qed.

Lemma components_pragma o modes p comps :
  compile_components o modes p = COk comps -> o_opt_slots o = false -> comps = CPragma (o_version o) :: tl comps.
Proof.
  intros H Ho. destruct (compile_components_stages_inv o modes p comps H Ho) as (_ & _ & _ & _ & _ & frs2 & _ & _ & _ & _ & ->).
  reflexivity.
Qed.

Lemma Forall2_in_r {A B} (R : A -> B -> Prop) l1 l2 b : Forall2 R l1 l2 -> In b l2 -> exists a, In a l1 /\ R a b.
Proof.
  induction 1 as [|x y t1 t2 Rxy _ IH]; intros Hin; [destruct Hin|].
  destruct Hin as [<-|Hin]; [exists x; split; [left; reflexivity|exact Rxy]|].
  destruct (IH Hin) as (a & Ha & Ra). exists a. split; [right; exact Ha|exact Ra].
Qed.

(* the component list after a pass that keeps the routines' identities and turns correct units (for the
   identity transformer) into correct units for the transformer W *)
Definition unit_lift (o : copts) (cx : ctx) (look : N -> N) (msel : list (string * bytes)) (subs : list routine)
           (W : option routine -> (N -> list value -> mstate -> callres) -> (N -> list value -> mstate -> callres))
           (fr fr2 : flat_routine) : Prop :=
  fr_sub fr2 = fr_sub fr /\
  forall ast0, unit_correct o cx look msel subs idW (fr_sub fr) ast0 (fr_ops fr) ->
               unit_correct o cx look msel subs W (fr_sub fr) ast0 (fr_ops fr2).

Lemma Forall2_head {A B} (R : A -> B -> Prop) x t l2 : Forall2 R (x :: t) l2 -> exists y u, l2 = y :: u /\ R x y /\ Forall2 R t u.
Proof. intros H. inversion H; subst. eauto. Qed.

(* a routine of the compiled list, after slot assignment, sorting and flattening, is a correct unit (for the
   identity transformer): the one-routine chain CallX/SlotComposeFinal.v *)
Lemma compiled_unit o p crs crs' locals asg cx msel subs cr sub ast0 fr :
  assign_slots p crs = COk (crs', locals, asg) -> requested_valid p (all_slots crs) ->
  In cr crs -> compile_one o sub ast0 = COk cr ->
  (match sub with Some r => r_deferred r | None => None end) = None -> head_loop (root_ast ast0) = false ->
  flat_rel (rw_routine (look_of asg) cr) fr ->
  unit_correct o cx (look_of asg) msel subs idW sub ast0 (fr_ops fr).
Proof.
  intros HA HV Hin Ec Dd Hh (Es & order & Hs & Hf) orc fuel stk st h Hh'.
  destruct (routine_end_to_end_assigned o sub ast0 cr p crs crs' locals asg Dd Ec Hh Hin HA HV) as [_ T].
  destruct (T order (fr_ops fr) Hs Hf) as (_ & _ & T').
  exact (proj1 (T' (envk o cx (look_of asg) msel subs sub orc) (envk_consistent o cx (look_of asg) msel subs sub orc)
                   fuel stk st h Hh')).
Qed.

Lemma program_core o p crs crs' locals asg frs frs2 W cx msel :
  compile_rec (S (List.length (p_subs p))) o p None (p_main p) [] = COk crs ->
  assign_slots p crs = COk (crs', locals, asg) ->
  fold_right flat_step (COk []) crs' = COk frs ->
  head_loop (root_ast (p_main p)) = false ->
  (forall r, In r (p_subs p) -> r_deferred r = None) ->
  requested_valid p (all_slots crs) ->
  Forall2 (unit_lift o cx (look_of asg) msel (fs_subs frs2) W) frs frs2 ->
  let L := flatten_subroutines frs2 in
  NoDup (labels_of L) ->
  forallb (fun fr => linkable (fr_ops fr)) frs2 = true ->
  (forall n, realizes (lenv cx (look_of asg) msel (fs_subs frs2)) L (fs_res frs2)
                      (call_k o cx (look_of asg) msel (fs_subs frs2) W n)) /\
  (forall n fuel stk st h,
     halt_of (denote_k o cx (look_of asg) msel (fs_subs frs2) W n None fuel (root_ast (p_main p)) stk st) = Some h ->
     claimed h ->
     pstar (lenv cx (look_of asg) msel (fs_subs frs2)) L (PAt [] 0 stk st) (emb 0 [] h)).
Proof.
  intros HR HA HF HL HD HV HU L ND LK.
  destruct (compile_rec_shape o p _ _ _ _ _ HR) as (crm & rest & Ecrs & Em & Frest). cbn [app] in Ecrs.
  destruct (assign_slots_inv p crs crs' locals asg HA) as (_ & _ & _ & Ecrs').
  pose proof (flat_inv crs' frs HF) as F2.
  set (look := look_of asg) in *.
  pose proof (compiled_unit o p crs crs' locals asg cx msel (fs_subs frs2)) as UC. fold look in UC.
  specialize (fun cr sub ast0 fr => UC cr sub ast0 fr HA HV).
  (* the component list before the pass: main first, then subroutines *)
  rewrite Ecrs', Ecrs in F2. cbn [map] in F2. destruct (Forall2_head _ _ _ _ F2) as (mainfr & restf & Efrs & Rm & Rr).
  assert (Sm : fr_sub mainfr = None).
  { destruct Rm as [E _]. rewrite E. exact (compile_one_sub _ _ _ _ Em). }
  (* every subroutine component comes from a declaration body *)
  assert (Orig : forall fr, In fr restf -> exists r, fr_sub fr = Some r /\ In r (p_subs p) /\
                   unit_correct o cx look msel (fs_subs frs2) idW (Some r) (decl_body o r) (fr_ops fr)).
  { intros fr Hin. destruct (Forall2_in_r _ _ _ _ Rr Hin) as (c' & Hc' & Rc).
    apply in_map_iff in Hc'. destruct Hc' as (c & <- & Hc). rewrite Forall_forall in Frest.
    destruct (Frest c Hc) as (r & Er & Hr & Ec). exists r.
    split; [destruct Rc as [E _]; rewrite E; exact Er|].
    split; [exact Hr|].
    apply (UC c (Some r) (decl_body o r)); [rewrite Ecrs; right; exact Hc|exact Ec|exact (HD r Hr)|
                                            apply decl_body_root_head_loop|exact Rc]. }
  (* after the pass *)
  rewrite Efrs in HU. destruct (Forall2_head _ _ _ _ HU) as (mainfr2 & restf2 & Efrs2 & (Sm2 & Lm) & HU').
  rewrite Sm in Sm2, Lm.
  assert (Sr2 : Forall (fun fr => fr_sub fr <> None) restf2).
  { apply Forall_forall. intros fr2 Hfr2. destruct (Forall2_in_r _ _ _ _ HU' Hfr2) as (fr & Hfr & (E & _)).
    destruct (Orig fr Hfr) as (r & Er & _). rewrite E, Er. discriminate. }
  assert (Hsubs : forall f r, find_routine (fs_subs frs2) f = Some r ->
            r_id r = f /\ unit_placed o cx look msel (fs_subs frs2) W L (fs_res frs2) r).
  { intros f r Fr. destruct (flatten_layout_sub frs2 f r Fr) as (Eid & fr2 & e & Hin & Es & Er & Ne & Pl).
    split; [exact Eid|]. subst f.
    exists (fs_label frs2 r), e, (Some (r_name r)), (fs_label frs2 r ++ "_")%string, (fr_ops fr2).
    split; [exact Er|]. split; [exact Ne|]. split; [exact Pl|]. split.
    { rewrite forallb_forall in LK. exact (LK fr2 Hin). }
    rewrite Efrs2 in Hin. destruct Hin as [<-|Hin]; [rewrite Sm2 in Es; discriminate Es|].
    destruct (Forall2_in_r _ _ _ _ HU' Hin) as (fr & Hfr & (E & Lf)).
    destruct (Orig fr Hfr) as (r' & Er' & _ & UCr).
    assert (r' = r) by (rewrite E, Er' in Es; injection Es as <-; reflexivity). subst r'.
    rewrite Er' in Lf. exact (Lf _ UCr). }
  split.
  - intros n. exact (linked_calls_realized o cx look msel (fs_subs frs2) W L (fs_res frs2) ND Hsubs n).
  - intros n fuel stk st h Hh Cl.
    refine (linked_routine_correct o cx look msel (fs_subs frs2) W L (fs_res frs2) ND Hsubs None (p_main p) 0 "main_" (fr_ops mainfr2)
              _ _ _ n fuel [] stk st h Hh Cl).
    + exact (flatten_layout_main frs2 mainfr2 restf2 Efrs2 Sm2 Sr2).
    + rewrite forallb_forall in LK. apply LK. rewrite Efrs2. left. reflexivity.
    + apply Lm. apply (UC crm None (p_main p)); [rewrite Ecrs; left; reflexivity|exact Em|reflexivity|exact HL|exact Rm].
Qed.

(* the spill pass inserted nothing (in particular: acyclic call graphs) *)
Lemma unit_lift_id o cx look msel subs frs : Forall2 (unit_lift o cx look msel subs idW) frs frs.
Proof. induction frs as [|fr t IH]; constructor; [|exact IH]. split; [reflexivity|]. intros ast0 U. exact U. Qed.

Lemma fs_subs_map_sub (g : flat_routine -> flat_routine) frs :
  (forall fr, fr_sub (g fr) = fr_sub fr) -> fs_subs (map g frs) = fs_subs frs.
Proof.
  intros H. unfold fs_subs. induction frs as [|fr t IH]; [reflexivity|]. cbn [map flat_map]. rewrite H, IH. reflexivity.
Qed.

Lemma stmt_in_sp_stmt version p re slots c : In c (sp_stmt version p re slots c).
Proof.
  unfold sp_stmt. destruct (filter _ _); [left; reflexivity|]. rewrite spill_one_split.
  apply in_or_app. right. left. reflexivity.
Qed.

Lemma in_sp_fr_ops version p frs locals fr c : In c (fr_ops fr) -> In c (fr_ops (sp_fr version p frs locals fr)).
Proof.
  intros H. unfold sp_fr. destruct (fr_sub fr) as [r|]; [|exact H]. destruct (sp_active frs locals r); [|exact H].
  cbn [fr_ops]. apply in_flat_map. exists c. split; [exact H|apply stmt_in_sp_stmt].
Qed.

(* whatever the spill pass does: the oracle transformer is the wrapping [W_spill] *)
Lemma unit_lift_spill o cx look msel subs version p frs locals frs2 :
  spill version p frs locals = COk frs2 ->
  forallb (fun fr => linkable (fr_ops fr)) frs2 = true ->
  Forall2 (unit_lift o cx look msel subs (W_spill o cx look msel subs version p frs locals)) frs frs2.
Proof.
  intros HS LK. rewrite (spill_inv version p frs locals frs2 HS) in *. rewrite forallb_forall in LK.
  assert (G : forall l, (forall fr, In fr l -> In fr frs) ->
            Forall2 (unit_lift o cx look msel subs (W_spill o cx look msel subs version p frs locals)) l
                    (map (sp_fr version p frs locals) l)).
  { induction l as [|fr t IH]; intros Hl; cbn [map]; constructor; [|exact (IH (fun fr' H' => Hl fr' (or_intror H')))].
    split; [apply sp_fr_sub|]. intros ast0 U.
    destruct fr as [[r|] code]; cbn [fr_sub fr_ops] in *; [|exact U].
    apply spill_unit; [|exact U]. intros i Hi.
    (* the spilled routine is linkable, and its code contains the routine's own instructions *)
    pose proof (LK _ (in_map (sp_fr version p frs locals) _ _ (Hl _ (or_introl eq_refl)))) as Lc.
    unfold linkable in Lc. rewrite forallb_forall in Lc.
    specialize (Lc (COp i) (in_sp_fr_ops _ _ _ _ (mkFR (Some r) code) _ Hi)). cbn in Lc.
    apply andb_prop in Lc. exact (proj1 Lc). }
  exact (G frs (fun _ H => H)).
Qed.
