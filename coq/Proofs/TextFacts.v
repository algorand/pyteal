(* Proofs/TextFacts.v — what the proofs about program text share: facts about all 256 characters by
   one evaluation, strings as character lists, decimal and lower-case hexadecimal numerals and
   their readers, and the assembler model's tokeniser, line splitter and statement parser
   (AVM/Parse.v) on the shapes of text PyTeal prints. *)
From Coq Require Import List Arith NArith Ascii String Bool Lia.
From PV Require Import Base.Bytes Base.Sexp AVM.Syntax AVM.Machine AVM.Parse Lit.BaseN Lit.R3
  Proofs.ExecOpFacts.
Import ListNotations.
Local Open Scope string_scope.
Local Open Scope list_scope.

(* A fact about every character that a boolean test decides is proved by evaluating the test on this
   list: one closed term, evaluated once, instead of 256 goals. *)
Definition all_ascii : list ascii := map ascii_of_nat (seq 0 256).

Lemma ascii_forall (P : ascii -> bool) : forallb P all_ascii = true -> forall c, P c = true.
Proof.
  intros H c. rewrite forallb_forall in H. apply H. rewrite <- (ascii_nat_embedding c).
  apply in_map, in_seq. pose proof (nat_ascii_bounded c). lia.
Qed.

Lemma ascii_impl (p q : ascii -> bool) :
  forallb (fun c => implb (p c) (q c)) all_ascii = true -> forall c, p c = true -> q c = true.
Proof. intros H c Hp. pose proof (ascii_forall _ H c) as Hc. cbn beta in Hc. now rewrite Hp in Hc. Qed.

Lemma ascii_ext {A} (eqb : A -> A -> bool) : (forall x y, eqb x y = true -> x = y) ->
  forall f g : ascii -> A, forallb (fun c => eqb (f c) (g c)) all_ascii = true -> forall c, f c = g c.
Proof. intros S f g H c. apply S, (ascii_forall _ H). Qed.

(* induction by groups of k+1 elements: lists of at most k elements, and k+1 more in front *)
Lemma chunk_ind {A} (k : nat) (P : list A -> Prop) :
  (forall l, List.length l <= k -> P l) ->
  (forall g l, List.length g = S k -> P l -> P (g ++ l)) -> forall l, P l.
Proof.
  intros Hs Hg l. induction l as [l IH] using (induction_ltof1 _ (@List.length A)). unfold ltof in IH.
  destruct (le_lt_dec (List.length l) k) as [L|L]; [now apply Hs|].
  rewrite <- (firstn_skipn (S k) l). apply Hg.
  - apply firstn_length_le. lia.
  - apply IH. rewrite skipn_length. lia.
Qed.

Lemma forallb_impl {A} (p q : A -> bool) : (forall x, p x = true -> q x = true) ->
  forall l, forallb p l = true -> forallb q l = true.
Proof.
  intros H l. induction l as [|x l IH]; cbn; [reflexivity|].
  intros E. apply andb_true_iff in E as [E1 E2]. now rewrite (H x E1), IH.
Qed.

Lemma los_app a b : list_ascii_of_string (a ++ b)%string = list_ascii_of_string a ++ list_ascii_of_string b.
Proof. induction a as [|c a IH]; cbn; [reflexivity | now rewrite IH]. Qed.

Lemma los_sol l : list_ascii_of_string (string_of_list_ascii l) = l.
Proof. apply list_ascii_of_string_of_list_ascii. Qed.

Lemma sol_los s : string_of_list_ascii (list_ascii_of_string s) = s.
Proof. apply string_of_list_ascii_of_string. Qed.

Lemma los_inj a b : list_ascii_of_string a = list_ascii_of_string b -> a = b.
Proof. intros H. rewrite <- (sol_los a), <- (sol_los b). now rewrite H. Qed.

Lemma los_length s : List.length (list_ascii_of_string s) = String.length s.
Proof. induction s as [|c s IH]; cbn; [reflexivity | now rewrite IH]. Qed.

Lemma sapp_assoc (a b c : string) : ((a ++ b) ++ c = a ++ (b ++ c))%string.
Proof. induction a as [|x a IH]; cbn; [reflexivity | now rewrite IH]. Qed.

Lemma slen_app (a b : string) : String.length (a ++ b)%string = (String.length a + String.length b)%nat.
Proof. induction a as [|x a IH]; cbn; [reflexivity | now rewrite IH]. Qed.

Lemma prefix_app (a b : string) : String.prefix a (a ++ b)%string = true.
Proof.
  induction a as [|x a IH]; cbn; [destruct b; reflexivity|].
  destruct (Ascii.ascii_dec x x) as [_|N]; [exact IH | now elim N].
Qed.

Lemma prefix_split p : forall s, String.prefix p s = true -> exists s', s = (p ++ s')%string.
Proof.
  induction p as [|c p IH]; intros s H; [now exists s|].
  destruct s as [|d s]; [discriminate H|]. cbn in H.
  destruct (Ascii.ascii_dec c d) as [->|]; [|discriminate H].
  destruct (IH s H) as [s' ->]. now exists s'.
Qed.

Lemma substring_skip (a b : string) n : substring (String.length a) n (a ++ b)%string = substring 0 n b.
Proof. induction a as [|x a IH]; cbn; [reflexivity | exact IH]. Qed.

Lemma substring_take (a b : string) : substring 0 (String.length a) (a ++ b)%string = a.
Proof. induction a as [|x a IH]; cbn; [destruct b; reflexivity | now rewrite IH]. Qed.

Local Open Scope N_scope.

(* a fact about the numbers below a small bound, case by case *)
Lemma below_cases (P : N -> Prop) (n : nat) :
  (forall k, (k < n)%nat -> P (N.of_nat k)) -> forall v, v < N.of_nat n -> P v.
Proof. intros H v Hv. rewrite <- (N2Nat.id v). apply H. lia. Qed.

Lemma hexval_hexdigit n : n < 16 -> hexval (hexdigit n) = Some n.
Proof.
  revert n. apply (below_cases _ 16). intros k Hk.
  do 16 (destruct k as [|k]; [reflexivity|]). lia.
Qed.

Lemma hex_of_bytes_roundtrip b : bytes_of_hex_l (hex_of_bytes b) = Some b.
Proof.
  induction b as [|c t IH]; [reflexivity|].
  cbn [hex_of_bytes bytes_of_hex_l].
  pose proof (N_ascii_bounded c) as Hc.
  rewrite !hexval_hexdigit, IH by (apply N.div_lt_upper_bound || apply N.mod_lt; lia).
  f_equal. f_equal.
  rewrite N.mul_comm, <- N.div_mod by lia. apply ascii_N_embedding.
Qed.

Definition is_digit (c : ascii) : bool := (48 <=? N_of_ascii c) && (N_of_ascii c <=? 57).

Lemma digit_is_digit r : r < 10 -> is_digit (ascii_of_N (48 + r)) = true.
Proof.
  intros H. unfold is_digit. rewrite N_ascii_embedding by lia.
  apply andb_true_iff. split; apply N.leb_le; lia.
Qed.

Lemma dec_acc_digit r acc a : r < 10 ->
  dec_acc (ascii_of_N (48 + r) :: acc) a = dec_acc acc (a * 10 + r).
Proof.
  intros H. cbn [dec_acc]. fold (is_digit (ascii_of_N (48 + r))). rewrite digit_is_digit by exact H.
  rewrite N_ascii_embedding by lia. f_equal. lia.
Qed.

Lemma dec_digits_digits f : forall n acc,
  forallb is_digit acc = true -> forallb is_digit (dec_digits f n acc) = true.
Proof.
  induction f as [|f IH]; intros n acc H; cbn [dec_digits]; [exact H|].
  assert (D : forallb is_digit (ascii_of_N (48 + n mod 10) :: acc) = true).
  { cbn [forallb]. rewrite digit_is_digit, H by (apply N.mod_lt; discriminate). reflexivity. }
  destruct (n <? 10); [exact D | now apply IH].
Qed.

Lemma dec_digits_acc f : forall n acc, acc <> [] -> dec_digits f n acc <> [].
Proof.
  induction f as [|f IH]; intros n acc H; cbn [dec_digits]; [exact H|].
  destruct (n <? 10); [discriminate | apply IH; discriminate].
Qed.

Lemma N_to_dec_list n : list_ascii_of_string (N_to_dec n) = dec_digits (S (N.to_nat (N.size n))) n [].
Proof. apply los_sol. Qed.

Lemma N_to_dec_digits n : forallb is_digit (list_ascii_of_string (N_to_dec n)) = true.
Proof. rewrite N_to_dec_list. now apply dec_digits_digits. Qed.

Lemma N_to_dec_nonempty n : N_to_dec n <> "".
Proof.
  intros E. apply (f_equal list_ascii_of_string) in E. rewrite N_to_dec_list in E. revert E.
  cbn [dec_digits]. destruct (n <? 10); [discriminate | apply dec_digits_acc; discriminate].
Qed.

Lemma dec_digits_S f n acc :
  dec_digits (S f) n acc =
  if n <? 10 then ascii_of_N (48 + n mod 10) :: acc else dec_digits f (n / 10) (ascii_of_N (48 + n mod 10) :: acc).
Proof. reflexivity. Qed.

(* reading the printed digits of n, then [acc], continues from n *)
Lemma dec_digits_value f : forall n acc, n < 10 * 2 ^ N.of_nat f ->
  dec_acc (dec_digits (S f) n acc) 0 = dec_acc acc n.
Proof.
  induction f as [|f IH]; intros n acc H; rewrite dec_digits_S;
    pose proof (N.mod_lt n 10 ltac:(discriminate)) as Hm; destruct (N.ltb_spec n 10) as [L|L].
  1, 3: rewrite dec_acc_digit, N.mod_small by assumption; reflexivity.
  - change (2 ^ N.of_nat 0) with 1 in H. lia.
  - rewrite Nat2N.inj_succ, N.pow_succ_r' in H.
    rewrite IH, dec_acc_digit by (assumption || apply N.div_lt_upper_bound; lia).
    f_equal. rewrite N.mul_comm. symmetry. apply N.div_mod. discriminate.
Qed.

Lemma N_of_dec_to_dec n : N_of_dec (N_to_dec n) = Some n.
Proof.
  unfold N_of_dec. pose proof (N_to_dec_nonempty n) as NE. rewrite <- (sol_los (N_to_dec n)) in NE.
  rewrite N_to_dec_list in *.
  destruct (dec_digits (S (N.to_nat (N.size n))) n []) as [|c t] eqn:E; [now elim NE|]. rewrite <- E.
  apply dec_digits_value. rewrite N2Nat.id. pose proof (N.size_gt n). lia.
Qed.

Lemma N_to_dec_inj a b : N_to_dec a = N_to_dec b -> a = b.
Proof. intros H. pose proof (N_of_dec_to_dec a) as Ha. rewrite H, N_of_dec_to_dec in Ha. congruence. Qed.

(* the assembler reads a decimal numeral as its number: it has no 0x prefix *)
Lemma digit_not_x c : is_digit c = true -> negb (Ascii.eqb c "x" || Ascii.eqb c "X") = true.
Proof. revert c. apply ascii_impl. vm_compute. reflexivity. Qed.

Lemma parse_uint_dec n : parse_uint (N_to_dec n) = Some n.
Proof.
  unfold parse_uint. pose proof (N_to_dec_digits n) as D. pose proof (N_of_dec_to_dec n) as R.
  destruct (list_ascii_of_string (N_to_dec n)) as [|z [|x t]]; try exact R.
  cbn [forallb] in D. apply andb_true_iff in D as [_ D]. apply andb_true_iff in D as [Dx _].
  apply digit_not_x, negb_true_iff in Dx. now rewrite Dx, andb_false_r.
Qed.

Lemma parse_int_arg_dec n : n < 18446744073709551616 -> parse_int_arg (N_to_dec n) = Some n.
Proof. intros H. unfold parse_int_arg. rewrite parse_uint_dec. apply N.ltb_lt in H. now rewrite H. Qed.

Lemma generic_dec n : generic_imm (N_to_dec n) = IInt n.
Proof. unfold generic_imm. now rewrite parse_uint_dec. Qed.

(* the assembler's base-N reader strips the pad characters and reads the rest as digits *)
Lemma strip_pad_app q X : forallb is_pad q = true -> strip_pad (q ++ X) = strip_pad X.
Proof.
  induction q as [|c q IH]; intros H; [reflexivity|].
  cbn [forallb] in H. apply andb_true_iff in H as [Hc Hq].
  cbn [app strip_pad]. unfold is_pad in Hc. rewrite Hc. now apply IH.
Qed.

Lemma forallb_rev {A} (f : A -> bool) l : forallb f l = true -> forallb f (rev l) = true.
Proof. rewrite !forallb_forall. intros H x Hx. apply H. now apply in_rev. Qed.

Lemma digit_vals_cons f c t vals : digit_vals f (c :: t) = Some vals ->
  exists x r, f c = Some x /\ digit_vals f t = Some r /\ vals = x :: r.
Proof.
  cbn [digit_vals]. destruct (f c) as [x|]; [|discriminate]. destruct (digit_vals f t) as [r|]; [|discriminate].
  intros [= <-]. now exists x, r.
Qed.

Lemma digit_vals_app f a b x y : digit_vals f a = Some x -> digit_vals f b = Some y ->
  digit_vals f (a ++ b) = Some (x ++ y).
Proof.
  revert x. induction a as [|c a IH]; intros x Ha Hb; [now injection Ha as <-|].
  apply digit_vals_cons in Ha as (v & r & Hv & Hr & ->). cbn [app digit_vals]. now rewrite Hv, (IH r Hr Hb).
Qed.

Lemma digit_vals_in f chars c : forall vals, digit_vals f chars = Some vals -> In c chars -> f c <> None.
Proof.
  induction chars as [|x chars IH]; intros vals H Hin; [contradiction|].
  apply digit_vals_cons in H as (y & r & Hy & Hr & _).
  destruct Hin as [->|Hin]; [congruence | eapply IH; eauto].
Qed.

Lemma digit_vals_none f chars c : In c chars -> f c = None -> digit_vals f chars = None.
Proof.
  intros Hin Hc. destruct (digit_vals f chars) as [vals|] eqn:D; [|reflexivity].
  now elim (digit_vals_in f chars c vals D Hin).
Qed.

Lemma digit_vals_length f chars : forall vals, digit_vals f chars = Some vals -> List.length vals = List.length chars.
Proof.
  induction chars as [|c t IH]; intros vals H; [now injection H as <-|].
  apply digit_vals_cons in H as (y & r & _ & Hr & ->). cbn. now rewrite (IH r).
Qed.

Lemma be_encode_length len : forall n, List.length (be_encode len n) = len.
Proof.
  induction len as [|l IH]; intros n; cbn [be_encode]; [reflexivity|].
  rewrite app_length, IH. cbn. lia.
Qed.

Lemma decode_bits_length w vals :
  List.length (decode_bits w vals) = N.to_nat (w * N.of_nat (List.length vals) / 8).
Proof. apply be_encode_length. Qed.

(* digits are not pad characters, so stripping stops at the last of them *)
Lemma strip_pad_digits f chars vals : f "="%char = None -> digit_vals f chars = Some vals ->
  strip_pad (rev chars) = rev chars.
Proof.
  intros Hf Hd. destruct (rev chars) as [|c t] eqn:R; [reflexivity|].
  cbn [strip_pad]. destruct (Ascii.eqb_spec c "=") as [->|]; [|reflexivity].
  exfalso. apply (digit_vals_in f chars "=" vals Hd); [|exact Hf]. apply in_rev. rewrite R. now left.
Qed.

(* text = digits followed by pad characters: the assembler decodes the digits *)
Lemma decode_baseN_struct f w chars p vals :
  f "="%char = None -> forallb is_pad p = true -> digit_vals f chars = Some vals ->
  decode_baseN f w (string_of_list_ascii (chars ++ p)) = Some (decode_bits w vals).
Proof.
  intros Hf Hp Hd. unfold decode_baseN. rewrite list_ascii_of_string_of_list_ascii.
  rewrite rev_app_distr, strip_pad_app by now apply forallb_rev.
  now rewrite (strip_pad_digits f chars vals), rev_involutive, Hd.
Qed.

Lemma decode_hex0x_0x h : decode_hex0x ("0x" ++ h) = bytes_of_hex_l (list_ascii_of_string h).
Proof. reflexivity. Qed.

Lemma decode_hex0x_quote r : decode_hex0x (String """" r) = None.
Proof. unfold decode_hex0x. cbn [list_ascii_of_string]. destruct (list_ascii_of_string r); reflexivity. Qed.

(* a character other than backslash and double quote stands for itself in a string literal *)
Lemma parse_str_body_plain c x r : Ascii.eqb c "\" = false -> Ascii.eqb c """" = false ->
  parse_str_body (c :: x :: r) = option_map (cons c) (parse_str_body (x :: r)).
Proof. intros H1 H2. cbn [parse_str_body]. now rewrite H1, H2. Qed.

(* word(content): what [paren_body] accepts, and what it returns *)
Lemma paren_body_ok (p v : string) : paren_body p (p ++ "(" ++ v ++ ")") = Some v.
Proof.
  unfold paren_body, starts_with. rewrite <- (sapp_assoc p "(" (v ++ ")")).
  assert (Lq : String.length (p ++ "(") = (String.length p + 1)%nat) by apply slen_app.
  set (q := (p ++ "(")%string) in *. rewrite prefix_app, !slen_app, Lq. cbn [String.length andb].
  replace (String.length p + 2 <=? String.length p + 1 + (String.length v + 1))%nat with true
    by (symmetry; apply Nat.leb_le; lia).
  replace (String.length p + 1 + (String.length v + 1) - 1)%nat with (String.length (q ++ v))
    by (rewrite slen_app; lia).
  replace (String.length p + 1 + (String.length v + 1) - String.length p - 2)%nat with (String.length v) by lia.
  rewrite <- Lq, <- (sapp_assoc q v ")") at 1. rewrite !substring_skip, substring_take. reflexivity.
Qed.

(* which reader [parse_bytes_arg] hands a token to is decided by the token's first characters *)
Lemma parse_bytes_arg_quote r rest :
  parse_bytes_arg (String """" r :: rest) =
  option_map (fun b => (b, rest)) (parse_string_literal (String """" r)).
Proof.
  unfold parse_bytes_arg, paren_body, starts_with. cbn [String.eqb Ascii.eqb Bool.eqb orb andb append String.prefix].
  rewrite decode_hex0x_quote. reflexivity.
Qed.

Lemma parse_bytes_arg_0x h rest :
  parse_bytes_arg (("0x" ++ h)%string :: rest) =
  option_map (fun b => (b, rest)) (bytes_of_hex_l (list_ascii_of_string h)).
Proof.
  unfold parse_bytes_arg, paren_body, starts_with. cbn [String.eqb Ascii.eqb Bool.eqb orb andb append String.prefix].
  change (decode_hex0x (String "0" (String "x" h))) with (bytes_of_hex_l (list_ascii_of_string h)).
  destruct (bytes_of_hex_l (list_ascii_of_string h)); reflexivity.
Qed.

Lemma parse_bytes_arg_base32 v rest :
  parse_bytes_arg (("base32(" ++ v ++ ")")%string :: rest) = option_map (fun b => (b, rest)) (decode_base32 v).
Proof.
  unfold parse_bytes_arg. cbn [String.eqb Ascii.eqb Bool.eqb orb andb append].
  change (String "b" (String "a" (String "s" (String "e" (String "3" (String "2" (String "(" (v ++ ")"))))))))
    with ("base32" ++ "(" ++ v ++ ")")%string.
  rewrite (paren_body_ok "base32" v). reflexivity.
Qed.

Lemma parse_bytes_arg_base64 v rest :
  parse_bytes_arg (("base64(" ++ v ++ ")")%string :: rest) = option_map (fun b => (b, rest)) (decode_base64 v).
Proof.
  unfold parse_bytes_arg. cbn [String.eqb Ascii.eqb Bool.eqb orb andb append].
  change (String "b" (String "a" (String "s" (String "e" (String "6" (String "4" (String "(" (v ++ ")"))))))))
    with ("base64" ++ "(" ++ v ++ ")")%string.
  rewrite (paren_body_ok "base64" v). reflexivity.
Qed.

Lemma str_of_rev l : str_of (rev l) = string_of_list_ascii l.
Proof. unfold str_of. now rewrite rev_involutive. Qed.

(* finished tokens are only ever prepended to *)
Lemma tok_acc s : forall cur is es ib acc,
  tok_line s cur is es ib acc = rev acc ++ tok_line s cur is es ib [].
Proof.
  induction s as [|c t IH]; intros cur is es ib acc.
  - cbn. destruct cur; cbn; [now rewrite app_nil_r | reflexivity].
  - cbn [tok_line].
    destruct is.
    { destruct es; [apply IH|].
      destruct (Ascii.eqb c "\"); [apply IH|].
      destruct (Ascii.eqb c """"); apply IH. }
    destruct (is_space c).
    { destruct cur as [|x cur]; [apply IH|].
      rewrite IH. rewrite (IH _ _ _ _ [_]). cbn [rev app]. now rewrite <- app_assoc. }
    destruct (Ascii.eqb c """").
    { destruct cur; apply IH. }
    destruct (Ascii.eqb c "/").
    { destruct t as [|c2 t'].
      - apply IH.
      - destruct (Ascii.eqb c2 "/" && negb ib).
        + destruct cur; cbn; [now rewrite app_nil_r | reflexivity].
        + apply IH. }
    destruct (Ascii.eqb c "("); [apply IH|].
    destruct (Ascii.eqb c ")"); [apply IH|].
    destruct (Ascii.eqb c ";").
    { destruct ib; [apply IH|].
      rewrite IH. rewrite (IH _ _ _ _ (_ :: _)).
      destruct cur; cbn [rev app]; now rewrite <- ?app_assoc. }
    apply IH.
Qed.

(* [u] is read into the current token and leaves the tokeniser in the state it was in *)
Definition tok_keeps (is es ib : bool) (u : list ascii) : Prop :=
  forall t cur acc, tok_line (u ++ t) cur is es ib acc = tok_line t (rev u ++ cur) is es ib acc.

Lemma tok_keeps_app is es ib u1 u2 : tok_keeps is es ib u1 -> tok_keeps is es ib u2 -> tok_keeps is es ib (u1 ++ u2).
Proof. intros H1 H2 t cur acc. now rewrite <- app_assoc, H1, H2, rev_app_distr, <- app_assoc. Qed.

Lemma tok_keeps_flat_map {A} is es ib (f : A -> list ascii) l :
  (forall x, tok_keeps is es ib (f x)) -> tok_keeps is es ib (flat_map f l).
Proof.
  intros H. induction l as [|x l IH]; [intros t cur acc; reflexivity|].
  cbn [flat_map]. apply tok_keeps_app; [apply H | exact IH].
Qed.

Lemma tok_keeps_chars is es ib (P : ascii -> bool) l :
  (forall c, P c = true -> tok_keeps is es ib [c]) -> forallb P l = true -> tok_keeps is es ib l.
Proof.
  intros H. induction l as [|c l IH]; intros F; [intros t cur acc; reflexivity|].
  cbn [forallb] in F. apply andb_true_iff in F as [Fc Fl].
  apply (tok_keeps_app _ _ _ [c] l); [now apply H | now apply IH].
Qed.

(* outside strings: characters that are neither blank nor special to the tokeniser *)
Definition ordinary (c : ascii) : bool :=
  negb (is_space c) && negb (Ascii.eqb c """") && negb (Ascii.eqb c "/") && negb (Ascii.eqb c "(") &&
  negb (Ascii.eqb c ")") && negb (Ascii.eqb c ";").

Lemma ordinary_keeps ib c : ordinary c = true -> tok_keeps false false ib [c].
Proof.
  unfold ordinary. intros H t cur acc. cbn [app tok_line].
  destruct (is_space c); [discriminate H|]. destruct (Ascii.eqb c """"); [discriminate H|].
  destruct (Ascii.eqb c "/"); [discriminate H|]. destruct (Ascii.eqb c "("); [discriminate H|].
  destruct (Ascii.eqb c ")"); [discriminate H|]. destruct (Ascii.eqb c ";"); [discriminate H|]. reflexivity.
Qed.

Lemma tok_ordinary l ib : forallb ordinary l = true -> tok_keeps false false ib l.
Proof. apply tok_keeps_chars, ordinary_keeps. Qed.

(* inside a string, from a pending-backslash state [esc]: [u] does not close the string and ends
   with no backslash pending *)
Fixpoint str_run (u : list ascii) (esc : bool) : bool :=
  match u with
  | [] => negb esc
  | c :: t => if esc then str_run t false
              else if Ascii.eqb c "\" then str_run t true
              else negb (Ascii.eqb c """") && str_run t false
  end.

Lemma str_run_tok ib u : forall es t cur acc, str_run u es = true ->
  tok_line (u ++ t) cur true es ib acc = tok_line t (rev u ++ cur) true false ib acc.
Proof.
  induction u as [|c u IH]; intros es t cur acc H.
  - destruct es; [discriminate H | reflexivity].
  - cbn [str_run] in H. cbn [app tok_line rev]. rewrite <- app_assoc.
    destruct es; [now apply IH|]. destruct (Ascii.eqb c "\"); [now apply IH|].
    apply andb_true_iff in H as [Hq H]. apply negb_true_iff in Hq. rewrite Hq. now apply IH.
Qed.

Lemma str_run_keeps ib u : str_run u false = true -> tok_keeps true false ib u.
Proof. intros H t cur acc. now apply str_run_tok. Qed.

(* [u] is read into the current token when the line ends after it or a blank follows *)
Definition tok_word (u : list ascii) : Prop :=
  forall t cur ib acc, t = [] \/ (exists t', t = " "%char :: t') ->
  tok_line (u ++ t) cur false false ib acc = tok_line t (rev u ++ cur) false false ib acc.

Lemma ordinary_word u : forallb ordinary u = true -> tok_word u.
Proof. intros H t cur ib acc _. now apply tok_ordinary. Qed.

(* a word other than the two base64 keywords, a blank, the rest of the line *)
Lemma tokens_cons_word w s : tok_word (list_ascii_of_string w) -> w <> "" ->
  String.eqb w "base64" = false -> String.eqb w "b64" = false ->
  tokens_of_line (w ++ " " ++ s) = w :: tokens_of_line s.
Proof.
  intros W NE K1 K2. unfold tokens_of_line. rewrite los_app. cbn [append list_ascii_of_string app].
  rewrite W by (right; now eexists). cbn [tok_line]. change (is_space " ") with true. cbn iota.
  rewrite app_nil_r. destruct (rev (list_ascii_of_string w)) as [|x l] eqn:E.
  { destruct w; [now elim NE|]. cbn in E. now apply app_eq_nil in E as [_ E]. }
  rewrite <- E, str_of_rev, sol_los, K1, K2. cbn [orb]. now rewrite tok_acc.
Qed.

Lemma tokens_one_word w : tok_word (list_ascii_of_string w) -> w <> "" -> tokens_of_line w = [w].
Proof.
  intros W NE. unfold tokens_of_line. rewrite <- (app_nil_r (list_ascii_of_string w)), W by now left.
  cbn [tok_line]. rewrite app_nil_r. destruct (rev (list_ascii_of_string w)) as [|x l] eqn:E.
  { destruct w; [now elim NE|]. cbn in E. now apply app_eq_nil in E as [_ E]. }
  now rewrite <- E, str_of_rev, sol_los.
Qed.

Definition sep_word (w : string) : Prop :=
  tok_word (list_ascii_of_string w) /\ w <> "" /\ String.eqb w "base64" = false /\ String.eqb w "b64" = false.

Lemma tokens_sep_words : forall ws, ws <> [] -> Forall sep_word ws -> tokens_of_line (concat_sep " " ws) = ws.
Proof.
  induction ws as [|w t IH]; intros NE H; [now elim NE|].
  inversion H as [|? ? (W & N & K1 & K2) Ht]; subst. destruct t as [|w2 t'].
  - now apply tokens_one_word.
  - change (concat_sep " " (w :: w2 :: t')) with (w ++ " " ++ concat_sep " " (w2 :: t'))%string.
    now rewrite tokens_cons_word, IH.
Qed.

(* splitting at a character undoes joining with it *)
Lemma split_on_app_clean : forall c p r cur, ~ In c p ->
  split_on c (p ++ r) cur = split_on c r (rev p ++ cur).
Proof.
  intros c p. induction p as [|x p IH]; intros r cur H; [reflexivity|].
  cbn [app split_on].
  destruct (Ascii.eqb_spec x c) as [->|Hne]; [exfalso; apply H; left; reflexivity|].
  rewrite IH by (intros Hin; apply H; right; exact Hin).
  cbn [rev]. rewrite <- app_assoc. reflexivity.
Qed.

Lemma split_on_join : forall c l, l <> [] -> Forall (fun p => ~ In c p) l ->
  split_on c (join_with c l) [] = l.
Proof.
  intros c l. induction l as [|p l IH]; intros Hne HF; [congruence|].
  inversion HF as [|? ? Hp Hl]; subst.
  destruct l as [|q l].
  - cbn [join_with]. transitivity (split_on c (p ++ []) []); [rewrite app_nil_r; reflexivity|].
    rewrite split_on_app_clean by exact Hp. cbn [split_on]. rewrite app_nil_r, rev_involutive. reflexivity.
  - change (join_with c (p :: q :: l)) with (p ++ c :: join_with c (q :: l)).
    rewrite split_on_app_clean by exact Hp. cbn [split_on]. rewrite Ascii.eqb_refl.
    rewrite app_nil_r, rev_involutive. f_equal. apply IH; [discriminate|exact Hl].
Qed.

(* the assembler splits its text at the line feeds *)
Lemma split_lines_split_on : forall s cur,
  split_lines s cur = map string_of_list_ascii (split_on (chr 10) s cur).
Proof.
  induction s as [|c t IH]; intros cur; [reflexivity|]. cbn [split_lines split_on].
  destruct (Ascii.eqb c (chr 10)); rewrite IH; reflexivity.
Qed.

Definition no_lf (l : list ascii) : Prop := Forall (fun c => c <> chr 10) l.

Lemma no_lf_forallb l : forallb (fun c => negb (Ascii.eqb c (chr 10))) l = true -> no_lf l.
Proof.
  rewrite forallb_forall. intros H. apply Forall_forall. intros c Hin ->. now specialize (H _ Hin).
Qed.

Lemma split_lines_no_lf : forall s cur, no_lf s -> split_lines s cur = [str_of (rev s ++ cur)].
Proof.
  induction s as [|c t IH]; intros cur H; [reflexivity|].
  inversion H as [|? ? Hc Ht]; subst. cbn [split_lines].
  destruct (Ascii.eqb_spec c (chr 10)) as [E|E]; [now elim Hc|].
  rewrite IH by exact Ht. cbn [rev]. now rewrite <- app_assoc.
Qed.

Lemma split_lines_app_lf : forall a b cur, no_lf a ->
  split_lines (a ++ chr 10 :: b) cur = str_of (rev a ++ cur) :: split_lines b [].
Proof.
  induction a as [|c t IH]; intros b cur H; [reflexivity|].
  inversion H as [|? ? Hc Ht]; subst. cbn [app split_lines].
  destruct (Ascii.eqb_spec c (chr 10)) as [E|E]; [now elim Hc|].
  rewrite IH by exact Ht. cbn [rev]. now rewrite <- app_assoc.
Qed.

(* a line between two line feeds, whatever stands before *)
Lemma split_lines_mid (pre : list ascii) : forall l rest cur, no_lf l ->
  split_lines (pre ++ chr 10 :: l ++ chr 10 :: rest) cur =
  split_lines pre cur ++ string_of_list_ascii l :: split_lines rest [].
Proof.
  induction pre as [|c pre IH]; intros l rest cur H; cbn [app split_lines].
  - change (Ascii.eqb (chr 10) (chr 10)) with true. cbn iota.
    now rewrite split_lines_app_lf, app_nil_r, str_of_rev.
  - destruct (Ascii.eqb c (chr 10)); now rewrite IH.
Qed.

(* the assembler knows every opcode by the name it is printed with; "//" alone it may leave to the
   tokeniser *)
Lemma parse_opc_name o : o <> O_comment -> parse_opc (opc_name o) = Some o.
Proof.
  intros H. pose proof (opc_of_name o) as E.
  destruct (String.eqb_spec (opc_name o) "//") as [C|_]; [|exact E].
  destruct H. exact (opc_name_inj o O_comment C).
Qed.

Lemma parse_stmts_app msel a : forall b,
  parse_stmts msel (a ++ b) =
  match parse_stmts msel a, parse_stmts msel b with
  | Some x, Some y => Some (x ++ y)
  | _, _ => None
  end.
Proof.
  induction a as [|ts a IH]; intros b.
  - cbn. destruct (parse_stmts msel b); reflexivity.
  - cbn [app parse_stmts]. rewrite IH.
    destruct (parse_stmt msel ts) as [[s|]|]; destruct (parse_stmts msel a); destruct (parse_stmts msel b); reflexivity.
Qed.

Definition nosemi (ts : list string) : bool := forallb (fun t => negb (String.eqb t ";")) ts.

Lemma split_semis_none : forall ts cur, nosemi ts = true -> split_semis ts cur = [rev cur ++ ts].
Proof.
  induction ts as [|t r IH]; intros cur H; cbn [split_semis]; [now rewrite app_nil_r|].
  cbn [nosemi forallb] in H. apply andb_true_iff in H as [Ht Hr]. apply negb_true_iff in Ht. rewrite Ht.
  rewrite IH by exact Hr. cbn [rev]. now rewrite <- app_assoc.
Qed.

(* A program text one of whose lines is [line], a single statement: the statements are those of the
   text before, then that statement, then those of the text after. *)
Lemma program_with_line msel (pre post line : string) ts st :
  no_lf (list_ascii_of_string line) -> tokens_of_line line = ts -> nosemi ts = true ->
  parse_stmt msel ts = Some (Some st) ->
  statements_of_text msel (pre ++ String (chr 10) (line ++ String (chr 10) post)) =
  match statements_of_text msel pre, statements_of_text msel post with
  | Some x, Some y => Some (x ++ st :: y)
  | _, _ => None
  end.
Proof.
  intros NL T S P. unfold statements_of_text. rewrite !los_app. cbn [list_ascii_of_string].
  rewrite los_app. cbn [list_ascii_of_string]. rewrite split_lines_mid by exact NL.
  rewrite sol_los, flat_map_app. cbn [flat_map]. rewrite T, split_semis_none by exact S.
  rewrite parse_stmts_app. cbn [rev app parse_stmts]. rewrite P.
  destruct (parse_stmts msel (flat_map _ (split_lines (list_ascii_of_string pre) []))); [|reflexivity].
  destruct (parse_stmts msel (flat_map _ (split_lines (list_ascii_of_string post) []))); reflexivity.
Qed.
