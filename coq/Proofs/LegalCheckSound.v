(* Proofs/LegalCheckSound.v — C04: soundness of AVM/LegalCheck.v with respect to AVM/Machine.v.

   If [legal_check version app msel text = LOk] and the text parses to the program p, then in EVERY
   execution of p (every context, every initial state, any number of steps):
     - the pc always points at an instruction of p: the "ran off the end" case of [step] is unreachable;
     - every return address on the call stack points at an instruction of p;
     - the instruction about to be executed passed the static check (langspec membership at the
       version and in the mode, immediates), and each of its branch targets resolves ([label_pc]);
     - a step that is not a callsub or retsub stays in the routine region of its instruction; callsub
       goes to a routine entry, retsub is never executed in the main region.
   Invariant: pc and all return addresses belong to the set R verified by [closed_check]. *)
From Coq Require Import List Arith NArith Ascii String Bool Lia.
From PV Require Import AVM.Syntax AVM.Machine AVM.Parse AVM.Langspec AVM.LegalCheck Proofs.ExecOpFacts.
Import ListNotations.
Local Open Scope string_scope.

Lemma vand_ok a b : vand a b = VOk -> a = VOk /\ b = VOk.
Proof. destruct a; cbn; intros H; try discriminate; auto. Qed.

Lemma with_op_ok o v : with_op o v = VOk -> v = VOk.
Proof. destruct v; cbn; intros H; try discriminate; auto. Qed.

Lemma vall_ok {A} (f : A -> iverdict) l : vall f l = VOk -> forall x, In x l -> f x = VOk.
Proof.
  induction l as [|a t IH]; cbn; intros H x Hin; [contradiction|].
  apply vand_ok in H. destruct H as [Ha Ht]. destruct Hin as [<-|Hin]; auto.
Qed.

Lemma lthen_ok a b : lthen a b = LOk -> a = LOk /\ b = LOk.
Proof. destruct a; cbn; intros H; try discriminate; auto. Qed.

Lemma lift_ok v pc k : lift v pc k = LOk -> v = VOk /\ k = LOk.
Proof. destruct v; cbn; intros H; try discriminate; auto. Qed.

Lemma first_bad_ok f : forall code s, first_bad f s code = LOk ->
  forall k i, nth_error code k = Some i -> f (s + k)%nat i = VOk.
Proof.
  induction code as [|a t IH]; intros s H k i Hn.
  - destruct k; discriminate.
  - cbn in H. destruct (f s a) eqn:E; try discriminate.
    destruct k as [|k]; cbn in Hn.
    + injection Hn as <-. now rewrite Nat.add_0_r.
    + rewrite Nat.add_succ_r. change (S (s + k)) with (S s + k)%nat. eapply IH; eauto.
Qed.

Definition code_len (p : program) : nat := List.length (pr_code p).
Definition ni_of (p : program) : option nat := block_len O_intcblock (pr_code p).
Definition nb_of (p : program) : option nat := block_len O_bytecblock (pr_code p).

Record checked (version : N) (app : bool) (p : program) (R : list bool) : Prop := mkChecked {
  ck_static : forall pc i, nth_error (pr_code p) pc = Some i -> static_instr version app (ni_of p) (nb_of p) i = VOk;
  ck_targets : forall pc i, nth_error (pr_code p) pc = Some i -> targets_instr version p pc i = VOk;
  ck_nonempty : (0 < code_len p)%nat;
  ck_entry : nth 0 R false = true;
  ck_closed : forall pc i, nth_error (pr_code p) pc = Some i -> nth pc R false = true ->
              pc_closed p (entries_of p) R pc i = VOk
}.

Lemma existsb_eqb_true x l : existsb (Nat.eqb x) l = true -> In x l.
Proof.
  intros H. apply existsb_exists in H. destruct H as [y [Hin E]]. apply Nat.eqb_eq in E. now subst.
Qed.

Lemma check_program_checked version app p :
  check_program version app p = LOk -> checked version app p (reach_set p (entries_of p)).
Proof.
  unfold check_program. intros H.
  apply lthen_ok in H. destruct H as [Hs H].
  apply lthen_ok in H. destruct H as [_ H].
  apply lthen_ok in H. destruct H as [Ht Hc].
  unfold closed_check in Hc.
  destruct (pr_code p) as [|i0 t] eqn:Ec; [discriminate|]. rewrite <- Ec in *.
  destruct (existsb (Nat.eqb 0) (entries_of p)) eqn:E0; [discriminate|].
  destruct (nth 0 (reach_set p (entries_of p)) false) eqn:ER; [|discriminate]. cbn [negb] in Hc.
  constructor.
  - intros pc i Hn. apply (first_bad_ok _ _ _ Hs pc i Hn).
  - intros pc i Hn. apply (first_bad_ok _ _ _ Ht pc i Hn).
  - unfold code_len. rewrite Ec. cbn. lia.
  - exact ER.
  - intros pc i Hn HR.
    assert (Hk : (if nth pc (reach_set p (entries_of p)) false
                  then pc_closed p (entries_of p) (reach_set p (entries_of p)) pc i else VOk) = VOk)
      by exact (first_bad_ok _ _ _ Hc pc i Hn).
    now rewrite HR in Hk.
Qed.

Lemma negb_false_true b : negb b = false -> b = true.
Proof. destruct b; cbn; congruence. Qed.

Lemma fall_ok_spec n ents R pc : fall_ok n ents R pc = VOk ->
  (S pc < n)%nat /\ region_of ents (S pc) = region_of ents pc /\ nth (S pc) R false = true.
Proof.
  unfold fall_ok. intros H.
  destruct (S pc <? n)%nat eqn:E1; cbn [negb] in H; [|discriminate].
  destruct (same_region ents (S pc) pc) eqn:E2; cbn [negb] in H; [|discriminate].
  destruct (nth (S pc) R false) eqn:E3; cbn [negb] in H; [|discriminate].
  apply Nat.ltb_lt in E1. apply Nat.eqb_eq in E2. auto.
Qed.

Lemma target_ok_spec p ents R pc l : target_ok p ents R pc l = VOk ->
  exists t, label_pc p l = Some t /\ (t < code_len p)%nat /\ region_of ents t = region_of ents pc /\ nth t R false = true.
Proof.
  unfold target_ok. intros H. destruct (label_pc p l) as [t|]; [|discriminate].
  destruct (t <? List.length (pr_code p))%nat eqn:E1; cbn [negb] in H; [|discriminate].
  destruct (same_region ents t pc) eqn:E2; cbn [negb] in H; [|discriminate].
  destruct (nth t R false) eqn:E3; cbn [negb] in H; [|discriminate].
  exists t. apply Nat.ltb_lt in E1. apply Nat.eqb_eq in E2. auto.
Qed.

Lemma call_ok_spec p ents R l : call_ok p ents R l = VOk ->
  exists t, label_pc p l = Some t /\ (t < code_len p)%nat /\ In t ents /\ nth t R false = true.
Proof.
  unfold call_ok. intros H. destruct (label_pc p l) as [t|]; [|discriminate].
  destruct (t <? List.length (pr_code p))%nat eqn:E1; cbn [negb] in H; [|discriminate].
  destruct (existsb (Nat.eqb t) ents) eqn:E2; cbn [negb] in H; [|discriminate].
  destruct (nth t R false) eqn:E3; cbn [negb] in H; [|discriminate].
  exists t. apply Nat.ltb_lt in E1. apply existsb_eqb_true in E2. auto.
Qed.

Definition is_ctl (o : opc) : bool :=
  match o with
  | O_b | O_bz | O_bnz | O_callsub | O_retsub | O_return_ | O_err | O_switch | O_match_ => true
  | _ => false
  end.

Lemma is_ctl_ctl_op o : is_ctl o = true -> ctl_op o = true.
Proof. destruct o; intros H; try discriminate H; reflexivity. Qed.

Lemma pc_closed_plain p ents R pc i : is_ctl (p_op i) = false ->
  pc_closed p ents R pc i = with_op (p_op i) (fall_ok (List.length (pr_code p)) ents R pc).
Proof. unfold pc_closed. destruct (p_op i); cbn [is_ctl]; intros H; try discriminate H; reflexivity. Qed.

Inductive step_kind (p : program) (m m' : mach) (i : pinstr) : Prop :=
| SK_next : is_ctl (p_op i) = false -> m_pc m' = S (m_pc m) ->
            map f_ret (m_calls m') = map f_ret (m_calls m) -> step_kind p m m' i
| SK_b l t : p_op i = O_b -> p_imms i = [IName l] -> label_pc p l = Some t ->
            m_pc m' = t -> m_calls m' = m_calls m -> step_kind p m m' i
| SK_cond l t : p_op i = O_bz \/ p_op i = O_bnz -> p_imms i = [IName l] -> label_pc p l = Some t ->
            m_pc m' = t \/ m_pc m' = S (m_pc m) -> m_calls m' = m_calls m -> step_kind p m m' i
| SK_call l t : p_op i = O_callsub -> p_imms i = [IName l] -> label_pc p l = Some t ->
            m_pc m' = t -> m_calls m' = mkFrame (S (m_pc m)) None :: m_calls m -> step_kind p m m' i
| SK_ret f fs : p_op i = O_retsub -> m_calls m = f :: fs -> m_pc m' = f_ret f -> m_calls m' = fs ->
            step_kind p m m' i.

Lemma step_shape cx p m m' i :
  nth_error (pr_code p) (m_pc m) = Some i -> step cx p m = Running m' -> step_kind p m m' i.
Proof.
  intros Hn H. unfold step in H. rewrite Hn in H.
  destruct (STACK_MAX <? height m)%nat; [discriminate|].
  destruct (exec_op cx (p_op i) (p_imms i) (m_stack m) (m_st m)) eqn:E; try discriminate.
  - (* an ordinary instruction *)
    injection H as <-. apply SK_next; cbn; auto.
    destruct (is_ctl (p_op i)) eqn:C; [|reflexivity]. rewrite exec_op_ctl in E by exact (is_ctl_ctl_op _ C). discriminate.
  - (* handled by the machine itself *)
    apply exec_op_not_inv in E. destruct i as [o imms]. cbn [p_op p_imms] in *.
    destruct o; try discriminate E; clear E; cbv beta iota in H; break_all H.
    all: injection H as <-.
    all: first [ solve [eapply SK_next; [reflexivity | cbn; eauto ..]]
               | solve [eapply SK_next; [reflexivity | cbn; eauto |
                        cbn; match goal with Hq : m_calls _ = _ |- _ => rewrite Hq end; reflexivity]]
               | solve [eapply SK_b; cbn; eauto]
               | solve [eapply SK_cond; cbn; eauto]
               | solve [eapply SK_call; cbn; eauto]
               | solve [eapply SK_ret; cbn; eauto] ].
Qed.

Definition good (p : program) (R : list bool) (pc : nat) : Prop :=
  nth pc R false = true /\ (pc < code_len p)%nat.

Definition Inv (p : program) (R : list bool) (m : mach) : Prop :=
  good p R (m_pc m) /\ Forall (good p R) (map f_ret (m_calls m)).

Lemma good_instr p R pc : good p R pc -> exists i, nth_error (pr_code p) pc = Some i.
Proof.
  intros [_ H]. unfold code_len in H. destruct (nth_error (pr_code p) pc) eqn:E; eauto.
  apply nth_error_None in E. lia.
Qed.

Section Preservation.
  Variables (version : N) (app : bool) (p : program) (R : list bool).
  Hypothesis CK : checked version app p R.

  Lemma inv_init st : Inv p R (init_mach st).
  Proof.
    split; cbn; [|constructor]. split; [apply (ck_entry _ _ _ _ CK)|apply (ck_nonempty _ _ _ _ CK)].
  Qed.

  Lemma inv_step cx m m' i :
    Inv p R m -> nth_error (pr_code p) (m_pc m) = Some i -> step cx p m = Running m' ->
    Inv p R m' /\
    ((p_op i = O_callsub /\ In (m_pc m') (entries_of p)) \/
     (p_op i = O_retsub /\ region_of (entries_of p) (m_pc m) <> 0%nat) \/
     (p_op i <> O_callsub /\ p_op i <> O_retsub /\
      region_of (entries_of p) (m_pc m') = region_of (entries_of p) (m_pc m))).
  Proof.
    intros [[HR Hlt] Hcalls] Hn Hs.
    pose proof (ck_closed _ _ _ _ CK _ _ Hn HR) as Hc.
    destruct (step_shape _ _ _ _ _ Hn Hs) as [C Hpc Hcl | l t Eo Ei El Hpc Hcl | l t Eo Ei El Hpc Hcl | l t Eo Ei El Hpc Hcl | f fs Eo Ecs Hpc Hcl].
    - (* next *)
      rewrite pc_closed_plain in Hc by exact C. apply with_op_ok in Hc.
      apply fall_ok_spec in Hc. destruct Hc as [H1 [H2 H3]].
      split.
      + split; [split; rewrite Hpc; [exact H3|exact H1]|]. rewrite Hcl. exact Hcalls.
      + right. right. rewrite Hpc. repeat split; try exact H2;
          intros E; rewrite E in C; discriminate C.
    - (* b *)
      unfold pc_closed in Hc. rewrite Eo, Ei in Hc. apply with_op_ok in Hc.
      apply target_ok_spec in Hc. destruct Hc as [t' [El' [H1 [H2 H3]]]].
      rewrite El in El'. injection El' as <-.
      split.
      + split; [split; rewrite Hpc; assumption|]. rewrite Hcl. exact Hcalls.
      + right. right. rewrite Hpc, Eo. repeat split; try exact H2; discriminate.
    - (* bz / bnz *)
      assert (Hc' : vand (target_ok p (entries_of p) R (m_pc m) l) (fall_ok (List.length (pr_code p)) (entries_of p) R (m_pc m)) = VOk).
      { unfold pc_closed in Hc. destruct Eo as [Eo|Eo]; rewrite Eo, Ei in Hc; apply with_op_ok in Hc; exact Hc. }
      apply vand_ok in Hc'. destruct Hc' as [Ht Hf].
      apply target_ok_spec in Ht. destruct Ht as [t' [El' [H1 [H2 H3]]]].
      rewrite El in El'. injection El' as <-.
      apply fall_ok_spec in Hf. destruct Hf as [F1 [F2 F3]].
      split.
      + split; [|rewrite Hcl; exact Hcalls].
        destruct Hpc as [Hpc|Hpc]; rewrite Hpc; split; assumption.
      + right. right. split; [destruct Eo as [Eo|Eo]; rewrite Eo; discriminate|].
        split; [destruct Eo as [Eo|Eo]; rewrite Eo; discriminate|].
        destruct Hpc as [Hpc|Hpc]; rewrite Hpc; assumption.
    - (* callsub *)
      unfold pc_closed in Hc. rewrite Eo, Ei in Hc. apply with_op_ok in Hc.
      apply vand_ok in Hc. destruct Hc as [Ht Hf].
      apply call_ok_spec in Ht. destruct Ht as [t' [El' [H1 [H2 H3]]]].
      rewrite El in El'. injection El' as <-.
      apply fall_ok_spec in Hf. destruct Hf as [F1 [F2 F3]].
      split.
      + split; [split; rewrite Hpc; assumption|]. rewrite Hcl. cbn [map f_ret].
        constructor; [split; assumption|exact Hcalls].
      + left. rewrite Hpc. auto.
    - (* retsub *)
      unfold pc_closed in Hc. rewrite Eo in Hc. apply with_op_ok in Hc.
      destruct (Nat.eqb (region_of (entries_of p) (m_pc m)) 0) eqn:E0; [discriminate|].
      apply Nat.eqb_neq in E0.
      rewrite Ecs in Hcalls. cbn [map] in Hcalls.
      pose proof (Forall_inv Hcalls) as Hg. pose proof (Forall_inv_tail Hcalls) as Hrest.
      split.
      + split; [rewrite Hpc; exact Hg|rewrite Hcl; exact Hrest].
      + right. left. auto.
  Qed.
End Preservation.

Inductive reaches (cx : ctx) (p : program) : mach -> mach -> Prop :=
| reaches_refl m : reaches cx p m m
| reaches_step m m1 m2 : reaches cx p m m1 -> step cx p m1 = Running m2 -> reaches cx p m m2.

Lemma inv_reaches version app p R cx m0 m :
  checked version app p R -> Inv p R m0 -> reaches cx p m0 m -> Inv p R m.
Proof.
  intros CK H0 Hr. induction Hr as [|m m1 m2 Hr IH Hs]; [exact H0|].
  specialize (IH H0). destruct (good_instr _ _ _ (proj1 IH)) as [i Hn].
  exact (proj1 (inv_step _ _ _ _ CK cx _ _ _ IH Hn Hs)).
Qed.

Lemma run_reaches cx p : forall fuel m v m', run fuel cx p m = (v, m') -> reaches cx p m m'.
Proof.
  intros fuel m v m' H.
  apply (run_invariant cx p (reaches cx p m) (reaches_step cx p m) fuel m v m' (reaches_refl cx p m) H).
Qed.

Lemma build_prog_version : forall ss pc v code labels p,
  existsb is_pragma ss = false -> build_prog ss pc v code labels = Some p -> pr_version p = v.
Proof.
  induction ss as [|s r IH]; intros pc v code labels p Hp H; cbn in H.
  - injection H as <-. reflexivity.
  - destruct s as [i|l|v']; cbn in Hp.
    + eapply IH; eauto.
    + destruct (alookup String.eqb l labels); [discriminate|]. eapply IH; eauto.
    + discriminate.
Qed.

Lemma legal_check_inv version app msel text :
  legal_check version app msel text = LOk ->
  exists rest p, statements_of_text msel text = Some (SPragma version :: rest) /\
                 existsb is_pragma rest = false /\
                 build_prog rest 0 version [] [] = Some p /\
                 check_program version app p = LOk.
Proof.
  unfold legal_check. intros H.
  destruct (statements_of_text msel text) as [ss|]; [|discriminate].
  destruct ss as [|s rest]; [discriminate|]. destruct s as [i|l|v]; try discriminate.
  destruct (N.eqb_spec v version) as [->|]; cbn [negb] in H; [|discriminate].
  destruct (existsb is_pragma rest) eqn:Ep; [discriminate|].
  destruct (build_prog rest 0 version [] []) as [p|] eqn:Eb; [|discriminate].
  exists rest, p. auto.
Qed.

Lemma legal_check_program version app msel text p :
  legal_check version app msel text = LOk -> parse_program msel text = Some p ->
  check_program version app p = LOk /\ pr_version p = version.
Proof.
  intros H Hp. destruct (legal_check_inv _ _ _ _ H) as [rest [p' [Hs [Hnp [Hb Hc]]]]].
  unfold parse_program in Hp. rewrite Hs in Hp. cbn [build_prog] in Hp.
  rewrite Hb in Hp. injection Hp as <-. split; [exact Hc|].
  eapply build_prog_version; eauto.
Qed.

Lemma static_instr_spec version app ni nb i : static_instr version app ni nb i = VOk ->
  exists sp, ls_op (p_op i) = Known sp /\ (os_minv sp <= version)%N /\
             (if app then os_app sp else os_sig sp) = true /\
             imms_ok version app (os_imms sp) (p_imms i) = VOk /\
             const_index_ok ni nb i = VOk.
Proof.
  unfold static_instr. intros H. apply with_op_ok in H.
  destruct (ls_op (p_op i)) as [sp|]; [|discriminate]. exists sp.
  destruct (N.ltb_spec version (os_minv sp)); [discriminate|].
  destruct (if app then os_app sp else os_sig sp) eqn:Em; cbn [negb] in H; [|discriminate].
  apply vand_ok in H. destruct H. auto.
Qed.

Lemma imm_names_in l : forall s, In (IName s) l -> In s (imm_names l).
Proof.
  induction l as [|a t IH]; intros s H; [contradiction|].
  destruct H as [->|H]; [left; reflexivity|]. destruct a; cbn; auto.
Qed.

Lemma targets_instr_spec version p pc i : targets_instr version p pc i = VOk ->
  is_branch (p_op i) = true -> forall l, In (IName l) (p_imms i) ->
  exists t, label_pc p l = Some t /\
            (p_op i <> O_callsub -> (version < BACK_BRANCH_VERSION)%N -> (pc < t)%nat).
Proof.
  unfold targets_instr. intros H Hb l Hin. rewrite Hb in H. apply with_op_ok in H.
  pose proof (vall_ok _ _ H l (imm_names_in _ _ Hin)) as Hl. unfold target_defined in Hl.
  destruct (label_pc p l) as [t|]; [|discriminate]. exists t. split; [reflexivity|].
  intros Hne Hv.
  assert (Eq : opc_eqb (p_op i) O_callsub = false).
  { destruct (opc_eqb (p_op i) O_callsub) eqn:E; [apply opc_eqb_eq in E; contradiction | reflexivity]. }
  rewrite Eq in Hl. cbn [negb andb] in Hl.
  destruct (N.ltb_spec version BACK_BRANCH_VERSION) as [_|Hge]; [|lia].
  cbn [andb] in Hl. destruct (Nat.leb_spec t pc); [discriminate|lia].
Qed.

Definition instr_legal (version : N) (app : bool) (p : program) (i : pinstr) : Prop :=
  static_instr version app (ni_of p) (nb_of p) i = VOk.

Definition targets_resolve (p : program) (i : pinstr) : Prop :=
  is_branch (p_op i) = true -> forall l, In (IName l) (p_imms i) -> label_pc p l <> None.

(* how control may move in one step *)
Definition region_discipline (p : program) (m m' : mach) (i : pinstr) : Prop :=
  let ents := entries_of p in
  (p_op i = O_callsub /\ In (m_pc m') ents) \/
  (p_op i = O_retsub /\ region_of ents (m_pc m) <> 0%nat) \/
  (p_op i <> O_callsub /\ p_op i <> O_retsub /\ region_of ents (m_pc m') = region_of ents (m_pc m)).

Theorem legal_check_sound_lemma version app msel text p :
  legal_check version app msel text = LOk ->
  parse_program msel text = Some p ->
  pr_version p = version /\
  forall cx st m, reaches cx p (init_mach st) m ->
    exists i, nth_error (pr_code p) (m_pc m) = Some i /\
              Forall (fun f => (f_ret f < code_len p)%nat) (m_calls m) /\
              instr_legal version app p i /\
              targets_resolve p i /\
              forall m', step cx p m = Running m' -> region_discipline p m m' i.
Proof.
  intros H Hp. destruct (legal_check_program _ _ _ _ _ H Hp) as [Hc Hv]. split; [exact Hv|].
  pose proof (check_program_checked _ _ _ Hc) as CK.
  intros cx st m Hr.
  pose proof (inv_reaches _ _ _ _ _ _ _ CK (inv_init _ _ _ _ CK st) Hr) as HI.
  destruct (good_instr _ _ _ (proj1 HI)) as [i Hn]. exists i.
  split; [exact Hn|]. split.
  { destruct HI as [_ Hf]. clear - Hf. induction (m_calls m) as [|f fs IH]; cbn in *; constructor.
    - inversion Hf as [|x xs [_ Hx] _]; subst. exact Hx.
    - apply IH. inversion Hf; assumption. }
  split; [exact (ck_static _ _ _ _ CK _ _ Hn)|]. split.
  { intros Hb l Hin. destruct (targets_instr_spec _ _ _ _ (ck_targets _ _ _ _ CK _ _ Hn) Hb l Hin) as [t [Et _]].
    congruence. }
  intros m' Hs. exact (proj2 (inv_step _ _ _ _ CK cx _ _ _ HI Hn Hs)).
Qed.

(* the verdict of [run] is never produced by the ran-off-the-end rule: the final pc is inside the program *)
Corollary legal_run_inside version app msel text p :
  legal_check version app msel text = LOk -> parse_program msel text = Some p ->
  forall fuel cx st v m', run fuel cx p (init_mach st) = (v, m') ->
    nth_error (pr_code p) (m_pc m') <> None.
Proof.
  intros H Hp fuel cx st v m' Hrun.
  destruct (legal_check_sound_lemma _ _ _ _ _ H Hp) as [_ Hall].
  destruct (Hall cx st m' (run_reaches _ _ _ _ _ _ Hrun)) as [i [Hn _]]. congruence.
Qed.

(* labels are defined once: [build_prog] refuses a second definition *)
Lemma build_prog_nodup : forall ss pc v code labels p,
  NoDup (map fst labels) -> build_prog ss pc v code labels = Some p -> NoDup (map fst (pr_labels p)).
Proof.
  induction ss as [|s r IH]; intros pc v code labels p Hnd H; cbn in H.
  - injection H as <-. exact Hnd.
  - destruct s as [i|l|v'].
    + eapply IH; eauto.
    + destruct (alookup String.eqb l labels) eqn:E; [discriminate|].
      eapply IH; [|exact H]. cbn. constructor; [|exact Hnd].
      intros Hin. clear - E Hin. induction labels as [|[k x] t IHl]; [contradiction|].
      cbn in E. destruct (String.eqb_spec l k) as [->|Hne]; [discriminate|].
      destruct Hin as [Hk|Hin]; [cbn in Hk; congruence|]. apply IHl; assumption.
    + eapply IH; eauto.
Qed.

Theorem legal_labels_unique_lemma version app msel text p :
  legal_check version app msel text = LOk -> parse_program msel text = Some p ->
  NoDup (map fst (pr_labels p)).
Proof.
  intros H Hp. destruct (legal_check_inv _ _ _ _ H) as [rest [p' [Hs [_ [Hb _]]]]].
  unfold parse_program in Hp. rewrite Hs in Hp. cbn [build_prog] in Hp. rewrite Hb in Hp. injection Hp as <-.
  eapply build_prog_nodup; [|exact Hb]. constructor.
Qed.

(* an accepted text always parses to a program (the hypothesis of the soundness theorem is satisfiable) *)
Lemma legal_check_parses version app msel text :
  legal_check version app msel text = LOk -> exists p, parse_program msel text = Some p.
Proof.
  intros H. destruct (legal_check_inv _ _ _ _ H) as [rest [p [Hs [_ [Hb _]]]]].
  exists p. unfold parse_program. rewrite Hs. cbn [build_prog]. exact Hb.
Qed.
