(* Proofs/EndToEndOptExample.v — the hypotheses of [routine_end_to_end_optimized_partial] are satisfiable
   (on the example routine of Proofs/EndToEndExamples.v the optimiser finds no removable slot, so the
   behavioural side conditions hold vacuously and the conclusion is the unoptimised one). *)
From Coq Require Import List Arith NArith String Bool Lia.
From PV Require Import Base.Bytes AVM.Syntax AVM.Machine Src.Expr Src.Denote
  Comp.Blocks Comp.Lower Comp.Passes Comp.GraphSem Comp.LinearSem Comp.SimCheck Comp.Compile
  Proofs.LowerCorrect Proofs.LowerShape Proofs.NormalizeLowered Proofs.FlattenCorrect Proofs.SortCorrect
  Proofs.OptimizeSem Proofs.OptimizeCorrect
  Proofs.EndToEndGlue Proofs.EndToEnd Proofs.EndToEndExamples Proofs.EndToEndOpt.
Import ListNotations.

Definition exo_cr : croutine := cr_of opts0 ex_ast.
Definition exo_g : graph :=
  match optimize_routine (cr_graph exo_cr) (cr_start exo_cr) [] with Some x => x | None => cr_graph exo_cr end.
Definition exo_order : list id :=
  match sort_blocks exo_g (cr_start exo_cr) (cr_end exo_cr) with Some l => l | None => [] end.
Definition exo_code : list comp :=
  match flatten_blocks exo_g exo_order with Some c => c | None => [] end.

Definition exo_gv : graph := Eval vm_compute in exo_g.
Definition exo_orderv : list id := Eval vm_compute in exo_order.
Definition exo_codev : list comp := Eval vm_compute in exo_code.

Example optimized_end_to_end_example :
  optimize_routine (cr_graph exo_cr) (cr_start exo_cr) [] = Some exo_g /\
  exists st', lstar ex_env1 exo_code (LAt 0 [] ex_st) (LExit (VI 1) st') /\
              lrun 200 ex_env1 exo_code (LAt 0 [] ex_st) = LExit (VI 1) st'.
Proof.
  assert (QR : exo_cr = ex_crv) by exact cr_of_ex.
  assert (HO : optimize_routine (cr_graph ex_crv) (cr_start ex_crv) [] = Some exo_gv) by (vm_compute; reflexivity).
  assert (QG : exo_g = exo_gv) by (unfold exo_g; rewrite QR, HO; reflexivity).
  assert (HS : sort_blocks exo_gv (cr_start ex_crv) (cr_end ex_crv) = Some exo_orderv) by (vm_compute; reflexivity).
  assert (QO : exo_order = exo_orderv) by (unfold exo_order; rewrite QG, QR, HS; reflexivity).
  assert (HF : flatten_blocks exo_gv exo_orderv = Some exo_codev) by (vm_compute; reflexivity).
  assert (QC : exo_code = exo_codev) by (unfold exo_code; rewrite QG, QO, HF; reflexivity).
  rewrite QR, QG, QC. split; [exact HO|].
  assert (Hb : ids_bounded (cr_graph ex_crv) (cr_start ex_crv)) by (apply ids_bounded_b_sound; vm_compute; reflexivity).
  assert (Hw : slot_ops_wf (cr_graph ex_crv) (iterate (cr_graph ex_crv) (cr_start ex_crv)))
    by (apply slot_ops_wf_b_sound; vm_compute; reflexivity).
  assert (Hno : no_orphan_store (cr_graph ex_crv) exo_gv (cr_start ex_crv))
    by (apply no_orphan_b_sound; vm_compute; reflexivity).
  assert (NR : forall u, ~ removed_slot (cr_graph ex_crv) exo_gv (cr_start ex_crv) u).
  { apply no_removed_of_loaded. vm_compute. intros x H. exact H. }
  assert (Hc : consistent ex_env1 (routine_ctx opts0 None)) by (apply consistent_main; reflexivity).
  destruct (routine_end_to_end_optimized_partial opts0 None ex_ast ex_crv [] exo_gv exo_orderv exo_codev
              eq_refl ex_compiled eq_refl HO HS HF Hb Hw Hno) as [_ T].
  assert (Dn : ghalt_of (denote ex_env1 100 (root_ast ex_ast) [] ex_st) = Some (GExit (VI 1) ex_final))
    by (rewrite ex_denoted; reflexivity).
  destruct (T ex_env1 Hc (inj_on_none _ _ NR) 100 [] ex_st _ Dn (safe_from_none _ _ _ _ NR)) as (gh' & Q & R & _).
  destruct gh' as [| |v st'| | |]; cbn [conf_eqx] in Q; try contradiction. destruct Q as [Qv _]. subst v.
  exists st'. split; [exact R|].
  pose proof (lrun_lstar ex_env1 exo_codev 200 (LAt 0 [] ex_st)) as R2.
  assert (F2 : lfinal (lrun 200 ex_env1 exo_codev (LAt 0 [] ex_st)) = true) by (vm_compute; reflexivity).
  exact (lstar_final_unique _ _ _ _ _ R2 F2 R eq_refl).
Qed.
