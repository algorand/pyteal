(* Proofs/EndToEndTyped.v — the side condition of the end-to-end theorem holds for every well-typed
   recipe (Src/WellTyped.v, the quantifier of C20: what PyTeal's constructors accept): a loop has type
   none, and no constructor accepts a none-typed expression where [head_loop] descends (first operand,
   condition, returned value), so a well-typed root is never headed by a loop. *)
From Coq Require Import List Arith NArith String Bool Lia.
From PV Require Import Base.Bytes AVM.Syntax AVM.Machine Src.Expr Src.Denote Src.WellTyped
  Comp.Blocks Comp.Lower Comp.Passes Comp.GraphSem Comp.LinearSem Comp.Compile
  Proofs.LowerFrame Proofs.LowerCorrect Proofs.LowerShape Proofs.NormalizeLowered Proofs.FlattenCorrect
  Proofs.EndToEndGlue Proofs.EndToEnd.
Import ListNotations.

Lemma tm_none_r t : types_match TNone t = true -> t = TNone.
Proof. destruct t; cbn; intros H; try discriminate H; reflexivity. Qed.

(* no operator of the signature table takes a none-typed operand *)
Lemma sig_rejects_none fty o imms t l :
  match op_sig fty o imms t with
  | Some (want, res) => ty_eqb t res && args_match (TNone :: l) want
  | None => false
  end = false.
Proof.
  destruct (op_sig fty o imms t) as [[want res]|] eqn:H; [|reflexivity].
  apply andb_false_intro2. unfold op_sig in H.
  destruct o; try discriminate H;
    repeat match type of H with
           | match ?x with _ => _ end = _ => destruct x; try discriminate H
           | option_map _ ?x = _ => destruct x; cbn [option_map] in H; try discriminate H
           | (if ?x then _ else _) = _ => destruct x; try discriminate H
           end;
    injection H as <- _; reflexivity.
Qed.

(* the shape of [well_typed]'s case distinction on the operator *)
Lemma opc_eq_setbit_other (P : bool -> Prop) (o : opc) (a b c : bool) :
  P a -> P b -> P c -> P match o with O_eq | O_neq => a | O_setbit => b | _ => c end.
Proof. intros A B C. destruct o; assumption. Qed.

Lemma wt_op_head fty il o imms t a rest :
  type_of a = TNone -> well_typed fty il (EOp o imms t (a :: rest)) = false.
Proof.
  intros Ta. cbn [well_typed map]. rewrite Ta. apply andb_false_intro2.
  apply (opc_eq_setbit_other (fun x => x = false)).
  - destruct rest as [|b [|c r]]; apply andb_false_r.
  - destruct rest as [|b [|c [|d r]]]; reflexivity.
  - apply sig_rejects_none.
Qed.

(* a well-typed expression headed by a loop has type none *)
Lemma wt_head_loop_none fty e : forall il,
  well_typed fty il e = true -> head_loop e = true -> type_of e = TNone.
Proof.
  induction e using expr_ind'; intros il W HL; cbn [head_loop] in HL; try discriminate HL; try reflexivity.
  - (* EOp *)
    destruct args as [|a rest]; [discriminate HL|]. inversion H as [|? ? Ha _]; subst.
    assert (Wa : well_typed fty il a = true).
    { cbn [well_typed forallb] in W. apply andb_true_iff in W. destruct W as [W _].
      apply andb_true_iff in W. exact (proj1 W). }
    rewrite (wt_op_head fty il o imms t a rest (Ha il Wa HL)) in W. discriminate W.
  - (* ENary *)
    destruct args as [|a rest]; [discriminate HL|]. inversion H as [|? ? Ha _]; subst.
    cbn [well_typed forallb type_of] in *.
    repeat (apply andb_true_iff in W; destruct W as [W ?]).
    match goal with Hm : types_match (type_of a) t && _ = true |- _ =>
      apply andb_true_iff in Hm; destruct Hm as [Hm _]; rewrite (Ha il W HL) in Hm; exact (tm_none_r _ Hm) end.
  - (* EIf *)
    cbn [well_typed] in W. repeat (apply andb_true_iff in W; destruct W as [W ?]).
    match goal with Hm : types_match (type_of e1) TUint = true |- _ =>
      rewrite (IHe1 il W HL) in Hm; discriminate Hm end.
  - (* ECond *)
    destruct arms as [|[c v] rest]; [discriminate HL|]. inversion H as [|? ? [Hc _] _]; subst. cbn [fst] in Hc.
    cbn [well_typed forallb fst snd] in W. repeat (apply andb_true_iff in W; destruct W as [W ?]).
    match goal with Hm : types_match (type_of c) TUint = true |- _ =>
      rewrite (Hc il W HL) in Hm; discriminate Hm end.
  - (* ECall *) cbn [well_typed] in W. discriminate W.
Qed.

(* the root compile_one hands to the lowering, for a well-typed main routine *)
Theorem wt_root_head_loop fty ast0 :
  well_typed fty false ast0 = true -> head_loop (root_ast ast0) = false.
Proof.
  intros W. unfold root_ast.
  assert (K : forall e, well_typed fty false e = true -> types_match (type_of e) TUint = true -> head_loop e = false).
  { intros e We Te. destruct (head_loop e) eqn:HL; [|reflexivity].
    rewrite (wt_head_loop_none fty e false We HL) in Te. discriminate Te. }
  destruct (has_return ast0) eqn:HR.
  - destruct ast0; cbn [has_return] in HR; try discriminate HR; cbn [head_loop]; try reflexivity.
    + (* EIf *) cbn [well_typed] in W. repeat (apply andb_true_iff in W; destruct W as [W ?]). apply K; assumption.
    + (* ECond *) destruct arms as [|[c v] rest]; [reflexivity|].
      cbn [well_typed forallb fst snd] in W. repeat (apply andb_true_iff in W; destruct W as [W ?]). apply K; assumption.
    + (* EReturn *) destruct v as [x|]; [|reflexivity].
      cbn [well_typed] in W. apply andb_true_iff in W. destruct W as [W1 W2]. apply K; assumption.
    + (* EExit *) cbn [well_typed] in W. apply andb_true_iff in W. destruct W as [W1 W2]. apply K; assumption.
  - destruct (type_of ast0) eqn:T; try reflexivity; cbn [head_loop];
      (destruct (head_loop ast0) eqn:HL; [|reflexivity]);
      rewrite (wt_head_loop_none fty ast0 false W HL) in T; discriminate T.
Qed.

(* the end-to-end theorem for a well-typed main routine: no side condition left *)
Theorem main_end_to_end_well_typed fty o ast0 cr order code :
  well_typed fty false ast0 = true ->
  compile_one o None ast0 = COk cr ->
  sort_blocks (cr_graph cr) (cr_start cr) (cr_end cr) = Some order ->
  flatten_blocks (cr_graph cr) order = Some code ->
  pos_of (cr_graph cr) order (cr_start cr) = 0 /\
  forall env, consistent env (routine_ctx o None) ->
  forall fuel stk st h, halt_of (denote env fuel (root_ast ast0) stk st) = Some h ->
    lstar env code (LAt 0 stk st) h /\
    forall c2, lstar env code (LAt 0 stk st) c2 -> lfinal c2 = true -> c2 = h.
Proof.
  intros W E HS HF.
  exact (routine_end_to_end o None ast0 cr order code eq_refl E (wt_root_head_loop fty ast0 W) HS HF).
Qed.
