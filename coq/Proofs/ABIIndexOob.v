(* Proofs/ABIIndexOob.v — array[idx] with idx outside the array: when the extraction fails, and the three
   classes in which it returns data instead (refutations of "out of bounds fails"). *)
From Coq Require Import List NArith Arith Ascii String Bool Lia.
From PV Require Import Base.Bytes Base.U64 AVM.Syntax AVM.Ops ABI.Types ABI.Spec ABI.Index
  Proofs.ABISpecProof Proofs.ABIIndexBits Proofs.ABIIndexAsm Proofs.ABIIndexElems Proofs.ABIIndexSel
  Proofs.ABIIndexDecode Proofs.ABIIndexTuple Proofs.ABIIndexArray.
Import ListNotations.
Local Open Scope N_scope.

(* evaluation of the byte index, whatever the index *)
Lemma byte_index_value : forall enc idx st (lendyn : bool) s,
    eval_iexpr enc idx (byte_index st lendyn) = Some s -> s = st * idx + (if lendyn then 2 else 0).
Proof.
  intros enc idx st lendyn s H. unfold byte_index, add2 in H. destruct lendyn; cbn [eval_iexpr] in H.
  - destruct (push_int st) as [a|] eqn:Ea; cbn [obind] in H; [|discriminate].
    apply push_int_some in Ea as [-> _].
    destruct (op2 O_mul st idx) as [m|] eqn:Em; cbn [obind] in H; [|discriminate].
    apply op2_mul_some in Em. subst m.
    destruct (push_int 2) as [b|] eqn:Eb; cbn [obind] in H; [|discriminate].
    apply push_int_some in Eb as [-> _]. apply op2_add_some in H. exact H.
  - destruct (push_int st) as [a|] eqn:Ea; cbn [obind] in H; [|discriminate].
    apply push_int_some in Ea as [-> _]. apply op2_mul_some in H. lia.
Qed.

Lemma static_body_len : forall e es body, assemble es = Some body -> Forall (elem_rel e) es ->
    is_bool e = false -> is_dynamic e = false -> blen body = nlen es * static_len e.
Proof.
  intros e es body Ha F Hb Hd.
  assert (F' : Forall (ekind false false (static_len e)) es).
  { eapply Forall_impl; [|exact F]. intros x Hx. unfold elem_rel in Hx. rewrite Hb, Hd in Hx. exact Hx. }
  rewrite (assemble_static_len _ _ Ha) by (eapply no_dyn_kind; exact F').
  rewrite (head_len_statics _ _ _ F'). rewrite bool_seq_len_0. lia.
Qed.

Lemma getbyte_fail : forall enc s, blen enc <= s -> run1 (exec_pure O_getbyte [] [VI s; VB enc]) = None.
Proof.
  intros enc s H. cbn. rewrite nth_N_spec.
  assert (E : nth_error enc (N.to_nat s) = None) by (apply nth_error_None; unfold blen in H; lia).
  rewrite E. reflexivity.
Qed.

Lemma extract_uint_fail : forall enc s k, blen enc < s + k ->
    bextract enc s k = None.
Proof. intros. unfold bextract. apply bsub_fail. assumption. Qed.

(* arrays whose elements are static, not bool and at least one byte long: every out-of-range index fails,
   for static arrays (idx >= N) as well as for dynamic ones, constant or computed index *)
Theorem array_oob_fails_static_elems : forall ver arr e slen v enc vs idx p,
    array_info arr = Some (e, slen) -> arc4_encode arr v = Some enc -> elems_of v = Some vs ->
    is_bool e = false -> is_dynamic e = false -> 0 < static_len e -> pyteal_elem e = true ->
    nlen vs <= idx ->
    array_elem_plan arr = Some p -> exec_plan ver p enc idx = None.
Proof.
  intros ver arr e slen v enc vs idx p Hi He Hv Hb Hd Hpos Hpy Hidx Hp.
  destruct (array_body _ _ _ _ _ Hi He) as (vs' & es & body & Hv' & Hes & Hasm & F & L & Eenc & Hs).
  rewrite Hv in Hv'. injection Hv' as <-.
  pose proof (static_body_len _ _ _ Hasm F Hb Hd) as Hbl.
  assert (Hn : nlen es = nlen vs) by (unfold nlen; rewrite L; reflexivity). rewrite Hn in Hbl.
  assert (Hel : blen enc = (match slen with Some _ => 0 | None => 2 end) + nlen vs * static_len e)
    by (rewrite Eenc, blen_app, arr_prefix_len, Hbl; reflexivity).
  rewrite (array_elem_plan_eq _ _ _ Hi), Hb, Hd in Hp. unfold stride in Hp. rewrite Hd in Hp.
  set (lendyn := match slen with None => true | Some _ => false end) in *.
  assert (Hbeyond : forall s, eval_iexpr enc idx (byte_index (static_len e) lendyn) = Some s ->
                              blen enc < s + static_len e).
  { intros s Hse. apply byte_index_value in Hse. subst s. rewrite Hel. unfold lendyn. destruct slen; nia. }
  assert (Hbytes : exec_plan ver (PExtract (byte_index (static_len e) lendyn) (IInt (static_len e))) enc idx = None).
  { assert (G : obind (eval_iexpr enc idx (byte_index (static_len e) lendyn))
                  (fun a => obind (eval_iexpr enc idx (IInt (static_len e))) (fun b => do_extract3 enc a b)) = None).
    { destruct (eval_iexpr enc idx (byte_index (static_len e) lendyn)) as [s|] eqn:Es; cbn [obind]; [|reflexivity].
      cbn [eval_iexpr]. destruct (push_int (static_len e)) as [l|] eqn:El; cbn [obind]; [|reflexivity].
      apply push_int_some in El as [-> _]. rewrite do_extract3_eq, bsub_fail; [reflexivity|]. apply Hbeyond. reflexivity. }
    unfold byte_index, add2 in *. destruct lendyn; exact G. }
  assert (Huint : forall bits, (bits = 8 \/ bits = 16 \/ bits = 32 \/ bits = 64) -> static_len e = bits / 8 ->
            exec_plan ver (PUintAt bits (byte_index (static_len e) lendyn)) enc idx = None).
  { intros bits Hbits Hsl. cbn [exec_plan].
    destruct (eval_iexpr enc idx (byte_index (static_len e) lendyn)) as [s|] eqn:Es; cbn [obind]; [|reflexivity].
    pose proof (Hbeyond s eq_refl) as Hby. rewrite Hsl in Hby.
    destruct Hbits as [-> | [-> | [-> | ->]]]; cbn [N.eqb Pos.eqb].
    1: { apply getbyte_fail. change (8 / 8) with 1 in Hby. lia. }
    all: cbn; rewrite extract_uint_fail by exact Hby; reflexivity. }
  destruct e; cbn [is_bool is_dynamic pyteal_elem] in Hb, Hd, Hpy; try discriminate;
    cbn [decode_plan substring_for_decoding] in Hp; try (injection Hp as <-; exact Hbytes).
  - (* byte *) cbn in Hp. injection Hp as <-. apply Huint; auto.
  - (* uintN *)
    destruct (pyteal_bits_cases _ Hpy) as [-> | [-> | [-> | ->]]]; cbn in Hp; injection Hp as <-; apply Huint; auto.
Qed.

(* bool arrays: the bits of the last byte beyond the array are readable *)
Lemma bool_body : forall es body, assemble es = Some body -> Forall (elem_rel TBool) es ->
    exists bs, body = pack_bools bs /\ List.length bs = List.length es.
Proof.
  intros es body Ha F.
  assert (G : forall l pend off h t, Forall (elem_rel TBool) l -> asm l pend off = Some (h, t) ->
              exists bs, h = pack_bools (rev pend ++ bs) /\ t = [] /\ List.length bs = List.length l).
  { induction l as [|e r IH]; intros pend off h t Fl H.
    - cbn in H. injection H as <- <-. exists []. rewrite rev'_rev, app_nil_r. auto.
    - apply Forall_cons_iff in Fl as [He Fr]. destruct (elem_rel_bool _ _ He eq_refl) as [b ->].
      cbn [asm] in H. destruct (IH _ _ _ _ Fr H) as (bs & -> & -> & Lb).
      exists (b :: bs). cbn [rev List.length]. rewrite <- app_assoc. auto. }
  unfold assemble in Ha. apply obind_some in Ha as [[h t] [H1 H2]]. injection H2 as <-.
  destruct (G _ _ _ _ _ F H1) as (bs & -> & -> & Lb). exists bs. cbn [rev app fst snd]. rewrite app_nil_r. auto.
Qed.

Lemma bool_bit_index : forall enc idx (lendyn : bool) j,
    eval_iexpr enc idx (if lendyn then IAdd IIdx (IInt 16) else IIdx) = Some j ->
    j = idx + (if lendyn then 16 else 0).
Proof.
  intros enc idx lendyn j H. destruct lendyn; cbn [eval_iexpr obind] in H.
  - destruct (push_int 16) as [b|] eqn:Eb; cbn [obind] in H; [|discriminate].
    apply push_int_some in Eb as [-> _]. apply op2_add_some in H. exact H.
  - injection H as <-. lia.
Qed.

Section BoolArrays.
  Variables (ver : N) (arr : ty) (slen : option N) (v : val) (enc : bytes) (vs : list val).
  Hypothesis Hi : array_info arr = Some (TBool, slen).
  Hypothesis He : arc4_encode arr v = Some enc.
  Hypothesis Hv : elems_of v = Some vs.

  Let lendyn := match slen with None => true | Some _ => false end.

  Lemma bool_plan : array_elem_plan arr = Some (PGetbit (if lendyn then IAdd IIdx (IInt 16) else IIdx)).
  Proof.
    unfold array_elem_plan. rewrite Hi. cbn [is_bool]. rewrite (is_dynamic_arr _ _ _ Hi).
    unfold lendyn. destruct slen; reflexivity.
  Qed.

  Lemma bool_enc_shape : exists bs, enc = arr_prefix slen (nlen vs) ++ pack_bools bs /\ List.length bs = List.length vs.
  Proof.
    destruct (array_body _ _ _ _ _ Hi He) as (vs' & es & body & Hv' & Hes & Hasm & F & L & Eenc & Hs).
    rewrite Hv in Hv'. injection Hv' as <-.
    destruct (bool_body _ _ Hasm F) as (bs & -> & Lb). exists bs. split; [exact Eenc | lia].
  Qed.

  (* beyond the last byte: fails *)
  Theorem array_oob_bool_fails_beyond_padding : forall idx,
      8 * bool_seq_len (nlen vs) <= idx ->
      exec_plan ver (PGetbit (if lendyn then IAdd IIdx (IInt 16) else IIdx)) enc idx = None.
  Proof.
    intros idx Hidx. destruct bool_enc_shape as (bs & Eenc & Lb).
    cbn [exec_plan].
    destruct (eval_iexpr enc idx (if lendyn then IAdd IIdx (IInt 16) else IIdx)) as [j|] eqn:Ej; cbn [obind]; [|reflexivity].
    apply bool_bit_index in Ej. rewrite getbit_bytes_eq, get_bit_bytes_beyond; [reflexivity|].
    rewrite Eenc, blen_app, arr_prefix_len, pack_bools_len, Lb. fold (nlen vs).
    subst j. unfold lendyn. destruct slen; lia.
  Qed.

  (* inside the last byte but beyond the array: a padding bit is returned (REFUTES "out of bounds fails") *)
  Theorem array_oob_bool_padding_returns_zero : forall idx,
      nlen vs <= idx -> idx < 8 * bool_seq_len (nlen vs) ->
      exec_plan ver (PGetbit (if lendyn then IAdd IIdx (IInt 16) else IIdx)) enc idx = Some (VI 0).
  Proof.
    intros idx Hlo Hhi. destruct bool_enc_shape as (bs & Eenc & Lb).
    pose proof (bool_seq_len_bounds (nlen vs)) as Hbsl.
    assert (Hpk : N.of_nat (List.length (pack_bools bs)) = bool_seq_len (nlen vs)).
    { pose proof (pack_bools_len bs) as P. unfold blen in P. rewrite P, Lb. reflexivity. }
    assert (Hbig : nlen vs < 65536 \/ lendyn = false).
    { destruct (array_body _ _ _ _ _ Hi He) as (vs' & es & body & Hv' & _ & _ & _ & _ & _ & Hs).
      rewrite Hv in Hv'. injection Hv' as <-. unfold lendyn. destruct slen; auto. }
    assert (G : get_bit_bytes (pack_bools bs) idx = Some 0).
    { rewrite <- (N2Nat.id idx), get_bit_bytes_bit_at, pack_bools_bit by lia.
      rewrite nth_overflow by (unfold nlen in Hlo; lia). reflexivity. }
    cbn [exec_plan]. unfold lendyn in *. destruct slen as [n|]; cbn [eval_iexpr obind arr_prefix app] in *.
    - rewrite getbit_bytes_eq, Eenc, G. reflexivity.
    - destruct Hbig as [Hbig|]; [|discriminate].
      rewrite push_int_ok by (unfold U64; lia). cbn [obind].
      rewrite op2_add by (unfold U64; lia). cbn [obind].
      rewrite getbit_bytes_eq, Eenc.
      replace (idx + 16) with (8 * blen (be_encode 2 (nlen vs)) + idx) by (rewrite be_encode_len; lia).
      rewrite get_bit_bytes_shift, G. reflexivity.
  Qed.
End BoolArrays.

(* elements of byte length 0 (the empty tuple, T[0], byte[0]): no index ever fails *)
Theorem array_oob_zero_length_elems_never_fail : forall ver arr e slen v enc vs idx,
    array_info arr = Some (e, slen) -> arc4_encode arr v = Some enc -> elems_of v = Some vs ->
    is_bool e = false -> is_dynamic e = false -> static_len e = 0 -> pyteal_elem e = true ->
    idx < U64 ->
    exists p, array_elem_plan arr = Some p /\ exec_plan ver p enc idx = Some (VB []).
Proof.
  intros ver arr e slen v enc vs idx Hi He Hv Hb Hd Hz Hpy Hidx.
  destruct (array_body _ _ _ _ _ Hi He) as (vs' & es & body & _ & _ & _ & _ & _ & Eenc & _).
  rewrite (array_elem_plan_eq _ _ _ Hi), Hb, Hd. unfold stride. rewrite Hd, Hz.
  set (lendyn := match slen with None => true | Some _ => false end).
  exists (PExtract (byte_index 0 lendyn) (IInt 0)). split.
  { destruct e; cbn [is_bool is_dynamic pyteal_elem static_len] in *; try discriminate; try reflexivity.
    destruct (pyteal_bits_cases _ Hpy) as [-> | [-> | [-> | ->]]]; discriminate. }
  (* the start is 0 or 2, inside the encoding, and nothing is extracted *)
  assert (G : obind (eval_iexpr enc idx (byte_index 0 lendyn))
                (fun a => obind (eval_iexpr enc idx (IInt 0)) (fun b => do_extract3 enc a b)) = Some (VB [])).
  { rewrite eval_byte_index by (unfold U64; lia). cbn [eval_iexpr obind].
    rewrite push_int_ok by (unfold U64; lia). cbn [obind]. rewrite do_extract3_eq, N.add_0_r.
    assert (Hpre : (if lendyn then 2 else 0) <= blen enc)
      by (rewrite Eenc, blen_app, arr_prefix_len; unfold lendyn; destruct slen; lia).
    unfold bsub. rewrite N.leb_refl, N.sub_diag. apply N.leb_le in Hpre. cbn [N.mul N.add]. rewrite Hpre. reflexivity. }
  unfold byte_index, add2 in *. destruct lendyn; exact G.
Qed.

(* string[]  = ["\x00\x03"], index 1 (one past the end): the length prefix of element 0 is read as an offset
   and one byte of the encoding is returned *)
Definition wit_dyn_ty : ty := TDynArray TString.
Definition wit_dyn_val : val := VList [VBytes ["000"%char; "003"%char]].

Example array_oob_dynamic_elem_witness :
  exists enc p out, arc4_encode wit_dyn_ty wit_dyn_val = Some enc /\ array_elem_plan wit_dyn_ty = Some p /\
                    exec_plan 8 p enc 1 = Some (VB out).
Proof. do 3 eexists. split; [vm_compute; reflexivity|]. split; [vm_compute; reflexivity|]. vm_compute. reflexivity. Qed.

(* bool[3] = [true, true, true], index 5: padding bit *)
Example array_oob_bool_witness :
  exists enc p, arc4_encode (TStaticArray TBool 3) (VList [VBool true; VBool true; VBool true]) = Some enc /\
                array_elem_plan (TStaticArray TBool 3) = Some p /\ exec_plan 8 p enc 5 = Some (VI 0).
Proof. do 2 eexists. split; [vm_compute; reflexivity|]. split; [vm_compute; reflexivity|]. vm_compute. reflexivity. Qed.

(* ()[] = [()], index 1000 *)
Example array_oob_zero_length_witness :
  exists enc p, arc4_encode (TDynArray (TTuple None [])) (VList [VList []]) = Some enc /\
                array_elem_plan (TDynArray (TTuple None [])) = Some p /\ exec_plan 8 p enc 1000 = Some (VB []).
Proof. do 2 eexists. split; [vm_compute; reflexivity|]. split; [vm_compute; reflexivity|]. vm_compute. reflexivity. Qed.

(* the statement "every out-of-range index makes the extraction fail" is false of the model *)
Theorem array_oob_refuted :
  ~ (forall ver arr e slen v enc vs idx p,
        array_info arr = Some (e, slen) -> arc4_encode arr v = Some enc -> elems_of v = Some vs ->
        nlen vs <= idx -> array_elem_plan arr = Some p -> exec_plan ver p enc idx = None).
Proof.
  intro H.
  specialize (H 8 (TStaticArray TBool 3) TBool (Some 3) (VList [VBool true; VBool true; VBool true])).
  destruct array_oob_bool_witness as (enc & p & He & Hp & Hx).
  specialize (H enc [VBool true; VBool true; VBool true] 5 p eq_refl He eq_refl).
  assert (Hle : nlen [VBool true; VBool true; VBool true] <= 5) by (vm_compute; discriminate).
  rewrite (H Hle Hp) in Hx. discriminate.
Qed.

(* non-vacuity of the main theorems *)
Example index_tuple_example :
  let ts := [TBool; TString; TBool; TBool; TDynArray (TUint 16); TUint 8] in
  let v := VList [VBool true; VBytes ["h"%char; "i"%char]; VBool false; VBool true;
                  VList [VUint 1; VUint 2]; VUint 9] in
  exists enc, arc4_encode (TTuple None ts) v = Some enc /\ blen enc <= MAX_BYTES /\
    option_map (fun p => exec_plan 8 p enc 0) (index_tuple ts 1) = Some (stored TString (VBytes ["h"%char; "i"%char])) /\
    option_map (fun p => exec_plan 8 p enc 0) (index_tuple ts 3) = Some (Some (VI 1)) /\
    option_map (fun p => exec_plan 8 p enc 0) (index_tuple ts 4) = Some (stored (TDynArray (TUint 16)) (VList [VUint 1; VUint 2])).
Proof. cbv zeta. eexists. split; [vm_compute; reflexivity|]. split; [vm_compute; discriminate|]. split; [vm_compute; reflexivity|]. split; vm_compute; reflexivity. Qed.

Example array_elem_example :
  let arr := TDynArray (TTuple None [TBool; TString]) in
  let v := VList [VList [VBool true; VBytes ["a"%char]]; VList [VBool false; VBytes []]] in
  exists enc, arc4_encode arr v = Some enc /\
    option_map (fun p => exec_plan 8 p enc 1) (array_elem_plan arr) =
    Some (stored (TTuple None [TBool; TString]) (VList [VBool false; VBytes []])).
Proof. cbv zeta. eexists. split; [vm_compute; reflexivity|]. vm_compute. reflexivity. Qed.
