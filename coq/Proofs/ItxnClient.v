(* Proofs/ItxnClient.v — C14: the two readings of the ARC-4 client convention agree.
   [client_encode] (Router/Args.v) is the C09 specification: one particular client (it reuses foreign-array
   entries and passes the sender / the called application as index 0), validated on every C09 run against
   algosdk's AtomicTransactionComposer.  [valid_call] (Router/Itxn.v) is the relation C14 is stated with.
   Whatever [client_encode] produces is a [valid_call]: the relation admits the reference client. *)
From Coq Require Import List Arith NArith Ascii String Bool Lia.
From PV Require Import Base.Bytes Base.Sexp AVM.Syntax ABI.Types ABI.Spec ABI.Descr
  Router.Args Proofs.RouterArgsProof Router.Itxn Proofs.ItxnWalk.
Import ListNotations.
Local Open Scope string_scope.
Local Open Scope list_scope.

(* a group transaction of the C09 specification (TypeEnum + opaque body) as a field list *)
Definition itx_of_gtx (x : gtx) : itx := [("TypeEnum", VI (g_type x)); ("Body", VB (g_body x))].

Definition karg_of (a : carg) : karg :=
  match a with
  | CVal v => KVal v
  | CTxn x => KTxn (itx_of_gtx x)
  | CAccount a => KAccount a
  | CAsset n => KAsset n
  | CApp n => KApp n
  end.

Definition icall_of (c : call) : icall :=
  mkICall (c_args c) (c_accounts c) (c_assets c) (c_apps c) (map itx_of_gtx (c_txns c)).

Definition tr (pa : ty * carg) : ty * karg := (fst pa, karg_of (snd pa)).

Lemma ktxn_type_ok_gtx : forall k x, ktxn_type_ok k (itx_of_gtx x) = txn_type_ok k x.
Proof. intros k x. unfold ktxn_type_ok, txn_type_ok. destruct (kind_enum k); reflexivity. Qed.

Lemma plain_not_ref : forall t, is_plain_ty t = true -> is_ref_ty t = false.
Proof. intros t H. destruct t; cbn in *; try reflexivity; discriminate. Qed.

Lemma rels_valid : forall sender app fs' (c : icall) ps w xs,
  ic_accounts c = f_accounts fs' -> ic_assets c = f_assets fs' -> ic_apps c = f_apps fs' ->
  Forall2 (wire_rel sender app fs') (filter (fun pa => not_txn_ty (fst pa)) ps) w ->
  Forall2 txn_rel (filter (fun pa => is_txn_ty (fst pa)) ps) xs ->
  exists idxs, wire (map tr ps) idxs = Some w /\
               refs_resolve sender app c (map tr ps) idxs /\
               ktxns (map tr ps) = map itx_of_gtx xs.
Proof.
  intros sender app fs' c ps. induction ps as [|[t a] r IH]; intros w xs Ea Es Ep Hw Hx.
  - cbn in Hw, Hx. inversion Hw. inversion Hx. exists []. cbn. auto.
  - cbn [filter fst] in Hw, Hx. unfold not_txn_ty in Hw at 1.
    destruct (is_txn_ty t) eqn:Et; cbn [negb] in Hw.
    + (* a transaction argument *)
      inversion Hx as [|pa x r' xs' Hrel Hx' E1 E2]. subst.
      destruct Hrel as [k [Heq Hok]]. inversion Heq. subst t a.
      destruct (IH w xs' Ea Es Ep Hw Hx') as [idxs [I1 [I2 I3]]].
      exists idxs. cbn [map]. change (tr (TTxn k, CTxn x)) with (TTxn k, KTxn (itx_of_gtx x)).
      cbn [wire kind_fits refs_resolve ktxns].
      rewrite ktxn_type_ok_gtx, Hok. cbn [negb]. rewrite I3. auto.
    + inversion Hw as [|pa tv r' w' Hrel Hw' E1 E2]. subst.
      destruct (IH w' xs Ea Es Ep Hw' Hx) as [idxs [I1 [I2 I3]]].
      inversion Hrel as [t0 v Hp E1 E2 | addr i Hr E1 E2 | id i Hr E1 E2 | id i Hr E1 E2]; subst.
      1: { exists idxs. cbn [map]. change (tr (t, CVal v)) with (t, KVal v).
           rewrite wire_plain by (auto using plain_not_ref). rewrite I1. cbn [option_map].
           split; [reflexivity|]. split; [|exact I3].
           destruct t; try exact I2; cbn in Hp; discriminate. }
      (* a reference: the client's index is the one chosen for it *)
      all: exists (i :: idxs); cbn [map tr fst snd karg_of wire kind_fits negb refs_resolve ktxns];
        rewrite I1; cbn [option_map]; rewrite ?Ea, ?Es, ?Ep; auto.
Qed.

Lemma map_tr_combine : forall ps (args : list carg),
  map tr (combine ps args) = combine ps (map karg_of args).
Proof.
  induction ps as [|p r IH]; intros [|a ar]; cbn; try reflexivity. f_equal. apply IH.
Qed.

Theorem client_encode_is_valid_call :
  forall sel sender app s args c,
    client_encode sel sender app s args = Some c ->
    valid_call sel sender app s (map karg_of args) (icall_of c).
Proof.
  intros sel sender app s args c H. unfold client_encode in H.
  destruct (Nat.eqb_spec (List.length (s_params s)) (List.length args)) as [Hl|]; [|discriminate].
  destruct (place sender app (combine (s_params s) args) (mkForeign [] [] [])) as [[[w xs] fs']|] eqn:P; [|discriminate].
  destruct (pack w) as [bs|] eqn:Pk; [|discriminate]. inversion H. subst c. clear H.
  apply place_spec in P. destruct P as [_ [Hw Hx]].
  split; [rewrite map_length; exact Hl|].
  destruct (rels_valid sender app fs'
              (icall_of (mkCall (sel :: bs) (f_accounts fs') (f_assets fs') (f_apps fs') xs))
              _ _ _ eq_refl eq_refl eq_refl Hw Hx) as [idxs [I1 [I2 I3]]].
  rewrite map_tr_combine in I1, I2, I3.
  exists idxs, w, bs. repeat split; try assumption.
  cbn. symmetry. exact I3.
Qed.
