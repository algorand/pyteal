(* Proofs/HistoryAssign.v — only the relative order of ids is used (property C11). *)
From Coq Require Import NArith List Bool Lia Permutation Sorted.
(* [sort_by] is also the sort of the C10 model, and [memN], [next_free_fuel] are convertible to Comp/Slots.v's [memN],
   [next_free]: what SlotsProof proves of them is used here as it stands *)
From PV Require Import Proofs.SlotsProof Hist.Assign.
Import ListNotations.
Local Open Scope N_scope.

Lemma filter_map_comm {A B} (g : A -> B) (p : B -> bool) (q : A -> bool) l :
  (forall x, p (g x) = q x) -> filter p (map g l) = map g (filter q l).
Proof.
  intros H. induction l as [|x t IH]; cbn; [reflexivity|]. rewrite H, IH. destruct (q x); reflexivity.
Qed.

Section SortLemmas.
  Context {A : Type}.

  Lemma sort_by_length (key : A -> N) l : length (sort_by key l) = length l.
  Proof. apply Permutation_length, sort_by_perm. Qed.

  Lemma insert_by_head (key : A -> N) x l : Forall (key_le key x) l -> insert_by key x l = x :: l.
  Proof. intros [|z t E _]; cbn; [reflexivity|]. apply N.leb_le in E. rewrite E. reflexivity. Qed.

  (* filtering commutes with inserting into a sorted list *)
  Lemma insert_by_filter (key : A -> N) (p : A -> bool) x l :
    StronglySorted (key_le key) l ->
    filter p (insert_by key x l) = if p x then insert_by key x (filter p l) else filter p l.
  Proof.
    induction 1 as [|z t Hst IH Hall]; cbn [insert_by]; [cbn; destruct (p x); reflexivity|].
    destruct (key x <=? key z) eqn:E.
    - cbn [filter]. destruct (p x); [|reflexivity]. symmetry. apply insert_by_head.
      apply (incl_Forall (incl_filter p (z :: t))), key_le_head; [apply N.leb_le, E | exact Hall].
    - cbn [filter]. rewrite IH. destruct (p x), (p z); cbn [insert_by]; rewrite ?E; reflexivity.
  Qed.

  Lemma sort_by_filter (key : A -> N) (p : A -> bool) l :
    filter p (sort_by key l) = sort_by key (filter p l).
  Proof.
    induction l as [|x t IH]; [reflexivity|]. rewrite sort_by_cons.
    rewrite insert_by_filter by apply sort_by_sorted. rewrite IH. cbn [filter].
    destruct (p x); reflexivity.
  Qed.
End SortLemmas.

Lemma insert_by_map {A B} (kA : A -> N) (kB : B -> N) (g : A -> B) x l :
  (forall y, In y l -> (kB (g x) <=? kB (g y)) = (kA x <=? kA y)) ->
  insert_by kB (g x) (map g l) = map g (insert_by kA x l).
Proof.
  induction l as [|z t IH]; intros H; cbn; [reflexivity|].
  rewrite (H z) by (left; reflexivity). destruct (kA x <=? kA z); cbn; [reflexivity|].
  f_equal. apply IH. intros y Hy; apply H; right; exact Hy.
Qed.

Lemma sort_by_map {A B} (kA : A -> N) (kB : B -> N) (g : A -> B) l :
  (forall x y, In x l -> In y l -> (kB (g x) <=? kB (g y)) = (kA x <=? kA y)) ->
  sort_by kB (map g l) = map g (sort_by kA l).
Proof.
  induction l as [|x t IH]; intros H; [reflexivity|]. cbn [map]. rewrite !sort_by_cons.
  rewrite IH by (intros a b Ha Hb; apply H; right; assumption).
  apply insert_by_map. intros y Hy. apply sort_by_in in Hy. apply H; [left; reflexivity | right; exact Hy].
Qed.

(* two keys that compare alike on the elements of the list sort alike *)
Lemma sort_by_ext {A} (k1 k2 : A -> N) l :
  (forall x y, In x l -> In y l -> (k1 x <=? k1 y) = (k2 x <=? k2 y)) ->
  sort_by k1 l = sort_by k2 l.
Proof.
  intros H. pose proof (sort_by_map k2 k1 (fun x => x) l H) as E. rewrite !map_id in E. exact E.
Qed.

Lemma mono_leb f : strictly_monotone f -> forall a b, (f a <=? f b) = (a <=? b).
Proof.
  intros Hf a b. destruct (N.leb_spec a b) as [H|H].
  - apply N.leb_le. apply N.lt_eq_cases in H as [H| ->]; [apply N.lt_le_incl, Hf, H | apply N.le_refl].
  - apply N.leb_gt, Hf, H.
Qed.

Lemma mono_inj f : strictly_monotone f -> forall a b, f a = f b -> a = b.
Proof.
  intros Hf a b E. apply N.le_antisymm; apply N.leb_le; rewrite <- (mono_leb f Hf), E; apply N.leb_refl.
Qed.

Lemma next_free_spec used n : memN (next_free used n) used = false.
Proof. apply not_true_is_false. rewrite memN_In. exact (proj1 (SlotsProof.next_free_spec used n)). Qed.

Lemma next_free_fixed used n : memN n used = false -> next_free used n = n.
Proof. intros H. unfold next_free. cbn [next_free_fuel]. rewrite H. reflexivity. Qed.

Lemma next_free_perm [u1 u2] n : Permutation u1 u2 -> next_free u1 n = next_free u2 n.
Proof.
  intros Hp. apply next_free_ext. intros k. split; apply Permutation_in; [|symmetry]; exact Hp.
Qed.

Lemma assign_loop_absorb L used n : assign_loop L (next_free used n) used = assign_loop L n used.
Proof.
  destruct L as [|o L']; cbn [assign_loop]; [reflexivity|].
  rewrite (next_free_fixed used (next_free used n)) by apply next_free_spec. reflexivity.
Qed.

Lemma assign_loop_perm L : forall n u1 u2, Permutation u1 u2 -> assign_loop L n u1 = assign_loop L n u2.
Proof.
  induction L as [|o L' IH]; intros n u1 u2 Hp; cbn [assign_loop]; [reflexivity|].
  rewrite (next_free_perm n Hp). destruct (so_res o); f_equal; apply IH; [exact Hp | apply perm_skip, Hp].
Qed.

Lemma assign_loop_fst L : forall n used, map fst (assign_loop L n used) = L.
Proof.
  induction L as [|x L' IH]; intros n used; cbn [assign_loop]; [reflexivity|].
  destruct (so_res x); cbn; f_equal; apply IH.
Qed.

Definition p_res '((o, _) : slotobj * N) : bool := so_res o.
Definition p_auto '((o, _) : slotobj * N) : bool := negb (so_res o).

Lemma assign_loop_res L : forall n used,
  filter p_res (assign_loop L n used) = map (fun o => (o, so_id o)) (filter so_res L).
Proof.
  induction L as [|x L' IH]; intros n used; cbn [assign_loop filter]; [reflexivity|].
  destruct (so_res x) eqn:E; cbn [filter map p_res]; rewrite E, IH; reflexivity.
Qed.

Lemma assign_loop_auto L : forall n used,
  filter p_auto (assign_loop L n used) = assign_loop (filter so_auto L) n used.
Proof.
  induction L as [|x L' IH]; intros n used; cbn [assign_loop filter]; [reflexivity|].
  change (so_auto x) with (negb (so_res x)).
  destruct (so_res x) eqn:E; cbn [negb filter assign_loop p_auto]; rewrite E, IH; cbn [negb].
  - apply assign_loop_absorb.
  - reflexivity.
Qed.

Lemma in_filter_split (m : list (slotobj * N)) o k :
  In (o, k) m <-> In (o, k) (filter (if so_res o then p_res else p_auto) m).
Proof.
  rewrite filter_In. destruct (so_res o) eqn:E; cbn [p_res p_auto]; rewrite E; cbn [negb]; tauto.
Qed.

Lemma rename_slot_res f o : so_res (rename_slot f o) = so_res o.
Proof. unfold rename_slot. destruct (so_res o) eqn:E; [exact E | reflexivity]. Qed.

Lemma rename_slot_oid f o : so_oid (rename_slot f o) = so_oid o.
Proof. unfold rename_slot. destruct (so_res o); reflexivity. Qed.

Lemma rename_slot_reserved f o : so_res o = true -> rename_slot f o = o.
Proof. intros H. unfold rename_slot. rewrite H. reflexivity. Qed.

Lemma rename_slot_auto f o : so_res o = false -> rename_slot f o = mkSlot (so_oid o) (f (so_id o)) false.
Proof. intros H. unfold rename_slot. rewrite H. reflexivity. Qed.

Lemma rename_slot_inj f o1 o2 :
  strictly_monotone f -> rename_slot f o1 = rename_slot f o2 -> o1 = o2.
Proof.
  intros Hf H. destruct o1 as [a1 i1 [|]], o2 as [a2 i2 [|]]; cbn in H; try discriminate H; [exact H|].
  injection H as -> Hi. apply (mono_inj f Hf) in Hi as ->. reflexivity.
Qed.

Definition rn_pair (f : N -> N) '((o, k) : slotobj * N) : slotobj * N := (rename_slot f o, k).

Lemma assign_loop_rename f L : forall n used,
  assign_loop (map (rename_slot f) L) n used = map (rn_pair f) (assign_loop L n used).
Proof.
  induction L as [|x L' IH]; intros n used; cbn [assign_loop map]; [reflexivity|].
  rewrite rename_slot_res, !IH. destruct (so_res x) eqn:E; cbn [map rn_pair]; [|reflexivity].
  rewrite (rename_slot_reserved f x E). reflexivity.
Qed.

Lemma filter_map_rename_res f all :
  filter so_res (map (rename_slot f) all) = filter so_res all.
Proof.
  rewrite (filter_map_comm _ _ so_res) by apply rename_slot_res.
  rewrite <- (map_id (filter so_res all)) at 2. apply map_ext_in.
  intros o [_ Ho]%filter_In. apply rename_slot_reserved, Ho.
Qed.

Lemma filter_map_rename_auto f all :
  filter so_auto (map (rename_slot f) all) = map (rename_slot f) (filter so_auto all).
Proof. apply filter_map_comm. intros o. unfold so_auto. rewrite rename_slot_res. reflexivity. Qed.

(* sorting the automatic objects by renamed id = renaming the sorted automatic objects *)
Lemma sort_auto_rename f M :
  strictly_monotone f -> (forall o, In o M -> so_res o = false) ->
  sort_by so_id (map (rename_slot f) M) = map (rename_slot f) (sort_by so_id M).
Proof.
  intros Hf Hauto. apply sort_by_map. intros x y Hx Hy.
  rewrite !rename_slot_auto by (apply Hauto; assumption). apply mono_leb, Hf.
Qed.

Theorem assign_rename_invariant_proof (f : N -> N) (all : list slotobj) :
  strictly_monotone f ->
  same_failure (assign_slots (map (rename_slot f) all)) (assign_slots all) /\
  (forall o k, assigned (assign_slots all) o k <->
               assigned (assign_slots (map (rename_slot f) all)) (rename_slot f o) k) /\
  (forall o' k, assigned (assign_slots (map (rename_slot f) all)) o' k -> exists o, In o all /\ o' = rename_slot f o).
Proof.
  intros Hf. unfold assign_slots. rewrite filter_map_rename_res, map_length.
  destruct (first_dup (map so_id (filter so_res all)) []) as [d|]; [cbn; tauto|].
  destruct (Nat.ltb MAX_SLOTS (length all)); [cbn; tauto|].
  set (m := assign_loop (sort_by so_id all) 0 _).
  set (m' := assign_loop (sort_by so_id (map (rename_slot f) all)) 0 _).
  (* reserved part: unchanged *)
  assert (Hres : filter p_res m' = filter p_res m).
  { unfold m, m'. rewrite !assign_loop_res, !sort_by_filter, filter_map_rename_res. reflexivity. }
  (* automatic part: renamed pointwise *)
  assert (Hauto : filter p_auto m' = map (rn_pair f) (filter p_auto m)).
  { unfold m, m'. rewrite !assign_loop_auto, !sort_by_filter, filter_map_rename_auto.
    rewrite sort_auto_rename; [apply assign_loop_rename | exact Hf |].
    intros o [_ Ho]%filter_In. apply negb_true_iff, Ho. }
  cbn [same_failure assigned]. split; [exact I|]. split.
  - intros o k. rewrite (in_filter_split m), (in_filter_split m'), rename_slot_res.
    destruct (so_res o) eqn:E.
    + rewrite Hres, (rename_slot_reserved f o E). reflexivity.
    + rewrite Hauto. split; [apply (in_map (rn_pair f) _ (o, k))|].
      intros [[o0 k0] [E0 H]]%in_map_iff. injection E0 as E0 ->. apply (rename_slot_inj f _ _ Hf) in E0 as ->. exact H.
  - intros o' k H. apply (in_map fst) in H. unfold m' in H. rewrite assign_loop_fst in H.
    apply sort_by_in, in_map_iff in H as [o [E Ho]]. exists o. split; [exact Ho | symmetry; exact E].
Qed.

Lemma first_dup_filter {A} (f : A -> N) (p : A -> bool) l : forall seen,
  NoDup (map f l ++ seen) -> first_dup (map f (filter p l)) seen = None.
Proof.
  induction l as [|x t IH]; intros seen H; cbn [filter]; [reflexivity|].
  cbn in H. apply NoDup_cons_iff in H as [Hn H]. destruct (p x); [|exact (IH _ H)].
  cbn. destruct (memN (f x) seen) eqn:E.
  - apply memN_In in E. destruct Hn. apply in_or_app. right; exact E.
  - apply IH. exact (Permutation_NoDup (Permutation_middle _ seen (f x)) (NoDup_cons _ Hn H)).
Qed.

(* the iteration order of the set does not matter when ids are pairwise distinct *)
Theorem assign_perm_invariant_proof (all all' : list slotobj) :
  Permutation all all' -> NoDup (map so_id all) ->
  match assign_slots all, assign_slots all' with
  | AssignOk m, AssignOk m' => m = m'
  | AssignTooMany a, AssignTooMany b => a = b
  | _, _ => False
  end.
Proof.
  intros Hp Hnd. unfold assign_slots.
  rewrite (first_dup_filter so_id so_res all) by (rewrite app_nil_r; exact Hnd).
  rewrite (first_dup_filter so_id so_res all')
    by (rewrite app_nil_r; exact (Permutation_NoDup (Permutation_map so_id Hp) Hnd)).
  rewrite <- (Permutation_length Hp). destruct (Nat.ltb MAX_SLOTS (length all)); [reflexivity|].
  rewrite <- (sort_by_perm_eq so_id all all' Hp (NoDup_map_inj so_id all Hnd)).
  apply assign_loop_perm, Permutation_map, perm_filter, Hp.
Qed.

Lemma enumerate_from_map {A B} (g : A -> B) l : forall n,
  enumerate_from n (map g l) = map (fun p => (g (fst p), snd p)) (enumerate_from n l).
Proof. induction l as [|x t IH]; intros n; cbn; [reflexivity|]. f_equal. apply IH. Qed.

Theorem resolve_rename_invariant_proof (f : N -> N) (subs : list subobj) :
  strictly_monotone f ->
  resolve (map (rename_sub f) subs) = map (fun p => (rename_sub f (fst p), snd p)) (resolve subs).
Proof.
  intros Hf. unfold resolve. rewrite (sort_by_map su_id su_id (rename_sub f)).
  - apply enumerate_from_map.
  - intros x y _ _. cbn. apply mono_leb; exact Hf.
Qed.

Lemma dedup_in l : forall seen c, In c (dedup l seen) -> In c l.
Proof.
  induction l as [|x t IH]; intros seen c H; cbn in H; [exact H|].
  destruct (memN x seen); [right; exact (IH _ _ H)|].
  destruct H as [->|H]; [left; reflexivity | right; exact (IH _ _ H)].
Qed.

(* compile order with two keys that compare alike on the nodes that can be called *)
Lemma corder_ext (P : N -> Prop) (k1 k2 : N -> N) (calls : N -> list N) :
  (forall n c, In c (calls n) -> P c) ->
  (forall x y, P x -> P y -> (k1 x <=? k1 y) = (k2 x <=? k2 y)) ->
  forall fuel cur vis, corder fuel k1 calls cur vis = corder fuel k2 calls cur vis.
Proof.
  intros Hc Hk. induction fuel as [|fuel IH]; intros cur vis; cbn [corder]; [reflexivity|].
  set (vis1 := if memN cur vis then vis else vis ++ [cur]).
  set (new := filter (fun s => negb (memN s vis1)) (dedup (calls cur) [])).
  rewrite (sort_by_ext k1 k2 new).
  - generalize (sort_by k2 new) vis1. induction l as [|s t IHl]; intros v; cbn [fold_left]; [reflexivity|].
    rewrite IH. apply IHl.
  - intros x y Hx%incl_filter%dedup_in Hy%incl_filter%dedup_in. apply Hk; apply (Hc cur); assumption.
Qed.

Lemma corder_rename_proof (f : N -> N) (key : N -> N) (calls : N -> list N) :
  strictly_monotone f ->
  forall fuel cur vis, corder fuel (fun o => f (key o)) calls cur vis = corder fuel key calls cur vis.
Proof.
  intros Hf. apply (corder_ext (fun _ => True)); [trivial|]. intros x y _ _. apply mono_leb, Hf.
Qed.
