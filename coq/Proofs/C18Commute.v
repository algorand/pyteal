(* Proofs/C18Commute.v — C18, partial stream invariance: on a routine's block graph, comment ops are
   inert for NormalizeBlocks, sortBlocks and flattenBlocks — deleting every comment op BEFORE these passes
   gives exactly the comment-stripped output — provided that NormalizeBlocks' second (eliding) pass never
   visits a block that consists of comment ops only ([normalize_clean], an executable check).  That side
   condition is what witness (A) of Proofs/C18Stream.v violates.  Graphs are compared through a relation,
   not by equality: [srel g g'] says g' is g with the comment ops removed from every block. *)
From Coq Require Import List Arith NArith Ascii String Bool Lia.
From PV Require Import AVM.Syntax Comp.Blocks Comp.Passes Comp.Annotate Proofs.ExecOpFacts.
Import ListNotations.

Definition keep_op (i : instr) : bool := negb (is_comment_op i).
Definition strip_ops (l : list instr) : list instr := filter keep_op l.
Definition strip_block (b : block) : block := set_ops b (strip_ops (b_ops b)).

Definition strip_graph (g : graph) : graph :=
  mkG (fun i => option_map strip_block (g_blk g i)) (g_inc g) (g_next g).

Record srel (g g' : graph) : Prop := mkSrel {
  sr_next : g_next g' = g_next g;
  sr_inc : forall i, g_inc g' i = g_inc g i;
  sr_blk : forall i, g_blk g' i = option_map strip_block (g_blk g i)
}.

Lemma srel_strip_graph g : srel g (strip_graph g).
Proof. constructor; reflexivity. Qed.

(* block w is non-empty and consists of comment ops only *)
Definition co_block (g : graph) (w : id) : bool :=
  match get_ops g w with
  | [] => false
  | ops => match strip_ops ops with [] => true | _ => false end
  end.

Lemma outgoing_strip b : outgoing (strip_block b) = outgoing b.
Proof. destruct b; reflexivity. Qed.

Lemma b_ops_strip b : b_ops (strip_block b) = strip_ops (b_ops b).
Proof. destruct b; reflexivity. Qed.

Lemma term_not_comment i : is_term_op i = true -> keep_op i = true.
Proof.
  unfold is_term_op, keep_op. intros H. destruct (is_comment_op i) eqn:C; [|reflexivity].
  apply opc_eqb_eq in C. rewrite C in H. discriminate H.
Qed.

Lemma existsb_term_strip l : existsb is_term_op (strip_ops l) = existsb is_term_op l.
Proof.
  induction l as [|i t IH]; [reflexivity|]. cbn [strip_ops filter existsb].
  destruct (keep_op i) eqn:K; cbn [existsb]; fold (strip_ops t); rewrite IH; [reflexivity|].
  destruct (is_term_op i) eqn:T; [|reflexivity].
  apply term_not_comment in T. congruence.
Qed.

Lemma is_terminal_strip b : is_terminal (strip_block b) = is_terminal b.
Proof. unfold is_terminal. rewrite outgoing_strip, b_ops_strip, existsb_term_strip. reflexivity. Qed.

Lemma replace_outgoing_strip b old new :
  replace_outgoing (strip_block b) old new = strip_block (replace_outgoing b old new).
Proof.
  destruct b as [ops n|ops t f]; cbn [strip_block set_ops b_ops replace_outgoing].
  - destruct (opt_id_is n old); reflexivity.
  - reflexivity.
Qed.

Lemma strip_ops_app a b : strip_ops (a ++ b) = strip_ops a ++ strip_ops b.
Proof. apply filter_app. Qed.

Lemma strip_set_ops b ops : strip_block (set_ops b ops) = set_ops (strip_block b) (strip_ops ops).
Proof. destruct b; reflexivity. Qed.

Section Rel.
  Variables g g' : graph.
  Hypothesis R : srel g g'.

  Lemma out_of_srel i : out_of g' i = out_of g i.
  Proof. unfold out_of. rewrite (sr_blk _ _ R). destruct (g_blk g i); [apply outgoing_strip|reflexivity]. Qed.

  Lemma get_ops_srel i : get_ops g' i = strip_ops (get_ops g i).
  Proof. unfold get_ops. rewrite (sr_blk _ _ R). destruct (g_blk g i); [apply b_ops_strip|reflexivity]. Qed.
End Rel.

Lemma srel_set_blk g g' i b : srel g g' -> srel (set_blk g i b) (set_blk g' i (strip_block b)).
Proof.
  intros R. constructor; cbn.
  - apply (sr_next _ _ R).
  - apply (sr_inc _ _ R).
  - intros j. unfold upd. destruct (Nat.eqb j i); [reflexivity|apply (sr_blk _ _ R)].
Qed.

Lemma srel_set_inc g g' i l : srel g g' -> srel (set_inc g i l) (set_inc g' i l).
Proof.
  intros R. constructor; cbn.
  - apply (sr_next _ _ R).
  - intros j. unfold upd. destruct (Nat.eqb j i); [reflexivity|apply (sr_inc _ _ R)].
  - apply (sr_blk _ _ R).
Qed.

(* the step of the edge-rewriting folds of both normalisation passes *)
Definition redirect (old new : id) (g : graph) (i : id) : graph :=
  match g_blk g i with Some ib => set_blk g i (replace_outgoing ib old new) | None => g end.

Lemma srel_redirect old new g g' i : srel g g' -> srel (redirect old new g i) (redirect old new g' i).
Proof.
  intros R. unfold redirect. rewrite (sr_blk _ _ R). destruct (g_blk g i) as [ib|]; cbn [option_map]; [|exact R].
  rewrite replace_outgoing_strip. apply srel_set_blk. exact R.
Qed.

Lemma srel_fold_redirect old new l : forall g g', srel g g' ->
  srel (fold_left (redirect old new) l g) (fold_left (redirect old new) l g').
Proof. induction l as [|i t IH]; intros g g' R; [exact R|]. cbn [fold_left]. apply IH, srel_redirect, R. Qed.

Lemma srel_body1 g g' start block : srel g g' ->
  srel (fst (norm_body1 g start block)) (fst (norm_body1 g' start block)) /\
  snd (norm_body1 g' start block) = snd (norm_body1 g start block).
Proof.
  intros R. pose proof (conj R (eq_refl start)) as U. unfold norm_body1. rewrite (sr_inc _ _ R).
  destruct (g_inc g block) as [|prev [|p2 rest]]; try exact U.
  rewrite (out_of_srel _ _ R).
  destruct (out_of g prev) as [|x [|x2 xs]]; try exact U.
  destruct (Nat.eqb x block); [|exact U].
  rewrite (sr_blk _ _ R). destruct (g_blk g block) as [bb|]; cbn [option_map]; [|exact U].
  rewrite (sr_inc _ _ R). cbn [fst snd]. split; [|reflexivity].
  apply srel_fold_redirect. apply srel_set_inc.
  rewrite (get_ops_srel _ _ R), b_ops_strip, <- strip_ops_app.
  rewrite <- strip_set_ops. apply srel_set_blk. exact R.
Qed.

(* the step of the second pass: predecessor [prev] of the by-passed [block] now leads to [ob] *)
Definition bypass (block ob : id) (g : graph) (prev : id) : graph :=
  let g' := redirect block ob g prev in
  if mem_id prev (g_inc g' ob) then g' else set_inc g' ob (g_inc g' ob ++ [prev]).

Lemma srel_fold_bypass block ob l : forall g g', srel g g' ->
  srel (fold_left (bypass block ob) l g) (fold_left (bypass block ob) l g').
Proof.
  induction l as [|prev t IH]; intros g g' R; [exact R|]. cbn [fold_left]. apply IH.
  pose proof (srel_redirect block ob g g' prev R) as R1. unfold bypass. cbv zeta. rewrite (sr_inc _ _ R1).
  destruct (mem_id prev _); [exact R1|]. apply srel_set_inc. exact R1.
Qed.

Lemma srel_body2 g g' start block : srel g g' -> co_block g block = false ->
  srel (fst (norm_body2 g start block)) (fst (norm_body2 g' start block)) /\
  snd (norm_body2 g' start block) = snd (norm_body2 g start block).
Proof.
  intros R N. pose proof (conj R (eq_refl start)) as U.
  unfold norm_body2. rewrite (get_ops_srel _ _ R). unfold co_block in N.
  destruct (get_ops g block) as [|i ops] eqn:E.
  - cbn [strip_ops filter]. rewrite (out_of_srel _ _ R).
    destruct (out_of g block) as [|ob [|o2 os]]; try exact U.
    destruct (Nat.eqb ob block); [exact U|].
    cbn [fst snd]. split; [|reflexivity].
    rewrite !(sr_inc _ _ R).
    pose proof (srel_set_inc g g' ob (remove_first block (g_inc g ob)) R) as R1.
    rewrite (sr_inc _ _ R1). apply srel_fold_bypass. exact R1.
  - destruct (strip_ops (i :: ops)) eqn:S; [discriminate N|exact U].
Qed.

Lemma norm_iter1_srel fuel : forall g g' start q v, srel g g' ->
  srel (fst (norm_iter norm_body1 fuel g start q v)) (fst (norm_iter norm_body1 fuel g' start q v)) /\
  snd (norm_iter norm_body1 fuel g' start q v) = snd (norm_iter norm_body1 fuel g start q v).
Proof.
  induction fuel as [|f IH]; intros g g' start q v R; cbn [norm_iter]; [split; [exact R|reflexivity]|].
  destruct q as [|w q']; [split; [exact R|reflexivity]|].
  rewrite (out_of_srel _ _ R).
  destruct (srel_body1 g g' start w R) as [R1 S1].
  destruct (norm_body1 g start w) as [g1 s1]. destruct (norm_body1 g' start w) as [g1' s1']. cbn [fst snd] in *. subst s1'.
  destruct (enqueue (out_of g w) q' v) as [q1 v1]. apply IH. exact R1.
Qed.

(* the executable side condition: the second pass never visits a block made of comment ops only *)
Fixpoint norm_iter2_clean (fuel : nat) (g : graph) (start : id) (queue visited : list id) : bool :=
  match fuel with
  | O => true
  | S f =>
      match queue with
      | [] => true
      | w :: q =>
          negb (co_block g w) &&
          let nexts := out_of g w in
          let '(g1, start1) := norm_body2 g start w in
          let '(q1, v1) := enqueue nexts q visited in
          norm_iter2_clean f g1 start1 q1 v1
      end
  end.

Lemma norm_iter2_srel fuel : forall g g' start q v, srel g g' -> norm_iter2_clean fuel g start q v = true ->
  srel (fst (norm_iter norm_body2 fuel g start q v)) (fst (norm_iter norm_body2 fuel g' start q v)) /\
  snd (norm_iter norm_body2 fuel g' start q v) = snd (norm_iter norm_body2 fuel g start q v).
Proof.
  induction fuel as [|f IH]; intros g g' start q v R N; cbn [norm_iter]; [split; [exact R|reflexivity]|].
  destruct q as [|w q']; [split; [exact R|reflexivity]|].
  cbn [norm_iter2_clean] in N. apply andb_prop in N. destruct N as [Nw N]. apply negb_true_iff in Nw.
  rewrite (out_of_srel _ _ R).
  destruct (srel_body2 g g' start w R Nw) as [R1 S1].
  destruct (norm_body2 g start w) as [g1 s1]. destruct (norm_body2 g' start w) as [g1' s1']. cbn [fst snd] in *. subst s1'.
  destruct (enqueue (out_of g w) q' v) as [q1 v1]. apply IH; assumption.
Qed.

(* the side condition for a whole routine graph *)
Definition normalize_clean (g : graph) (start : id) : bool :=
  let fuel := S (g_next g) in
  let '(g1, s1) := norm_iter norm_body1 fuel g start [start] [start] in
  norm_iter2_clean fuel g1 s1 [s1] [s1].

Theorem normalize_srel g g' start : srel g g' -> normalize_clean g start = true ->
  srel (fst (normalize g start)) (fst (normalize g' start)) /\
  snd (normalize g' start) = snd (normalize g start).
Proof.
  intros R N. unfold normalize, normalize_clean in *. rewrite (sr_next _ _ R).
  destruct (norm_iter1_srel (S (g_next g)) g g' start [start] [start] R) as [R1 S1].
  destruct (norm_iter norm_body1 (S (g_next g)) g start [start] [start]) as [g1 s1].
  destruct (norm_iter norm_body1 (S (g_next g)) g' start [start] [start]) as [g1' s1']. cbn [fst snd] in *. subst s1'.
  apply norm_iter2_srel; assumption.
Qed.

Lemma sort_loop_srel g g' (R : srel g g') fuel : forall stack vis order,
  sort_loop fuel g' stack vis order = sort_loop fuel g stack vis order.
Proof.
  induction fuel as [|f IH]; intros stack vis order; cbn [sort_loop]; [reflexivity|].
  destruct (rev stack) as [|n rest]; [reflexivity|].
  destruct (mem_id n vis); [apply IH|]. rewrite (out_of_srel _ _ R). apply IH.
Qed.

Theorem sort_blocks_srel g g' start e : srel g g' -> sort_blocks g' start e = sort_blocks g start e.
Proof. intros R. unfold sort_blocks. rewrite (sr_next _ _ R), (sort_loop_srel _ _ R). reflexivity. Qed.

Definition strip_code (x : list instr * list nat) : list instr * list nat := (strip_ops (fst x), snd x).

Lemma strip_code_snoc code tail refs :
  strip_ops tail = tail -> strip_code (code ++ tail, refs) = (strip_ops code ++ tail, refs).
Proof. intros H. unfold strip_code. cbn [fst snd]. rewrite strip_ops_app, H. reflexivity. Qed.

Lemma flatten_one_srel g g' blocks i b : srel g g' ->
  flatten_one g' blocks i b = option_map strip_code (flatten_one g blocks i b).
Proof.
  intros R. unfold flatten_one. rewrite (sr_blk _ _ R).
  destruct (g_blk g b) as [bb|]; cbn [option_map]; [|reflexivity].
  rewrite is_terminal_strip, b_ops_strip.
  destruct (is_terminal bb); [reflexivity|].
  destruct bb as [ops n|ops t f]; cbn [strip_block set_ops b_ops].
  - destruct n as [nx|]; [|reflexivity].
    destruct (index_of nx blocks 0) as [ni|]; [|reflexivity].
    destruct (Nat.eqb ni (S i)); [reflexivity|]. cbn [option_map]. rewrite strip_code_snoc; reflexivity.
  - destruct t as [t|]; [|reflexivity]. destruct f as [f|]; [|reflexivity].
    destruct (index_of t blocks 0) as [ti|]; [|reflexivity].
    destruct (index_of f blocks 0) as [fi|]; [|reflexivity].
    destruct (Nat.eqb fi (S i)); [|destruct (Nat.eqb ti (S i))]; cbn [option_map]; rewrite strip_code_snoc; reflexivity.
Qed.

Lemma flatten_collect_srel g g' blocks (R : srel g g') rest : forall i,
  flatten_collect g' blocks i rest =
  option_map (fun x => (map strip_ops (fst x), snd x)) (flatten_collect g blocks i rest).
Proof.
  induction rest as [|b t IH]; intros i; cbn [flatten_collect]; [reflexivity|].
  rewrite (flatten_one_srel _ _ _ _ _ R), IH.
  destruct (flatten_one g blocks i b) as [[code refs]|]; cbn [option_map strip_code fst snd]; [|reflexivity].
  destruct (flatten_collect g blocks (S i) t) as [[codes refs']|]; reflexivity.
Qed.

Lemma strip_comps_app a b : strip_comps (a ++ b) = strip_comps a ++ strip_comps b.
Proof. unfold strip_comps. apply flat_map_app. Qed.

Lemma strip_comps_ops code : strip_comps (map COp code) = map COp (strip_ops code).
Proof.
  induction code as [|i t IH]; [reflexivity|]. cbn [map strip_comps flat_map strip_comp strip_ops filter].
  unfold keep_op. destruct (is_comment_op i); cbn [negb app]; fold (strip_comps (map COp t)); rewrite IH; reflexivity.
Qed.

Lemma flatten_emit_strip refs codes : forall i,
  flatten_emit (map strip_ops codes) refs i = strip_comps (flatten_emit codes refs i).
Proof.
  induction codes as [|code t IH]; intros i; [reflexivity|]. cbn [map flatten_emit].
  rewrite !strip_comps_app, strip_comps_ops, IH.
  destruct (mem_nat i refs); reflexivity.
Qed.

Theorem flatten_blocks_srel g g' blocks : srel g g' ->
  flatten_blocks g' blocks = option_map strip_comps (flatten_blocks g blocks).
Proof.
  intros R. unfold flatten_blocks. rewrite (flatten_collect_srel _ _ _ R).
  destruct (flatten_collect g blocks 0 blocks) as [[codes refs]|]; cbn [option_map fst snd]; [|reflexivity].
  rewrite flatten_emit_strip. reflexivity.
Qed.

(* the three passes together: one routine, optimiser off *)
Definition routine_code (g : graph) (start end_ : id) : option (list comp) :=
  let '(gn, sn) := normalize g start in
  match sort_blocks gn sn end_ with
  | Some order => flatten_blocks gn order
  | None => None
  end.

Theorem routine_code_srel g g' start end_ : srel g g' -> normalize_clean g start = true ->
  routine_code g' start end_ = option_map strip_comps (routine_code g start end_).
Proof.
  intros R0 N. unfold routine_code.
  destruct (normalize_srel g g' start R0 N) as [R S].
  destruct (normalize g start) as [gn sn]. destruct (normalize g' start) as [gn' sn'].
  cbn [fst snd] in *. subst sn'.
  rewrite (sort_blocks_srel _ _ sn end_ R).
  destruct (sort_blocks gn sn end_) as [order|]; [|reflexivity].
  apply flatten_blocks_srel. exact R.
Qed.

Theorem routine_code_strip_commute : forall g start end_,
  normalize_clean g start = true ->
  routine_code (strip_graph g) start end_ = option_map strip_comps (routine_code g start end_).
Proof. intros g start end_. apply routine_code_srel, srel_strip_graph. Qed.
