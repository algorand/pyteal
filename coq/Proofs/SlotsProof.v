(* Proofs/SlotsProof.v — C10: lemmas about the slot-assignment model Comp/Slots.v.
   Everything is proved for an arbitrary iteration order of the Python set allSlots. *)
From Coq Require Import List NArith ZArith Bool Arith Lia Permutation Sorted.
From PV Require Import Gen.SlotConfig Comp.Slots.
From PV Require Hist.Assign.
Import ListNotations.
Local Open Scope N_scope.

Lemma slot_eqb_eq a b : slot_eqb a b = true <-> a = b.
Proof. unfold slot_eqb; destruct (slot_eq_dec a b); split; congruence. Qed.

Lemma mem_In s l : mem s l = true <-> In s l.
Proof.
  unfold mem. rewrite existsb_exists. split.
  - intros [x [Hx He]]. apply slot_eqb_eq in He. subst; auto.
  - intros H. exists s. split; auto. apply slot_eqb_eq; auto.
Qed.

Lemma memN_In n l : memN n l = true <-> In n l.
Proof.
  unfold memN. rewrite existsb_exists. split.
  - intros [x [Hx He]]. apply N.eqb_eq in He. subst; auto.
  - intros H. exists n. split; auto. apply N.eqb_refl.
Qed.

Lemma set_of_In s l : In s (set_of l) <-> In s l.
Proof. apply nodup_In. Qed.
Lemma set_union_In s a b : In s (set_union a b) <-> In s a \/ In s b.
Proof. unfold set_union. rewrite nodup_In, in_app_iff. tauto. Qed.
Lemma set_inter_In s a b : In s (set_inter a b) <-> In s a /\ In s b.
Proof. unfold set_inter. rewrite filter_In, mem_In. tauto. Qed.
Lemma set_diff_In s a b : In s (set_diff a b) <-> In s a /\ ~ In s b.
Proof. unfold set_diff. rewrite filter_In, negb_true_iff, <- not_true_iff_false, mem_In. tauto. Qed.

Lemma collect_loop_spec : forall todo i all glob g ls,
  collect_loop i todo all glob = (g, ls) ->
  incl glob g /\
  (forall s, In s g -> In s glob \/ In s (concat todo)) /\
  Forall2 (fun t l => (forall s, In s l -> In s t) /\ (forall s, In s t -> In s l \/ In s g)) todo ls.
Proof.
  induction todo as [|t todo IH]; intros i all glob g ls H; cbn [collect_loop] in H.
  - inversion H; subst. split; [apply incl_refl|]. split; [auto|constructor].
  - destruct (collect_loop (S i) todo all (set_union glob (set_inter t (others_of i all)))) as [g' ls'] eqn:E.
    inversion H; subst; clear H.
    apply IH in E. destruct E as [Hinc [Hg HF]].
    split; [|split].
    + intros s Hs. apply Hinc. apply set_union_In. auto.
    + intros s Hs. apply Hg in Hs. destruct Hs as [Hs|Hs].
      * apply set_union_In in Hs. destruct Hs as [Hs|Hs]; auto.
        apply set_inter_In in Hs. right. cbn [concat]. apply in_app_iff. tauto.
      * right. cbn [concat]. apply in_app_iff. auto.
    + constructor; auto. split.
      * intros s Hs. apply set_diff_In in Hs. tauto.
      * intros s Hs.
        destruct (in_dec slot_eq_dec s (set_union glob (set_inter t (others_of i all)))) as [Hi|Hn].
        -- right. apply Hinc. auto.
        -- left. apply set_diff_In. auto.
Qed.

Lemma Forall2_concat_in : forall (g : list slot) todo ls,
  Forall2 (fun t l => (forall s, In s l -> In s t) /\ (forall s, In s t -> In s l \/ In s g)) todo ls ->
  forall s, (In s (concat ls) -> In s (concat todo)) /\ (In s (concat todo) -> In s (concat ls) \/ In s g).
Proof.
  intros g todo ls H; induction H as [|t l todo ls [H1 H2] HF IH]; intros s; cbn [concat].
  - tauto.
  - rewrite !in_app_iff. destruct (IH s) as [IH1 IH2]. split.
    + intros [Hs|Hs]; auto.
    + intros [Hs|Hs].
      * apply H2 in Hs. tauto.
      * apply IH2 in Hs. tauto.
Qed.

Lemma concat_routine_slots s inp : In s (concat (map routine_slots inp)) <-> In s (all_refs inp).
Proof.
  unfold all_refs. induction inp as [|r inp IH]; cbn [map concat flat_map]; [tauto|].
  rewrite !in_app_iff, IH. unfold routine_slots. rewrite set_of_In. tauto.
Qed.

(* allSlots is exactly the set of referenced slot objects, without repetition *)
Lemma all_slots_spec inp s : In s (all_slots inp) <-> referenced inp s.
Proof.
  unfold all_slots, collect, referenced.
  destruct (collect_loop 0 (map routine_slots inp) (map routine_slots inp) []) as [g ls] eqn:E.
  apply collect_loop_spec in E. destruct E as [_ [Hg HF]].
  pose proof (Forall2_concat_in g _ _ HF s) as [H1 H2].
  rewrite set_union_In, set_of_In, <- concat_routine_slots. split.
  - intros [Hs|Hs]; auto. apply Hg in Hs. destruct Hs as [[]|Hs]; auto.
  - intros Hs. apply H2 in Hs. tauto.
Qed.

Lemma all_slots_NoDup inp : NoDup (all_slots inp).
Proof.
  unfold all_slots. destruct (collect inp) as [g ls]. unfold set_union. apply NoDup_nodup.
Qed.

Lemma slot_count_meaning_lemma : forall inp,
  NoDup (all_slots inp) /\ (forall s, In s (all_slots inp) <-> referenced inp s).
Proof. intros inp. split; [apply all_slots_NoDup | intros s; apply all_slots_spec]. Qed.

Lemma set_order_In inp order s : set_order inp order -> (In s order <-> referenced inp s).
Proof.
  intros H. rewrite <- all_slots_spec. split; apply Permutation_in; [exact H | apply Permutation_sym; exact H].
Qed.
Lemma set_order_NoDup inp order : set_order inp order -> NoDup order.
Proof. intros H. eapply Permutation_NoDup; [apply Permutation_sym; exact H | apply all_slots_NoDup]. Qed.
Lemma set_order_length inp order : set_order inp order -> List.length order = List.length (all_slots inp).
Proof. apply Permutation_length. Qed.

Definition cnt_ge (used : list N) (n : N) : nat := List.length (filter (fun x => n <=? x) used).

Lemma cnt_ge_succ_le used n : (cnt_ge used (n + 1) <= cnt_ge used n)%nat.
Proof.
  unfold cnt_ge. induction used as [|a used IH]; cbn [filter List.length]; auto.
  destruct (N.leb_spec (n + 1) a), (N.leb_spec n a); cbn [List.length]; lia.
Qed.

Lemma cnt_ge_succ_lt used n : In n used -> (cnt_ge used (n + 1) < cnt_ge used n)%nat.
Proof.
  unfold cnt_ge. induction used as [|a used IH]; cbn [filter List.length In]; [tauto|].
  intros [->|H].
  - pose proof (cnt_ge_succ_le used n) as Hle. unfold cnt_ge in Hle.
    destruct (N.leb_spec (n + 1) n), (N.leb_spec n n); cbn [List.length]; lia.
  - specialize (IH H).
    destruct (N.leb_spec (n + 1) a), (N.leb_spec n a); cbn [List.length]; lia.
Qed.

Lemma cnt_ge_le_length used n : (cnt_ge used n <= List.length used)%nat.
Proof.
  unfold cnt_ge. induction used as [|a used IH]; cbn [filter List.length]; auto.
  destruct (n <=? a); cbn [List.length]; lia.
Qed.

Lemma next_free_gen : forall fuel used n, (cnt_ge used n < fuel)%nat ->
  ~ In (next_free fuel used n) used /\ n <= next_free fuel used n /\
  (forall k, n <= k -> k < next_free fuel used n -> In k used).
Proof.
  induction fuel as [|f IH]; intros used n Hc; [lia|].
  cbn [next_free]. destruct (memN n used) eqn:E.
  - apply memN_In in E. pose proof (cnt_ge_succ_lt used n E) as Hlt.
    destruct (IH used (n + 1)) as [H1 [H2 H3]]; [lia|]. split; [auto|]. split; [lia|].
    intros k Hk1 Hk2. destruct (N.eq_dec k n) as [->|Hne]; auto. apply H3; lia.
  - split; [|split; [lia|intros; lia]]. intro H. apply memN_In in H. congruence.
Qed.

Lemma next_free_spec used n :
  ~ In (next_free (S (List.length used)) used n) used /\ n <= next_free (S (List.length used)) used n /\
  (forall k, n <= k -> k < next_free (S (List.length used)) used n -> In k used).
Proof. apply next_free_gen. pose proof (cnt_ge_le_length used n). lia. Qed.

(* pigeonhole: if every number below v is in use, v is at most the number of used numbers *)
Lemma below_all_used_le used v : (forall k, k < v -> In k used) -> (N.to_nat v <= List.length used)%nat.
Proof.
  intros H.
  assert (Hinc : incl (map N.of_nat (seq 0 (N.to_nat v))) used).
  { intros x Hx. apply in_map_iff in Hx. destruct Hx as [i [<- Hi]]. apply in_seq in Hi. apply H. lia. }
  apply NoDup_incl_length in Hinc.
  - rewrite map_length, seq_length in Hinc. exact Hinc.
  - apply FinFun.Injective_map_NoDup; [intros a b Hab; lia | apply seq_NoDup].
Qed.

Definition res_ids (l : list slot) : list N := map sl_id (filter sl_res l).

Lemma res_ids_In l i : In i (res_ids l) <-> exists s, In s l /\ sl_res s = true /\ sl_id s = i.
Proof.
  unfold res_ids. rewrite in_map_iff. split.
  - intros [s [Hi Hs]]. apply filter_In in Hs. exists s. tauto.
  - intros [s [H1 [H2 H3]]]. exists s. split; auto. apply filter_In. auto.
Qed.

Lemma dup_check_inr : forall l ids ids', dup_check l ids = inr ids' ->
  ids' = rev (res_ids l) ++ ids /\
  (forall s, In s l -> sl_res s = true -> ~ In (sl_id s) ids) /\
  NoDup (res_ids l).
Proof.
  induction l as [|a l IH]; intros ids ids' H; cbn [dup_check] in H.
  - inversion H; subst. split; [reflexivity|]. split; [intros s []|constructor].
  - unfold res_ids in *. cbn [filter]. destruct (sl_res a) eqn:Ea.
    + destruct (memN (sl_id a) ids) eqn:Em; [discriminate|].
      apply IH in H. destruct H as [H1 [H2 H3]]. cbn [map rev]. split; [|split].
      * rewrite <- app_assoc. exact H1.
      * intros s [->|Hs] Hr.
        -- intro Hin. apply memN_In in Hin. congruence.
        -- intro Hin. apply (H2 s Hs Hr). right. exact Hin.
      * constructor; auto. intro Hin. apply in_map_iff in Hin. destruct Hin as [s [Hi Hs]].
        apply filter_In in Hs. destruct Hs as [Hs Hr]. apply (H2 s Hs Hr). left. auto.
    + apply IH in H. destruct H as [H1 [H2 H3]]. split; [exact H1|]. split; auto.
      intros s [->|Hs] Hr; [congruence|]. apply H2; auto.
Qed.

Lemma dup_check_inl : forall l ids i, dup_check l ids = inl i ->
  exists l1 s l2, l = l1 ++ s :: l2 /\ sl_res s = true /\ sl_id s = i /\ In i (rev (res_ids l1) ++ ids).
Proof.
  induction l as [|a l IH]; intros ids i H; cbn [dup_check] in H; [discriminate|].
  destruct (sl_res a) eqn:Ea; [destruct (memN (sl_id a) ids) eqn:Em|].
  - injection H as <-. exists [], a, l. repeat split; auto. apply memN_In. exact Em.
  - apply IH in H. destruct H as (l1 & s & l2 & -> & Hr & Hi & Hin). exists (a :: l1), s, l2.
    unfold res_ids. cbn [filter]. rewrite Ea. cbn [map rev]. rewrite <- app_assoc. auto.
  - apply IH in H. destruct H as (l1 & s & l2 & -> & Hr & Hi & Hin). exists (a :: l1), s, l2.
    unfold res_ids. cbn [filter]. rewrite Ea. auto.
Qed.

Lemma NoDup_map_inj {A B} (f : A -> B) (l : list A) :
  NoDup (map f l) -> forall a b, In a l -> In b l -> f a = f b -> a = b.
Proof.
  induction l as [|x l IH]; cbn [map]; intros H a b Ha Hb Hf; [destruct Ha|].
  inversion H as [|? ? Hn Hd]; subst.
  destruct Ha as [->|Ha], Hb as [->|Hb]; auto.
  - exfalso. apply Hn. rewrite Hf. apply in_map. exact Hb.
  - exfalso. apply Hn. rewrite <- Hf. apply in_map. exact Ha.
Qed.

Lemma NoDup_snd_inj {A B} (m : list (A * B)) s1 s2 n :
  NoDup (map snd m) -> In (s1, n) m -> In (s2, n) m -> s1 = s2.
Proof.
  intros Hnd H1 H2. assert (E : (s1, n) = (s2, n)) by (apply (NoDup_map_inj snd m Hnd); auto).
  inversion E; reflexivity.
Qed.

Lemma res_ids_NoDup_unique l : NoDup (res_ids l) ->
  forall s1 s2, In s1 l -> In s2 l -> sl_res s1 = true -> sl_res s2 = true -> sl_id s1 = sl_id s2 -> s1 = s2.
Proof.
  intros H s1 s2 H1 H2 R1 R2 Hi. unfold res_ids in H.
  apply (NoDup_map_inj sl_id (filter sl_res l) H); auto; apply filter_In; auto.
Qed.

(* [sort_slots] is the stable insertion sort [sort_by] of Hist/Assign.v at the key [sl_id]; what holds for every key
   is proved of [sort_by]. *)
Section SortBy.
  Context {A : Type}.

  Lemma insert_by_perm (key : A -> N) x l : Permutation (Assign.insert_by key x l) (x :: l).
  Proof.
    induction l as [|z t IH]; cbn; [reflexivity|].
    destruct (key x <=? key z); [reflexivity|]. exact (perm_trans (perm_skip z IH) (perm_swap x z t)).
  Qed.

  Lemma sort_by_cons (key : A -> N) x t :
    Assign.sort_by key (x :: t) = Assign.insert_by key x (Assign.sort_by key t).
  Proof. reflexivity. Qed.

  Lemma sort_by_perm (key : A -> N) l : Permutation (Assign.sort_by key l) l.
  Proof.
    induction l as [|x t IH]; [constructor|]. rewrite sort_by_cons.
    exact (perm_trans (insert_by_perm key x _) (perm_skip x IH)).
  Qed.

  Lemma sort_by_in (key : A -> N) l y : In y (Assign.sort_by key l) <-> In y l.
  Proof. split; apply Permutation_in; [|symmetry]; apply sort_by_perm. Qed.

  Definition key_le (key : A -> N) (a b : A) : Prop := key a <= key b.

  Lemma key_le_head (key : A -> N) x z t :
    key x <= key z -> Forall (key_le key z) t -> Forall (key_le key x) (z :: t).
  Proof.
    intros E Hall. constructor; [exact E|]. exact (Forall_impl _ (fun a Ha => N.le_trans _ _ _ E Ha) Hall).
  Qed.

  Lemma insert_by_sorted (key : A -> N) x l :
    StronglySorted (key_le key) l -> StronglySorted (key_le key) (Assign.insert_by key x l).
  Proof.
    induction 1 as [|z t Hst IH Hall]; cbn; [repeat constructor|].
    destruct (N.leb_spec (key x) (key z)) as [E|E].
    - constructor; [constructor; assumption | apply key_le_head; assumption].
    - constructor; [exact IH|]. apply (Permutation_Forall (Permutation_sym (insert_by_perm key x t))).
      constructor; [apply N.lt_le_incl, E | exact Hall].
  Qed.

  Lemma sort_by_sorted (key : A -> N) l : StronglySorted (key_le key) (Assign.sort_by key l).
  Proof. induction l as [|x t IH]; [constructor | rewrite sort_by_cons; apply insert_by_sorted; exact IH]. Qed.

  (* where the key is injective, a sorted list is determined by its elements *)
  Lemma sorted_perm_eq (key : A -> N) (l1 l2 : list A) :
    StronglySorted (key_le key) l1 -> StronglySorted (key_le key) l2 -> Permutation l1 l2 ->
    (forall a b, In a l1 -> In b l1 -> key a = key b -> a = b) -> l1 = l2.
  Proof.
    intros Hs1. revert l2. induction Hs1 as [|x t Hst IH Hallx]; intros l2 Hs2 Hp Hinj.
    - symmetry. apply Permutation_nil, Hp.
    - destruct Hs2 as [|y u Hsu Hally]; [symmetry in Hp; apply Permutation_nil in Hp; discriminate|].
      assert (Hxy : x = y).
      { destruct (Permutation_in x Hp (or_introl eq_refl)) as [->|Hx]; [reflexivity|].
        destruct (Permutation_in y (Permutation_sym Hp) (or_introl eq_refl)) as [->|Hy]; [reflexivity|].
        rewrite Forall_forall in Hallx, Hally. specialize (Hallx y Hy). specialize (Hally x Hx).
        unfold key_le in *. apply Hinj; [left; reflexivity | right; exact Hy | lia]. }
      destruct Hxy. f_equal. apply IH; [exact Hsu | exact (Permutation_cons_inv Hp) |].
      intros a b Ha Hb. apply Hinj; right; assumption.
  Qed.

  Lemma sort_by_perm_eq (key : A -> N) (l1 l2 : list A) :
    Permutation l1 l2 -> (forall a b, In a l1 -> In b l1 -> key a = key b -> a = b) ->
    Assign.sort_by key l1 = Assign.sort_by key l2.
  Proof.
    intros Hp Hinj. apply (sorted_perm_eq key); try apply sort_by_sorted.
    - exact (perm_trans (sort_by_perm key l1) (perm_trans Hp (Permutation_sym (sort_by_perm key l2)))).
    - intros a b Ha Hb. apply Hinj; apply (sort_by_in key); assumption.
  Qed.
End SortBy.

Lemma insert_slot_insert_by x l : insert_slot x l = Assign.insert_by sl_id x l.
Proof. induction l as [|a l IH]; cbn [insert_slot Assign.insert_by]; [reflexivity|]. rewrite IH. reflexivity. Qed.

Lemma sort_slots_sort_by l : sort_slots l = Assign.sort_by sl_id l.
Proof.
  induction l as [|a l IH]; [reflexivity|].
  change (sort_slots (a :: l)) with (insert_slot a (sort_slots l)). rewrite IH. apply insert_slot_insert_by.
Qed.

Lemma sort_slots_perm l : Permutation (sort_slots l) l.
Proof. rewrite sort_slots_sort_by. apply sort_by_perm. Qed.

Lemma perm_filter {A} (f : A -> bool) l l' : Permutation l l' -> Permutation (filter f l) (filter f l').
Proof.
  induction 1 as [|x l l' _ IH|x y l|l l' l'' _ IH1 _ IH2]; cbn [filter].
  - constructor.
  - destruct (f x); [apply perm_skip|]; exact IH.
  - destruct (f x), (f y); try apply Permutation_refl. apply perm_swap.
  - eapply perm_trans; eassumption.
Qed.

Lemma filter_split_len {A} (f : A -> bool) l :
  (List.length (filter f l) + List.length (filter (fun x => negb (f x)) l))%nat = List.length l.
Proof. induction l as [|x t IH]; [reflexivity|]. cbn [filter]. destruct (f x); cbn [negb List.length]; lia. Qed.

Definition count_auto (l : list slot) : nat := List.length (filter (fun s => negb (sl_res s)) l).
Definition count_res (l : list slot) : nat := List.length (filter sl_res l).

Lemma count_split l : (count_res l + count_auto l = List.length l)%nat.
Proof. exact (filter_split_len sl_res l). Qed.

Lemma count_auto_sort l : count_auto (sort_slots l) = count_auto l.
Proof. exact (Permutation_length (perm_filter _ _ _ (sort_slots_perm l))). Qed.

Lemma count_res_sort l : count_res (sort_slots l) = count_res l.
Proof.
  pose proof (count_split l). pose proof (count_split (sort_slots l)).
  pose proof (count_auto_sort l). pose proof (Permutation_length (sort_slots_perm l)). lia.
Qed.

Lemma assign_loop_fst : forall l next used, map fst (assign_loop l next used) = l.
Proof.
  induction l as [|a l IH]; intros next used; cbn [assign_loop]; [reflexivity|].
  destruct (sl_res a); cbn [map fst]; f_equal; apply IH.
Qed.

Definition loop_pre (l : list slot) (next : N) (used : list N) : Prop :=
  (forall k, k < next -> In k used) /\ (forall s, In s l -> sl_res s = true -> In (sl_id s) used).

Lemma loop_pre_below a l next used : loop_pre (a :: l) next used ->
  forall k, k < next_free (S (List.length used)) used next -> In k used.
Proof.
  intros [Hb _] k Hk. destruct (next_free_spec used next) as [_ [_ H3]].
  destruct (N.lt_ge_cases k next) as [Hlt|Hge]; [apply Hb; exact Hlt | apply H3; auto].
Qed.

Lemma loop_pre_res a l next used : loop_pre (a :: l) next used ->
  loop_pre l (next_free (S (List.length used)) used next) used.
Proof.
  intros H. split; [apply (loop_pre_below a l next used H)|].
  destruct H as [_ Hr]. intros s Hs. apply Hr. right. exact Hs.
Qed.

Lemma loop_pre_auto a l next used : loop_pre (a :: l) next used ->
  loop_pre l (next_free (S (List.length used)) used next) (next_free (S (List.length used)) used next :: used).
Proof.
  intros H. split.
  - intros k Hk. right. apply (loop_pre_below a l next used H). exact Hk.
  - destruct H as [_ Hr]. intros s Hs R. right. apply Hr; [right; exact Hs | exact R].
Qed.

(* every pair produced: a requested slot keeps its id; an automatic slot gets a number that was
   not in use, below (numbers in use) + (automatic slots still to number) *)
Lemma assign_loop_elems : forall l next used, loop_pre l next used ->
  forall s n, In (s, n) (assign_loop l next used) ->
    (sl_res s = true /\ n = sl_id s) \/
    (sl_res s = false /\ ~ In n used /\ (N.to_nat n < List.length used + count_auto l)%nat).
Proof.
  induction l as [|a l IH]; intros next used Hpre s n Hin; cbn [assign_loop] in Hin; [destruct Hin|].
  destruct (next_free_spec used next) as [Hv1 [Hv2 Hv3]].
  pose proof (loop_pre_below a l next used Hpre) as Hbelow.
  pose proof (loop_pre_res a l next used Hpre) as Hpr. pose proof (loop_pre_auto a l next used Hpre) as Hpa.
  set (v := next_free (S (List.length used)) used next) in *. clearbody v.
  unfold count_auto. cbn [filter]. destruct (sl_res a) eqn:Ea; cbn [negb]; destruct Hin as [Heq|Hin].
  - inversion Heq; subst. left. auto.
  - apply (IH _ _ Hpr) in Hin. exact Hin.
  - inversion Heq; subst. right. split; auto. split; auto.
    pose proof (below_all_used_le used _ Hbelow). cbn [List.length]. lia.
  - apply (IH _ _ Hpa) in Hin.
    destruct Hin as [Hin|[R [Hn Hlt]]]; [left; exact Hin|]. right. split; auto. split.
    + intro Hc. apply Hn. right. exact Hc.
    + cbn [List.length] in *. unfold count_auto in Hlt. lia.
Qed.

Lemma assign_loop_in_fst l next used s n : In (s, n) (assign_loop l next used) -> In s l.
Proof.
  intros H. rewrite <- (assign_loop_fst l next used). change s with (fst (s, n)). apply in_map. exact H.
Qed.

(* no number is handed out twice *)
Lemma assign_loop_nodup : forall l next used, loop_pre l next used -> NoDup l ->
  (forall s1 s2, In s1 l -> In s2 l -> sl_res s1 = true -> sl_res s2 = true -> sl_id s1 = sl_id s2 -> s1 = s2) ->
  NoDup (map snd (assign_loop l next used)).
Proof.
  induction l as [|a l IH]; intros next used Hpre Hnd Huniq; cbn [assign_loop]; [constructor|].
  destruct (next_free_spec used next) as [Hv1 _].
  pose proof (loop_pre_res a l next used Hpre) as Hpr. pose proof (loop_pre_auto a l next used Hpre) as Hpa.
  set (v := next_free (S (List.length used)) used next) in *. clearbody v.
  inversion Hnd as [|? ? Hnotin Hnd']; subst.
  assert (Huniq' : forall s1 s2, In s1 l -> In s2 l -> sl_res s1 = true -> sl_res s2 = true -> sl_id s1 = sl_id s2 -> s1 = s2).
  { intros s1 s2 H1 H2. apply Huniq; right; assumption. }
  destruct (sl_res a) eqn:Ea; cbn [map snd]; constructor.
  - intro Hin. apply in_map_iff in Hin. destruct Hin as [[s n] [Hn Hin]]. cbn [snd] in Hn. subst n.
    pose proof (assign_loop_in_fst _ _ _ _ _ Hin) as Hsl.
    apply (assign_loop_elems _ _ _ Hpr) in Hin.
    destruct Hin as [[R Hid]|[R [Hn _]]].
    + assert (a = s) by (apply Huniq; [left; reflexivity | right; exact Hsl | exact Ea | exact R | exact Hid]).
      subst s. contradiction.
    + apply Hn. destruct Hpre as [_ Hr]. apply Hr; [left; reflexivity | exact Ea].
  - apply IH; auto.
  - intro Hin. apply in_map_iff in Hin. destruct Hin as [[s n] [Hn Hin]]. cbn [snd] in Hn. subst n.
    pose proof (assign_loop_in_fst _ _ _ _ _ Hin) as Hsl.
    apply (assign_loop_elems _ _ _ Hpa) in Hin.
    destruct Hin as [[R Hid]|[R [Hn _]]].
    + apply Hv1. rewrite Hid. destruct Hpre as [_ Hr]. apply Hr; [right; exact Hsl | exact R].
    + apply Hn. left. reflexivity.
  - apply IH; auto.
Qed.

Lemma lookup_In m s n : lookup m s = Some n -> In (s, n) m.
Proof.
  induction m as [|[k v] m IH]; cbn [lookup]; [discriminate|].
  destruct (slot_eqb s k) eqn:E.
  - intros H. inversion H; subst. apply slot_eqb_eq in E. subst. left. reflexivity.
  - intros H. right. apply IH. exact H.
Qed.

Lemma In_lookup m s n : NoDup (map fst m) -> In (s, n) m -> lookup m s = Some n.
Proof.
  induction m as [|[k v] m IH]; cbn [lookup map fst]; intros Hnd Hin; [destruct Hin|].
  inversion Hnd as [|? ? Hnotin Hnd']; subst.
  destruct Hin as [Heq|Hin].
  - inversion Heq; subst. assert (E : slot_eqb s s = true) by (apply slot_eqb_eq; reflexivity). rewrite E. reflexivity.
  - destruct (slot_eqb s k) eqn:E.
    + apply slot_eqb_eq in E. subst. exfalso. apply Hnotin. change k with (fst (k, n)). apply in_map. exact Hin.
    + apply IH; auto.
Qed.

Lemma lookup_total m s : In s (map fst m) -> exists n, lookup m s = Some n.
Proof.
  induction m as [|[k v] m IH]; cbn [lookup map fst]; intros Hin; [destruct Hin|].
  destruct (slot_eqb s k) eqn:E; [eexists; reflexivity|].
  destruct Hin as [Heq|Hin]; [|apply IH; exact Hin].
  subst. assert (E' : slot_eqb s s = true) by (apply slot_eqb_eq; reflexivity). congruence.
Qed.

Lemma assign_ok_inv order inp v a : assign_in_order order inp v = Ok a ->
  exists ids, dup_check order [] = inr ids /\
    (List.length order <= N.to_nat NUM_SLOTS)%nat /\ v = true /\
    a = mkAssignment (assign_loop (sort_slots order) 0 ids)
                     (map (map (rewrite_op (assign_loop (sort_slots order) 0 ids))) inp)
                     (map (assigned_locals (assign_loop (sort_slots order) 0 ids)) (snd (collect inp))).
Proof.
  unfold assign_in_order. destruct (dup_check order []) as [i|ids] eqn:Ed; [discriminate|].
  destruct (N.ltb_spec NUM_SLOTS (N.of_nat (List.length order))) as [Hlt|Hge]; [discriminate|].
  destruct v; cbn [negb]; [|discriminate].
  intros H. inversion H; subst. exists ids. split; auto. split; [lia|]. split; reflexivity.
Qed.

(* facts about the numbering for an Ok result, collected once *)
Record numbering_facts (inp : input) (m : list (slot * N)) : Prop := mkFacts {
  nf_keys : forall s, In s (map fst m) <-> referenced inp s;
  nf_keys_nodup : NoDup (map fst m);
  nf_vals_nodup : NoDup (map snd m);
  nf_elems : forall s n, In (s, n) m ->
      (sl_res s = true /\ n = sl_id s) \/ (sl_res s = false /\ (N.to_nat n < List.length (all_slots inp))%nat)
}.

Lemma assign_ok_facts order inp v a : set_order inp order -> assign_in_order order inp v = Ok a ->
  numbering_facts inp (r_map a).
Proof.
  intros Hord H. apply assign_ok_inv in H. destruct H as [ids [Hd [Hlen [_ ->]]]]. cbn [r_map].
  apply dup_check_inr in Hd. destruct Hd as [Hids [_ Hnd]]. rewrite app_nil_r in Hids.
  pose proof (sort_slots_perm order) as Hperm.
  assert (Hpre : loop_pre (sort_slots order) 0 ids).
  { split; [intros k Hk; lia|]. intros s Hs R. subst ids. apply -> in_rev. apply res_ids_In.
    exists s. split; [eapply Permutation_in; [exact Hperm | exact Hs]|]. auto. }
  assert (Hsnd : NoDup (sort_slots order)).
  { eapply Permutation_NoDup; [apply Permutation_sym; exact Hperm | eapply set_order_NoDup; exact Hord]. }
  constructor.
  - intros s. rewrite assign_loop_fst. rewrite <- (set_order_In inp order s Hord).
    split; apply Permutation_in; [exact Hperm | apply Permutation_sym; exact Hperm].
  - rewrite assign_loop_fst. exact Hsnd.
  - apply assign_loop_nodup; auto.
    intros s1 s2 H1 H2. apply (res_ids_NoDup_unique order Hnd); eapply Permutation_in; eauto.
  - intros s n Hin. apply (assign_loop_elems _ _ _ Hpre) in Hin.
    destruct Hin as [Hin|[R [_ Hlt]]]; [left; exact Hin|]. right. split; auto.
    assert (List.length ids = count_res order).
    { subst ids. rewrite rev_length. unfold res_ids, count_res. apply map_length. }
    rewrite count_auto_sort in Hlt. pose proof (count_split order).
    rewrite <- (set_order_length inp order Hord). lia.
Qed.

Lemma assign_injective_lemma : forall inp order v a, set_order inp order ->
  assign_in_order order inp v = Ok a ->
  forall s1 s2 n, lookup (r_map a) s1 = Some n -> lookup (r_map a) s2 = Some n -> s1 = s2.
Proof.
  intros inp order v a Hord H s1 s2 n H1 H2. destruct (assign_ok_facts _ _ _ _ Hord H) as [_ _ Hv _].
  eapply NoDup_snd_inj; eauto using lookup_In.
Qed.

(* every referenced slot receives a number *)
Lemma assign_total_lemma : forall inp order v a, set_order inp order ->
  assign_in_order order inp v = Ok a ->
  forall s, referenced inp s <-> exists n, lookup (r_map a) s = Some n.
Proof.
  intros inp order v a Hord H s. destruct (assign_ok_facts _ _ _ _ Hord H) as [Hk _ _ _]. split.
  - intros Hs. apply lookup_total. apply Hk. exact Hs.
  - intros [n Hn]. apply Hk. apply lookup_In in Hn. change s with (fst (s, n)). apply in_map. exact Hn.
Qed.

Lemma assign_respects_requested_lemma : forall inp order v a, set_order inp order ->
  assign_in_order order inp v = Ok a ->
  forall s, referenced inp s -> sl_res s = true -> lookup (r_map a) s = Some (sl_id s).
Proof.
  intros inp order v a Hord H s Hs R.
  destruct (proj1 (assign_total_lemma _ _ _ _ Hord H s) Hs) as [n Hn].
  destruct (assign_ok_facts _ _ _ _ Hord H) as [_ _ _ He].
  destruct (He s n (lookup_In _ _ _ Hn)) as [[_ ->]|[R' _]]; [exact Hn | congruence].
Qed.

Lemma assign_in_range_lemma : forall inp order v a, set_order inp order -> requested_ids_valid inp ->
  assign_in_order order inp v = Ok a ->
  forall s n, lookup (r_map a) s = Some n -> n < NUM_SLOTS.
Proof.
  intros inp order v a Hord Hvalid H s n Hn.
  assert (Hs : referenced inp s) by (apply (assign_total_lemma _ _ _ _ Hord H); eauto).
  destruct (assign_ok_facts _ _ _ _ Hord H) as [_ _ _ He].
  apply assign_ok_inv in H. destruct H as [ids [_ [Hlen _]]].
  rewrite (set_order_length inp order Hord) in Hlen.
  destruct (He s n (lookup_In _ _ _ Hn)) as [[R ->]|[_ Hlt]]; [apply Hvalid; auto | lia].
Qed.

(* automatic slots are numbered below the number of distinct slots, whatever NUM_SLOTS is *)
Lemma assign_auto_below_count_lemma : forall inp order v a, set_order inp order ->
  assign_in_order order inp v = Ok a ->
  forall s n, lookup (r_map a) s = Some n -> sl_res s = false -> n < slot_count inp.
Proof.
  intros inp order v a Hord H s n Hn R. destruct (assign_ok_facts _ _ _ _ Hord H) as [_ _ _ He].
  unfold slot_count. destruct (He s n (lookup_In _ _ _ Hn)) as [[R' _]|[_ Hlt]]; [congruence | lia].
Qed.

(* the four outcomes, decided by conflicts / count / the validateSlots parameter *)
Lemma conflict_of_dup inp order i : set_order inp order -> dup_check order [] = inl i -> conflict_on inp i.
Proof.
  intros Hord Hd. apply dup_check_inl in Hd. destruct Hd as (l1 & s & l2 & Hl & R & Hi & Hin).
  rewrite app_nil_r, <- in_rev, res_ids_In in Hin. destruct Hin as (s' & Hs' & R' & Hi').
  pose proof (set_order_NoDup inp order Hord) as Hnd. subst order.
  exists s', s. repeat split; auto.
  - apply (set_order_In inp _ s' Hord). apply in_app_iff. left. exact Hs'.
  - apply (set_order_In inp _ s Hord). apply in_app_iff. right. left. reflexivity.
  - intros ->. apply NoDup_remove_2 in Hnd. apply Hnd. apply in_app_iff. left. exact Hs'.
Qed.

Lemma no_conflict_of_inr inp order ids : set_order inp order -> dup_check order [] = inr ids -> ~ has_conflict inp.
Proof.
  intros Hord Hd [i [s1 [s2 [H1 [H2 [Hne [R1 [R2 [I1 I2]]]]]]]]].
  apply dup_check_inr in Hd. destruct Hd as [_ [_ Hnd]]. apply Hne.
  apply (res_ids_NoDup_unique order Hnd); auto; try (apply (set_order_In inp order _ Hord); assumption). congruence.
Qed.

(* the four outcomes, exclusive and exhaustive *)
Lemma assign_outcome inp order v : set_order inp order ->
  (exists i, conflict_on inp i /\ assign_in_order order inp v = Err (SlotIdAssignedTwice i)) \/
  (~ has_conflict inp /\
   ((NUM_SLOTS < slot_count inp /\ assign_in_order order inp v = Err (TooManySlots (slot_count inp))) \/
    (slot_count inp <= NUM_SLOTS /\
     ((v = false /\ assign_in_order order inp v = Err ValidateFailed) \/
      (v = true /\ exists a, assign_in_order order inp v = Ok a))))).
Proof.
  intros Hord. unfold assign_in_order, slot_count. rewrite (set_order_length inp order Hord).
  destruct (dup_check order []) as [i|ids] eqn:Ed.
  - left. exists i. split; [exact (conflict_of_dup inp order i Hord Ed)|reflexivity].
  - right. split; [exact (no_conflict_of_inr inp order ids Hord Ed)|].
    destruct (N.ltb_spec NUM_SLOTS (N.of_nat (List.length (all_slots inp)))) as [Hlt|Hge]; [left; auto|].
    right. split; [exact Hge|]. destruct v; cbn [negb]; eauto.
Qed.

Lemma assign_error_iff_lemma : forall inp order v, set_order inp order ->
  (has_conflict inp -> exists i, conflict_on inp i /\ assign_in_order order inp v = Err (SlotIdAssignedTwice i)) /\
  (~ has_conflict inp -> NUM_SLOTS < slot_count inp -> assign_in_order order inp v = Err (TooManySlots (slot_count inp))) /\
  (~ has_conflict inp -> slot_count inp <= NUM_SLOTS -> v = false -> assign_in_order order inp v = Err ValidateFailed) /\
  (~ has_conflict inp -> slot_count inp <= NUM_SLOTS -> v = true -> exists a, assign_in_order order inp v = Ok a).
Proof.
  intros inp order v Hord.
  destruct (assign_outcome inp order v Hord) as [(i & Hc & E)|(Hn & [(L & E)|(L & [(V & E)|(V & E)])])].
  - split; [eauto|]. repeat split; intros Hn; exfalso; apply Hn; exists i; exact Hc.
  - split; [contradiction|]. repeat split; intros; (exact E || lia).
  - split; [contradiction|]. repeat split; intros; (exact E || lia || congruence).
  - split; [contradiction|]. repeat split; intros; (exact E || lia || congruence).
Qed.

(* the literal iff of the property statement *)
Lemma assign_rejects_iff_lemma : forall inp order v, set_order inp order ->
  ((exists i, assign_in_order order inp v = Err (SlotIdAssignedTwice i)) <-> has_conflict inp) /\
  ((exists n, assign_in_order order inp v = Err (TooManySlots n)) <-> ~ has_conflict inp /\ NUM_SLOTS < slot_count inp) /\
  ((exists a, assign_in_order order inp v = Ok a) <-> ~ has_conflict inp /\ slot_count inp <= NUM_SLOTS /\ v = true).
Proof.
  intros inp order v Hord.
  destruct (assign_outcome inp order v Hord) as [(i & Hc & E)|(Hn & [(L & E)|(L & [(V & E)|(V & (a & E))])])];
    rewrite E.
  - assert (Hh : has_conflict inp) by (exists i; exact Hc).
    split; [split; eauto|]. split; split; try (intros [? ?]; discriminate); tauto.
  - split; [split; [intros [? ?]; discriminate|contradiction]|].
    split; [split; eauto|]. split; [intros [? ?]; discriminate|lia].
  - split; [split; [intros [? ?]; discriminate|contradiction]|].
    split; split; try (intros [? ?]; discriminate); [lia|]. intros (_ & _ & ?). congruence.
  - split; [split; [intros [? ?]; discriminate|contradiction]|].
    split; [split; [intros [? ?]; discriminate|lia]|]. split; eauto.
Qed.

(* one function of the slot object decides every rewritten argument, whatever the op *)
Definition number_of (m : list (slot * N)) (s : slot) : N := match lookup m s with Some n => n | None => 0 end.

Lemma rewrite_arg_subst m a : (forall s, In s (arg_slots a) -> exists n, lookup m s = Some n) ->
  rewrite_arg m a = subst_arg (number_of m) a.
Proof.
  destruct a as [s|n|t]; cbn [rewrite_arg subst_arg arg_slots]; auto.
  intros H. destruct (H s (or_introl eq_refl)) as [n Hn]. unfold number_of. rewrite Hn. reflexivity.
Qed.

Lemma index_sees_assignment_lemma : forall inp order v a, set_order inp order ->
  assign_in_order order inp v = Ok a ->
  exists f : slot -> N,
    (forall s, referenced inp s -> lookup (r_map a) s = Some (f s)) /\
    r_ops a = map (map (subst_op f)) inp /\
    r_locals a = map (map f) (snd (collect inp)).
Proof.
  intros inp order v a Hord H. exists (number_of (r_map a)).
  pose proof (assign_total_lemma _ _ _ _ Hord H) as Htot.
  apply assign_ok_inv in H. destruct H as [ids [_ [_ [_ ->]]]]. cbn [r_ops r_locals r_map] in *.
  split; [|split].
  - intros s Hs. destruct (proj1 (Htot s) Hs) as [n Hn]. unfold number_of. rewrite Hn. reflexivity.
  - apply map_ext_in. intros r Hr. apply map_ext_in. intros o Ho.
    unfold rewrite_op, subst_op. f_equal. apply map_ext_in. intros x Hx. apply rewrite_arg_subst.
    intros s Hs. apply Htot. unfold referenced, all_refs. apply in_flat_map. exists r. split; auto.
    unfold routine_refs. apply in_flat_map. exists o. split; auto.
    unfold op_slots. apply in_flat_map. exists x. split; auto.
  - assert (Hloc : forall l, In l (snd (collect inp)) -> forall s, In s l -> referenced inp s).
    { intros l Hl s Hs. apply all_slots_spec. unfold all_slots. destruct (collect inp) as [g ls]. cbn [snd] in Hl.
      apply set_union_In. right. apply set_of_In. apply in_concat. exists l. auto. }
    apply map_ext_in. intros l Hl. specialize (Hloc l Hl). unfold assigned_locals.
    clear Hl. induction l as [|s l IH]; cbn [flat_map map]; auto.
    destruct (proj1 (Htot s) (Hloc s (or_introl eq_refl))) as [n Hn]. unfold number_of at 1. rewrite Hn.
    cbn [app]. f_equal. apply IH. intros s' Hs'. apply Hloc. right. exact Hs'.
Qed.

(* no placeholder survives the rewriting *)
Lemma rewrite_complete_lemma : forall inp order v a, set_order inp order ->
  assign_in_order order inp v = Ok a ->
  forall r o x, In r (r_ops a) -> In o r -> In x (o_args o) -> forall s, x <> ASlot s.
Proof.
  intros inp order v a Hord H r o x Hr Ho Hx s.
  destruct (index_sees_assignment_lemma _ _ _ _ Hord H) as [f [_ [Hops _]]]. rewrite Hops in Hr.
  apply in_map_iff in Hr. destruct Hr as [r0 [<- Hr0]].
  apply in_map_iff in Ho. destruct Ho as [o0 [<- Ho0]].
  unfold subst_op in Hx. cbn [o_args] in Hx. apply in_map_iff in Hx. destruct Hx as [x0 [<- Hx0]].
  destruct x0; cbn [subst_arg]; discriminate.
Qed.

Lemma next_free_ext u1 u2 n : (forall k, In k u1 <-> In k u2) ->
  next_free (S (List.length u1)) u1 n = next_free (S (List.length u2)) u2 n.
Proof.
  intros H. destruct (next_free_spec u1 n) as [A1 [A2 A3]]. destruct (next_free_spec u2 n) as [B1 [B2 B3]].
  set (v1 := next_free (S (List.length u1)) u1 n) in *. set (v2 := next_free (S (List.length u2)) u2 n) in *.
  clearbody v1 v2. destruct (N.lt_trichotomy v1 v2) as [Hlt|[Heq|Hgt]]; auto.
  - exfalso. apply A1. apply H. apply B3; auto.
  - exfalso. apply B1. apply H. apply A3; auto.
Qed.

Lemma assign_loop_ext : forall l next u1 u2, (forall k, In k u1 <-> In k u2) ->
  assign_loop l next u1 = assign_loop l next u2.
Proof.
  induction l as [|a l IH]; intros next u1 u2 H; cbn [assign_loop]; auto.
  rewrite (next_free_ext u1 u2 next H). destruct (sl_res a); f_equal; apply IH; auto.
  intros k. cbn [In]. rewrite H. tauto.
Qed.

Lemma assign_order_independent_lemma : forall inp o1 o2 v, set_order inp o1 -> set_order inp o2 ->
  ids_distinct inp -> assign_in_order o1 inp v = assign_in_order o2 inp v.
Proof.
  intros inp o1 o2 v H1 H2 Hd.
  assert (Hnc : ~ has_conflict inp).
  { intros [i [s1 [s2 [R1 [R2 [Hne [_ [_ [I1 I2]]]]]]]]]. apply Hne. apply Hd; auto. congruence. }
  assert (Hs : sort_slots o1 = sort_slots o2).
  { rewrite !sort_slots_sort_by. apply sort_by_perm_eq; [exact (perm_trans H1 (Permutation_sym H2))|].
    intros a b Ha Hb. apply Hd; apply (set_order_In inp o1 _ H1); assumption. }
  unfold assign_in_order.
  rewrite (set_order_length inp o1 H1), (set_order_length inp o2 H2), Hs.
  destruct (dup_check o1 []) as [i|ids1] eqn:E1.
  { exfalso. apply Hnc. exists i. exact (conflict_of_dup inp o1 i H1 E1). }
  destruct (dup_check o2 []) as [i|ids2] eqn:E2.
  { exfalso. apply Hnc. exists i. exact (conflict_of_dup inp o2 i H2 E2). }
  apply dup_check_inr in E1, E2. destruct E1 as [-> _], E2 as [-> _]. rewrite !app_nil_r.
  assert (Hids : forall k, In k (rev (res_ids o1)) <-> In k (rev (res_ids o2))).
  { intros k. rewrite <- !in_rev, !res_ids_In.
    split; intros [s [Hs' Hr]]; exists s; (split; [|exact Hr]).
    - apply (set_order_In inp o2 s H2). apply (set_order_In inp o1 s H1). exact Hs'.
    - apply (set_order_In inp o1 s H1). apply (set_order_In inp o2 s H2). exact Hs'. }
  rewrite (assign_loop_ext _ 0 _ _ Hids). reflexivity.
Qed.

Lemma new_slot_requested uid z c s c' : new_slot uid (Some z) c = NewSlot s c' ->
  sl_res s = true /\ sl_id s < NUM_SLOTS /\ Z.of_N (sl_id s) = z /\ sl_uid s = uid /\ c' = c.
Proof.
  unfold new_slot. destruct (Z.ltb_spec z 0) as [Hneg|Hpos]; cbn [orb]; [discriminate|].
  destruct (Z.leb_spec (Z.of_N NUM_SLOTS) z) as [Hbig|Hok]; [discriminate|].
  intros H. inversion H; subst. cbn. repeat split; lia.
Qed.

Lemma new_slot_invalid_iff uid z c : new_slot uid (Some z) c = InvalidSlotId <-> (z < 0 \/ Z.of_N NUM_SLOTS <= z)%Z.
Proof.
  unfold new_slot. destruct (Z.ltb_spec z 0) as [Hneg|Hpos]; cbn [orb]; [split; auto|].
  destruct (Z.leb_spec (Z.of_N NUM_SLOTS) z) as [Hbig|Hok]; split; auto; try discriminate. lia.
Qed.

Lemma new_slot_automatic uid c s c' : new_slot uid None c = NewSlot s c' ->
  sl_res s = false /\ sl_id s = c /\ sl_uid s = uid /\ c' = c + 1.
Proof. unfold new_slot. intros H. inversion H; subst. cbn. auto. Qed.

Lemma make_slots_spec : forall reqs uid c l c', make_slots reqs uid c = Some (l, c') ->
  c <= c' /\
  (forall s, In s l -> sl_res s = true -> sl_id s < NUM_SLOTS) /\
  (forall s, In s l -> sl_res s = false -> c <= sl_id s /\ sl_id s < c') /\
  (forall s, In s l -> uid <= sl_uid s) /\
  NoDup (map sl_uid l) /\
  (forall s1 s2, In s1 l -> In s2 l -> sl_res s1 = false -> sl_res s2 = false -> sl_id s1 = sl_id s2 -> s1 = s2).
Proof.
  induction reqs as [|r reqs IH]; intros uid c l c' H; cbn [make_slots] in H.
  - inversion H; subst. split; [lia|]. split; [intros ? []|]. split; [intros ? []|]. split; [intros ? []|].
    split; [constructor|]. intros ? ? [].
  - destruct (new_slot uid r c) as [s c1|] eqn:En; [|discriminate].
    destruct (make_slots reqs (uid + 1) c1) as [[l1 c2]|] eqn:Em; [|discriminate].
    inversion H; subst; clear H. apply IH in Em. destruct Em as [Hc [Hr [Ha [Hu [Hnd Hinj]]]]].
    assert (Hs : sl_uid s = uid /\ c <= c1 /\ (sl_res s = true -> sl_id s < NUM_SLOTS) /\ (sl_res s = false -> sl_id s = c /\ c1 = c + 1)).
    { destruct r as [z|].
      - apply new_slot_requested in En. destruct En as [R [Hlt [_ [Hu' ->]]]]. repeat split; auto; try lia; congruence.
      - apply new_slot_automatic in En. destruct En as [R [Hi [Hu' ->]]]. repeat split; auto; try lia; congruence. }
    destruct Hs as [Hsu [Hcc [Hsr Hsa]]].
    split; [lia|]. split; [|split; [|split; [|split]]].
    + intros x [<-|Hx]; auto.
    + intros x [<-|Hx] R.
      * destruct (Hsa R). lia.
      * destruct (Ha x Hx R). lia.
    + intros x [<-|Hx]; [lia|]. specialize (Hu x Hx). lia.
    + cbn [map]. constructor; auto. intro Hin. apply in_map_iff in Hin. destruct Hin as [x [Hxu Hx]].
      specialize (Hu x Hx). lia.
    + intros s1 s2 [<-|H1] [<-|H2] R1 R2 Hi; auto.
      * exfalso. destruct (Hsa R1). destruct (Ha s2 H2 R2). lia.
      * exfalso. destruct (Hsa R2). destruct (Ha s1 H1 R1). lia.
Qed.

(* what a program gets from the constructor: valid requested ids, and no two slots with one id
   unless two of them REQUEST it (the counter starts at NUM_SLOTS and only grows) *)
Lemma constructor_establishes_lemma : forall reqs uid c l c' inp,
  make_slots reqs uid c = Some (l, c') -> NUM_SLOTS <= c ->
  (forall s, referenced inp s -> In s l) ->
  requested_ids_valid inp /\ (~ has_conflict inp -> ids_distinct inp).
Proof.
  intros reqs uid c l c' inp Hm Hc Hin. apply make_slots_spec in Hm.
  destruct Hm as [_ [Hr [Ha [_ [_ Hinj]]]]]. split.
  - intros s Hs R. apply Hr; auto.
  - intros Hnc s1 s2 H1 H2 Hi.
    destruct (sl_res s1) eqn:R1, (sl_res s2) eqn:R2.
    + destruct (slot_eq_dec s1 s2) as [|Hne]; auto. exfalso. apply Hnc. exists (sl_id s1), s1, s2. repeat split; auto.
    + exfalso. pose proof (Hr s1 (Hin s1 H1) R1). destruct (Ha s2 (Hin s2 H2) R2). lia.
    + exfalso. pose proof (Hr s2 (Hin s2 H2) R2). destruct (Ha s1 (Hin s1 H1) R1). lia.
    + apply Hinj; auto.
Qed.

Lemma alloc_abstract_var_spec st v st' : alloc_abstract_var st = (v, st') ->
  match st with
  | None => v = ScratchVarNew /\ st' = None
  | Some n =>
      (n < MAX_FRAME_LOCAL_VARS /\ v = FrameVarAt n /\ st' = Some (n + 1)) \/
      (MAX_FRAME_LOCAL_VARS <= n /\ v = ScratchVarNew /\ st' = Some n)
  end.
Proof.
  unfold alloc_abstract_var. destruct st as [n|]; [|intros H; inversion H; auto].
  destruct (N.leb_spec (n + 1) MAX_FRAME_LOCAL_VARS) as [Hle|Hgt]; intros H; inversion H; subst; [left|right]; repeat split; lia.
Qed.

(* any number of allocations: the frame never holds more than MAX_FRAME_LOCAL_VARS locals, every
   frame index handed out is fresh (n0 <= index < final size) and distinct, and once the frame is
   full every further variable is a scratch variable *)
Lemma alloc_many_spec : forall k n0 vs st', alloc_many k (Some n0) = (vs, st') ->
  exists n', st' = Some n' /\ n0 <= n' /\ (n0 <= MAX_FRAME_LOCAL_VARS -> n' <= MAX_FRAME_LOCAL_VARS) /\
    (forall i, In (FrameVarAt i) vs -> n0 <= i /\ i < n' /\ i < MAX_FRAME_LOCAL_VARS) /\
    NoDup (filter (fun v => match v with FrameVarAt _ => true | ScratchVarNew => false end) vs) /\
    N.of_nat (List.length (filter (fun v => match v with FrameVarAt _ => true | ScratchVarNew => false end) vs)) = n' - n0 /\
    (MAX_FRAME_LOCAL_VARS <= n0 -> Forall (fun v => v = ScratchVarNew) vs).
Proof.
  induction k as [|k IH]; intros n0 vs st' H; cbn [alloc_many] in H.
  - inversion H; subst. exists n0. split; auto. split; [lia|]. split; auto. split; [intros i []|].
    split; [constructor|]. split; [cbn; lia|]. constructor.
  - destruct (alloc_abstract_var (Some n0)) as [v st1] eqn:Ea.
    destruct (alloc_many k st1) as [vs1 st2] eqn:Em. inversion H; subst; clear H.
    apply alloc_abstract_var_spec in Ea. destruct Ea as [[Hlt [-> ->]]|[Hge [-> ->]]].
    + apply IH in Em. destruct Em as [n' [-> [Hle [Hmax [Hidx [Hnd [Hcnt Hfull]]]]]]].
      exists n'. split; auto. split; [lia|]. split; [intros; apply Hmax; lia|]. split; [|split; [|split]].
      * intros i [Heq|Hi]; [inversion Heq; subst; lia|]. specialize (Hidx i Hi). lia.
      * cbn [filter]. constructor; auto. intro Hin. apply filter_In in Hin. destruct Hin as [Hin _].
        specialize (Hidx n0 Hin). lia.
      * cbn [filter List.length]. lia.
      * intros; lia.
    + apply IH in Em. destruct Em as [n' [-> [Hle [Hmax [Hidx [Hnd [Hcnt Hfull]]]]]]].
      exists n'. split; auto. split; [lia|]. split; [auto|]. split; [|split; [|split]].
      * intros i [Heq|Hi]; [discriminate|]. apply Hidx. exact Hi.
      * cbn [filter]. exact Hnd.
      * cbn [filter]. exact Hcnt.
      * intros _. constructor; auto.
Qed.

Lemma alloc_many_no_proto : forall k vs st', alloc_many k None = (vs, st') ->
  st' = None /\ Forall (fun v => v = ScratchVarNew) vs.
Proof.
  induction k as [|k IH]; intros vs st' H; cbn [alloc_many alloc_abstract_var] in H.
  - inversion H; subst. split; auto.
  - destruct (alloc_many k None) as [vs1 st2]. destruct (IH vs1 st2 eq_refl) as [-> HF].
    inversion H; subst. split; auto.
Qed.

(* the regenerated constants fit the machine: scratch has 256 cells (AVM/Machine.v tests i <? 256),
   and frame_dig/frame_bury take an int8, so a local index must stay below 128 *)
Lemma num_slots_fits_avm : NUM_SLOTS <= 256.
Proof. vm_compute. discriminate. Qed.
Lemma frame_locals_fit_int8 : MAX_FRAME_LOCAL_VARS <= 128.
Proof. vm_compute. discriminate. Qed.

Lemma others_from_In s i : forall sets j,
  In s (others_from i j sets) <-> exists k t, nth_error sets k = Some t /\ (j + k)%nat <> i /\ In s t.
Proof.
  induction sets as [|a sets IH]; intros j; cbn [others_from].
  - split; [intros []|]. intros [k [t [H _]]]. destruct k; discriminate.
  - rewrite in_app_iff, (IH (S j)). split.
    + intros [H|[k [t [H1 [H2 H3]]]]].
      * destruct (Nat.eqb_spec i j) as [->|Hne]; [destruct H|]. exists 0%nat, a. cbn. split; auto. split; [lia|auto].
      * exists (S k), t. cbn. split; auto. split; [lia|auto].
    + intros [k [t [H1 [H2 H3]]]]. destruct k as [|k]; cbn in H1.
      * inversion H1; subst. left. destruct (Nat.eqb_spec i j) as [->|Hne]; [lia|auto].
      * right. exists k, t. split; auto. split; [lia|auto].
Qed.

Lemma others_of_In s i sets :
  In s (others_of i sets) <-> exists k t, nth_error sets k = Some t /\ k <> i /\ In s t.
Proof. unfold others_of. rewrite set_of_In, others_from_In. cbn. tauto. Qed.

Lemma collect_loop_locals : forall todo i all glob g ls,
  collect_loop i todo all glob = (g, ls) ->
  (forall k, nth_error todo k = nth_error all (i + k)) ->
  (forall s, In s glob -> exists j t, (j < i)%nat /\ nth_error all j = Some t /\ In s t) ->
  forall k t l, nth_error todo k = Some t -> nth_error ls k = Some l ->
    forall s, In s l <-> In s t /\ ~ In s (others_of (i + k) all).
Proof.
  induction todo as [|t0 todo IH]; intros i all glob g ls H Hnth Hglob k t l Ht Hl s; cbn [collect_loop] in H.
  - destruct k; discriminate.
  - destruct (collect_loop (S i) todo all (set_union glob (set_inter t0 (others_of i all)))) as [g' ls'] eqn:E.
    inversion H; subst; clear H.
    assert (Hi : nth_error all i = Some t0).
    { pose proof (Hnth 0%nat) as H0. rewrite Nat.add_0_r in H0. rewrite <- H0. reflexivity. }
    destruct k as [|k]; cbn [nth_error] in Ht, Hl.
    + inversion Ht; subst. inversion Hl; subst. rewrite Nat.add_0_r, set_diff_In, set_union_In, set_inter_In. split.
      * intros [Hs Hn]. split; auto.
      * intros [Hs Hn]. split; auto. intros [Hg|[_ Ho]]; [|contradiction].
        destruct (Hglob s Hg) as [j [t' [Hj [Hjt Hst]]]]. apply Hn. apply others_of_In. exists j, t'. split; auto. split; [lia|auto].
    + replace (i + S k)%nat with (S i + k)%nat by lia.
      apply (IH (S i) all _ g ls' E) with (t := t) (l := l); auto.
      * intros k'. pose proof (Hnth (S k')) as Hk. cbn [nth_error] in Hk. rewrite Hk.
        f_equal. lia.
      * intros s' Hs'. apply set_union_In in Hs'. destruct Hs' as [Hs'|Hs'].
        -- destruct (Hglob s' Hs') as [j [t' [Hj [Hjt Hst]]]]. exists j, t'. split; [lia|auto].
        -- apply set_inter_In in Hs'. exists i, t0. split; [lia|]. split; tauto.
Qed.

(* local slots of routine number k = the slots only routine k references *)
Lemma collect_locals_spec inp k r l :
  nth_error inp k = Some r -> nth_error (snd (collect inp)) k = Some l ->
  forall s, In s l <-> In s (routine_refs r) /\
                       forall j r', nth_error inp j = Some r' -> j <> k -> ~ In s (routine_refs r').
Proof.
  unfold collect. intros Hr Hl s.
  destruct (collect_loop 0 (map routine_slots inp) (map routine_slots inp) []) as [g ls] eqn:E. cbn [snd] in Hl.
  assert (Ht : nth_error (map routine_slots inp) k = Some (routine_slots r)) by (rewrite nth_error_map, Hr; reflexivity).
  rewrite (collect_loop_locals _ _ _ _ _ _ E (fun k' => eq_refl) (fun s' (F : In s' []) => match F with end) k _ l Ht Hl s).
  cbn [Nat.add]. unfold routine_slots at 1. rewrite set_of_In, others_of_In. split.
  - intros [Hs Hn]. split; auto. intros j r' Hj Hne Hs'. apply Hn. exists j, (routine_slots r').
    split; [rewrite nth_error_map, Hj; reflexivity|]. split; auto. apply set_of_In. exact Hs'.
  - intros [Hs Hn]. split; auto. intros [j [t [Hj [Hne Hst]]]]. rewrite nth_error_map in Hj.
    destruct (nth_error inp j) as [r'|] eqn:Ej; [|discriminate]. inversion Hj; subst.
    apply (Hn j r' Ej Hne). unfold routine_slots in Hst. apply (proj1 (set_of_In _ _)) in Hst. exact Hst.
Qed.
