(* Proofs/CallComposeSpillPass.v — property C02, recursion: the pass [spill] (model of
   spillLocalSlotsDuringRecursion) with its local definitions named, read as a wrapping of call
   statements in the sense of Proofs/CallComposeSpill.v:
   [sp_wrapper r f] = the code [spill_one] puts before and after a call of f inside routine r
   (None when r is not re-entered through f, or r has no local slots).
   [spill_unit]: if a routine's own code is a correct unit for the wrapping oracle, the code the spill
   pass makes of it is a correct unit for the raw oracle. *)
From Coq Require Import List Arith NArith String Bool Lia.
From PV Require Import Base.Bytes AVM.Syntax AVM.Machine Src.Expr Src.DenoteCall
  Comp.Blocks Comp.Lower Comp.Passes Comp.Compile
  Proofs.LowerShape Proofs.NormalizeLowered Proofs.StageELink Proofs.SpillProof
  CallX.Denote CallX.DoOp CallX.GraphSem CallX.LinearSem CallX.FlattenCorrect CallX.EndToEnd
  Proofs.CallComposeLink Proofs.CallComposeMain Proofs.CallComposeSpill.
Import ListNotations.
Local Open Scope list_scope.

(* spill_one = before ++ [call] ++ after *)
Definition sp_pre (version : N) (slots : list N) (numArgs : nat) : list comp :=
  let nslots := List.length slots in
  let coverAvailable := N.leb 5 version in
  let digArgs := negb coverAvailable in
  let coverSpilled := coverAvailable && Nat.ltb nslots numArgs in
  let uncoverArgs := coverAvailable && negb (Nat.ltb nslots numArgs) in
  let before1 := flat_map (fun s => OpI O_load s :: (if coverSpilled then [OpI O_cover (N.of_nat numArgs)] else [])) slots in
  let dist := (nslots + numArgs - 1)%nat in
  let before2 := flat_map (fun _ =>
                   (if uncoverArgs then (if Nat.eqb dist 1 then [Op0 O_swap] else [OpI O_uncover (N.of_nat dist)]) else [])
                   ++ (if digArgs then [OpI O_dig (N.of_nat dist)] else [])) (seq 0 numArgs) in
  before1 ++ before2.

Definition sp_post (version : N) (caller_returns : bool) (slots : list N) (numArgs : nat) : list comp :=
  let nslots := List.length slots in
  let coverAvailable := N.leb 5 version in
  let digArgs := negb coverAvailable in
  let hide := caller_returns && negb (Nat.eqb nslots 1) && negb coverAvailable in
  let after1 := if caller_returns then
                  if Nat.eqb nslots 1 then [Op0 O_swap]
                  else if coverAvailable then [OpI O_cover (N.of_nat nslots)]
                  else [OpI O_store (hd 0%N slots)]
                else [] in
  let after2 := flat_map (fun s =>
                   (if hide && N.eqb s (hd 0%N slots) then [OpI O_load s; Op0 O_swap] else [])
                   ++ [OpI O_store s]) (rev slots) in
  let after3 := if digArgs then flat_map (fun _ => (if caller_returns then [Op0 O_swap] else []) ++ [Op0 O_pop]) (seq 0 numArgs) else [] in
  after1 ++ after2 ++ after3.

Lemma spill_one_split version cr slots numArgs stmt :
  spill_one version cr slots numArgs stmt = sp_pre version slots numArgs ++ [stmt] ++ sp_post version cr slots numArgs.
Proof. unfold spill_one, sp_pre, sp_post. cbv zeta. rewrite <- !app_assoc. reflexivity. Qed.

(* the two halves against the explicit code paths of Proofs/SpillProof.v *)
Lemma sp_pre_eq version slots numArgs : sp_pre version slots numArgs = before_code version slots numArgs.
Proof. exact (before_paths version slots numArgs). Qed.

Lemma sp_post_eq version cr slots numArgs : NoDup slots ->
  sp_post version cr slots numArgs = after_code version cr slots numArgs.
Proof. exact (after_paths version cr slots numArgs). Qed.

(* the spill code consists of seven opcodes with integer immediates *)
Definition spill_opc (o : opc) : bool :=
  match o with O_load | O_store | O_cover | O_uncover | O_dig | O_swap | O_pop => true | _ => false end.

Definition spill_comp (c : comp) : Prop :=
  exists o ns, c = COp (mkI o (map AInt ns)) /\ spill_opc o = true.

Lemma spill_opc_inv o : spill_opc o = true -> In o [O_load; O_store; O_cover; O_uncover; O_dig; O_swap; O_pop].
Proof. destruct o; try discriminate; intros _; cbn; tauto. Qed.

Lemma spill_comp_straight c : spill_comp c -> straight c = true.
Proof. intros (o & ns & -> & Ho). destruct (spill_opc_inv o Ho) as [<-|[<-|[<-|[<-|[<-|[<-|[<-|[]]]]]]]]; reflexivity. Qed.

Lemma spill_code_straight l : Forall spill_comp l -> forallb straight l = true.
Proof. induction 1 as [|c t Hc _ IH]; [reflexivity|]. cbn [forallb]. rewrite (spill_comp_straight c Hc), IH. reflexivity. Qed.

Lemma sc_OpI o n : spill_opc o = true -> spill_comp (OpI o n).
Proof. intros H. exists o, [n]. split; [reflexivity|exact H]. Qed.
Lemma sc_Op0 o : spill_opc o = true -> spill_comp (Op0 o).
Proof. intros H. exists o, []. split; [reflexivity|exact H]. Qed.

Lemma sp_pre_spill version slots numArgs : Forall spill_comp (sp_pre version slots numArgs).
Proof.
  unfold sp_pre. cbv zeta. apply Forall_app. split; apply Forall_flat_map, Forall_forall; intros x _.
  - destruct (_ && _); repeat constructor; apply sc_OpI; reflexivity.
  - destruct (_ && _); destruct (negb _); try destruct (Nat.eqb _ 1); repeat constructor; (apply sc_OpI || apply sc_Op0); reflexivity.
Qed.

Lemma sp_post_spill version cr slots numArgs : Forall spill_comp (sp_post version cr slots numArgs).
Proof.
  unfold sp_post. cbv zeta. repeat (apply Forall_app; split).
  - destruct cr; [|constructor]. destruct (Nat.eqb _ 1); [|destruct (N.leb 5 version)]; repeat constructor;
      (apply sc_OpI || apply sc_Op0); reflexivity.
  - apply Forall_flat_map, Forall_forall. intros x _. destruct (_ && _); repeat constructor; (apply sc_OpI || apply sc_Op0); reflexivity.
  - destruct (negb _); [|constructor]. apply Forall_flat_map, Forall_forall. intros x _.
    destruct cr; repeat constructor; apply sc_Op0; reflexivity.
Qed.

Section SpillPass.
  Variable version : N.
  Variable p : prog.
  Variable frs : list flat_routine.
  Variable locals : list (option N * list N).

  Definition sp_graph : list (N * list N) :=
    flat_map (fun fr => match fr_sub fr with
                        | Some r => [(r_id r, sort_dedup (flat_map comp_subs (fr_ops fr)))]
                        | None => [] end) frs.

  Definition sp_reentry (s : N) : list N :=
    let n := S (List.length sp_graph) in
    match find (fun x => N.eqb (fst x) s) sp_graph with
    | Some (_, callees) =>
        filter (fun c => graph_search (n * n + n) sp_graph
                           (match find (fun x => N.eqb (fst x) c) sp_graph with Some (_, l) => l | None => [] end) [] s) callees
    | None => []
    end.

  Definition sp_slots (r : routine) : list N :=
    match find (fun x => match fst x with Some k => N.eqb k (r_id r) | None => false end) locals with
    | Some (_, l) => l | None => [] end.

  Definition sp_numargs (callee : N) : nat :=
    match find_sub p callee with Some cr => N.to_nat (r_nargs cr) | None => O end.
  Definition sp_returns (callee : N) : bool :=
    match find_sub p callee with Some cr => negb (ty_eqb (r_ret cr) TNone) | None => false end.

  Definition sp_stmt (re slots : list N) (stmt : comp) : list comp :=
    match filter (fun c => mem_N c re) (comp_subs stmt) with
    | callee :: _ => spill_one version (sp_returns callee) slots (sp_numargs callee) stmt
    | [] => [stmt]
    end.

  (* is routine r spilled at all? *)
  Definition sp_active (r : routine) : bool :=
    match sp_reentry (r_id r), sp_slots r with
    | [], _ | _, [] => false
    | _, _ => true
    end.

  Definition sp_fr (fr : flat_routine) : flat_routine :=
    match fr_sub fr with
    | None => fr
    | Some r =>
        if sp_active r
        then mkFR (fr_sub fr) (flat_map (sp_stmt (sp_reentry (r_id r)) (sp_slots r)) (fr_ops fr))
        else fr
    end.

  Lemma sp_fr_sub fr : fr_sub (sp_fr fr) = fr_sub fr.
  Proof. unfold sp_fr. destruct (fr_sub fr) as [r|] eqn:E; [|exact E]. destruct (sp_active r); [reflexivity|exact E]. Qed.

  (* the per-routine function of [spill], literally *)
  Definition sp_fr' (fr : flat_routine) : flat_routine :=
    match fr_sub fr with
    | None => fr
    | Some r =>
        let re := sp_reentry (r_id r) in
        let slots := sp_slots r in
        match re, slots with
        | [], _ | _, [] => fr
        | _, _ => mkFR (fr_sub fr) (flat_map (sp_stmt re slots) (fr_ops fr))
        end
    end.

  Lemma sp_fr_eq fr : sp_fr' fr = sp_fr fr.
  Proof.
    unfold sp_fr', sp_fr, sp_active. destruct (fr_sub fr) as [r|]; [|reflexivity]. cbv zeta.
    destruct (sp_reentry (r_id r)) as [|x t]; [reflexivity|]. destruct (sp_slots r) as [|y u]; reflexivity.
  Qed.

  Lemma spill_inv frs2 : spill version p frs locals = COk frs2 -> frs2 = map sp_fr frs.
  Proof.
    intros H.
    assert (E : spill version p frs locals =
                if existsb (fun fr => match fr_sub fr with
                                      | Some r => r_byref r && negb (match sp_reentry (r_id r) with [] => true | _ => false end)
                                      | None => false end) frs
                then CErr ErrInput else COk (map sp_fr' frs)) by reflexivity.
    rewrite E in H. destruct (existsb _ frs); [discriminate H|]. injection H as <-.
    apply map_ext. exact sp_fr_eq.
  Qed.

  Definition sp_wrapper (r : routine) (f : N) : option (list comp * list comp) :=
    if sp_active r && mem_N f (sp_reentry (r_id r))
    then Some (sp_pre version (sp_slots r) (sp_numargs f), sp_post version (sp_returns f) (sp_slots r) (sp_numargs f))
    else None.

  Lemma sp_wrapper_ok r : wrapper_ok (sp_wrapper r).
  Proof.
    intros f pre post H. unfold sp_wrapper in H. destruct (_ && _); [|discriminate H]. injection H as <- <-.
    split; apply spill_code_straight; [apply sp_pre_spill|apply sp_post_spill].
  Qed.

  (* on an instruction that is a call, a branch, or free of routine references, the pass does what the
     wrapping does *)
  Lemma comp_subs_plain i : forallb plain_arg (i_args i) = true -> comp_subs (COp i) = [].
  Proof.
    unfold comp_subs, instr_subs. induction (i_args i) as [|a t IH]; intros H; [reflexivity|].
    cbn [forallb] in H. apply andb_prop in H. destruct H as [Ha Ht]. cbn [flat_map]. rewrite (IH Ht).
    destruct a; try reflexivity; discriminate Ha.
  Qed.

  Lemma sp_stmt_expand r c : sp_active r = true ->
    match c with COp i => linkable_instr i = true | _ => True end ->
    sp_stmt (sp_reentry (r_id r)) (sp_slots r) c = expand (sp_wrapper r) c.
  Proof.
    intros Ac Lk. destruct c as [i|l cm|v]; try reflexivity.
    unfold sp_stmt, expand, linkable_instr in *.
    destruct (call_target (i_op i) (i_args i)) as [f|] eqn:CT.
    - destruct (call_target_inv _ _ _ CT) as [Eo Ea]. destruct i as [o a]. cbn [i_op i_args] in Eo, Ea. subst o a.
      cbn [comp_subs instr_subs i_args flat_map app filter]. unfold sp_wrapper. rewrite Ac. cbn [andb].
      destruct (mem_N f (sp_reentry (r_id r))); [apply spill_one_split|reflexivity].
    - destruct (jump_of i) as [[k l]|] eqn:J.
      + destruct (jump_of_inv _ _ _ J) as [_ Ea]. unfold comp_subs, instr_subs. rewrite Ea. reflexivity.
      + apply andb_prop in Lk. destruct Lk as [_ Pl]. rewrite (comp_subs_plain i Pl). reflexivity.
  Qed.

End SpillPass.

(* a spilled routine is a correct unit *)
Section SpillUnit.
  Variable o : copts.
  Variable cx : ctx.
  Variable look : N -> N.
  Variable msel : list (string * bytes).
  Variable subs : list routine.
  Variable version : N.
  Variable p : prog.
  Variable frs : list flat_routine.
  Variable locals : list (option N * list N).

  Definition idW : option routine -> (N -> list value -> mstate -> callres) -> (N -> list value -> mstate -> callres) :=
    fun _ orc => orc.

  (* the oracle the source of a routine sees: a call wrapped by the spill pass answers with the outcome of
     its spill segment *)
  Definition W_spill (sub : option routine) (orc : N -> list value -> mstate -> callres) : N -> list value -> mstate -> callres :=
    match sub with
    | None => orc
    | Some r => wrap (sp_wrapper version p frs locals r) (envk o cx look msel subs (Some r) orc) orc
    end.

  Lemma expand_none_id (wr : N -> option (list comp * list comp)) code :
    (forall f, wr f = None) -> flat_map (expand wr) code = code.
  Proof.
    intros H. induction code as [|c t IH]; [reflexivity|]. cbn [flat_map]. rewrite IH.
    destruct c as [i| |]; try reflexivity. cbn [expand].
    destruct (call_target (i_op i) (i_args i)) as [f|]; [rewrite H|]; reflexivity.
  Qed.

  Lemma sp_fr_ops r code :
    (forall i, In (COp i) code -> linkable_instr i = true) ->
    fr_ops (sp_fr version p frs locals (mkFR (Some r) code)) = flat_map (expand (sp_wrapper version p frs locals r)) code.
  Proof.
    intros Lk. unfold sp_fr. cbn [fr_sub fr_ops]. destruct (sp_active frs locals r) eqn:Ac.
    - cbn [fr_ops]. apply flat_map_ext_in. intros c Hc. apply sp_stmt_expand; [exact Ac|].
      destruct c as [i| |]; try exact Logic.I. exact (Lk i Hc).
    - cbn [fr_ops]. symmetry. apply expand_none_id. intros f. unfold sp_wrapper. rewrite Ac. reflexivity.
  Qed.

  Theorem spill_unit r ast0 code :
    (forall i, In (COp i) code -> linkable_instr i = true) ->
    unit_correct o cx look msel subs idW (Some r) ast0 code ->
    unit_correct o cx look msel subs W_spill (Some r) ast0 (fr_ops (sp_fr version p frs locals (mkFR (Some r) code))).
  Proof.
    intros Lk UC orc fuel stk st h Hh. rewrite (sp_fr_ops r code Lk).
    pose proof (UC (W_spill (Some r) orc) fuel stk st h Hh) as Run.
    pose proof (spill_sim (sp_wrapper version p frs locals r) (envk o cx look msel subs (Some r) orc) orc
                          (sp_wrapper_ok version p frs locals r) code _ _ Run) as Sim.
    (* a halting configuration is not a position: [mapc] leaves it as it is *)
    assert (Fh : not_unsup h /\ mapc (sp_wrapper version p frs locals r) code h = h).
    { destruct (denote _ _ _ _ _); cbn in Hh; try discriminate Hh; injection Hh as <-; split; reflexivity || exact Logic.I. }
    specialize (Sim (proj1 Fh)). rewrite (proj2 Fh) in Sim. exact Sim.
  Qed.

  (* the main routine is never touched by the pass *)
  Lemma spill_unit_main ast0 code :
    unit_correct o cx look msel subs idW None ast0 code ->
    unit_correct o cx look msel subs W_spill None ast0 code.
  Proof. intros UC. exact UC. Qed.
End SpillUnit.
