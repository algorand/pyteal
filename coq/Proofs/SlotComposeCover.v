(* Proofs/SlotComposeCover.v — the slot rewrite commutes with sortBlocks and flattenBlocks:
     sort_blocks (rewritten graph)    = sort_blocks (graph)
     flatten_blocks (rewritten graph) = rw_code look (flatten_blocks (graph))
   so the code the pipeline emits for a routine is the linear-level rewrite of the code of the
   un-assigned routine, and contains no slot placeholder any more.  Nothing here depends on the
   operation semantics: the proofs are those of CallX/SlotComposeCover.v, read for the definitions
   of Proofs/SlotCompose.v. *)
From Coq Require Import List Arith NArith String Bool.
From PV Require Import Base.Bytes AVM.Syntax Src.Expr
  Comp.Blocks Comp.Lower Comp.Passes Comp.Compile Proofs.LowerFrame Proofs.SlotCompose.
From PV Require CallX.SlotComposeCover.
Import ListNotations.

Theorem sort_blocks_rw look c :
  sort_blocks (cr_graph (rw_routine look c)) (cr_start c) (cr_end c) =
  sort_blocks (cr_graph c) (cr_start c) (cr_end c).
Proof. exact (CallX.SlotComposeCover.sort_blocks_rw look c). Qed.

Theorem flatten_blocks_rw look g g' blocks :
  (forall b, In b blocks -> g_blk g' b = option_map (rw_block look) (g_blk g b)) ->
  flatten_blocks g' blocks = option_map (rw_code look) (flatten_blocks g blocks).
Proof. exact (CallX.SlotComposeCover.flatten_blocks_rw look g g' blocks). Qed.

Lemma rw_block_some look (o : option block) : option_map (rw_block look) o = None -> o = None.
Proof. exact (CallX.SlotComposeCover.rw_block_some look o). Qed.

Theorem order_covered_plain c order code :
  wf (cr_graph c) ->
  sort_blocks (cr_graph c) (cr_start c) (cr_end c) = Some order ->
  flatten_blocks (cr_graph c) order = Some code ->
  forall b, In b order -> In b (iterate (cr_graph c) (cr_start c)).
Proof. exact (CallX.SlotComposeCover.order_covered_plain c order code). Qed.

Corollary routine_code_no_slots look c order code' :
  wf (cr_graph c) ->
  sort_blocks (cr_graph (rw_routine look c)) (cr_start c) (cr_end c) = Some order ->
  flatten_blocks (cr_graph (rw_routine look c)) order = Some code' ->
  code_slots code' = [].
Proof. exact (CallX.SlotComposeCover.routine_code_no_slots look c order code'). Qed.
