(* Proofs/CallMachineExamples.v — property C02, non-vacuity of Proofs/CallMachineProgram.v:
   the loop + nested-call program of Proofs/CallComposeExamples.v (main: a loop calling f; f: two calls of g, the
   second while the first result is on the stack; g: an If with an early Return) and the recursive factorial
   with a live local (spill code) — through compile_model's TEXT, the assembler, to [Machine.run]. *)
From Coq Require Import List Arith NArith String Bool Lia.
From PV Require Import AVM.Syntax AVM.Machine AVM.Parse Src.Expr Src.Denote Comp.Lower Comp.LinearSem
  Comp.LinkedSem Comp.Compile Comp.Assemble Proofs.NormalizeLowered Proofs.SlotComposeAssign
  Proofs.FlattenCorrect Proofs.StageELink Proofs.StageEText Proofs.CallMachineSim Proofs.CallMachineFrame
  Proofs.CallMachineFpSem Proofs.CallComposeLink Proofs.CallComposeMain Proofs.CallComposeLayout
  Proofs.CallComposeSpillPass Proofs.CallComposeProgram Proofs.CallComposeAcyclic Proofs.CallComposeExamples
  Proofs.CallMachineProgram.
Import ListNotations.
Local Open Scope string_scope.
Local Open Scope list_scope.

Definition ex_lines : list string :=
  match compile_model ex_opts ex_modes ex_prog with COk l => l | CErr _ => [] end.
Definition ex_rank (f : N) : nat := match f with 1%N => 2 | 2%N => 1 | _ => 0 end.

(* the text is the one shown in CallComposeExamples.ex_text *)
Example ex_lines_text : assemble_all ex_comps = Some ex_lines.
Proof. unfold ex_lines, compile_model. rewrite (proj1 program_linked_example), ex_text. reflexivity. Qed.

(* every hypothesis of [program_text_calls_nonrecursive] holds for ex_prog; its conclusion, instantiated: the
   program the assembler reads from the printed text approves (24 <> 0) for every sufficient fuel, in the final
   state of the source semantics, with 24 on top of the stack; [run 1000] computes the same verdict *)
Example program_text_calls_example :
  compile_model ex_opts ex_modes ex_prog = COk ex_lines /\
  denote_k ex_opts ex_ctx (look_of ex_asg) [] [ex_f; ex_g] idW 100 None 100 (root_ast ex_main) [] ex_st0
    = DExit (VI 24) ex_final /\
  exists P,
    parse_program [] (program_text ex_lines) = Some P /\ pr_version P = 6%N /\
    (exists k0 m', (forall k, k0 <= k -> run k ex_ctx P (init_mach ex_st0) = (VApprove, m')) /\
                   m_st m' = ex_final /\ hd_error (m_stack m') = Some (VI 24)) /\
    fst (run 1000 ex_ctx P (init_mach ex_st0)) = VApprove.
Proof.
  destruct program_linked_example as (EC & _ & ED & _).
  assert (EM : compile_model ex_opts ex_modes ex_prog = COk ex_lines).
  { unfold compile_model. rewrite EC, ex_lines_text. reflexivity. }
  split; [exact EM|]. split; [exact ED|].
  destruct (program_text_calls_nonrecursive ex_opts ex_modes ex_prog ex_lines ex_rank [] EM eq_refl eq_refl)
    as (crs & crs' & locals & asg & frs & HR & HA & HF & T).
  { intros r [<-|[<-|[]]]; reflexivity. }
  { intros u i []. }
  (* the compiler's stages are evaluated once, together; from here on everything is computed on their result *)
  pose proof (flat_stage_eq _ _ _ _ _ _ _ HR HA HF) as E. clear HR HA HF. vm_compute in E. injection E as <- <-.
  match type of T with acyclic _ ?f -> _ => set (frs0 := f) in T end.
  assert (Ha : acyclic ex_rank frs0).
  { intros fr r Hin Es c Hc. unfold frs0 in Hin.
    destruct Hin as [<-|[<-|[<-|[]]]]; cbn [fr_sub] in Es; try discriminate Es; injection Es as <-;
      vm_compute in Hc; repeat (destruct Hc as [<-|Hc]; [vm_compute; lia|]); destruct Hc. }
  specialize (T Ha). cbv zeta in T. destruct T as (_ & _ & T2).
  match type of T2 with NoDup (labels_of ?l) -> _ => set (L0 := l) in T2 end.
  assert (ND : NoDup (labels_of L0)) by (apply nodup_b_sound; vm_compute; reflexivity).
  assert (LK : forallb (fun fr => linkable (fr_ops fr)) frs0 = true) by (vm_compute; reflexivity).
  assert (PR : printable [] (CPragma (o_version ex_opts) :: L0) = true) by (vm_compute; reflexivity).
  assert (TG : targets_ok (CPragma (o_version ex_opts) :: L0) = true) by (vm_compute; reflexivity).
  destruct (T2 ND LK PR TG) as (P & PP & PL & PV & Run).
  exists P. split; [exact PP|].
  split; [apply PV; vm_compute; reflexivity|].
  specialize (Run ex_ctx 100 100 ex_st0 (LExit (VI 24) ex_final) VApprove).
  change (fs_subs frs0) with [ex_f; ex_g] in Run.
  change (p_main ex_prog) with ex_main in Run.
  rewrite ex_asg_eq in ED. rewrite ED in Run.
  destruct (Run eq_refl Logic.I eq_refl) as (k0 & m' & Hrun & Hst & Htop).
  { apply (pbounded_run_sound _ L0 400). vm_compute. reflexivity. }
  split; [exists k0, m'; split; [exact Hrun|split; assumption]|].
  (* P is the linked program: no text to parse *)
  vm_compute in PL. injection PL as <-. vm_compute. reflexivity.
Qed.

(* recursion: factorial with a live local across the recursive call (the text contains the spill code) *)
Definition rec_lines : list string :=
  match compile_model ex_opts ex_modes rec_prog with COk l => l | CErr _ => [] end.

Example program_text_calls_recursion_example :
  compile_model ex_opts ex_modes rec_prog = COk rec_lines /\
  denote_k ex_opts ex_ctx (look_of rec_asg) [] [ex_fact] rec_W 100 None 100 (root_ast rec_main) [] ex_st0
    = DExit (VI 25) rec_final /\
  exists P,
    parse_program [] (program_text rec_lines) = Some P /\
    (exists k0 m', (forall k, k0 <= k -> run k ex_ctx P (init_mach ex_st0) = (VApprove, m')) /\
                   m_st m' = rec_final /\ hd_error (m_stack m') = Some (VI 25)) /\
    fst (run 1000 ex_ctx P (init_mach ex_st0)) = VApprove.
Proof.
  destruct program_linked_recursion_example as (EC & _ & ED & _).
  assert (EM : compile_model ex_opts ex_modes rec_prog = COk rec_lines).
  { unfold rec_lines, compile_model. rewrite EC, rec_text. reflexivity. }
  split; [exact EM|]. split; [exact ED|].
  destruct (program_text_calls_recursive ex_opts ex_modes rec_prog rec_lines [] EM eq_refl eq_refl)
    as (crs & crs' & locals & asg & frs & frs2 & HR & HA & HF & HS & T).
  { intros r [<-|[]]; reflexivity. }
  { intros u i []. }
  (* what the theorem speaks of is what the example's definitions name *)
  assert (Ea : rec_asg = asg).
  { unfold rec_asg, model_assignment. rewrite HR. cbv zeta. cbn [ex_opts o_opt_slots]. rewrite HA. reflexivity. }
  assert (El : rec_locals = locals).
  { unfold rec_locals, model_assignment_locals. rewrite HR. cbv zeta. cbn [ex_opts o_opt_slots]. rewrite HA. reflexivity. }
  assert (Ef : rec_frs = frs).
  { unfold rec_frs. change (compile_rec 2 ex_opts rec_prog None rec_main []) with
      (compile_rec (S (List.length (p_subs rec_prog))) ex_opts rec_prog None (p_main rec_prog) []).
    rewrite HR, HA, HF. reflexivity. }
  subst asg locals frs. clear HR HA HF.
  (* the compiler's stages, the spill pass last, are evaluated once; the rest is computed on the result *)
  vm_compute in HS. injection HS as <-.
  cbv zeta in T. destruct T as (_ & _ & T2).
  match type of T2 with NoDup (labels_of ?l) -> _ => set (L0 := l) in T2 end.
  assert (ND : NoDup (labels_of L0)) by (apply nodup_b_sound; vm_compute; reflexivity).
  match type of T2 with _ -> ?A -> _ => assert (LK : A) by (vm_compute; reflexivity) end.
  assert (PR : printable [] (CPragma (o_version ex_opts) :: L0) = true) by (vm_compute; reflexivity).
  assert (TG : targets_ok (CPragma (o_version ex_opts) :: L0) = true) by (vm_compute; reflexivity).
  destruct (T2 ND LK PR TG) as (P & PP & PL & PV & Run).
  exists P. split; [exact PP|].
  specialize (Run ex_ctx 100 100 ex_st0 (LExit (VI 25) rec_final) VApprove).
  change (fs_subs _) with [ex_fact] in Run.
  change (p_main rec_prog) with rec_main in Run.
  change (o_version ex_opts) with 6%N in Run. fold rec_W in Run. rewrite ED in Run.
  assert (B : pstack_bounded (lenv ex_ctx (look_of rec_asg) [] [ex_fact]) L0 (PAt [] 0 [] ex_st0)).
  { rewrite rec_asg_eq. apply (pbounded_run_sound _ L0 600). vm_compute. reflexivity. }
  destruct (Run eq_refl Logic.I eq_refl B) as (k0 & m' & Hrun & Hst & Htop).
  split; [exists k0, m'; split; [exact Hrun|split; assumption]|].
  vm_compute in PL. injection PL as <-. vm_compute. reflexivity.
Qed.

(* the frame-pointer convention on the machine: [fp_call_protocol] instantiated.
   main pushes a cell (7) of its own, then calls add(3, 4); add has two locals above the frame pointer (int 0;
   dupn 1), reads its arguments with frame_dig -2 / -1, writes a local with frame_bury 1, calls inc (a nested
   call with its own proto), buries the result at the frame pointer and returns.  The body's 15 steps run on
   the stripped machine (stack [4; 3], the callee's frame only); the theorem gives the 18 steps of the real
   machine from the callsub to the instruction after it with stack [8; 7]: the caller's cell untouched. *)
Definition fp_lines : list string :=
  ["#pragma version 8"; "int 7"; "int 3"; "int 4"; "callsub add_0"; "+"; "return";
   "add_0:"; "proto 2 1"; "int 0"; "dupn 1"; "frame_dig -2"; "frame_dig -1"; "+"; "frame_bury 1";
   "frame_dig 1"; "int 1"; "callsub inc_1"; "frame_bury 0"; "retsub";
   "inc_1:"; "proto 2 1"; "frame_dig -2"; "frame_dig -1"; "+"; "retsub"].
Definition fp_prog : program :=
  match parse_program [] (program_text fp_lines) with Some P => P | None => mkProg 0%N [] [] end.
(* the machine at the callsub *)
Definition fp_M : mach :=
  match nsteps ex_ctx fp_prog 0 3 (init_mach ex_st0) with Some m => m | None => init_mach ex_st0 end.
Definition fp_args : list value := [VI 3; VI 4].
(* the end of the body on the stripped machine *)
Definition fp_mb : mach :=
  match nsteps ex_ctx fp_prog 1 15 (callee_start fp_M 6 2 1 fp_args) with Some m => m | None => fp_M end.

Example fp_call_protocol_example :
  parse_program [] (program_text fp_lines) = Some fp_prog /\
  m_stack fp_M = rev fp_args ++ [VI 7] /\ m_calls fp_M = [] /\
  msteps ex_ctx fp_prog 1 15 (callee_start fp_M 6 2 1 fp_args) fp_mb /\
  m_stack fp_mb = [VI 7] ++ [VI 8] ++ rev fp_args /\
  msteps ex_ctx fp_prog 0 (2 + 15 + 1) fp_M (mkM 4 [VI 8; VI 7] [] false [] [] ex_st0) /\
  fst (run 100 ex_ctx fp_prog (init_mach ex_st0)) = VApprove.
Proof.
  split; [vm_compute; reflexivity|]. split; [vm_compute; reflexivity|]. split; [vm_compute; reflexivity|].
  assert (B : msteps ex_ctx fp_prog 1 15 (callee_start fp_M 6 2 1 fp_args) fp_mb)
    by (apply nsteps_sound; vm_compute; reflexivity).
  split; [exact B|]. split; [vm_compute; reflexivity|]. split; [|vm_compute; reflexivity].
  assert (T := fp_call_protocol ex_ctx fp_prog fp_M "add_0" 6 2 1 fp_args [VI 7] 15 fp_mb [VI 7] [VI 8] fp_args []).
  assert (E : mkM (S (m_pc fp_M)) ([VI 8] ++ [VI 7]) (m_calls fp_M) false (m_intc fp_mb) (m_bytec fp_mb) (m_st fp_mb)
              = mkM 4 [VI 8; VI 7] [] false [] [] ex_st0) by (vm_compute; reflexivity).
  rewrite E in T. apply T; try (vm_compute; reflexivity).
  - vm_compute. lia.
  - exact B.
  - vm_compute. lia.
Qed.

(* the same loop + nested-call program compiled with FRAME POINTERS (version 8, o_use_fp = true).
   compile_model prints  f_0: proto 1 1; frame_dig -1; callsub g_1; frame_dig -1; int 10; +; callsub g_1; +; retsub
   and g_1: proto 1 1; frame_dig -1; ... retsub.  The program the assembler reads from that text is
   [link_fp] of the component list; the extended linked semantics [fstep] runs it to [return] with 24; the
   whole-run bridge [fmachine_bridge_init] gives the verdict of [Machine.run]. *)
Definition fp_opts : copts := mkOpts 8 true false true (fun _ => 0%N) (fun _ _ => 0%N).
Definition fpc_comps : list comp :=
  match compile_components fp_opts ex_modes ex_prog with COk c => c | CErr _ => [] end.
Definition fpc_lines : list string :=
  match compile_model fp_opts ex_modes ex_prog with COk l => l | CErr _ => [] end.
Definition fpc_asg : list (N * N) := match model_assignment fp_opts ex_prog with COk a => a | CErr _ => [] end.
Definition fpc_lenv : Src.Denote.denv := lenv ex_ctx (look_of fpc_asg) [] [ex_f; ex_g].
Definition fpc_P : program :=
  match link_fp [] fpc_comps with Some P => P | None => mkProg 0%N [] [] end.
Definition fpc_final : mstate :=
  match frun 600 fpc_lenv fpc_comps (FAt [] false 0 [] ex_st0) with FExit _ st => st | _ => ex_st0 end.

Example fp_text : assemble_all fpc_comps =
  Some ["#pragma version 8"; "int 0"; "store 0"; "int 0"; "store 1"; "main_l1:"; "load 1"; "int 3"; "<";
        "bz main_l3"; "load 0"; "load 1"; "callsub f_0"; "+"; "store 0"; "load 1"; "int 1"; "+"; "store 1";
        "b main_l1"; "main_l3:"; "load 0"; "return"; "
// f
f_0:"; "proto 1 1"; "frame_dig -1"; "callsub g_1"; "frame_dig -1"; "int 10"; "+"; "callsub g_1"; "+"; "retsub"; "
// g
g_1:"; "proto 1 1"; "frame_dig -1"; "int 5"; ">"; "bz g_1_l2"; "frame_dig -1"; "int 5"; "-"; "retsub"; "g_1_l2:";
        "frame_dig -1"; "int 1"; "+"; "retsub"].
Proof. vm_compute. reflexivity. Qed.

Example fp_linked_program_example :
  compile_model fp_opts ex_modes ex_prog = COk fpc_lines /\
  assemble_all fpc_comps = Some fpc_lines /\
  parse_program [] (program_text fpc_lines) = Some fpc_P /\
  link_fp [] fpc_comps = Some fpc_P /\
  frun 600 fpc_lenv fpc_comps (FAt [] false 0 [] ex_st0) = FExit (VI 24) fpc_final /\
  (exists k0 m', (forall k, k0 <= k -> run k ex_ctx fpc_P (init_mach ex_st0) = (VApprove, m')) /\
                 m_st m' = fpc_final /\ hd_error (m_stack m') = Some (VI 24)) /\
  fst (run 1000 ex_ctx fpc_P (init_mach ex_st0)) = VApprove.
Proof.
  assert (EC : compile_components fp_opts ex_modes ex_prog = COk fpc_comps) by (vm_compute; reflexivity).
  assert (EL : assemble_all fpc_comps = Some fpc_lines).
  { unfold fpc_lines, compile_model. rewrite EC, fp_text. reflexivity. }
  split; [unfold compile_model; rewrite EC, EL; reflexivity|]. split; [exact EL|]. split; [vm_compute; reflexivity|].
  assert (LK : link_fp [] fpc_comps = Some fpc_P) by (vm_compute; reflexivity).
  split; [exact LK|].
  assert (ER : frun 600 fpc_lenv fpc_comps (FAt [] false 0 [] ex_st0) = FExit (VI 24) fpc_final) by (vm_compute; reflexivity).
  split; [exact ER|]. split; [|vm_compute; reflexivity].
  assert (TG : targets_ok fpc_comps = true) by (vm_compute; reflexivity).
  assert (B : fstack_bounded fpc_lenv fpc_comps (FAt [] false 0 [] ex_st0)).
  { apply (fbounded_run_sound fpc_lenv fpc_comps 600). vm_compute. reflexivity. }
  pose proof (frun_fstar fpc_lenv fpc_comps 600 (FAt [] false 0 [] ex_st0)) as H. rewrite ER in H.
  destruct (fmachine_bridge_init fpc_lenv fpc_comps fpc_P LK TG ex_st0 _ VApprove H eq_refl B)
    as (k0 & m' & Hrun & Hst & Htop).
  exists k0, m'. split; [exact Hrun|]. split; assumption.
Qed.
