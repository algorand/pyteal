(* Proofs/RouterArgsGlue.v — C09: the MethodReturn sequence, the contract description, and the storage
   view of the two glue flavours (scratch slots / frame cells of the caster subroutine). *)
From Coq Require Import List Arith NArith Ascii String Bool Lia.
From PV Require Import Base.Bytes Base.Sexp ABI.Types ABI.Spec ABI.Descr Gen.Tables Router.Args
  Proofs.ABISpecProof Proofs.ABIDescrProof Proofs.RouterArgsLists Proofs.RouterArgsProof.
Import ListNotations.

(* RETURN_HASH_PREFIX of pyteal/config.py (Gen/Tables.v) is the ARC-4 constant 151f7c75 *)
Lemma return_prefix_value :
  return_prefix = [ascii_of_N 21; ascii_of_N 31; ascii_of_N 124; ascii_of_N 117].
Proof. reflexivity. Qed.

Section Return.
  Variable member : list ty -> nat -> bytes -> option bytes.

  (* the arguments the handler is called with, when the decoding steps get through *)
  Definition glue_bounds (fl : flavour) (s : msig) (args : list bytes) (group : list gtx) (gi : nat) : option (list bound) :=
    let has_out := match s_ret s with Some _ => true | None => false end in
    match exec_gsteps member args group gi [] (decode_steps fl has_out (s_params s)) with
    | Some cs => read_args cs (map (arg_cell fl has_out) (seq 0 (List.length (s_params s))))
    | None => None
    end.

  (* A non-void method that is approved: the handler ran exactly once on the decoded arguments, and the
     log of the call is the handler's own log followed by exactly ONE more entry — the return prefix
     followed by the ARC-4 encoding of the value the handler produced; nothing is logged after it. *)
  Theorem return_logged_once_main : forall fl s h args group gi t logs,
    s_ret s = Some t ->
    run_glue member fl s h args group gi = Approved logs ->
    exists bounds hl r e,
      glue_bounds fl s args group gi = Some bounds /\
      h bounds = Some (hl, Some r) /\
      arc4_encode t r = Some e /\
      logs = hl ++ [return_prefix ++ e].
  Proof.
    intros fl s h args group gi t logs Hret H. unfold run_glue in H. unfold glue_bounds. rewrite Hret in *.
    destruct (exec_gsteps member args group gi [] (decode_steps fl true (s_params s))) as [cs |]; [| discriminate H].
    destruct (read_args cs (map (arg_cell fl true) (seq 0 (List.length (s_params s))))) as [bounds |]; [| discriminate H].
    destruct (h bounds) as [[hl res] |] eqn:Eh; [| discriminate H].
    destruct res as [r |]; [| discriminate H]. unfold method_return in H.
    destruct (arc4_encode t r) as [e |] eqn:Ee; [| discriminate H]. cbn [option_map] in H. inversion H; subst.
    exists bounds, hl, r, e. repeat split; auto.
  Qed.

  (* conversely: whenever decoding gets through, the handler succeeds with a value of the declared
     type, the call is approved with that log *)
  Theorem return_logged_complete_main : forall fl s h args group gi t bounds hl r e,
    s_ret s = Some t ->
    glue_bounds fl s args group gi = Some bounds ->
    h bounds = Some (hl, Some r) -> arc4_encode t r = Some e ->
    run_glue member fl s h args group gi = Approved (hl ++ [return_prefix ++ e]).
  Proof.
    intros fl s h args group gi t bounds hl r e Hret Hb Hh He. unfold run_glue. unfold glue_bounds in Hb.
    rewrite Hret in *.
    destruct (exec_gsteps member args group gi [] (decode_steps fl true (s_params s))) as [cs |]; [| discriminate Hb].
    rewrite Hb, Hh. unfold method_return. rewrite He. reflexivity.
  Qed.

  (* a void method logs nothing of its own *)
  Theorem void_logs_nothing_main : forall fl s h args group gi logs,
    s_ret s = None ->
    run_glue member fl s h args group gi = Approved logs ->
    exists bounds res, glue_bounds fl s args group gi = Some bounds /\ h bounds = Some (logs, res).
  Proof.
    intros fl s h args group gi logs Hret H. unfold run_glue in H. unfold glue_bounds. rewrite Hret in *.
    destruct (exec_gsteps member args group gi [] (decode_steps fl false (s_params s))) as [cs |]; [| discriminate H].
    destruct (read_args cs (map (arg_cell fl false) (seq 0 (List.length (s_params s))))) as [bounds |]; [| discriminate H].
    destruct (h bounds) as [[hl res] |] eqn:Eh; [| discriminate H]. inversion H; subst. eauto.
  Qed.
End Return.

(* PyTeal's signature string is the ARC-4 one *)
Lemma pyteal_sig_is_arc4 : forall s, pyteal_sig_str s = arc4_sig_str s.
Proof.
  intro s. unfold pyteal_sig_str, arc4_sig_str, sig_str_with.
  rewrite (map_ext py_str type_str py_str_type_str).
  destruct (s_ret s) as [t |]; cbn [ret_str]; [now rewrite py_str_type_str | reflexivity].
Qed.

(* the signature a client derives from the contract's method entry is the one the program dispatches on *)
Lemma spec_sig_is_method_sig : forall r, spec_sig_str (spec_of r) = dispatched_sig_str r.
Proof. intros [[n ps rt] doc [m |] d]; reflexivity. Qed.

(* the recorded entry, field by field *)
Lemma spec_of_eq : forall r,
  spec_of r = mkSpec (reg_name r) (map py_str (s_params (r_sig r))) (ret_str py_str (s_ret (r_sig r))) (reg_desc r).
Proof. intros [[n ps rt] doc [m |] [d |]]; reflexivity. Qed.

Section Contract.
  Variable hash : string -> bytes.

  (* FULL: every registration, with or without an overriding name *)
  Theorem contract_selectors_agree_main : forall registered,
    (* the contract lists exactly the registered methods, in order, under their registered names, with their types *)
    map ms_name (contract_methods registered) = map reg_name registered /\
    map ms_args (contract_methods registered) = map (fun r => map type_str (s_params (r_sig r))) registered /\
    map ms_returns (contract_methods registered) = map (fun r => ret_str type_str (s_ret (r_sig r))) registered /\
    map ms_desc (contract_methods registered) = map reg_desc registered /\
    (* and the selector a client computes from each entry is the one the program dispatches on,
       which is the ARC-4 selector of name(argtypes)rettype *)
    contract_selectors hash registered = dispatched_selectors hash registered /\
    dispatched_selectors hash registered = map (fun r => firstn 4 (hash (arc4_sig_str (registered_sig r)))) registered.
  Proof.
    intro registered. unfold contract_methods, contract_selectors, dispatched_selectors, contract_methods.
    rewrite !map_map.
    split; [apply map_ext; intro r; now rewrite spec_of_eq |].
    split; [apply map_ext; intro r; rewrite spec_of_eq; apply map_ext, py_str_type_str |].
    split.
    { apply map_ext. intro r. rewrite spec_of_eq. cbn [ms_returns].
      destruct (s_ret (r_sig r)); cbn [ret_str]; [apply py_str_type_str | reflexivity]. }
    split; [apply map_ext; intro r; now rewrite spec_of_eq |].
    split; apply map_ext; intro r; unfold selector_of_str.
    - now rewrite spec_sig_is_method_sig.
    - unfold dispatched_sig_str. now rewrite pyteal_sig_is_arc4.
  Qed.
End Contract.

(* the dispatched signature is always the ARC-4 signature under the REGISTERED name *)
Theorem dispatched_is_registered_main : forall r, dispatched_sig_str r = arc4_sig_str (registered_sig r).
Proof. intro r. apply pyteal_sig_is_arc4. Qed.

(* the case that used to be refuted (before /repo 330bd50): add_method_handler(add, overriding_name="foo") *)
Definition ex_override : registration := mkReg (mkSig "add" [TUint 64] (Some (TUint 64))) None (Some "foo"%string) None.
Example override_contract_follows_registered_name :
  spec_sig_str (spec_of ex_override) = "foo(uint64)uint64"%string /\
  dispatched_sig_str ex_override = "foo(uint64)uint64"%string.
Proof. vm_compute. split; reflexivity. Qed.

(* rejected registration attempts leave no trace; every dispatched signature is listed once *)
Section AttemptsProofs.
  Variable hash : string -> bytes.

  Theorem rejected_attempt_leaves_contract_main : forall st a,
    accepts hash st a = None ->
    attempt_step hash st a = st /\ contract_methods (attempt_step hash st a) = contract_methods st.
  Proof. intros st a H. unfold attempt_step. rewrite H. split; reflexivity. Qed.

  Theorem accepted_attempt_appends_main : forall st a r,
    accepts hash st a = Some r ->
    contract_methods (attempt_step hash st a) = contract_methods st ++ [spec_of r].
  Proof.
    intros st a r H. unfold attempt_step, contract_methods. rewrite H. rewrite map_app. reflexivity.
  Qed.

  Lemma accepts_fresh : forall st a r,
    accepts hash st a = Some r -> ~ In (dispatched_sig_str r) (map dispatched_sig_str st).
  Proof.
    intros st a r H. destruct a as [r0 never |]; [| discriminate H]. cbn [accepts] in H.
    destruct never; [discriminate H |].
    destruct (existsb (fun r' => String.eqb (dispatched_sig_str r') (dispatched_sig_str r0)) st) eqn:E; [discriminate H |].
    destruct (existsb (fun r' => bytes_eqb (reg_selector hash r') (reg_selector hash r0)) st); [discriminate H |].
    inversion H; subst r0. intro Hin. apply in_map_iff in Hin. destruct Hin as [r' [Heq Hin]].
    assert (existsb (fun r'0 => String.eqb (dispatched_sig_str r'0) (dispatched_sig_str r)) st = true).
    { apply existsb_exists. exists r'. split; [exact Hin | apply String.eqb_eq; exact Heq]. }
    congruence.
  Qed.

  Lemma NoDup_snoc : forall {A} (l : list A) x, NoDup l -> ~ In x l -> NoDup (l ++ [x]).
  Proof.
    intros A l x Hl Hx. apply NoDup_app_intro; [exact Hl | constructor; [intros [] | constructor] |].
    intros y Hy [-> | []]. exact (Hx Hy).
  Qed.

  (* whatever sequence of attempts (accepted or rejected) a router has seen, its contract lists every
     dispatched signature exactly once *)
  Theorem contract_lists_each_once_main : forall l st,
    NoDup (map dispatched_sig_str st) ->
    NoDup (map (fun m => spec_sig_str m) (contract_methods (run_attempts hash st l))).
  Proof.
    intro l. induction l as [| a l IH]; intros st Hst; cbn [run_attempts fold_left].
    - unfold contract_methods. rewrite map_map.
      erewrite map_ext; [exact Hst |]. intro r. apply spec_sig_is_method_sig.
    - apply IH. unfold attempt_step. destruct (accepts hash st a) as [r |] eqn:E; [| exact Hst].
      rewrite map_app. cbn [map]. apply NoDup_snoc; [exact Hst | eapply accepts_fresh; eauto].
  Qed.
End AttemptsProofs.
