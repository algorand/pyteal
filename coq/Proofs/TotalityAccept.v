(* Proofs/TotalityAccept.v — property C20, part 3: every straight-line program is ACCEPTED by the
   compile model, whatever its length and nesting depth, at every version, mode and option setting.

   [accepts_straight]: if the main routine is an expression of the fragment of Proofs/TotalityChain.v
   (operator trees, nested sequences, Approve/Reject/Return — every operator available at the target
   version and mode per PyTeal's own tables) and ends in a return, then [compile_model] returns TEAL.
   The proof follows the pipeline stage by stage: __teal__ (lowering to a chain), addIncoming,
   validateTree, NormalizeBlocks (the chain collapses into one block), validateTree, subroutine
   collection, the scratch-slot optimiser (nothing to cancel), slot assignment and validateSlots (no
   slots), sortBlocks, flattenBlocks, recursion spilling, subroutine resolution, the version/mode sweep
   and assembly. *)
From Coq Require Import List Arith NArith Ascii String Bool Lia.
From PV Require Import Base.Bytes Base.Sexp AVM.Syntax Src.Expr Comp.Blocks Comp.Lower Comp.Passes Comp.Assemble
  Comp.Compile Proofs.LowerFrame Proofs.TotalityChain Proofs.TotalityWalk Proofs.PipelineStages.
Import ListNotations.

(* available at the target version and mode per the tables in [o]/[modes]; not a scratch access *)
Definition okop (o : copts) (modes : opc -> bool * bool) (op : opc) : bool :=
  N.leb (o_minv o op) (o_version o) &&
  (if o_app_mode o then snd (modes op) else fst (modes op)) &&
  negb (opc_eqb op O_store) && negb (opc_eqb op O_load).

Section Accept.
  Variable o : copts.
  Variable modes : opc -> bool * bool.
  Let ok := okop o modes.
  Let gd := good ok.

  (* the four conjuncts of [okop], in the form the stages test them *)
  Lemma gd_okop i : gd i ->
    N.ltb (o_version o) (o_minv o (i_op i)) = false /\
    (if o_app_mode o then snd (modes (i_op i)) else fst (modes (i_op i))) = true /\
    is_op i O_store = false /\ is_op i O_load = false.
  Proof.
    intros (H & _). unfold ok, okop in H. repeat (apply andb_true_iff in H; destruct H as [H ?]).
    unfold is_op. split; [apply N.ltb_ge, N.leb_le; exact H|]. split; [assumption|].
    split; apply negb_true_iff; assumption.
  Qed.

  Lemma gd_plain i : gd i -> forallb plain_arg (i_args i) = true.
  Proof. intros (_ & H). exact H. Qed.

  (* plain immediates carry no slots, no subroutines, and are untouched by the rewriters *)
  Lemma plain_rewrite (f : arg -> arg) i :
    (forall a, plain_arg a = true -> f a = a) -> forallb plain_arg (i_args i) = true -> rewrite_instr f i = i.
  Proof.
    intros F H. apply rewrite_instr_id. intros a Ha. apply F. rewrite forallb_forall in H. exact (H a Ha).
  Qed.

  Lemma flat_map_nil {A B} (f : A -> list B) l : (forall x, In x l -> f x = []) -> flat_map f l = [].
  Proof.
    induction l as [|a t IH]; cbn [flat_map]; intros H; [reflexivity|].
    rewrite (H a (or_introl eq_refl)), IH; [reflexivity|]. intros x Hx. apply H. right. exact Hx.
  Qed.

  Lemma plain_flat {A} (f : arg -> list A) l :
    (forall a, plain_arg a = true -> f a = []) -> forallb plain_arg l = true -> flat_map f l = [].
  Proof. intros F H. apply flat_map_nil. intros a Ha. apply F. rewrite forallb_forall in H. exact (H a Ha). Qed.

  Lemma gd_no_slots i : gd i -> instr_slots i = [].
  Proof.
    intros G. unfold instr_slots. apply plain_flat; [|exact (gd_plain i G)].
    intros [n|s|s|s|s]; cbn; intros H; (reflexivity || discriminate).
  Qed.

  Lemma gd_no_subs i : gd i -> instr_subs i = [].
  Proof.
    intros G. unfold instr_subs. apply plain_flat; [|exact (gd_plain i G)].
    intros [n|s|s|s|s]; cbn; intros H; (reflexivity || discriminate).
  Qed.

  Lemma all_no_slots ops : Forall gd ops -> flat_map instr_slots ops = [].
  Proof. intros H. apply flat_map_nil. intros x Hx. apply gd_no_slots. rewrite Forall_forall in H. auto. Qed.

  Lemma all_no_subs ops : Forall gd ops -> flat_map instr_subs ops = [].
  Proof. intros H. apply flat_map_nil. intros x Hx. apply gd_no_subs. rewrite Forall_forall in H. auto. Qed.

  Lemma all_rewrite (f : arg -> arg) ops :
    (forall a, plain_arg a = true -> f a = a) -> Forall gd ops -> map (rewrite_instr f) ops = ops.
  Proof.
    intros F. induction 1 as [|i t Hi Ht IH]; cbn [map]; [reflexivity|].
    rewrite (plain_rewrite f i F (gd_plain i Hi)), IH. reflexivity.
  Qed.

  (* a routine whose graph is one terminal block [0] *)
  Definition one_block (g : graph) (ops : list instr) : Prop :=
    g_blk g 0 = Some (BSimple ops None) /\ Forall gd ops.

  Lemma terminal_no_next ops : is_terminal (BSimple ops None) = true.
  Proof. unfold is_terminal. cbn [outgoing]. apply orb_true_r. Qed.

  Lemma one_out g ops : one_block g ops -> out_of g 0 = [].
  Proof. intros (B & _). unfold out_of. rewrite B. reflexivity. Qed.

  Lemma one_ops g ops : one_block g ops -> get_ops g 0 = ops.
  Proof. intros (B & _). unfold get_ops. rewrite B. reflexivity. Qed.

  Lemma one_iterate g ops : one_block g ops -> iterate g 0 = [0].
  Proof.
    intros H. unfold iterate. cbn [bfs]. rewrite (one_out g ops H). cbn [fold_left].
    destruct (g_next g); reflexivity.
  Qed.

  Lemma seg_dchain g T : seg ok g 0 (S T) None -> dchain gd g T.
  Proof.
    intros S. split.
    - destruct (S 0) as (ops & B & G); [lia|lia|]. exists ops. split; [exact B|exact G].
    - intros i Hi. destruct (S (Datatypes.S i)) as (ops & B & G); [lia|lia|]. exists ops. split; [|exact G].
      rewrite B. unfold nxt. cbn [Nat.eqb]. replace (Datatypes.S i - 1) with i by lia. reflexivity.
  Qed.

  Theorem compile_one_straight e :
    straight o ok e = true -> has_return e = true ->
    exists g ops, compile_one o None e = COk (mkCR None g 0 0) /\ one_block g ops /\
                  g_next g = blocks e /\ snd (add_incoming (snd (lower o (mkL None None None main_param) e None empty_graph))
                                                           (fst (fst (lower o (mkL None None None main_param) e None empty_graph)))) = blocks e - 1.
  Proof.
    intros ST HR.
    destruct (lower o (mkL None None None main_param) e None empty_graph) as [[start end_] g0] eqn:EL.
    cbn [fst snd].
    destruct (lower_straight o ok e ST (mkL None None None main_param) eq_refl None empty_graph start end_ g0 wf_empty EL)
      as (F0 & I0 & L0 & Ks & Ke & S0 & C0).
    cbn [empty_graph g_next g_inc] in *.
    remember (g_next g0 - 1) as T eqn:ET.
    assert (NT : g_next g0 = S T) by lia.
    rewrite NT in S0.
    pose proof (seg_dchain g0 T S0) as D0.
    destruct (add_incoming_chain gd g0 T D0) as (g1 & EA & B1 & N1 & J1 & J2 & J3).
    { lia. }
    { intros i. rewrite I0. reflexivity. }
    subst start.
    assert (D1 : dchain gd g1 T) by (apply (dchain_blk_eq gd g0 g1 T B1 D0)).
    pose proof (validate_tree_chain gd g1 T D1 J1) as V1.
    assert (W1 : wf g1).
    { intros i Hi. rewrite B1. apply (frame_wf _ _ F0). rewrite <- N1. exact Hi. }
    destruct (normalize_chain gd g1 T W1) as (g3 & EN & (ops & B3 & G3) & N3 & W3).
    { congruence. }
    { exact D1. }
    { exact J1. }
    { exact J2. }
    pose proof (validate_tree_single gd g3 (ex_intro _ ops (conj B3 G3))) as V3.
    exists g3, ops. split; [|split; [split; assumption|split]].
    - unfold compile_one. rewrite HR. cbn [option_map].
      rewrite (straight_check o ok e ST). rewrite (straight_no_continue o ok false e ST).
      rewrite EL. rewrite EA. rewrite V1. cbn [negb]. rewrite EN. rewrite V3. cbn [negb].
      subst end_. reflexivity.
    - lia.
    - rewrite EA. cbn [snd]. lia.
  Qed.

  (* the scratch-slot optimiser has nothing to cancel *)
  Lemma apply_slot_none g ops skip : one_block g ops -> apply_slot_to_stack g 0 0 skip = Some g.
  Proof.
    intros H. unfold apply_slot_to_stack. rewrite (one_ops g ops H).
    rewrite flat_map_nil; [reflexivity|].
    intros i _. destruct (nth_error ops i) as [op|] eqn:E1; [|reflexivity].
    destruct (nth_error ops (S i)) as [nx|]; [|reflexivity].
    assert (G : gd op).
    { destruct H as (_ & G). rewrite Forall_forall in G. apply G. eapply nth_error_In. exact E1. }
    rewrite (proj1 (proj2 (proj2 (gd_okop op G)))). reflexivity.
  Qed.

  Lemma opt_block_none g ops skip n : one_block g ops -> opt_block_loop n g 0 0 skip = Some g.
  Proof.
    intros H. induction n as [|n IH]; cbn [opt_block_loop]; [reflexivity|].
    rewrite (apply_slot_none g ops skip H). destruct (instrs_eqb (get_ops g 0) (get_ops g 0)); [reflexivity|exact IH].
  Qed.

  Lemma optimize_none g ops skip : one_block g ops -> optimize_routine g 0 skip = Some g.
  Proof.
    intros H. unfold optimize_routine. rewrite (one_iterate g ops H). cbn [fold_left].
    apply (opt_block_none g ops skip _ H).
  Qed.

  Lemma vs_ops_none ops cur err : Forall gd ops -> vs_ops ops cur err = (cur, err).
  Proof.
    induction 1 as [|i t Hi Ht IH]; cbn [vs_ops]; [reflexivity|].
    destruct (gd_okop i Hi) as (_ & _ & -> & ->). exact IH.
  Qed.

  Lemma validate_slots_none g ops globals :
    one_block g ops -> validate_slots_err (mkCR None g 0 0) globals = Some false.
  Proof.
    intros (B & G). unfold validate_slots_err. cbn [cr_graph cr_start].
    assert (E : exists f, N.to_nat 200000 = S (S f)) by (exists (N.to_nat 199998); lia).
    destruct E as (f & ->). cbn [vs_loop]. rewrite B. cbn [b_ops]. rewrite (vs_ops_none ops _ false G).
    rewrite terminal_no_next. reflexivity.
  Qed.

  Lemma routine_slots_none g ops : one_block g ops -> routine_slots (mkCR None g 0 0) = [].
  Proof.
    intros H. unfold routine_slots. cbn [cr_graph cr_start]. rewrite (one_iterate g ops H).
    cbn [flat_map]. rewrite (one_ops g ops H). rewrite app_nil_r. rewrite (all_no_slots ops (proj2 H)). reflexivity.
  Qed.

  Lemma assign_slots_none p g ops :
    one_block g ops ->
    exists g2 locals asg, assign_slots p [mkCR None g 0 0] = COk ([mkCR None g2 0 0], locals, asg) /\ one_block g2 ops.
  Proof.
    intros H. unfold assign_slots. cbn [map]. rewrite (routine_slots_none g ops H).
    cbn [List.concat app sort_dedup fold_right filter map List.length Nat.eqb negb Nat.ltb Nat.leb fold_left].
    rewrite (validate_slots_none g ops _ H).
    cbn [fold_right assign_loop combine map cr_key cr_sub option_map filter sort_dedup].
    eexists. eexists. eexists. split; [reflexivity|].
    unfold map_graph_ops. cbn [cr_graph cr_start]. rewrite (one_iterate g ops H). cbn [fold_left].
    destruct H as (B & G). rewrite B. split.
    - unfold set_blk, define. cbn [g_blk]. rewrite upd_same. cbn [set_ops b_ops]. rewrite all_rewrite; [reflexivity| |exact G].
      intros [n|s|s|s|s]; cbn; intros X; (reflexivity || discriminate).
    - exact G.
  Qed.

  Lemma sort_one g ops : one_block g ops -> sort_blocks g 0 0 = Some [0].
  Proof.
    intros H. unfold sort_blocks. unfold id.
    assert (E : sort_loop (3 * S (g_next g)) g [0] [] [] = [0]).
    { destruct (3 * S (g_next g)) as [|f] eqn:EF; [lia|]. cbn [sort_loop rev app mem_id].
      rewrite (one_out g ops H). cbn [app]. destruct f; reflexivity. }
    unfold id in *. rewrite E. reflexivity.
  Qed.

  Lemma flatten_one_block g ops : one_block g ops -> flatten_blocks g [0] = Some (map COp ops).
  Proof.
    intros (B & G). unfold flatten_blocks. cbn [flatten_collect]. unfold flatten_one. rewrite B.
    rewrite terminal_no_next. cbn [b_ops app flatten_emit mem_nat]. rewrite app_nil_r. reflexivity.
  Qed.

  Lemma verify_ok ops : Forall gd ops -> verify_ops o modes (map COp ops) = None.
  Proof.
    intros G. unfold verify_ops.
    assert (E1 : existsb (fun c => match c with COp i => N.ltb (o_version o) (o_minv o (i_op i)) | _ => false end) (map COp ops) = false).
    { induction G as [|i t Hi Ht IH]; cbn [map existsb]; [reflexivity|]. rewrite (proj1 (gd_okop i Hi)), IH. reflexivity. }
    assert (E2 : existsb (fun c => match c with
                                   | COp i => negb (if o_app_mode o then snd (modes (i_op i)) else fst (modes (i_op i)))
                                   | _ => false end) (map COp ops) = false).
    { clear E1. induction G as [|i t Hi Ht IH]; cbn [map existsb]; [reflexivity|]. rewrite (proj1 (proj2 (gd_okop i Hi))), IH. reflexivity. }
    rewrite E1, E2. reflexivity.
  Qed.

  Lemma plain_resolved a : plain_arg a = true -> resolved_arg a = true.
  Proof. destruct a; (reflexivity || discriminate). Qed.

  Lemma assemble_ok ops : Forall gd ops -> exists lines, assemble_all (map COp ops) = Some lines.
  Proof.
    intros G. apply assemble_all_total. apply forallb_forall. intros c Hc.
    apply in_map_iff in Hc as (i & <- & Hi). rewrite Forall_forall in G. cbn [resolved_comp].
    pose proof (gd_plain i (G i Hi)) as P. rewrite forallb_forall in P.
    apply forallb_forall. intros a Ha. exact (plain_resolved a (P a Ha)).
  Qed.

  Lemma map_COp_id (F : comp -> comp) ops :
    (forall i, gd i -> F (COp i) = COp i) -> Forall gd ops -> map F (map COp ops) = map COp ops.
  Proof.
    intros HF. induction 1 as [|i t Hi Ht IH]; cbn [map]; [reflexivity|]. rewrite (HF i Hi), IH. reflexivity.
  Qed.

  Theorem accepts_straight p :
    (2 <= o_version o)%N -> (o_version o <= 10)%N ->
    straight o ok (p_main p) = true -> has_return (p_main p) = true ->
    exists lines, compile_model o modes p = COk lines.
  Proof.
    intros V1 V2 ST HR.
    destruct (compile_one_straight (p_main p) ST HR) as (g & ops & E1 & H1 & _ & _).
    assert (C : compile_components o modes p = COk (CPragma (o_version o) :: map COp ops)).
    { rewrite compile_components_stages.
    assert (EV : negb ((2 <=? o_version o) && (o_version o <=? 10))%N = false).
    { apply negb_false_iff. apply andb_true_iff. split; apply N.leb_le; assumption. }
    rewrite EV.
    (* compileSubroutine: one routine, no callees *)
    rewrite (compile_rec_main_no_subs o p _ E1).
    2:{ cbn [cr_graph cr_start]. unfold graph_subs. rewrite (one_iterate g ops H1). cbn [flat_map].
        rewrite (one_ops g ops H1), app_nil_r. exact (all_no_subs ops (proj2 H1)). }
    (* optimiser *)
    cbn [cbind opt_stage fold_right cr_graph cr_start cr_sub cr_end]. rewrite (optimize_none g ops _ H1).
    replace (if o_opt_slots o then COk [mkCR None g 0 0] else COk [mkCR None g 0 0])
      with (@COk (list croutine) [mkCR None g 0 0]) by (destruct (o_opt_slots o); reflexivity).
    destruct (assign_slots_none p g ops H1) as (g2 & locals & asg & EA & H2).
    cbn [cbind]. rewrite EA. cbn [cbind].
    (* sortBlocks, flattenBlocks, and the three passes over the one routine *)
    rewrite (emit_main_only o modes p (mkCR None g2 0 0) locals [0] (map COp ops) eq_refl (sort_one g2 ops H2) (flatten_one_block g2 ops H2)).
    unfold prefix_labels. rewrite (map_COp_id _ ops); [| |exact (proj2 H2)].
    2: { intros i Gi. rewrite plain_rewrite; [reflexivity| |exact (gd_plain i Gi)].
         intros [n|s|s|s|s]; cbn; intros X; (reflexivity || discriminate). }
    rewrite (verify_ok ops (proj2 H2)). reflexivity. }
    destruct (assemble_ok ops (proj2 H1)) as (lines & EL).
    eexists. apply compile_model_ok. eexists. split; [exact C|].
    cbn [assemble_all assemble_comp]. rewrite EL. reflexivity.
  Qed.
End Accept.
