(* Proofs/CallComposeByValueExample.v — property C02: non-vacuity of [call_correct_nonrecursive_by_value]:
   main = a loop calling g (an If with an early Return); every hypothesis holds, including the semantic one
   ([disciplined]: g returns exactly one value, for every fuel, argument list and state), and the conclusion
   is the run of the linked program to the value [denote_c] computes. *)
From Coq Require Import List Arith NArith String Bool Lia.
From PV Require Import Base.Bytes Base.U64 Base.Sexp AVM.Syntax AVM.Ops AVM.Machine Src.Expr Src.Denote Src.DenoteCall
  Comp.Blocks Comp.Lower Comp.Passes Comp.GraphSem Comp.LinearSem Comp.LinkedSem Comp.Compile Comp.Assemble
  Proofs.LowerShape Proofs.NormalizeLowered Proofs.SlotComposeAssign Proofs.FlattenCorrect
  CallX.Denote CallX.EndToEnd
  Proofs.CallComposeLink Proofs.CallComposeMain Proofs.CallComposeLayout Proofs.CallComposeSpill
  Proofs.CallComposeSpillPass Proofs.CallComposeProgram Proofs.CallComposeAcyclic Proofs.CallComposeExamples
  Proofs.CallComposeByValue Proofs.CallComposeByValueFinal.
Import ListNotations.
Local Open Scope list_scope.

(* acc := 0; i := 0; while i < 8 { acc := acc + g(i); i := i + 1 }; return acc *)
Definition bv_main : expr :=
  ESeq [ x_st 256 (x_int 0); x_st 257 (x_int 0);
         EWhile (EOp O_lt [] TUint [x_ld 257; x_int 8])
                (ESeq [ x_st 256 (ENary O_add TUint [x_ld 256; ECall 2 TUint [x_ld 257]]);
                        x_st 257 (ENary O_add TUint [x_ld 257; x_int 1]) ]);
         EReturn (Some (x_ld 256)) ].
Definition bv_prog : prog := mkProgram bv_main [ex_g] [].
Definition bv_comps : list comp :=
  match compile_components ex_opts ex_modes bv_prog with COk c => c | CErr _ => [] end.
Definition bv_L : list comp := tl bv_comps.
Definition bv_asg : list (N * N) := match model_assignment ex_opts bv_prog with COk a => a | CErr _ => [] end.
Definition bv_look := look_of bv_asg.
Definition bv_rank (i : N) : nat := if N.eqb i 2 then 1 else 0.
Definition bv_PL : list N := [301%N].

(* g leaves exactly its result, whatever the fuel, the arguments and the state: its operands are its parameter
   and constants and its operators take two values and leave one, so each value expression in it either stops
   the evaluation or pushes one value; hence both Returns are reached with an empty stack and carry one value *)
Section G.
  Variables (cx : ctx) (look : N -> N) (msel : list (string * bytes)) (argv : list value).
  Let env := envC cx look msel [ex_g].
  Let den f := denote_c (ceC cx look msel [ex_g]) f (Some ex_g) argv.

  Definition pushes1 (stk : list value) (r : dout) : Prop :=
    match r with
    | DNorm s _ => exists v, s = v :: stk
    | DFail | DFuel | DUnsup _ => True
    | _ => False
    end.
  Definition returns1 (stk : list value) (r : dout) : Prop :=
    match r with
    | DRet s _ => exists v, s = v :: stk
    | DFail | DFuel | DUnsup _ => True
    | _ => False
    end.
  Definition val (e : expr) : Prop := forall f stk st, pushes1 stk (den f e stk st).
  Definition bin (op : opc) : Prop := op = O_gt \/ op = O_minus \/ op = O_add.

  Lemma do_bin op x y stk st : bin op -> pushes1 stk (Src.Denote.do_op env op [] (y :: x :: stk) st).
  Proof.
    intros [-> | [-> | ->]]; destruct x, y; unfold Src.Denote.do_op, exec_op; cbn; eauto; unfold oki;
      match goal with |- context [if ?c then _ else _] => destruct c end; cbn; eauto.
  Qed.

  Lemma val_param i : val (EParam i).
  Proof. intros [|f] stk st; [exact Logic.I|]. cbn. destruct (nth_N argv i); cbn; eauto. Qed.

  Lemma val_int n : val (x_int n).
  Proof.
    intros [|f] stk st; [exact Logic.I|]. unfold den. cbn. unfold exec_op. cbn. unfold oki.
    destruct (fits64 n); cbn; eauto.
  Qed.

  Lemma val_bin op t a b : bin op -> val a -> val b -> val (EOp op [] t [a; b]) /\ val (ENary op t [a; b]).
  Proof.
    intros Ho Ha Hb. split; intros [|f] stk st; try exact Logic.I;
      cbn [den denote_c den_list Src.Denote.den_nary_rest]; fold (den f).
    all: specialize (Ha f stk st); destruct (den f a stk st) as [s1 st1| | | | | | | |]; try exact Ha.
    all: destruct Ha as [x ->]; cbn [bind]; specialize (Hb f (x :: stk) st1).
    all: destruct (den f b (x :: stk) st1) as [s2 st2| | | | | | | |]; try exact Hb.
    all: destruct Hb as [y ->]; cbn [bind]; pose proof (do_bin op x y stk st2 Ho) as H.
    all: destruct (Src.Denote.do_op _ op [] _ st2); exact H.
  Qed.

  Lemma val_return v f stk st : val v -> returns1 stk (den f (EReturn (Some v)) stk st).
  Proof.
    intros Hv. destruct f as [|f]; [exact Logic.I|]. cbn [den denote_c]. fold (den f). specialize (Hv f stk st).
    destruct (den f v stk st); first [exact Hv|destruct Hv].
  Qed.
End G.

Lemma g_disciplined cx look msel : disciplined cx look msel [ex_g].
Proof.
  intros r f argv st s' st' [<-|[]] H. cbn [r_ret ex_g].
  change (body_with_return ex_g) with (r_body ex_g) in H. cbn [r_body ex_g] in H.
  pose proof (fun op n Ho => val_bin cx look msel argv op TUint _ _ Ho (val_param _ _ _ _ 0) (val_int _ _ _ _ n)) as V.
  destruct f as [|[|f]]; try discriminate H. cbn [denote_c den_list] in H.
  (* the If: its condition leaves one value, which the branch pops *)
  pose proof (proj1 (V O_gt 5%N (or_introl eq_refl)) f [] st) as Vc. cbv beta in Vc.
  destruct (denote_c _ f _ _ (EOp O_gt _ _ _) [] st) as [s1 st1| | | | | | | |]; try discriminate H; try contradiction.
  destruct Vc as [c ->]. cbn [branch] in H. destruct (truthy c) as [[|]|]; [| |discriminate H].
  - pose proof (val_return cx look msel argv _ f [] st1 (proj1 (V O_minus 5%N (or_intror (or_introl eq_refl))))) as Vr. cbv beta in Vr.
    destruct (denote_c _ f _ _ (EReturn _) [] st1); try discriminate H; try contradiction.
    injection H as <- _. exact Vr.
  - cbn [bind] in H. pose proof (proj2 (V O_add 1%N (or_intror (or_intror eq_refl))) f [] st1) as Va. cbv beta in Va.
    destruct (denote_c _ f _ _ (ENary _ _ _) [] st1); try discriminate H; try contradiction.
    injection H as <- _. exact Va.
Qed.

Lemma bv_asg_eq : bv_asg = [(301, 2); (257, 1); (256, 0)]%N.
Proof. vm_compute. reflexivity. Qed.

Lemma bv_params_ok : params_ok bv_look [ex_g] bv_rank bv_PL.
Proof.
  split; [|split].
  - intros r b s [<-|[]] [E|[]]. injection E as <- <-. split; [reflexivity|left; reflexivity].
  - intros r [<-|[]]. cbn. repeat constructor. intros [].
  - intros r r' p p' [<-|[]] [<-|[]] _ _ _. reflexivity.
Qed.

Lemma bv_bodies_ok : bodies_ok bv_look [ex_g] bv_rank bv_PL.
Proof. intros r [<-|[]]. unfold bv_look. rewrite bv_asg_eq. vm_compute. reflexivity. Qed.

Definition bv_st0 : mstate := init_state [] [] [].
Definition bv_ce : cenv := ceC ex_ctx bv_look [] [ex_g].
Definition bv_stC : mstate :=
  match denote_c bv_ce 100 None [] (root_ast bv_main) [] bv_st0 with DExit _ st => st | _ => bv_st0 end.

(* what the example needs of the pipeline's intermediate results *)
Lemma bv_stages asg frs : flat_stage ex_opts bv_prog = COk (asg, frs) ->
  look_of asg = bv_look /\ fs_subs frs = [ex_g] /\ acyclic bv_rank frs /\
  NoDup (labels_of (flatten_subroutines frs)) /\ forallb (fun fr => linkable (fr_ops fr)) frs = true.
Proof.
  intros H. vm_compute in H. injection H as <- <-. unfold bv_look. rewrite bv_asg_eq.
  split; [reflexivity|]. split; [reflexivity|]. split; [|split; [apply nodup_b_sound|]; vm_compute; reflexivity].
  intros fr r [<-|[<-|[]]] Es c Hc; [discriminate Es|]. destruct Hc.
Qed.

(* sum over i < 8 of g(i): 1+2+3+4+5+6 + 1 + 2 = 24 *)
Example by_value_example :
  compile_components ex_opts ex_modes bv_prog = COk bv_comps /\
  bv_comps = CPragma 6 :: bv_L /\
  denote_c bv_ce 100 None [] (root_ast bv_main) [] bv_st0 = DExit (VI 24) bv_stC /\
  exists stK, pstar (lenv ex_ctx bv_look [] [ex_g]) bv_L (PAt [] 0 [] bv_st0) (PExit (VI 24) stK) /\
              Rel bv_look bv_PL stK bv_stC /\
              s_trace stK = s_trace bv_stC /\
              (* acc and i are the same cells in both; the parameter slot of g differs *)
              scratch_get (s_scratch stK) 0 = scratch_get (s_scratch bv_stC) 0 /\
              scratch_get (s_scratch stK) 1 = scratch_get (s_scratch bv_stC) 1.
Proof.
  assert (EC : compile_components ex_opts ex_modes bv_prog = COk bv_comps).
  { unfold bv_comps. destruct (compile_components ex_opts ex_modes bv_prog) eqn:E; [reflexivity|].
    vm_compute in E. discriminate E. }
  assert (ED : exists stC, denote_c bv_ce 100 None [] (root_ast bv_main) [] bv_st0 = DExit (VI 24) stC).
  { unfold bv_ce, bv_look. rewrite bv_asg_eq. eexists. vm_compute. reflexivity. }
  destruct ED as [stC ED]. assert (EF : bv_stC = stC) by (unfold bv_stC; rewrite ED; reflexivity). rewrite EF.
  split; [exact EC|]. split; [exact (components_pragma _ _ _ _ EC eq_refl)|]. split; [exact ED|].
  destruct (call_correct_nonrecursive_by_value ex_opts ex_modes bv_prog bv_comps bv_rank bv_PL EC eq_refl eq_refl eq_refl)
    as (crs & crs' & locals & asg & frs & HR & HA & HF & T).
  { intros r [<-|[]]; reflexivity. }
  { intros u i []. }
  destruct (bv_stages asg frs (flat_stage_eq _ _ _ _ _ _ _ HR HA HF)) as (El & Es & Ha & ND & LK).
  destruct (T Ha) as [HC T2]. clear T. rewrite El, Es in T2.
  assert (EL : bv_L = flatten_subroutines frs) by (unfold bv_L; rewrite HC; reflexivity). rewrite <- EL in T2, ND.
  assert (Ok : okb bv_look [ex_g] bv_rank bv_PL 2 (root_ast (p_main bv_prog)) = true).
  { unfold bv_look. rewrite bv_asg_eq. vm_compute. reflexivity. }
  destruct (T2 ND LK ex_ctx [] bv_params_ok bv_bodies_ok (g_disciplined ex_ctx bv_look []) 2%nat Ok 100%nat bv_st0 (VI 24) stC ED)
    as (stK & Run & RK).
  exists stK. split; [exact Run|]. split; [exact RK|].
  destruct RK as [(_ & _ & _ & _ & _ & Etr) SC].
  split; [symmetry; exact Etr|].
  split; apply SC; unfold Pn, bv_look; rewrite bv_asg_eq; intros [E|[]]; discriminate E.
Qed.
