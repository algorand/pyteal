(* Proofs/LatePassTotalAccept.v — acceptance for MAIN-ONLY programs with control flow (C20): when PyTeal's
   own checks pass on the main routine, slot assignment succeeds (at most 256 slots, no load before store,
   no duplicate requested id) and the emitted operations exist at the version / in the mode, the compile
   model returns TEAL lines.  Every stage in between — tree validation, NormalizeBlocks, sortBlocks,
   flattenBlocks, spilling, subroutine flattening, assembly — is proved not to fail. *)
From Coq Require Import List Arith NArith String Bool Lia.
From PV Require Import Base.Bytes AVM.Syntax AVM.Machine Src.Expr Src.Denote
  Comp.Blocks Comp.Lower Comp.Passes Comp.GraphSem Comp.LinearSem Comp.SimCheck Comp.Compile Comp.Assemble
  Proofs.LowerFrame Proofs.LowerShape Proofs.NormalizeLowered Proofs.FlattenCorrect
  Proofs.EndToEndExits Proofs.EndToEndGlue Proofs.EndToEnd
  Proofs.SlotCompose Proofs.SlotComposeAssign Proofs.SlotComposeCover Proofs.SlotComposePipeline
  Proofs.StageECompose Proofs.StageEFlatten Proofs.PipelineStages
  Proofs.LatePassTotalReach Proofs.LatePassTotalNorm Proofs.LatePassTotal Proofs.LatePassTotalProgram
  Proofs.SortCorrect.
Import ListNotations.

Lemma resolved_prefix pre c : resolved_comp (prefix_labels pre c) = resolved_comp c.
Proof.
  destruct c as [i|l cm|v]; try reflexivity. cbn [prefix_labels resolved_comp]. unfold rewrite_instr. cbn [i_args].
  induction (i_args i) as [|a t IH]; [reflexivity|]. cbn [map forallb]. rewrite IH. destruct a; reflexivity.
Qed.

(* a routine that references no subroutine: its code, after the slot rewrite, has no placeholder *)
Lemma rw_args_resolved look l : (forall s, ~ In (ASub s) l) -> forallb resolved_arg (map (rw_arg look) l) = true.
Proof.
  induction l as [|a t IH]; intros H; [reflexivity|]. cbn [map forallb].
  rewrite IH by (intros s Hs; apply (H s); right; exact Hs).
  destruct a as [n|s0|l0|u|sb]; try reflexivity. exfalso. apply (H sb). left. reflexivity.
Qed.

Lemma instr_subs_none i : instr_subs i = [] -> forall s, ~ In (ASub s) (i_args i).
Proof.
  unfold instr_subs. intros H s Hs.
  assert (K : In s (flat_map (fun a => match a with ASub s0 => [s0] | _ => [] end) (i_args i))).
  { apply in_flat_map. exists (ASub s). split; [exact Hs|left; reflexivity]. }
  rewrite H in K. destruct K.
Qed.

Theorem routine_code_resolved look c order code :
  (forall b, In b order -> In b (iterate (cr_graph c) (cr_start c))) ->
  flatten_blocks (cr_graph c) order = Some code ->
  graph_subs (cr_graph c) (cr_start c) = [] ->
  forallb resolved_comp (rw_code look code) = true.
Proof.
  intros Cov HF HG. apply forallb_forall. intros c' Hc'. unfold rw_code in Hc'. apply in_map_iff in Hc'.
  destruct Hc' as (c0 & <- & Hc0). destruct c0 as [i|l cm|v]; try reflexivity.
  cbn [rw_comp resolved_comp]. rewrite rw_instr_args. apply rw_args_resolved. apply instr_subs_none.
  destruct (flatten_blocks_inv _ _ _ i HF Hc0) as [(b & Hb & Hi)|(o & ni & pos & -> & _)]; [|reflexivity].
  destruct (instr_subs i) as [|s t] eqn:Es; [reflexivity|exfalso].
  assert (K : In s (graph_subs (cr_graph c) (cr_start c))).
  { unfold graph_subs. apply in_flat_map. exists b. split; [exact (Cov b Hb)|].
    apply in_flat_map. exists i. split; [exact Hi|rewrite Es; left; reflexivity]. }
  rewrite HG in K. destruct K.
Qed.

Theorem main_only_accepts o modes p :
  p_subs p = [] -> o_opt_slots o = false ->
  (2 <=? o_version o)%N && (o_version o <=? 10)%N = true ->
  check_expr o None false (root_ast (p_main p)) = None ->
  has_bad_continue false (root_ast (p_main p)) = false ->
  nec (root_ast (p_main p)) = true ->
  exists cr, compile_one o None (p_main p) = COk cr /\
    (graph_subs (cr_graph cr) (cr_start cr) = [] ->
     forall crs' locals asg, assign_slots p [cr] = COk (crs', locals, asg) ->
     exists order code,
       sort_blocks (cr_graph cr) (cr_start cr) (cr_end cr) = Some order /\
       flatten_blocks (cr_graph cr) order = Some code /\
       (verify_ops o modes (map (prefix_labels "main_") (rw_code (look_of asg) code)) = None ->
        exists lines,
          assemble_all (main_comps (o_version o) (rw_code (look_of asg) code)) = Some lines /\
          compile_model o modes p = COk lines)).
Proof.
  intros Hs Ho Hv Ck Hb Hn.
  destruct (compile_one_tree_checks_pass o None (p_main p) eq_refl Ck Hb) as (cr & E & _).
  exists cr. split; [exact E|]. intros HG crs' locals asg HA.
  destruct (routine_assigned_total (look_of asg) o None (p_main p) cr eq_refl E Hn) as (order & code & HS & HF & HS' & HF').
  exists order, code. split; [exact HS|]. split; [exact HF|]. intros HVo.
  destruct (compiled_late_facts o None (p_main p) cr eq_refl E Hn) as (W & _).
  pose proof (order_covered_plain cr order code W HS HF) as Cov.
  pose proof (routine_code_resolved (look_of asg) cr order code Cov HF HG) as Pl.
  assert (PA : forallb resolved_comp (main_comps (o_version o) (rw_code (look_of asg) code)) = true).
  { unfold main_comps. cbn [forallb resolved_comp andb]. apply forallb_forall. intros x Hx.
    apply in_map_iff in Hx. destruct Hx as (y & <- & Hy). rewrite resolved_prefix.
    rewrite forallb_forall in Pl. exact (Pl y Hy). }
  destruct (assemble_all_total _ PA) as (lines & EA). exists lines. split; [exact EA|].
  apply compile_model_ok. exists (main_comps (o_version o) (rw_code (look_of asg) code)). split; [|exact EA].
  rewrite compile_components_stages, Ho, Hs, Hv. cbn [negb List.length].
  rewrite (compile_rec_main_no_subs o p cr E HG 0). cbn [cbind]. rewrite HA. cbn [cbind].
  pose proof (proj1 (assign_slots_facts p [cr] crs' locals asg HA)) as R. cbn [map] in R. subst crs'.
  rewrite (emit_main_only o modes p (rw_routine (look_of asg) cr) locals order _
             (compile_one_sub o None (p_main p) cr E) HS' HF'), HVo.
  reflexivity.
Qed.

(* non-vacuity: the routine of Proofs/LatePassTotalExamples.v as a main-only program *)
From PV Require Import Proofs.EndToEndExamples Proofs.LatePassTotalExamples.

Definition late_prog : prog := mkProgram late_ast [] [].
Definition all_modes : opc -> bool * bool := fun _ => (true, true).
(* every stage is evaluated once, on the value of the stage before it *)
Definition late_slots := Eval vm_compute in assign_slots late_prog [late_cr].

Example main_only_accepts_example :
  exists lines, compile_model opts0 all_modes late_prog = COk lines /\ List.length lines = 59.
Proof.
  assert (Ck : check_expr opts0 None false (root_ast (p_main late_prog)) = None) by (vm_compute; reflexivity).
  assert (Hb : has_bad_continue false (root_ast (p_main late_prog)) = false) by (vm_compute; reflexivity).
  assert (Hn : nec (root_ast (p_main late_prog)) = true) by (vm_compute; reflexivity).
  destruct (main_only_accepts opts0 all_modes late_prog eq_refl eq_refl eq_refl Ck Hb Hn) as (cr & E & K).
  injection (eq_trans (eq_sym E) late_cr_eq) as ->.
  assert (HG : graph_subs (cr_graph late_cr) (cr_start late_cr) = []) by (vm_compute; reflexivity).
  assert (HA : assign_slots late_prog [late_cr] = late_slots) by (vm_compute; reflexivity).
  destruct (K HG _ _ _ HA) as (order & code & HS & HF & Acc).
  vm_compute in HS. injection HS as <-.
  vm_compute in HF. injection HF as <-.
  destruct Acc as (lines & A & C); [vm_compute; reflexivity|].
  exists lines. split; [exact C|].
  vm_compute in A. injection A as <-. reflexivity.
Qed.
