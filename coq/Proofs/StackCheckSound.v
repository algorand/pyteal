(* Proofs/StackCheckSound.v — soundness of AVM/StackCheck.v.
   An annotation accepted by [annot_inductive] over-approximates every state the machine can reach:
   by induction on the number of steps, with a simulation relation [conf] between machine states and
   annotations that includes the call stack (each pending frame records what the caller's annotation
   expects at the return address). *)
From Coq Require Import List Arith NArith Ascii String Bool Lia.
From PV Require Import Base.Bytes AVM.Syntax AVM.Ops AVM.Machine AVM.StackSig AVM.StackCheck Proofs.ExecOpFacts
  Proofs.StackSigProof.
From PV Require Proofs.MachineStep.
Import ListNotations.

Lemma stk_le_has : forall vs a b, stack_has vs a -> stk_le a b = true -> stack_has vs b.
Proof.
  intros vs a b H. revert b. induction H as [|v t vs ts Hv Hs IH]; intros b L; destruct b as [|u b]; cbn in L; try discriminate.
  - constructor.
  - apply andb_true_iff in L. destruct L as [L1 L2]. constructor; [eapply has_ty_le; eauto | apply IH; assumption].
Qed.

Lemma stk_le_length : forall a b, stk_le a b = true -> List.length a = List.length b.
Proof.
  induction a as [|x a IH]; intros [|y b] L; cbn in L; try discriminate; auto.
  apply andb_true_iff in L. destruct L as [_ L]. cbn. f_equal. auto.
Qed.

Lemma le_at_inv : forall ann t a, le_at ann t a = true ->
  exists b, nth_error ann t = Some (Some b) /\ a_rid a = a_rid b /\ a_fp a = a_fp b /\
            stk_le (a_stk a) (a_stk b) = true /\ sl_le (a_sl a) (a_sl b) = true.
Proof.
  intros ann t a H. unfold le_at in H.
  destruct (nth_error ann t) as [[b|]|]; try discriminate.
  exists b. unfold astate_le in H. rewrite !andb_true_iff, Nat.eqb_eq, Bool.eqb_true_iff in H. tauto.
Qed.

Definition slots_ok (scr : list (N * value)) (sl : list (N * ty)) : Prop :=
  forall k t, In (k, t) sl -> has_ty (scratch_get scr k) t.

Definition sl_any (sl : list (N * ty)) : bool := forallb (fun kt => ty_eqb (snd kt) TA) sl.

Lemma alookup_In : forall (l : list (N * ty)) k t, alookup N.eqb k l = Some t -> In (k, t) l.
Proof.
  induction l as [|[j u] l IH]; intros k t H; cbn in H; try discriminate.
  destruct (N.eqb_spec k j) as [->|_].
  - injection H as <-. left; reflexivity.
  - right. auto.
Qed.

Lemma slot_ty_ok : forall scr sl k, slots_ok scr sl -> has_ty (scratch_get scr k) (slot_ty sl k).
Proof.
  intros scr sl k H. unfold slot_ty. destruct (alookup N.eqb k sl) as [t|] eqn:E.
  - apply H. apply alookup_In; assumption.
  - apply has_ty_TA.
Qed.

Lemma slots_ok_le : forall scr a b, slots_ok scr a -> sl_le a b = true -> slots_ok scr b.
Proof.
  intros scr a b H L k t I. unfold sl_le in L. rewrite forallb_forall in L. specialize (L _ I). cbn in L.
  eapply has_ty_le; [apply slot_ty_ok; exact H | exact L].
Qed.

Lemma slots_ok_nil : forall scr, slots_ok scr [].
Proof. intros scr k t []. Qed.

Lemma slots_ok_any : forall scr sl, sl_any sl = true -> slots_ok scr sl.
Proof.
  intros scr sl H k t I. unfold sl_any in H. rewrite forallb_forall in H. specialize (H _ I). cbn in H.
  apply ty_eqb_eq in H. subst. apply has_ty_TA.
Qed.

Lemma sl_le_nil_any : forall b, sl_le [] b = true -> sl_any b = true.
Proof.
  intros b H. unfold sl_le in H. unfold sl_any. rewrite forallb_forall in *. intros kt I. specialize (H _ I).
  unfold slot_ty in H. cbn in H. destruct (snd kt); try discriminate; reflexivity.
Qed.

Lemma In_aremove : forall (l : list (N * ty)) k j t, In (j, t) (aremove N.eqb k l) -> j <> k /\ In (j, t) l.
Proof.
  induction l as [|[i u] l IH]; intros k j t H; cbn in H; [contradiction|].
  destruct (N.eqb k i) eqn:E.
  - destruct (IH _ _ _ H). split; auto. right; auto.
  - destruct H as [H|H].
    + inversion H; subst. split; [|left; reflexivity]. apply N.eqb_neq in E. congruence.
    + destruct (IH _ _ _ H). split; auto. right; auto.
Qed.

Lemma slots_ok_store : forall st sl k v t, slots_ok (s_scratch st) sl -> has_ty v t ->
  slots_ok (s_scratch (set_scratch st k v)) (set_slot sl k t).
Proof.
  intros st sl k v t H Hv j u I. rewrite scratch_get_set. unfold set_slot in I. destruct I as [I|I].
  - inversion I; subst. rewrite N.eqb_refl. assumption.
  - apply In_aremove in I. destruct I as [Nj I]. apply N.eqb_neq in Nj. rewrite Nj. apply H; assumption.
Qed.

(* the opcodes whose effect on the slot types is not the identity *)
Definition slot_op (o : opc) : bool := match o with O_load | O_store | O_stores => true | _ => false end.

Lemma slot_effect_plain : forall i a s', slot_op (p_op i) = false -> slot_effect i a s' = with_stk a s'.
Proof. intros [o imms] a s' H. destruct o; try discriminate H; reflexivity. Qed.

Lemma slot_effect_sound : forall cx i a s' cur cur' below st st',
  exec_op cx (p_op i) (p_imms i) (cur ++ below) st = OOk (cur' ++ below) st' ->
  stack_has cur (a_stk a) -> stack_has cur' s' -> slots_ok (s_scratch st) (a_sl a) ->
  stack_has cur' (a_stk (slot_effect i a s')) /\ slots_ok (s_scratch st') (a_sl (slot_effect i a s')) /\
  a_rid (slot_effect i a s') = a_rid a /\ a_fp (slot_effect i a s') = a_fp a.
Proof.
  intros cx i a s' cur cur' below st st' H Hc Hc' Hsl.
  assert (slot_effect i a s' = with_stk a s' -> p_op i <> O_store -> p_op i <> O_stores ->
          stack_has cur' (a_stk (slot_effect i a s')) /\ slots_ok (s_scratch st') (a_sl (slot_effect i a s')) /\
          a_rid (slot_effect i a s') = a_rid a /\ a_fp (slot_effect i a s') = a_fp a) as Plain.
  { intros -> N1 N2. cbn. rewrite (exec_op_keeps_scratch _ _ _ _ _ _ _ H N1 N2). auto. }
  assert (forall sl, slots_ok (s_scratch st') sl ->
          let a' := mkA (a_rid a) (a_fp a) s' sl in
          stack_has cur' (a_stk a') /\ slots_ok (s_scratch st') (a_sl a') /\ a_rid a' = a_rid a /\ a_fp a' = a_fp a) as Mk.
  { intros sl Hsl'. cbn. auto. }
  destruct (slot_op (p_op i)) eqn:So.
  2: { apply Plain; [apply slot_effect_plain, So | intros E; rewrite E in So; discriminate So ..]. }
  destruct i as [o imms]. cbn [p_op p_imms] in *.
  assert (o = O_load \/ o = O_store \/ o = O_stores) as Ho by (clear - So; destruct o; try discriminate So; auto).
  clear So. destruct Ho as [-> | [-> | ->]]; unfold slot_effect; cbn [p_op p_imms].
  - (* load *)
    destruct imms as [|[k|?|?] [|? ?]]; try (apply Plain; [reflexivity | discriminate ..]).
    cbv beta iota zeta delta [exec_op exec_pure] in H. cbn [imms_to_args] in H.
    destruct (k <? 256)%N; try discriminate. injection H as E0 <-.
    apply (app_inv_tail below (_ :: cur) cur') in E0. subst cur'.
    inversion Hc'; subst. cbn. repeat split; auto. constructor; auto. apply slot_ty_ok; assumption.
  - (* store: the slot takes the type of the cell stored; anything unexpected forgets all slot types *)
    destruct imms as [|[k|?|?] [|? ?]]; try exact (Mk [] (slots_ok_nil _)).
    destruct (a_stk a) as [|t ts] eqn:Ea; [exact (Mk [] (slots_ok_nil _))|]. apply Mk.
    inversion Hc as [|v0 t' cur0 ts' Hv Hr]; subst.
    cbv beta iota zeta delta [exec_op exec_pure] in H. cbn [imms_to_args app] in H.
    destruct (k <? 256)%N; try discriminate. injection H as _ <-.
    apply slots_ok_store; assumption.
  - (* stores *)
    destruct imms as [|[k|?|?] [|? ?]]; exact (Mk [] (slots_ok_nil _)).
Qed.

Lemma not_proto_at_inv : forall p t, not_proto_at p t = true ->
  exists i, nth_error (pr_code p) t = Some i /\ is_proto (p_op i) = false.
Proof.
  intros p t H. unfold not_proto_at in H. destruct (nth_error (pr_code p) t) as [i|]; try discriminate.
  exists i. split; auto. destruct (is_proto (p_op i)); auto; discriminate.
Qed.

Lemma find_rid_from_ge : forall l k pc j, find_rid_from l k pc = Some j -> (k <= j)%nat.
Proof.
  induction l as [|r l IH]; intros k pc j H; cbn in H; try discriminate.
  destruct (Nat.eqb (r_entry r) pc).
  - inversion H; lia.
  - apply IH in H. lia.
Qed.

Lemma find_rid_nonzero : forall rt pc k, find_rid rt pc = Some k -> k <> 0%nat.
Proof.
  intros rt pc k H. unfold find_rid in H. destruct rt; try discriminate.
  apply find_rid_from_ge in H. lia.
Qed.

(* frame_dig / frame_bury: the checker resolves the index in the routine's own cells, the machine in the
   whole stack with the frame pointer [length below + na] *)
Lemma frame_access : forall (cur below : list value) na k idx pos,
  frame_index na na k = Some idx -> pos_from_bottom (List.length cur) idx = Some pos ->
  frame_index (List.length below + na) na k = Some (List.length below + idx)%nat /\
  from_bottom (cur ++ below) (List.length below + idx) = Some pos /\ (pos < List.length cur)%nat.
Proof.
  intros cur below na k idx pos Hi Hp.
  rewrite (Nat.add_comm _ na), (Nat.add_comm _ idx), (MachineStep.frame_index_lift na na k _ (le_n na)), Hi,
    MachineStep.from_bottom_lift.
  split; [reflexivity|]. split; [exact Hp|exact (MachineStep.from_bottom_lt cur idx pos Hp)].
Qed.

Lemma annot_inductive_inv : forall p rt ann, annot_inductive p rt ann = true ->
  rt_ok rt = true /\ le_at ann 0 (mkA 0 false [] []) = true /\ not_proto_at p 0 = true /\
  forallb (check_pc false p rt ann) (seq 0 (List.length ann)) = true.
Proof. intros p rt ann H. unfold annot_inductive in H. rewrite !andb_true_iff in H. tauto. Qed.

Lemma check_pc_all : forall strict p rt ann,
  forallb (check_pc strict p rt ann) (seq 0 (List.length ann)) = true ->
  forall pc a, nth_error ann pc = Some (Some a) ->
  exists i, nth_error (pr_code p) pc = Some i /\ check_succs p ann (transfer strict false p rt pc i a) = true.
Proof.
  intros strict p rt ann F pc a H. rewrite forallb_forall in F.
  assert (In pc (seq 0 (List.length ann))) as I.
  { apply in_seq. split; [lia|]. cbn. apply nth_error_Some. congruence. }
  specialize (F _ I). unfold check_pc in F. rewrite H in F.
  destruct (nth_error (pr_code p) pc) as [i|]; try discriminate. eauto.
Qed.

Lemma check_succs_one : forall p ann t a', check_succs p ann (TSucc [(t, a')] None) = true ->
  le_at ann t a' = true /\ not_proto_at p t = true.
Proof. intros p ann t a' H. cbn in H. rewrite !andb_true_r in H. apply andb_true_iff in H. assumption. Qed.

(* an accepted instruction that is not a control opcode passed its signature and has one successor, the
   next pc.  (For a control opcode [transfer] computes to [transfer_ctl] once the opcode is known.) *)
Lemma check_transfer_plain : forall strict lr p rt ann pc i a,
  check_succs p ann (transfer strict lr p rt pc i a) = true -> sig_of (p_op i) (p_imms i) <> SCtl ->
  exists s', sig_apply strict (sig_of (p_op i) (p_imms i)) (a_stk a) = Some s' /\
             le_at ann (S pc) (slot_effect i a s') = true /\ not_proto_at p (S pc) = true.
Proof.
  intros strict lr p rt ann pc i a H N. unfold transfer in H.
  destruct (sig_of (p_op i) (p_imms i)); try contradiction; try discriminate H.
  all: match type of H with context [sig_apply ?b ?sd ?s] => destruct (sig_apply b sd s) as [s'|] end;
       [exists s'; split; [reflexivity | apply check_succs_one; exact H] | discriminate H].
Qed.

Lemma transfer_cond_inv : forall strict lr p rt ann pc o imms a, o = O_bz \/ o = O_bnz ->
  check_succs p ann (transfer strict lr p rt pc (mkP o imms) a) = true ->
  exists l t c r, imms = [IName l] /\ label_pc p l = Some t /\ a_stk a = c :: r /\ accepts strict c TU = true /\
    le_at ann t (with_stk a r) = true /\ not_proto_at p t = true /\
    le_at ann (S pc) (with_stk a r) = true /\ not_proto_at p (S pc) = true.
Proof.
  intros strict lr p rt ann pc o imms a Ho H.
  destruct Ho as [-> | ->]; cbv beta iota zeta delta [transfer sig_of transfer_ctl p_op p_imms] in H.
  all: destruct imms as [|[?|?|l] [|? ?]]; try discriminate H.
  all: destruct (label_pc p l) as [t|] eqn:El; [|destruct (a_stk a); discriminate H].
  all: destruct (a_stk a) as [|c r]; try discriminate H.
  all: destruct (accepts strict c TU) eqn:A; try discriminate H.
  all: cbn in H; rewrite !andb_true_iff in H; exists l, t, c, r; tauto.
Qed.

Section Sound.
  Variable p : program.
  Variable rt : list rsig.
  Variable ann : annot.

  (* what each pending frame promises: the current routine [rid] was called from a point whose return
     address is annotated with (at least) the routine's results on top of the caller's remaining cells *)
  Fixpoint frames_ok (rid : nat) (fp : bool) (frames : list frame) (below : list value) : Prop :=
    match frames with
    | [] => rid = 0%nat /\ fp = false /\ below = []
    | f :: fs =>
        exists r, nth_error rt rid = Some r /\ rid <> 0%nat /\
          f_proto f = (if fp then Some (List.length below + List.length (r_args r), List.length (r_args r), List.length (r_rets r))%nat
                       else None) /\
          exists ac rest_abs lower below',
            nth_error ann (f_ret f) = Some (Some ac) /\
            stk_le (r_rets r ++ rest_abs) (a_stk ac) = true /\
            below = lower ++ below' /\ stack_has lower rest_abs /\
            not_proto_at p (f_ret f) = true /\
            sl_any (a_sl ac) = true /\
            frames_ok (a_rid ac) (a_fp ac) fs below'
    end.

  (* the simulation relation *)
  Definition conf (m : mach) : Prop :=
    exists a cur below,
      nth_error ann (m_pc m) = Some (Some a) /\
      m_stack m = cur ++ below /\
      stack_has cur (a_stk a) /\
      frames_ok (a_rid a) (a_fp a) (m_calls m) below /\
      (forall i, nth_error (pr_code p) (m_pc m) = Some i -> is_proto (p_op i) = true -> m_from_callsub m = true) /\
      slots_ok (s_scratch (m_st m)) (a_sl a).

  Hypothesis IND : annot_inductive p rt ann = true.

  Lemma ind_rt : rt_ok rt = true.
  Proof. apply (annot_inductive_inv _ _ _ IND). Qed.

  Lemma ind_entry : le_at ann 0 (mkA 0 false [] []) = true /\ not_proto_at p 0 = true.
  Proof. destruct (annot_inductive_inv _ _ _ IND) as [_ [H1 [H2 _]]]. auto. Qed.

  Lemma ind_pc : forall pc a, nth_error ann pc = Some (Some a) ->
    exists i, nth_error (pr_code p) pc = Some i /\ check_succs p ann (transfer false false p rt pc i a) = true.
  Proof. apply check_pc_all, (annot_inductive_inv _ _ _ IND). Qed.

  (* a state standing at pc [t] conforms as soon as its parts fit some annotation below the one at [t] *)
  Lemma conf_at : forall t a' cur' below' m',
    le_at ann t a' = true ->
    (forall i, nth_error (pr_code p) t = Some i -> is_proto (p_op i) = true -> m_from_callsub m' = true) ->
    m_pc m' = t -> m_stack m' = cur' ++ below' -> stack_has cur' (a_stk a') ->
    frames_ok (a_rid a') (a_fp a') (m_calls m') below' ->
    slots_ok (s_scratch (m_st m')) (a_sl a') -> conf m'.
  Proof.
    intros t a' cur' below' m' Hle Hpr Hpc Hst Hs Hfr Hsl.
    destruct (le_at_inv _ _ _ Hle) as [b [Hb [Er [Ef [Ls Lsl]]]]].
    exists b, cur', below'. rewrite Hpc, <- Er, <- Ef. repeat split; auto.
    - eapply stk_le_has; eauto.
    - eapply slots_ok_le; eauto.
  Qed.

  Lemma not_proto_ok : forall t (b : bool), not_proto_at p t = true ->
    forall i, nth_error (pr_code p) t = Some i -> is_proto (p_op i) = true -> b = true.
  Proof. intros t b Hnp i Hi Hp. destruct (not_proto_at_inv _ _ Hnp) as [j [Hj Hq]]. congruence. Qed.

  Lemma frames_nonmain : forall rid fp frames below,
    frames_ok rid fp frames below -> rid <> 0%nat -> exists f fs, frames = f :: fs.
  Proof. intros rid fp [|f fs] below H N; cbn in H; [destruct H; contradiction | eauto]. Qed.

  Lemma frames_main : forall fp frames below,
    frames_ok 0 fp frames below -> frames = [].
  Proof. intros fp [|f fs] below H; cbn in H; auto. destruct H as [r [_ [N _]]]. contradiction. Qed.

  (* inside a routine other than main there is a frame, and it records the frame pointer iff [proto] ran *)
  Lemma frames_proto : forall rid fp frames below r,
    frames_ok rid fp frames below -> nth_error rt rid = Some r -> (rid <> 0%nat \/ fp = true) ->
    exists f fs, frames = f :: fs /\
      f_proto f = (if fp then Some (List.length below + List.length (r_args r), List.length (r_args r), List.length (r_rets r))%nat
                   else None).
  Proof.
    intros rid fp [|f fs] below r H Er N; cbn [frames_ok] in H.
    - destruct H as [-> [-> _]]. destruct N; [contradiction | discriminate].
    - destruct H as [r' [Er' [_ [Hp _]]]]. rewrite Er in Er'. injection Er' as <-. eauto.
  Qed.

  (* the instructions that touch frames or jump without a condition always make their step *)
  Definition structural (o : opc) : bool :=
    match o with O_b | O_callsub | O_retsub | O_proto | O_frame_dig | O_frame_bury => true | _ => false end.

  Lemma structural_inv : forall o, structural o = true ->
    o = O_b \/ o = O_callsub \/ o = O_retsub \/ o = O_frame_dig \/ o = O_frame_bury \/ o = O_proto.
  Proof. intros o H. destruct o; try discriminate H; auto 7. Qed.

  (* In each case the verifier's verdict is read off first, with [step] still folded (so that the case
     analysis does not carry the machine's whole transition around); then the step is the opcode's rule
     (Proofs/MachineStep.v). *)
  Lemma structural_step : forall cx m i,
    conf m -> (height m <= STACK_MAX)%nat ->
    nth_error (pr_code p) (m_pc m) = Some i -> structural (p_op i) = true ->
    exists m', step cx p m = Running m' /\ conf m'.
  Proof.
    intros cx m i0 [a [cur [below [Ha [Hst [Hh [Hfr [Hpr Hsl]]]]]]]] Hmax Hi0 Hs0.
    destruct (ind_pc _ _ Ha) as [i [Hi Hchk]].
    rewrite Hi in Hi0. injection Hi0 as <-.
    destruct i as [o imms]. cbn [p_op p_imms] in *.
    destruct (structural_inv _ Hs0) as [-> | [-> | [-> | [-> | [-> | ->]]]]]; clear Hs0.
    all: cbv beta iota zeta delta [transfer sig_of transfer_ctl p_op p_imms] in Hchk.
    - (* b *)
      destruct imms as [|[n|b|l] [|? ?]]; try discriminate Hchk.
      destruct (label_pc p l) as [t|] eqn:El; try discriminate Hchk.
      destruct (check_succs_one _ _ _ _ Hchk) as [Hle Hnp].
      rewrite (MachineStep.step_b cx p m Hmax l Hi), El.
      eexists; split; [reflexivity|].
      apply (conf_at _ _ cur below _ Hle (not_proto_ok _ _ Hnp)); [reflexivity | exact Hst | exact Hh | exact Hfr | exact Hsl].
    - (* callsub *)
      destruct imms as [|[n|b|l] [|? ?]]; try discriminate Hchk.
      destruct (label_pc p l) as [t|] eqn:El; try discriminate Hchk.
      destruct (find_rid rt t) as [k|] eqn:Ek; try discriminate Hchk.
      destruct (nth_error rt k) as [r|] eqn:Er; try discriminate Hchk.
      destruct (take_ops false (r_args r) (a_stk a)) as [rest|] eqn:Et; try discriminate Hchk.
      cbn in Hchk. rewrite andb_true_r, !andb_true_iff in Hchk. destruct Hchk as [[L1 N1] [L2 _]].
      destruct (take_ops_split _ _ _ _ Et) as [pre [Ep Lp]].
      rewrite Ep in Hh. apply Forall2_app_inv_r in Hh. destruct Hh as [c1 [c2 [S1 [S2 ->]]]].
      destruct (le_at_inv _ _ _ L1) as [ac [Hac [Rac [Fac [Sac Slac]]]]]. cbn in Rac, Fac, Sac, Slac.
      rewrite (MachineStep.step_callsub cx p m Hmax l Hi), El.
      eexists; split; [reflexivity|].
      apply (conf_at _ _ c1 (c2 ++ below) _ L2); cbn [m_pc m_stack m_calls m_from_callsub m_st a_stk a_rid a_fp a_sl].
      + reflexivity.
      + reflexivity.
      + rewrite Hst, app_assoc. reflexivity.
      + apply stack_has_TA.
        * rewrite map_length, (Forall2_length S1). assumption.
        * intros t' Hin. apply in_map_iff in Hin. destruct Hin as [? [? ?]]; auto.
      + cbn [frames_ok]. exists r. split; [assumption|]. split; [eapply find_rid_nonzero; eauto|]. split; [reflexivity|].
        exists ac, rest, c2, below. cbn [f_ret].
        repeat (split; [first [assumption | reflexivity | apply sl_le_nil_any; assumption]|]).
        rewrite <- Rac, <- Fac. exact Hfr.
      + apply slots_ok_nil.
    - (* retsub *)
      destruct (nth_error rt (a_rid a)) as [r|] eqn:Er; try discriminate Hchk.
      destruct (Nat.eqb (a_rid a) 0) eqn:E0; try discriminate Hchk. apply Nat.eqb_neq in E0.
      destruct (frames_nonmain _ _ _ _ Hfr E0) as [f [fs Ec]]. rewrite Ec in Hfr.
      cbn [frames_ok] in Hfr.
      destruct Hfr as [r' [Er' [Nz [Hp [ac [rest_abs [lower [below' [Hac [Sac [Eb [Sl [Np [Hany Hfs]]]]]]]]]]]]]].
      rewrite Er in Er'. injection Er' as <-.
      assert (forall res, stack_has res (r_rets r) ->
                conf (mkM (f_ret f) (res ++ below) fs false (m_intc m) (m_bytec m) (m_st m))) as K.
      { intros res Hres. exists ac, (res ++ lower), below'. cbn [m_pc m_stack m_calls m_from_callsub m_st].
        split; [assumption|]. split; [rewrite Eb, app_assoc; reflexivity|]. split.
        { eapply stk_le_has; [|exact Sac]. apply Forall2_app; assumption. }
        split; [assumption|]. split; [exact (not_proto_ok _ _ Np) | apply slots_ok_any; exact Hany]. }
      destruct (a_fp a) eqn:Efp; cbn [andb negb] in Hchk.
      + (* under proto *)
        destruct (List.length (r_args r) + List.length (r_rets r) <=? List.length (a_stk a))%nat eqn:El;
          cbn [negb] in Hchk; try discriminate Hchk.
        destruct (Nat.eqb (List.length (frame_rets (List.length (r_args r)) (List.length (r_rets r)) (a_stk a)))
                          (List.length (r_rets r))); cbn [negb] in Hchk; try discriminate Hchk.
        destruct (stk_le (frame_rets (List.length (r_args r)) (List.length (r_rets r)) (a_stk a)) (r_rets r)) eqn:Sle;
          try discriminate Hchk.
        apply Nat.leb_le in El. pose proof (Forall2_length Hh) as Lc.
        rewrite (MachineStep.step_retsub cx p m Hmax imms Hi), Ec, Hp. unfold height. rewrite Hst, app_length.
        assert ((List.length below + List.length (r_args r) + List.length (r_rets r) <=? List.length cur + List.length below)%nat = true) as ->
          by (apply Nat.leb_le; lia).
        eexists; split; [reflexivity|].
        rewrite (Nat.add_comm (List.length below)), MachineStep.retsub_lift, Nat.sub_diag by apply le_n. apply K.
        eapply stk_le_has; [|exact Sle]. unfold frame_rets.
        apply rev_F2. apply firstn_F2. apply skipn_F2. apply rev_F2. exact Hh.
      + (* scratch convention *)
        destruct (Nat.eqb (List.length (a_stk a)) (List.length (r_rets r))); cbn [negb] in Hchk; try discriminate Hchk.
        destruct (stk_le (a_stk a) (r_rets r)) eqn:Sle; try discriminate Hchk.
        rewrite (MachineStep.step_retsub cx p m Hmax imms Hi), Ec, Hp, Hst.
        eexists; split; [reflexivity|]. apply K.
        eapply stk_le_has; [exact Hh | exact Sle].
    - (* frame_dig *)
      destruct imms as [|[k|?|?] [|? ?]]; try discriminate Hchk.
      destruct (nth_error rt (a_rid a)) as [r|] eqn:Er; try discriminate Hchk.
      destruct (a_fp a) eqn:Efp; try discriminate Hchk.
      destruct (frame_index (List.length (r_args r)) (List.length (r_args r)) k) as [idx|] eqn:Efi; try discriminate Hchk.
      destruct (pos_from_bottom (List.length (a_stk a)) idx) as [pos|] eqn:Epos; try discriminate Hchk.
      destruct (nth_error (a_stk a) pos) as [t|] eqn:Et; try discriminate Hchk.
      destruct (check_succs_one _ _ _ _ Hchk) as [Hle Hnp].
      destruct (frames_proto _ _ _ _ _ Hfr Er (or_intror eq_refl)) as [f [fs [Ec Hp]]].
      rewrite <- (Forall2_length Hh) in Epos.
      destruct (frame_access cur below _ _ _ _ Efi Epos) as [Ei [Eb _]].
      pose proof (nth_error_F2 has_ty _ _ pos Hh) as Hv. rewrite Et in Hv.
      destruct (nth_error cur pos) as [v|] eqn:Ev; [|contradiction Hv].
      rewrite (MachineStep.step_frame_dig cx p m Hmax k Hi), Ec, Hp, Ei, Hst, Eb, (nth_error_app_l _ below _ _ Ev).
      eexists; split; [reflexivity|].
      apply (conf_at _ _ (v :: cur) below _ Hle (not_proto_ok _ _ Hnp)); cbn [a_stk with_stk]; try reflexivity.
      + constructor; assumption.
      + cbn [with_stk with_pc_stack a_rid a_fp m_calls]. rewrite Efp. exact Hfr.
      + exact Hsl.
    - (* frame_bury *)
      destruct imms as [|[k|?|?] [|? ?]]; try discriminate Hchk.
      destruct (nth_error rt (a_rid a)) as [r|] eqn:Er; [|destruct (a_stk a); discriminate Hchk].
      destruct (a_stk a) as [|tv s'] eqn:Ea; try discriminate Hchk.
      destruct (a_fp a) eqn:Efp; try discriminate Hchk.
      destruct (frame_index (List.length (r_args r)) (List.length (r_args r)) k) as [idx|] eqn:Efi; try discriminate Hchk.
      destruct (pos_from_bottom (List.length s') idx) as [pos|] eqn:Epos; try discriminate Hchk.
      destruct (check_succs_one _ _ _ _ Hchk) as [Hle Hnp].
      destruct (frames_proto _ _ _ _ _ Hfr Er (or_intror eq_refl)) as [f [fs [Ec Hp]]].
      inversion Hh as [|v t' cur' ts Hv Hc E1 E2]; subst cur.
      rewrite <- (Forall2_length Hc) in Epos.
      destruct (frame_access cur' below _ _ _ _ Efi Epos) as [Ei [Eb Lpos]].
      rewrite (MachineStep.step_frame_bury cx p m Hmax k Hi), Hst. cbn [app]. rewrite Ec, Hp, Ei, Eb.
      eexists; split; [reflexivity|]. rewrite list_update_app by assumption.
      apply (conf_at _ _ (list_update cur' pos v) below _ Hle (not_proto_ok _ _ Hnp)); cbn [a_stk with_stk]; try reflexivity.
      + apply list_update_F2; assumption.
      + cbn [with_stk with_pc_stack a_rid a_fp m_calls]. rewrite Efp. exact Hfr.
      + exact Hsl.
    - (* proto *)
      destruct imms as [|[na|?|?] [|[nr|?|?] [|? ?]]]; try discriminate Hchk.
      destruct (nth_error rt (a_rid a)) as [r|] eqn:Er; try discriminate Hchk.
      match type of Hchk with check_succs _ _ (if ?c then _ else _) = true => destruct c eqn:Ecnd; try discriminate Hchk end.
      rewrite !andb_true_iff, !negb_true_iff, !Nat.eqb_eq, Nat.eqb_neq in Ecnd.
      destruct Ecnd as [[[[[Efp Nz] _] Ena] Enr] Elen].
      destruct (check_succs_one _ _ _ _ Hchk) as [Hle Hnp].
      destruct (frames_nonmain _ _ _ _ Hfr Nz) as [f [fs Ec]].
      pose proof (Forall2_length Hh) as Lc.
      rewrite (MachineStep.step_proto cx p m Hmax na nr Hi), (Hpr _ Hi eq_refl), Ec.
      assert ((N.to_nat na <=? height m)%nat = true) as ->.
      { apply Nat.leb_le. unfold height. rewrite Hst, app_length. lia. }
      eexists; split; [reflexivity|].
      apply (conf_at _ _ cur below _ Hle (not_proto_ok _ _ Hnp)); cbn [m_calls m_st a_rid a_fp a_sl a_stk]; try assumption; try reflexivity.
      rewrite Efp, Ec in Hfr. cbn [frames_ok] in *.
      destruct Hfr as [r' [Er' [_ [_ Hrest]]]]. rewrite Er in Er'. injection Er' as <-.
      exists r. split; [assumption|]. split; [assumption|]. split; [|exact Hrest].
      cbn [f_proto]. unfold height. rewrite Hst, app_length.
      f_equal. f_equal; [f_equal; lia | lia].
  Qed.

  (* bz / bnz: with a uint64 on top the branch is taken or not; a bytes value (possible only when the
     annotated cell is [any] and the check is lax) fails *)
  Lemma cond_step : forall strict cx m i,
    conf m -> (height m <= STACK_MAX)%nat ->
    nth_error (pr_code p) (m_pc m) = Some i -> p_op i = O_bz \/ p_op i = O_bnz ->
    (forall a, nth_error ann (m_pc m) = Some (Some a) ->
               check_succs p ann (transfer strict false p rt (m_pc m) i a) = true) ->
    match step cx p m with Running m' => conf m' | Done _ _ => strict = false end.
  Proof.
    intros strict cx m [o imms] [a [cur [below [Ha [Hst [Hh [Hfr [Hpr Hsl]]]]]]]] Hmax Hi Ho Hchk.
    cbn [p_op] in Ho.
    destruct (transfer_cond_inv _ _ _ _ _ _ _ _ _ Ho (Hchk a Ha)) as [l [t [c [r [-> [El [Ea [Ac [L1 [N1 [L2 N2]]]]]]]]]]].
    rewrite Ea in Hh. inversion Hh as [|v c' cur' r' Hv Hc E1 E2]; subst cur.
    destruct v as [n|b].
    - assert (forall t', le_at ann t' (with_stk a r) = true -> not_proto_at p t' = true ->
                conf (with_pc_stack m t' (cur' ++ below))) as K.
      { intros t' L N. apply (conf_at _ _ cur' below _ L (not_proto_ok _ _ N)); [reflexivity | reflexivity | exact Hc | exact Hfr | exact Hsl]. }
      destruct Ho; subst o; [rewrite (MachineStep.step_bz cx p m Hmax l Hi) | rewrite (MachineStep.step_bnz cx p m Hmax l Hi)];
        rewrite Hst; cbn [app]; rewrite El; destruct (n =? 0)%N; auto.
    - destruct strict;
        [|destruct Ho; subst o; [rewrite (MachineStep.step_bz cx p m Hmax l Hi) | rewrite (MachineStep.step_bnz cx p m Hmax l Hi)];
          rewrite Hst; reflexivity].
      pose proof (accepts_strict_has _ _ _ Hv Ac) as Hu. discriminate Hu.
  Qed.

  Lemma step_conf : forall cx m m', ctx_typed cx -> conf m -> step cx p m = Running m' -> conf m'.
  Proof.
    intros cx m m' CT C Hstep. pose proof C as [a [cur [below [Ha [Hst [Hh [Hfr [Hpr Hsl]]]]]]]].
    destruct (ind_pc _ _ Ha) as [i [Hi Hchk]].
    assert (height m <= STACK_MAX)%nat as Hmax.
    { unfold step in Hstep. rewrite Hi in Hstep.
      destruct (Nat.ltb_spec STACK_MAX (height m)); [discriminate Hstep | assumption]. }
    destruct (structural (p_op i)) eqn:St.
    { destruct (structural_step cx m i C Hmax Hi St) as [m1 [E1 C1]]. congruence. }
    assert (p_op i = O_bz \/ p_op i = O_bnz -> conf m') as Cond.
    { intros Ho. pose proof (cond_step false cx m i C Hmax Hi Ho) as K. rewrite Hstep in K. apply K.
      intros a' Ha'. rewrite Ha in Ha'. injection Ha' as <-. exact Hchk. }
    unfold step in Hstep. rewrite Hi, (proj2 (Nat.ltb_ge _ _) Hmax) in Hstep.
    destruct (exec_op cx (p_op i) (p_imms i) (m_stack m) (m_st m)) as [stk' st'| | |] eqn:He; try discriminate.
    - (* an ordinary opcode *)
      injection Hstep as <-.
      destruct (check_transfer_plain _ _ _ _ _ _ _ _ Hchk) as [s' [Hs [Hle Hnp]]].
      { intros E. rewrite (exec_op_ctl _ _ _ _ _ (sig_ctl_op _ _ E)) in He. discriminate He. }
      rewrite Hst in He.
      destruct (exec_op_sound _ _ _ _ _ _ _ _ _ _ _ CT Hs Hh He) as [cur' [-> Hc]].
      destruct (slot_effect_sound _ _ _ _ _ _ _ _ _ He Hh Hc Hsl) as [Hc2 [Hsl2 [Er2 Ef2]]].
      apply (conf_at _ _ cur' below _ Hle (not_proto_ok _ _ Hnp)); [reflexivity | reflexivity | exact Hc2 | rewrite Er2, Ef2; exact Hfr | exact Hsl2].
    - (* control: the opcodes left are err, return and the constant blocks *)
      apply exec_op_not_inv in He. destruct i as [o imms]. cbn [p_op p_imms] in *.
      destruct o; try discriminate He; try discriminate St; try (apply Cond; auto; fail); clear Cond.
      all: cbv beta iota zeta delta [transfer sig_of transfer_ctl p_op p_imms] in Hchk; try discriminate Hchk.
      all: cbv beta iota in Hstep; break_all Hstep; injection Hstep as <-.
      all: break_all Hchk; destruct (check_succs_one _ _ _ _ Hchk) as [Hle Hnp].
      all: first [ apply (conf_at _ _ cur below _ Hle (not_proto_ok _ _ Hnp)); [reflexivity | exact Hst | exact Hh | exact Hfr | exact Hsl]
                 | eapply (conf_at _ _ (_ :: cur) below _ Hle (not_proto_ok _ _ Hnp));
                   [reflexivity | cbn; rewrite Hst; reflexivity | constructor; [reflexivity | assumption] | exact Hfr | exact Hsl] ].
  Qed.

  Lemma conf_init : forall st, conf (init_mach st).
  Proof.
    intro st. destruct ind_entry as [Hle Hnp].
    apply (conf_at 0 (mkA 0 false [] []) [] [] _ Hle (not_proto_ok _ _ Hnp)); cbn; auto.
    - constructor.
    - apply slots_ok_nil.
  Qed.

  (* control never runs off the end: the instruction at a reached pc exists *)
  Lemma conf_instr : forall m, conf m -> exists i, nth_error (pr_code p) (m_pc m) = Some i.
  Proof.
    intros m [a [cur [below [Ha _]]]]. destruct (ind_pc _ _ Ha) as [i [Hi _]]. eauto.
  Qed.

  (* no opcode takes operands from below the cells its routine owns *)
  Lemma conf_own_cells : forall m, conf m ->
    exists i a cur below,
      nth_error (pr_code p) (m_pc m) = Some i /\ nth_error ann (m_pc m) = Some (Some a) /\
      m_stack m = cur ++ below /\ stack_has cur (a_stk a) /\
      (sig_of (p_op i) (p_imms i) <> SCtl -> enough_cells (sig_of (p_op i) (p_imms i)) cur = true).
  Proof.
    intros m [a [cur [below [Ha [Hst [Hh _]]]]]]. destruct (ind_pc _ _ Ha) as [i [Hi Hchk]].
    exists i, a, cur, below. repeat split; auto.
    intro Hnc. destruct (check_transfer_plain _ _ _ _ _ _ _ _ Hchk Hnc) as [s' [Hs _]].
    eapply lax_accept_enough; eauto.
  Qed.

  (* calls, returns, frame accesses and jumps never fail in a conforming state *)
  Lemma structural_no_fail : forall cx m mf i,
    conf m -> (height m <= STACK_MAX)%nat ->
    nth_error (pr_code p) (m_pc m) = Some i -> structural (p_op i) = true ->
    step cx p m = Done VFail mf -> False.
  Proof.
    intros cx m mf i C Hmax Hi Hs Hstep.
    destruct (structural_step cx m i C Hmax Hi Hs) as [m1 [E1 _]]. congruence.
  Qed.

  Definition branching (o : opc) : bool :=
    match o with O_bz | O_bnz | O_return_ => true | _ => false end.

  Lemma branching_inv : forall o, branching o = true -> o = O_bz \/ o = O_bnz \/ o = O_return_.
  Proof. intros o H. destruct o; try discriminate H; auto. Qed.

  (* a conditional branch or return always finds a cell of its own routine *)
  Lemma branching_has_cell : forall m i,
    conf m -> nth_error (pr_code p) (m_pc m) = Some i -> branching (p_op i) = true -> m_stack m <> [].
  Proof.
    intros m i0 [a [cur [below [Ha [Hst [Hh _]]]]]] Hi0 Hb.
    destruct (ind_pc _ _ Ha) as [i [Hi Hchk]].
    rewrite Hi in Hi0. injection Hi0 as <-.
    destruct i as [o imms]. cbn [p_op p_imms] in *.
    assert (exists c r, a_stk a = c :: r) as [c [r Ea]].
    { destruct (branching_inv _ Hb) as [Ho | [Ho | ->]].
      - destruct (transfer_cond_inv _ _ _ _ _ _ _ _ _ (or_introl Ho) Hchk) as [? [? [c [r [_ [_ [Ea _]]]]]]]. eauto.
      - destruct (transfer_cond_inv _ _ _ _ _ _ _ _ _ (or_intror Ho) Hchk) as [? [? [c [r [_ [_ [Ea _]]]]]]]. eauto.
      - cbv beta iota zeta delta [transfer sig_of transfer_ctl p_op p_imms] in Hchk.
        destruct (a_stk a) as [|c r]; [discriminate Hchk | eauto]. }
    rewrite Ea in Hh. inversion Hh; subst. rewrite Hst. discriminate.
  Qed.

  Section Strict.
    Hypothesis STRICT : annot_strict p rt ann = true.

    Lemma strict_pc : forall pc a, nth_error ann pc = Some (Some a) ->
      exists i, nth_error (pr_code p) pc = Some i /\ check_succs p ann (transfer true false p rt pc i a) = true.
    Proof. apply check_pc_all, STRICT. Qed.

    Lemma strict_operands : forall m i,
      conf m -> nth_error (pr_code p) (m_pc m) = Some i ->
      sig_of (p_op i) (p_imms i) <> SCtl ->
      operands_ok (sig_of (p_op i) (p_imms i)) (m_stack m) = true.
    Proof.
      intros m i0 [a [cur [below [Ha [Hst [Hh _]]]]]] Hi0 Hnc.
      destruct (strict_pc _ _ Ha) as [i [Hi Hchk]].
      rewrite Hi in Hi0. injection Hi0 as <-. rewrite Hst.
      destruct (check_transfer_plain _ _ _ _ _ _ _ _ Hchk Hnc) as [s' [Hs _]].
      eapply strict_accept_operands; eauto.
    Qed.

    Lemma strict_branching_no_fail : forall cx m mf i,
      conf m -> (height m <= STACK_MAX)%nat ->
      nth_error (pr_code p) (m_pc m) = Some i -> branching (p_op i) = true ->
      step cx p m = Done VFail mf -> False.
    Proof.
      intros cx m mf i0 C Hmax Hi0 Hb Hstep.
      assert (p_op i0 = O_bz \/ p_op i0 = O_bnz -> False) as Cond.
      { intros Ho. pose proof (cond_step true cx m i0 C Hmax Hi0 Ho) as K. rewrite Hstep in K.
        discriminate K. intros a Ha. destruct (strict_pc _ _ Ha) as [i [Hi Hchk]]. congruence. }
      destruct (branching_inv _ Hb) as [Ho | [Ho | Ho]]; auto. clear Cond Hb.
      (* return *)
      destruct C as [a [cur [below [Ha [Hst [Hh _]]]]]].
      destruct (strict_pc _ _ Ha) as [i [Hi Hchk]].
      rewrite Hi in Hi0. injection Hi0 as <-.
      destruct i as [o imms]. cbn [p_op p_imms] in *. subst o.
      cbv beta iota zeta delta [transfer sig_of transfer_ctl p_op p_imms] in Hchk.
      destruct (a_stk a) as [|c r] eqn:Ea; try discriminate Hchk.
      destruct (accepts true c TU) eqn:Ac; try discriminate Hchk.
      inversion Hh as [|v t' cur' ts Hv Hc E1 E2]; subst cur.
      pose proof (accepts_strict_has _ _ _ Hv Ac) as Hu.
      destruct v; [|discriminate Hu].
      rewrite (MachineStep.step_return cx p m Hmax imms Hi), Hst in Hstep. cbn [app] in Hstep.
      destruct (n =? 0)%N; discriminate Hstep.
    Qed.
  End Strict.

End Sound.

Fixpoint reach (cx : ctx) (p : program) (n : nat) (m : mach) : option mach :=
  match n with
  | O => Some m
  | S k => match step cx p m with Running m' => reach cx p k m' | Done _ _ => None end
  end.

Lemma reach_conf : forall p rt ann, annot_inductive p rt ann = true ->
  forall cx, ctx_typed cx -> forall n m0 m, conf p rt ann m0 -> reach cx p n m0 = Some m -> conf p rt ann m.
Proof.
  intros p rt ann IND cx CT. induction n as [|n IH]; intros m0 m C H; cbn in H.
  - inversion H; subst; assumption.
  - destruct (step cx p m0) as [m1|v m1] eqn:E; try discriminate.
    eapply IH; [|exact H]. eapply step_conf; eauto.
Qed.

Lemma stack_check_sound_lemma : forall p rt ann, annot_inductive p rt ann = true ->
  forall cx, ctx_typed cx -> forall n st m, reach cx p n (init_mach st) = Some m -> conf p rt ann m.
Proof.
  intros p rt ann IND cx CT n st m H. eapply reach_conf; eauto. apply conf_init; assumption.
Qed.

Lemma reach_step : forall cx p n m0 m m', reach cx p n m0 = Some m -> step cx p m = Running m' ->
  reach cx p (S n) m0 = Some m'.
Proof.
  intros cx p. induction n as [|n IH]; intros m0 m m' R S.
  - injection R as <-. cbn. rewrite S. reflexivity.
  - cbn in R. cbn [reach]. destruct (step cx p m0) as [m1|]; [|discriminate R]. exact (IH _ _ _ R S).
Qed.

(* [run] stops in a state that is reachable by [Running] steps *)
Lemma run_reach : forall cx p fuel m0 v mf, run fuel cx p m0 = (v, mf) -> v <> VOutOfFuel ->
  exists n m, reach cx p n m0 = Some m /\ step cx p m = Done v mf.
Proof.
  intros cx p fuel m0 v mf H NV.
  destruct (run_invariant cx p (fun m => exists n, reach cx p n m0 = Some m)) with (3 := H) as [[n R] [E|Sd]].
  - intros m m' [n R] Sm. exists (S n). eapply reach_step; eauto.
  - exists 0%nat. reflexivity.
  - contradiction.
  - eauto.
Qed.

(* A step that fails for a reason of SHAPE: an operand is missing or has the wrong type, a frame access or a
   return has no (or too small a) frame, a label is missing, or control runs off the end of the program.
   Not included (failures of VALUE): err, assert, arithmetic (overflow, division by zero, ...), indices and
   lengths out of range inside an opcode, constant-block indices, the 1000-cell stack limit. *)
Definition shape_failure (cx : ctx) (p : program) (m : mach) : Prop :=
  (height m <= STACK_MAX)%nat /\ (exists mf, step cx p m = Done VFail mf) /\
  match nth_error (pr_code p) (m_pc m) with
  | None => True
  | Some i =>
      match sig_of (p_op i) (p_imms i) with
      | SCtl => structural (p_op i) = true \/ branching (p_op i) = true
      | SUnknown => False
      | sd => operands_ok sd (m_stack m) = false
      end
  end.

(* the part that holds even when [any] cells reach typed operands: missing cells, frames, labels, the end *)
Definition depth_failure (cx : ctx) (p : program) (m : mach) : Prop :=
  (height m <= STACK_MAX)%nat /\ (exists mf, step cx p m = Done VFail mf) /\
  match nth_error (pr_code p) (m_pc m) with
  | None => True
  | Some i =>
      match sig_of (p_op i) (p_imms i) with
      | SCtl => structural (p_op i) = true \/ (branching (p_op i) = true /\ m_stack m = [])
      | SUnknown => False
      | sd => enough_cells sd (m_stack m) = false
      end
  end.

Lemma conf_no_depth_failure : forall p rt ann, annot_inductive p rt ann = true ->
  forall cx m, conf p rt ann m -> ~ depth_failure cx p m.
Proof.
  intros p rt ann IND cx m C [Hmax [[mf Hstep] Hk]].
  pose proof C as [a [cur [below [Ha [Hst [Hh _]]]]]].
  destruct (ind_pc p rt ann IND _ _ Ha) as [i [Hi Hchk]]. rewrite Hi in Hk.
  assert (sig_of (p_op i) (p_imms i) <> SCtl -> enough_cells (sig_of (p_op i) (p_imms i)) (m_stack m) = true) as Hgood.
  { intros Hnc. destruct (check_transfer_plain _ _ _ _ _ _ _ _ Hchk Hnc) as [s' [Hs _]].
    rewrite Hst. exact (lax_accept_enough_app _ _ _ _ below Hs Hh). }
  destruct (sig_of (p_op i) (p_imms i)) eqn:Hsig;
    try (rewrite Hgood in Hk by discriminate; discriminate Hk).
  - destruct Hk as [Hs | [Hb He]].
    + eapply structural_no_fail; eauto.
    + eapply branching_has_cell; eauto.
  - exact Hk.
Qed.

Lemma conf_no_shape_failure : forall p rt ann, annot_inductive p rt ann = true -> annot_strict p rt ann = true ->
  forall cx m, conf p rt ann m -> ~ shape_failure cx p m.
Proof.
  intros p rt ann IND STR cx m C [Hmax [[mf Hstep] Hk]].
  destruct (conf_instr p rt ann IND m C) as [i Hi].
  rewrite Hi in Hk.
  pose proof (strict_operands p rt ann STR m i C Hi) as Hgood.
  destruct (sig_of (p_op i) (p_imms i)) eqn:Hsig;
    try (rewrite Hgood in Hk by discriminate; discriminate Hk).
  - destruct Hk as [Hs | Hb].
    + eapply structural_no_fail; eauto.
    + eapply strict_branching_no_fail; eauto.
  - exact Hk.
Qed.

(* heights (and routine, and frame flag) at a pc are the same along every path *)
Lemma conf_same_pc : forall p rt ann m1 m2, conf p rt ann m1 -> conf p rt ann m2 -> m_pc m1 = m_pc m2 ->
  exists a cur1 below1 cur2 below2,
    nth_error ann (m_pc m1) = Some (Some a) /\
    m_stack m1 = cur1 ++ below1 /\ m_stack m2 = cur2 ++ below2 /\
    stack_has cur1 (a_stk a) /\ stack_has cur2 (a_stk a) /\
    List.length cur1 = List.length cur2.
Proof.
  intros p rt ann m1 m2 [a1 [c1 [b1 [A1 [S1 [H1 _]]]]]] [a2 [c2 [b2 [A2 [S2 [H2 _]]]]]] E.
  rewrite <- E in A2. rewrite A1 in A2. inversion A2; subst a2.
  exists a1, c1, b1, c2, b2. repeat split; auto.
  rewrite (Forall2_length H1), (Forall2_length H2). reflexivity.
Qed.
