(* Proofs/R3Proof.v — from_json (to_json m) = m for every well-formed non-empty table (Lit/R3.v). *)
From Coq Require Import ZArith List Bool Ascii String Lia.
From PV Require Import Proofs.TextFacts Lit.VLQ Lit.R3 Proofs.VLQProof.
Import ListNotations.
Local Open Scope Z_scope.

Lemma in_join_with : forall c x l, In x (join_with c l) -> x = c \/ exists p, In p l /\ In x p.
Proof.
  intros c x l. induction l as [|p l IH]; intros H; [destruct H|].
  destruct l as [|q l].
  - right. exists p. split; [left; reflexivity|exact H].
  - change (join_with c (p :: q :: l)) with (p ++ c :: join_with c (q :: l)) in H.
    apply in_app_or in H. destruct H as [H|[H|H]].
    + right. exists p. split; [left; reflexivity|exact H].
    + left. auto.
    + destruct (IH H) as [E|(p' & Hp' & Hx)]; [left; exact E|].
      right. exists p'. split; [right; exact Hp'|exact Hx].
Qed.

Lemma map_option_roundtrip : forall (A B : Type) (f : A -> option B) (g : B -> A) (l : list B),
  (forall x, In x l -> f (g x) = Some x) -> map_option f (map g l) = Some l.
Proof.
  intros A B f g l. induction l as [|x l IH]; intros H; [reflexivity|].
  cbn [map map_option]. rewrite H by (left; reflexivity).
  rewrite IH by (intros y Hy; apply H; right; exact Hy). reflexivity.
Qed.

Lemma map_id_in : forall (A : Type) (f : A -> A) (l : list A),
  (forall x, In x l -> f x = x) -> map f l = l.
Proof. intros A f l H. rewrite <- (map_id l) at 2. apply map_ext_in, H. Qed.

Lemma render_line_no_semi : forall segs, ~ In ";"%char (render_line segs).
Proof.
  intros segs H. unfold render_line in H. apply in_join_with in H.
  destruct H as [H|(p & Hp & Hx)]; [discriminate|].
  apply in_map_iff in Hp. destruct Hp as (fs & <- & _).
  exact (vlq_encode_chars_no_sep fs ";"%char (or_intror eq_refl) Hx).
Qed.

Lemma parse_render_line : forall segs, Forall (fun fs => fs <> []) segs ->
  parse_line_text (render_line segs) = Some segs.
Proof.
  intros segs HF. destruct segs as [|fs segs]; [reflexivity|].
  unfold parse_line_text.
  assert (Hne : render_line (fs :: segs) <> []).
  { unfold render_line. cbn [map]. inversion HF as [|? ? Hfs _]; subst.
    pose proof (vlq_encode_chars_nonempty fs Hfs) as N.
    destruct (vlq_encode_chars fs) as [|a cs] eqn:E; [congruence|].
    destruct (map vlq_encode_chars segs); cbn [join_with app]; discriminate. }
  destruct (render_line (fs :: segs)) as [|a cs] eqn:E; [congruence|]. rewrite <- E.
  unfold render_line. rewrite split_on_join.
  - apply map_option_roundtrip. intros x _. apply vlq_chars_roundtrip.
  - discriminate.
  - apply Forall_forall. intros p Hp. apply in_map_iff in Hp. destruct Hp as (x & <- & _).
    apply vlq_encode_chars_no_sep. left. reflexivity.
Qed.

Lemma parse_render : forall ls, ls <> [] -> Forall (Forall (fun fs => fs <> [])) ls ->
  parse_text (render ls) = Some ls.
Proof.
  intros ls Hne HF. unfold parse_text, render.
  rewrite split_on_join.
  - apply map_option_roundtrip. intros x Hx. apply parse_render_line.
    rewrite Forall_forall in HF. apply HF. exact Hx.
  - intros E. apply map_eq_nil in E. exact (Hne E).
  - apply Forall_forall. intros p Hp. apply in_map_iff in Hp. destruct Hp as (x & <- & _).
    apply render_line_no_semi.
Qed.

Definition prefix (a b : list string) : Prop := exists t, b = a ++ t.

Lemma prefix_refl : forall a, prefix a a.
Proof. intros a. exists []. rewrite app_nil_r. reflexivity. Qed.

Lemma prefix_trans : forall a b c, prefix a b -> prefix b c -> prefix a c.
Proof. intros a b c [t ->] [u ->]. exists (t ++ u). rewrite app_assoc. reflexivity. Qed.

Lemma prefix_nth : forall a b i x, prefix a b -> nth_error a i = Some x -> nth_error b i = Some x.
Proof.
  intros a b i x [t ->] H. rewrite nth_error_app1; [exact H|].
  apply nth_error_Some. congruence.
Qed.

Lemma index_of_nth : forall k l i, index_of k l = Some i -> nth_error l i = Some k.
Proof.
  intros k l. induction l as [|x l IH]; intros i H; [discriminate|].
  cbn [index_of] in H. destruct (String.eqb_spec x k) as [->|Hne].
  - inversion H. reflexivity.
  - destruct (index_of k l) as [j|]; [|discriminate]. inversion H. cbn. apply IH. reflexivity.
Qed.

Lemma autoindex_spec : forall k tbl i tbl', autoindex k tbl = (i, tbl') ->
  prefix tbl tbl' /\ 0 <= i /\ nth_error tbl' (Z.to_nat i) = Some k.
Proof.
  intros k tbl i tbl' H. unfold autoindex in H.
  destruct (index_of k tbl) as [j|] eqn:E; inversion H; subst; clear H.
  - split; [apply prefix_refl|]. split; [lia|]. rewrite Nat2Z.id. apply index_of_nth. exact E.
  - split; [exists [k]; reflexivity|]. split; [lia|]. rewrite Nat2Z.id.
    rewrite nth_error_app2 by lia. rewrite Nat.sub_diag. reflexivity.
Qed.

Lemma guarded_nth : forall (A : Type) (t : list A) i, 0 <= i ->
  (if i <? Z.of_nat (List.length t) then nth_error t (Z.to_nat i) else None) = nth_error t (Z.to_nat i).
Proof.
  intros A t i H. destruct (Z.ltb_spec i (Z.of_nat (List.length t))); [reflexivity|].
  symmetry. apply nth_error_None. lia.
Qed.

Lemma getitem_gen_nonneg : forall (A : Type) (t : list A) i, 0 <= i ->
  getitem_gen t i = nth_error t (Z.to_nat i).
Proof.
  intros A t i H. unfold getitem_gen. destruct (Z.ltb_spec i 0); [lia|]. apply guarded_nth, H.
Qed.

(* One segment: the index tables only grow, at least the column field is written, and a reader that
   holds any extension S, N of the tables gets the segment and the writer's positions back. *)
Lemma print_seg_spec : forall w gcol s w1 ds, print_seg w gcol s = (w1, ds) ->
  prefix (ws_srcs w) (ws_srcs w1) /\ prefix (ws_names w) (ws_names w1) /\ ds <> [] /\
  (wf_seg s -> forall S N, prefix (ws_srcs w1) S -> prefix (ws_names w1) N ->
     parse_seg S N (ws_ps w) gcol ds = Some (ws_ps w1, s)).
Proof.
  intros w gcol [c ref] w1 ds H. unfold print_seg, wf_seg in *. cbn [g_ref g_col] in *.
  destruct ref as [[[src|] line col name]|].
  - destruct (autoindex src (ws_srcs w)) as [si srcs'] eqn:E1.
    destruct (autoindex_spec _ _ _ _ E1) as (P1 & Hsi & Hnth).
    destruct name as [nm|].
    + destruct (autoindex nm (ws_names w)) as [ni names'] eqn:E2.
      destruct (autoindex_spec _ _ _ _ E2) as (P2 & Hni & Hnn).
      injection H as <- <-. cbn [ws_srcs ws_names ws_ps].
      repeat split; [exact P1|exact P2|discriminate|]. intros _ S N PS PN.
      cbn [app parse_seg]. rewrite !Zplus_minus.
      rewrite (proj2 (Z.ltb_ge si 0) Hsi), guarded_nth, (prefix_nth _ _ _ _ PS Hnth) by exact Hsi.
      pose proof (prefix_nth _ _ _ _ PN Hnn) as HN.
      destruct N as [|n0 N']; [destruct (Z.to_nat ni); discriminate|].
      rewrite getitem_gen_nonneg, HN by exact Hni. reflexivity.
    + injection H as <- <-. cbn [ws_srcs ws_names ws_ps].
      repeat split; [exact P1|apply prefix_refl|discriminate|]. intros _ S N PS _.
      cbn [parse_seg]. rewrite !Zplus_minus.
      rewrite (proj2 (Z.ltb_ge si 0) Hsi), guarded_nth, (prefix_nth _ _ _ _ PS Hnth) by exact Hsi. reflexivity.
  - injection H as <- <-. repeat split; try apply prefix_refl; [discriminate|]. intros Hwf. elim Hwf. reflexivity.
  - injection H as <- <-. repeat split; try apply prefix_refl; [discriminate|]. intros _ S N _ _.
    cbn [parse_seg]. rewrite Zplus_minus. reflexivity.
Qed.

Lemma print_segs_spec : forall l w gcol w2 fs, print_segs w gcol l = (w2, fs) ->
  prefix (ws_srcs w) (ws_srcs w2) /\ prefix (ws_names w) (ws_names w2) /\ Forall (fun f => f <> []) fs /\
  (Forall wf_seg l -> forall S N, prefix (ws_srcs w2) S -> prefix (ws_names w2) N ->
     parse_segs S N (ws_ps w) gcol fs = Some (ws_ps w2, l)).
Proof.
  induction l as [|s l IH]; intros w gcol w2 fs H; cbn [print_segs] in H.
  - injection H as <- <-. repeat split; try apply prefix_refl. constructor.
  - destruct (print_seg w gcol s) as [w1 ds] eqn:E1.
    destruct (print_segs w1 (g_col s) l) as [w2' r] eqn:E2.
    injection H as <- <-.
    destruct (print_seg_spec _ _ _ _ _ E1) as (A1 & A2 & A3 & A4).
    destruct (IH _ _ _ _ E2) as (B1 & B2 & B3 & B4).
    repeat split; [eapply prefix_trans; eassumption ..|constructor; assumption|].
    intros Hwf S N PS PN. inversion Hwf as [|? ? Hs Hl]; subst. cbn [parse_segs].
    rewrite (A4 Hs S N (prefix_trans _ _ _ B1 PS) (prefix_trans _ _ _ B2 PN)), (B4 Hl S N PS PN).
    reflexivity.
Qed.

Lemma print_lines_spec : forall m w w2 fs, print_lines w m = (w2, fs) ->
  prefix (ws_srcs w) (ws_srcs w2) /\ prefix (ws_names w) (ws_names w2) /\
  Forall (Forall (fun f => f <> [])) fs /\ List.length fs = List.length m /\
  (Forall (Forall wf_seg) m -> forall S N, prefix (ws_srcs w2) S -> prefix (ws_names w2) N ->
     parse_lines S N (ws_ps w) fs = Some m).
Proof.
  induction m as [|ln m IH]; intros w w2 fs H; cbn [print_lines] in H.
  - injection H as <- <-. repeat split; try apply prefix_refl. constructor.
  - destruct (print_segs w 0 ln) as [w1 f1] eqn:E1.
    destruct (print_lines w1 m) as [w2' r] eqn:E2.
    injection H as <- <-.
    destruct (print_segs_spec _ _ _ _ _ E1) as (A1 & A2 & A3 & A4).
    destruct (IH _ _ _ E2) as (B1 & B2 & B3 & B4 & B5).
    repeat split; [eapply prefix_trans; eassumption ..|constructor; assumption|cbn; congruence|].
    intros Hwf S N PS PN. inversion Hwf as [|? ? Hs Hl]; subst. cbn [parse_lines].
    rewrite (A4 Hs S N (prefix_trans _ _ _ B1 PS) (prefix_trans _ _ _ B2 PN)), (B5 Hl S N PS PN).
    reflexivity.
Qed.

Lemma si_tail : forall x l, strictly_increasing (x :: l) = true -> strictly_increasing l = true.
Proof.
  intros x l H. destruct l as [|y l]; [reflexivity|].
  cbn [strictly_increasing] in H. apply andb_prop in H. destruct H as [_ H]. exact H.
Qed.

Lemma si_head_lt : forall l x, strictly_increasing (x :: l) = true -> Forall (fun y => x < y) l.
Proof.
  induction l as [|y l IH]; intros x H; [constructor|].
  pose proof H as H'. cbn [strictly_increasing] in H'. apply andb_prop in H'. destruct H' as [Hxy Hyl].
  apply Z.ltb_lt in Hxy. constructor; [exact Hxy|].
  specialize (IH y Hyl). eapply Forall_impl; [|exact IH]. cbn. intros a Ha. lia.
Qed.

Lemma dedup_increasing : forall l seen, strictly_increasing l = true ->
  (forall x y, In x l -> In y seen -> y < x) -> dedup_cols l seen = l.
Proof.
  induction l as [|x l IH]; intros seen H Hs; [reflexivity|].
  cbn [dedup_cols].
  destruct (existsb (Z.eqb x) seen) eqn:E.
  - apply existsb_exists in E. destruct E as (y & Hy & Exy). apply Z.eqb_eq in Exy. subst y.
    specialize (Hs x x (or_introl eq_refl) Hy). lia.
  - f_equal. apply IH; [eapply si_tail; exact H|].
    intros a b Ha Hb. destruct Hb as [<-|Hb].
    + pose proof (si_head_lt l x H) as F. rewrite Forall_forall in F. apply F. exact Ha.
    + apply Hs; [right; exact Ha|exact Hb].
Qed.

Lemma line_ordered_of_increasing : forall segs,
  strictly_increasing (map g_col segs) = true -> line_ordered segs = true.
Proof.
  intros segs H. unfold line_ordered. rewrite dedup_increasing; [exact H|exact H|].
  intros x y _ [].
Qed.

Lemma last_with_col_unique : forall c l s,
  (forall s', In s' l -> g_col s' = c -> s' = s) -> last_with_col c l s = s.
Proof.
  intros c l s. unfold last_with_col. induction l as [|a l IH]; intros H; [reflexivity|].
  cbn [fold_left]. destruct (Z.eqb_spec (g_col a) c) as [E|E].
  - rewrite (H a (or_introl eq_refl) E). apply IH. intros s' Hs'. apply H. right. exact Hs'.
  - apply IH. intros s' Hs'. apply H. right. exact Hs'.
Qed.

Lemma increasing_cols_inj : forall l a b, strictly_increasing (map g_col l) = true ->
  In a l -> In b l -> g_col a = g_col b -> a = b.
Proof.
  induction l as [|x l IH]; intros a b H Ha Hb E; [destruct Ha|].
  cbn [map] in H. pose proof (si_head_lt _ _ H) as F. rewrite Forall_forall in F.
  destruct Ha as [<-|Ha], Hb as [<-|Hb].
  - reflexivity.
  - specialize (F (g_col b) (in_map g_col l b Hb)). lia.
  - specialize (F (g_col a) (in_map g_col l a Ha)). lia.
  - apply IH; [eapply si_tail; exact H|exact Ha|exact Hb|exact E].
Qed.

Lemma view_line_of_increasing : forall segs,
  strictly_increasing (map g_col segs) = true -> view_line segs = segs.
Proof.
  intros segs H. unfold view_line. apply map_id_in. intros s Hs.
  apply last_with_col_unique. intros s' Hs' E.
  apply (increasing_cols_inj segs); assumption.
Qed.

Lemma r3_roundtrip : forall m : r3table, m <> [] -> wf_table m ->
  let '(srcs, names, mappings) := r3_to_json m in
  r3_from_json srcs names mappings = Some m.
Proof.
  intros m Hne Hwf. unfold r3_to_json.
  destruct (print_lines ws0 m) as [w fs] eqn:E.
  destruct (print_lines_spec _ _ _ _ E) as (_ & _ & HF & HL & Rd).
  unfold r3_from_json. rewrite list_ascii_of_string_of_list_ascii.
  rewrite parse_render; [|destruct m, fs; (congruence || discriminate)|exact HF].
  assert (Inc : forall l, In l m -> strictly_increasing (map g_col l) = true).
  { intros l Hl. exact (proj2 (proj1 (Forall_forall _ _) Hwf l Hl)). }
  assert (PS : prefix (ws_srcs w) (match ws_srcs w with [] => ["unknown"%string] | _ => ws_srcs w end)).
  { destruct (ws_srcs w); [exists ["unknown"%string]; reflexivity|apply prefix_refl]. }
  change ps0 with (ws_ps ws0).
  rewrite (Rd (Forall_impl _ (fun l (H : wf_line l) => proj1 H) Hwf) _ _ PS (prefix_refl _)).
  assert (O : r3_ordered m = true).
  { apply forallb_forall. intros l Hl. apply line_ordered_of_increasing, Inc, Hl. }
  rewrite O. apply f_equal, map_id_in. intros l Hl. apply view_line_of_increasing, Inc, Hl.
Qed.
