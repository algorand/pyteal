(* Proofs/ABIEncodeSet.v — end to end: a value assembled with set(...) from its parts (ABI/Encode.v: set_ok,
   run_set, over every documented argument form, nested arbitrarily) is stored and encoded exactly as the ARC-4
   spec (ABI/Spec.v arc4_encode) encodes the denoted value; and it is rejected at construction or fails at run
   time exactly when the spec has no encoding for that value. *)
From Coq Require Import List Arith NArith ZArith Ascii String Bool Lia.
From PV Require Import Base.Bytes Base.U64 AVM.Ops ABI.Types ABI.Spec ABI.Encode
  Proofs.ABISpecProof Proofs.ABIIndexElems Proofs.ABIEncodeOps Proofs.ABIEncodeDescr Proofs.ABIEncodeBool
  Proofs.ABIEncodeTuple.
Import ListNotations.
Local Open Scope N_scope.

Lemma uint_set_const_spec : forall size z,
    uint_set_const size z =
    if ((0 <=? z)%Z && (Z.to_N z <? 2 ^ size)) then Some (Z.to_N z) else None.
Proof.
  intros size z. unfold uint_set_const.
  assert (Hpow : Z.of_N (2 ^ size) = (2 ^ Z.of_N size)%Z) by (rewrite N2Z.inj_pow; reflexivity).
  destruct (Z.leb_spec 0 z), (N.ltb_spec (Z.to_N z) (2 ^ size)), (Z.leb_spec (2 ^ Z.of_N size) z), (Z.ltb_spec z 0);
    cbn [andb]; try reflexivity; exfalso; rewrite <- Hpow in *; lia.
Qed.

(* Python ints: rejected at construction iff negative or >= 2^N *)
Theorem uint_set_const_rejects_iff : forall size z,
    uint_set_const size z = None <-> (z < 0 \/ 2 ^ Z.of_N size <= z)%Z.
Proof.
  intros size z. rewrite uint_set_const_spec.
  assert (Hpow : Z.of_N (2 ^ size) = (2 ^ Z.of_N size)%Z) by (rewrite N2Z.inj_pow; reflexivity).
  rewrite <- Hpow. destruct (Z.leb_spec 0 z), (N.ltb_spec (Z.to_N z) (2 ^ size)); cbn [andb];
    (split; [intro G; try discriminate G | intro G; try reflexivity]); lia.
Qed.

(* expressions: the program fails iff the run-time value is >= 2^N; uint64 needs no check *)
Theorem uint_set_expr_fails_iff : forall size n, n < U64 ->
    (uint_set_expr size n = None <-> 2 ^ size <= n) /\
    (forall m, uint_set_expr size n = Some m -> m = n).
Proof.
  intros size n Hn. unfold uint_set_expr. destruct (N.eqb_spec size 64) as [->|Hs].
  - split; [|intros m H; congruence]. split; [discriminate|]. intro H. exfalso.
    change (2 ^ 64) with U64 in H. lia.
  - destruct (N.ltb_spec n (2 ^ size)); split; try (intros m H'; congruence); split; intro H'; try discriminate; try reflexivity; lia.
Qed.

Lemma uint_set_expr_in : forall size n, n < 2 ^ size -> uint_set_expr size n = Some n.
Proof.
  intros size n H. unfold uint_set_expr. destruct (size =? 64); [reflexivity|].
  apply N.ltb_lt in H. rewrite H. reflexivity.
Qed.

Lemma uint_set_expr_out : forall size n, n < U64 -> 2 ^ size <= n -> uint_set_expr size n = None.
Proof. intros size n Hn H. apply (proj1 (uint_set_expr_fails_iff size n Hn)). exact H. Qed.

(* uint_encode of an in-range value: its N/8-byte big-endian form *)
Theorem uint_encode_correct : forall bits n, pyteal_uint_bits bits = true -> n < 2 ^ bits ->
    uint_encode bits n = Some (be_encode (N.to_nat (bits / 8)) n).
Proof.
  intros bits n Hb Hn. destruct (pyteal_bits_cases bits Hb) as [-> | [-> | [-> | ->]]].
  - apply uint_encode_8. exact Hn.
  - apply uint_encode_16.
  - apply uint_encode_32.
  - apply uint_encode_64.
Qed.

Definition uint_cell (v : val) (c : sval) : Prop := exists n, v = VUint n /\ c = SI n.

(* what the generated code does with a source against what the spec encodes for the denoted value: bytes on
   both sides and the cell stands in relation R to them, or none on the spec side and the code is refused at
   construction or fails at run time *)
Definition agrees {A C} (spec : option A) (ok : bool) (run : option C) (R : A -> C -> Prop) : Prop :=
  match spec with
  | Some bs => ok = true /\ exists c, run = Some c /\ R bs c
  | None => ok = false \/ run = None
  end.

(* member by member: the first, then the rest *)
Lemma agrees_cons : forall {A C} (R : A -> C -> Prop) (Rs Rs' : list A -> list C -> Prop) oe oes ok1 ok2 r1 rs,
    (forall e c es cs, R e c -> Rs es cs -> Rs' (e :: es) (c :: cs)) ->
    agrees oe ok1 r1 R -> agrees oes ok2 rs Rs ->
    agrees (obind oe (fun e => option_map (cons e) oes)) (ok1 && ok2)
           (obind r1 (fun c => option_map (cons c) rs)) Rs'.
Proof.
  intros A C R Rs Rs' oe oes ok1 ok2 r1 rs Hcons H1 H2. unfold agrees in *. destruct oe as [e|]; cbn [obind].
  - destruct H1 as [-> [c [-> Hc]]]. cbn [andb obind]. destruct oes as [es|]; cbn [option_map].
    + destruct H2 as [Hok [cs [-> Hcs]]]. split; [exact Hok|]. exists (c :: cs). split; [reflexivity|].
      exact (Hcons e c es cs Hc Hcs).
    + destruct H2 as [H|H]; [left; exact H | right; rewrite H; reflexivity].
  - destruct H1 as [H|H]; [left | right]; rewrite H; reflexivity.
Qed.

Lemma uint_src_correct : forall bits s0 v,
    pyteal_uint_bits bits = true -> src_wf s0 = true -> uint_src_val s0 = Some v ->
    agrees (uint_enc bits v) (uint_src_ok bits s0) (uint_src_run bits s0) (fun _ c => uint_cell v c).
Proof.
  intros bits s0 v Hb Hwf Hv. pose proof (pyteal_bits_valid bits Hb) as Hvalid. unfold agrees.
  destruct s0 as [z|b|n|bs|bs|s'|l]; cbn [uint_src_val] in Hv; try discriminate.
  - (* a Python int *)
    destruct (Z.ltb_spec z 0) as [Hneg|Hpos]; [discriminate|]. injection Hv as <-.
    cbn [uint_enc uint_src_ok uint_src_run]. rewrite Hvalid, uint_set_const_spec. cbn [andb].
    assert (Hz : (0 <=? z)%Z = true) by (apply Z.leb_le; exact Hpos). rewrite Hz. cbn [andb].
    destruct (Z.to_N z <? 2 ^ bits); [|left; reflexivity].
    split; [reflexivity|]. eexists. split; [reflexivity|]. eexists. split; reflexivity.
  - (* an expression *)
    injection Hv as <-. cbn [src_wf] in Hwf. apply N.ltb_lt in Hwf.
    cbn [uint_enc uint_src_ok uint_src_run]. rewrite Hvalid. cbn [andb].
    destruct (N.ltb_spec n (2 ^ bits)) as [Hlt|Hge].
    + split; [reflexivity|]. rewrite (uint_set_expr_in bits n Hlt).
      eexists. split; [reflexivity|]. eexists. split; reflexivity.
    + right. rewrite (uint_set_expr_out bits n Hwf Hge). reflexivity.
Qed.

Definition cell_ok (t : ty) (v : val) (bs : bytes) (c : sval) : Prop :=
  match t with
  | TBool => exists b, v = VBool b /\ c = sb b
  | TByte | TUint _ => uint_cell v c
  | _ => c = SB bs
  end.

(* x.encode() of a correctly filled cell is the spec encoding *)
Lemma cell_encode : forall t v bs c, pyteal_ty t = true -> arc4_encode t v = Some bs ->
    cell_ok t v bs c -> elem_encode t c = Some bs.
Proof.
  intros t v bs c Ht He Hc. destruct t; cbn [cell_ok] in Hc; cbn [pyteal_ty] in Ht; try discriminate;
    try (subst c; reflexivity).
  - destruct Hc as [b [-> ->]]. cbn [arc4_encode bool_enc] in He. injection He as <-.
    cbn [elem_encode sb sv_int obind]. apply bool_encode_correct.
  - destruct Hc as [n [-> ->]]. cbn [arc4_encode] in He. apply uint_enc_inv in He as (n' & [= <-] & Hn & ->).
    cbn [elem_encode sv_int obind]. apply (uint_encode_correct 8 n eq_refl Hn).
  - destruct Hc as [n [-> ->]]. cbn [arc4_encode] in He. apply uint_enc_inv in He as (n' & [= <-] & Hn & ->).
    cbn [elem_encode sv_int obind]. apply (uint_encode_correct bits n Ht Hn).
Qed.

Lemma pyteal_no_txn : forall t, pyteal_ty t = true -> has_txn t = false.
Proof. intros t H. apply encodable_no_txn, pyteal_ty_encodable, H. Qed.

(* the spec's member encoding exists iff the member's own encoding exists *)
Lemma enc_elem_none_iff : forall t v,
    enc_elem (is_bool t) (is_dynamic t) (arc4_encode t) v = None <-> arc4_encode t v = None.
Proof.
  intros t v. unfold enc_elem. destruct (is_bool t) eqn:Hb.
  - apply is_bool_true in Hb. subst t. cbn [arc4_encode bool_enc]. destruct v; split; intro H; try discriminate; reflexivity.
  - destruct (arc4_encode t v); cbn [option_map]; split; intro H; try discriminate; reflexivity.
Qed.

(* a correctly filled cell represents the spec's member encoding *)
Lemma cell_rep : forall t v bs c el, pyteal_ty t = true -> arc4_encode t v = Some bs -> cell_ok t v bs c ->
    enc_elem (is_bool t) (is_dynamic t) (arc4_encode t) v = Some el -> rep (t, c) el.
Proof.
  intros t v bs c el Ht He Hc Hel. unfold enc_elem in Hel. destruct (is_bool t) eqn:Hb.
  - apply is_bool_true in Hb. subst t. cbn [cell_ok] in Hc. destruct Hc as [b [-> ->]].
    injection Hel as <-. constructor.
  - rewrite He in Hel. cbn [option_map] in Hel. destruct (is_dynamic t) eqn:Hd; injection Hel as <-.
    + assert (Hcb : c = SB bs).
      { destruct t; cbn [cell_ok] in Hc; cbn [is_dynamic] in Hd; try discriminate; exact Hc. }
      subst c. constructor. rewrite py_is_dynamic_agrees. exact Hd.
    + constructor.
      * exact Hb.
      * rewrite py_is_dynamic_agrees. exact Hd.
      * exact (cell_encode t v bs c Ht He Hc).
      * rewrite (bls_static t Hd (pyteal_no_txn t Ht)). symmetry. exact (encode_static_len t v bs He Hd).
Qed.

Definition set_correct (t : ty) : Prop :=
  forall s v, src_wf s = true -> denote t s = Some v ->
    agrees (arc4_encode t v) (set_ok t s) (run_set None t s) (cell_ok t v).

Lemma src_wf_uncopy : forall s, src_wf s = true -> src_wf (uncopy s) = true.
Proof. induction s; intro H; cbn [uncopy src_wf] in *; auto. Qed.

Lemma guard_true : forall (b : bool), negb b || true = true.
Proof. destruct b; reflexivity. Qed.

Lemma set_correct_byte : set_correct TByte.
Proof.
  intros s v Hwf Hv. cbn [denote copyable] in Hv. rewrite guard_true in Hv.
  cbn [set_ok run_set copyable arc4_encode]. rewrite guard_true. cbn [andb].
  exact (uint_src_correct 8 (uncopy s) v eq_refl (src_wf_uncopy s Hwf) Hv).
Qed.

(* the construction-time check of _encode_tuple depends on the member types only *)
Lemma map_mem_is_bool : forall vals, map mem_is_bool vals = map is_bool (map fst vals).
Proof. intro vals. rewrite map_map. reflexivity. Qed.

Lemma existsb_mem_is_dyn : forall vals, existsb mem_is_dyn vals = existsb py_is_dynamic (map fst vals).
Proof. induction vals as [|m r IH]; [reflexivity|]. cbn [existsb map]. rewrite IH. reflexivity. Qed.

Lemma plan_snd_types : forall vals vals', map fst vals = map fst vals' ->
    forall k, snd (plan vals k) = snd (plan vals' k).
Proof.
  induction vals as [|m r IH]; intros [|m' r'] H k; try discriminate; [reflexivity|].
  cbn [map] in H. injection H as Hm Hr.
  assert (Hb : mem_is_bool m = mem_is_bool m') by (unfold mem_is_bool; rewrite Hm; reflexivity).
  assert (Hd : mem_is_dyn m = mem_is_dyn m') by (unfold mem_is_dyn; rewrite Hm; reflexivity).
  cbn [plan]. destruct k as [|k]; [|apply IH; exact Hr].
  rewrite <- Hb, <- Hd.
  assert (Hct : consecutive_true (map mem_is_bool (m :: r)) = consecutive_true (map mem_is_bool (m' :: r'))).
  { rewrite !map_mem_is_bool. cbn [map]. rewrite Hm, Hr. reflexivity. }
  rewrite <- Hct.
  destruct (mem_is_bool m); [|destruct (mem_is_dyn m)]; cbn [snd];
    rewrite (IH r' Hr); try rewrite Hm; reflexivity.
Qed.

Lemma encode_tuple_ok_types : forall vals vals', map fst vals = map fst vals' ->
    encode_tuple_ok vals = encode_tuple_ok vals'.
Proof.
  intros vals vals' H. unfold encode_tuple_ok.
  rewrite !existsb_mem_is_dyn, H, (plan_snd_types vals vals' H). reflexivity.
Qed.

Lemma map_all_length : forall {A C} (f : A -> option C) l cs, map_all f l = Some cs -> List.length cs = List.length l.
Proof.
  intros A C f l. induction l as [|a r IH]; intros cs H; cbn [map_all] in H.
  - injection H as <-. reflexivity.
  - apply obind_some in H as [c [_ H]]. apply option_map_some in H as [cs' [H ->]].
    cbn [List.length]. rewrite (IH _ H). reflexivity.
Qed.

Lemma types_ok_array : forall e (l : list src) cs, List.length cs = List.length l ->
    types_ok (map (fun _ => e) l) = encode_tuple_ok (map (fun c => (e, c)) cs).
Proof.
  intros e l cs Hlen. unfold types_ok. apply encode_tuple_ok_types.
  rewrite !map_map. cbn [fst]. revert cs Hlen.
  induction l as [|a r IH]; intros [|c cr] Hlen; try discriminate; [reflexivity|].
  cbn [map]. f_equal. apply IH. injection Hlen as Hlen. exact Hlen.
Qed.

(* one member, against the spec's member encoding *)
Lemma member_step : forall t s v, set_correct t -> pyteal_ty t = true -> src_wf s = true -> denote t s = Some v ->
    agrees (enc_elem (is_bool t) (is_dynamic t) (arc4_encode t) v) (set_ok t s) (run_set None t s)
           (fun el c => rep (t, c) el).
Proof.
  intros t s v He Hty Hwf Hv. specialize (He s v Hwf Hv). unfold agrees in *.
  destruct (arc4_encode t v) as [bs|] eqn:Henc.
  - destruct He as [Hok [c [Hrun Hcell]]].
    destruct (enc_elem (is_bool t) (is_dynamic t) (arc4_encode t) v) as [el|] eqn:Hel;
      [|apply enc_elem_none_iff in Hel; congruence].
    split; [exact Hok|]. exists c. split; [exact Hrun|]. exact (cell_rep t v bs c el Hty Henc Hcell Hel).
  - rewrite (proj2 (enc_elem_none_iff t v) Henc). exact He.
Qed.

Lemma members_array : forall e, set_correct e -> pyteal_ty e = true -> forall l vs,
    forallb src_wf l = true -> map_all (denote e) l = Some vs ->
    agrees (enc_all (enc_elem (is_bool e) (is_dynamic e) (arc4_encode e)) vs) (forallb (set_ok e) l)
           (map_all (run_set None e) l) (fun es cs => Forall2 rep (map (fun c => (e, c)) cs) es).
Proof.
  intros e He Hty. induction l as [|s r IH]; intros vs Hwf Hvs; cbn [map_all] in Hvs.
  - injection Hvs as <-. split; [reflexivity|]. exists []. split; [reflexivity | constructor].
  - apply obind_some in Hvs as [v [Hv Hvs]]. apply option_map_some in Hvs as [vr [Hvr ->]].
    cbn [forallb] in Hwf. apply andb_true_iff in Hwf as [Hwf1 Hwf2].
    cbn [enc_all forallb map_all].
    eapply agrees_cons; [|exact (member_step e s v He Hty Hwf1 Hv) | exact (IH vr Hwf2 Hvr)].
    intros el c es cs Hc Hcs. constructor; assumption.
Qed.

(* the common core of Array.set: members, then _encode_tuple *)
Lemma seq_core : forall e, set_correct e -> pyteal_ty e = true -> forall l vs,
    forallb src_wf l = true -> map_all (denote e) l = Some vs ->
    match obind (enc_all (enc_elem (is_bool e) (is_dynamic e) (arc4_encode e)) vs) assemble with
    | Some bs => forallb (set_ok e) l && types_ok (map (fun _ => e) l) = true /\
                 exists cs, map_all (run_set None e) l = Some cs /\ List.length cs = List.length l /\
                            encode_tuple_run None (map (fun c => (e, c)) cs) = Some bs
    | None => forallb (set_ok e) l && types_ok (map (fun _ => e) l) = false \/
              obind (map_all (run_set None e) l) (fun cs => encode_tuple_run None (map (fun c => (e, c)) cs)) = None
    end.
Proof.
  intros e He Hty l vs Hwf Hvs. pose proof (members_array e He Hty l vs Hwf Hvs) as HM. unfold agrees in HM.
  destruct (enc_all (enc_elem (is_bool e) (is_dynamic e) (arc4_encode e)) vs) as [es|]; cbn [obind].
  - destruct HM as [Hok [cs [Hrun Hrep]]].
    pose proof (map_all_length _ _ _ Hrun) as Hlen.
    destruct (encode_tuple_correct _ _ Hrep) as [Tok Tbad].
    rewrite Hok, Hrun, (types_ok_array e l cs Hlen). cbn [andb obind].
    destruct (encode_tuple_ok (map (fun c => (e, c)) cs)) eqn:Hto.
    + rewrite <- (Tok eq_refl).
      destruct (encode_tuple_run None (map (fun c => (e, c)) cs)) eqn:Hb; [|right; reflexivity].
      split; [reflexivity|]. exists cs. auto.
    + rewrite (Tbad eq_refl). left. reflexivity.
  - destruct HM as [H|H]; [left | right]; rewrite H; reflexivity.
Qed.

Lemma seq_static_correct : forall e n, set_correct e -> pyteal_ty e = true -> forall l vs,
    forallb src_wf l = true -> map_all (denote e) l = Some vs ->
    agrees (static_array_enc (is_bool e) (is_dynamic e) (arc4_encode e) n (VList vs))
           ((N.of_nat (List.length l) =? n) && seq_ok false e (set_ok e) l)
           (seq_run None false e (run_set None e) l) (fun bs c => c = SB bs).
Proof.
  intros e n He Hty l vs Hwf Hvs.
  pose proof (map_all_length _ _ _ Hvs) as Hlen. pose proof (seq_core e He Hty l vs Hwf Hvs) as HC.
  unfold agrees, static_array_enc, seq_ok, seq_run, array_set_run. cbn [elems_of obind]. rewrite Hlen, andb_true_r.
  destruct (N.of_nat (List.length l) =? n); cbn [andb]; [|left; reflexivity].
  destruct (obind (enc_all (enc_elem (is_bool e) (is_dynamic e) (arc4_encode e)) vs) assemble) as [bs|].
  - destruct HC as [Hok [cs [Hrun [_ Henc]]]]. split; [exact Hok|].
    exists (SB bs). rewrite Hrun. cbn [obind]. rewrite Henc. auto.
  - destruct HC as [H|H]; [left; exact H | right].
    destruct (map_all (run_set None e) l); cbn [obind] in *; [rewrite H|]; reflexivity.
Qed.

Lemma seq_dyn_correct : forall e, set_correct e -> pyteal_ty e = true -> forall l vs,
    forallb src_wf l = true -> map_all (denote e) l = Some vs ->
    agrees (dyn_array_enc (is_bool e) (is_dynamic e) (arc4_encode e) (VList vs))
           (seq_ok true e (set_ok e) l) (seq_run None true e (run_set None e) l) (fun bs c => c = SB bs).
Proof.
  intros e He Hty l vs Hwf Hvs.
  pose proof (map_all_length _ _ _ Hvs) as Hlen. pose proof (seq_core e He Hty l vs Hwf Hvs) as HC.
  unfold agrees, dyn_array_enc, seq_ok, seq_run, array_set_run, u16. cbn [elems_of obind]. rewrite Hlen.
  destruct (N.of_nat (List.length l) <? 65536) eqn:Hn; cbn [obind]; [|left; apply andb_false_r].
  rewrite andb_true_r.
  destruct (obind (enc_all (enc_elem (is_bool e) (is_dynamic e) (arc4_encode e)) vs) assemble) as [body|]; cbn [obind].
  - destruct HC as [Hok [cs [Hrun [Hl Henc]]]]. split; [exact Hok|].
    eexists. rewrite Hrun. cbn [obind]. rewrite map_length, Hl, uint_encode_16. cbn [obind].
    rewrite Henc. cbn [obind x_concat option_map]. auto.
  - destruct HC as [H|H]; [left; exact H | right].
    destruct (map_all (run_set None e) l); cbn [obind] in *; [|reflexivity].
    rewrite uint_encode_16. cbn [obind]. rewrite H. reflexivity.
Qed.

Lemma store_expr_bytes_none : forall bs,
    store_encoded_expr_byte_string None bs = Some (be_encode 2 (blen bs) ++ bs).
Proof.
  intro bs. unfold store_encoded_expr_byte_string.
  pose proof (suffix_itob 2 (blen bs) ltac:(lia)) as H. change (N.of_nat (8 - 2)) with 6 in H. rewrite H. reflexivity.
Qed.

Lemma bytes_static_case : forall n s0 v, src_wf s0 = true -> bytes_src_val byte_src_val s0 = Some v ->
    agrees (static_array_enc false false (uint_enc 8) n v)
           match s0 with
           | SBytesLit bs => blen bs =? n
           | SBytesExpr _ => true
           | SMembers l => (N.of_nat (List.length l) =? n) && seq_ok false TByte byte_src_ok l
           | _ => false
           end
           match s0 with
           | SBytesLit bs => Some (SB bs)
           | SBytesExpr bs => option_map SB (static_bytes_set_expr n bs)
           | SMembers l => seq_run None false TByte (fun m => uint_src_run 8 (uncopy m)) l
           | _ => None
           end (fun bs c => c = SB bs).
Proof.
  intros n s0 v Hwf Hv. destruct s0 as [z|b|k|bs0|bs0|s'|l]; cbn [bytes_src_val] in Hv; try discriminate.
  - injection Hv as <-. unfold agrees. rewrite static_bytes_enc_spec.
    destruct (blen bs0 =? n); [|left; reflexivity]. split; [reflexivity|]. eauto.
  - injection Hv as <-. unfold agrees, static_bytes_set_expr. rewrite static_bytes_enc_spec, (N.eqb_sym n (blen bs0)).
    destruct (blen bs0 =? n); [|right; reflexivity]. split; [reflexivity|]. eexists. split; reflexivity.
  - apply option_map_some in Hv as [vs [Hvs ->]]. cbn [src_wf] in Hwf.
    exact (seq_static_correct TByte n set_correct_byte eq_refl l vs Hwf Hvs).
Qed.

Lemma bytes_dyn_case : forall s0 v, src_wf s0 = true -> bytes_src_val byte_src_val s0 = Some v ->
    agrees (dyn_array_enc false false (uint_enc 8) v)
           match s0 with
           | SBytesLit bs => match encoded_byte_string bs with Some _ => true | None => false end
           | SBytesExpr _ => true
           | SMembers l => seq_ok true TByte byte_src_ok l
           | _ => false
           end
           match s0 with
           | SBytesLit bs => option_map SB (encoded_byte_string bs)
           | SBytesExpr bs => option_map SB (store_encoded_expr_byte_string None bs)
           | SMembers l => seq_run None true TByte (fun m => uint_src_run 8 (uncopy m)) l
           | _ => None
           end (fun bs c => c = SB bs).
Proof.
  intros s0 v Hwf Hv. destruct s0 as [z|b|k|bs0|bs0|s'|l]; cbn [bytes_src_val] in Hv; try discriminate.
  - injection Hv as <-. unfold agrees, encoded_byte_string. rewrite dyn_bytes_enc_spec.
    destruct (blen bs0 <? 65536); [|left; reflexivity]. split; [reflexivity|]. eexists. split; reflexivity.
  - injection Hv as <-. unfold agrees. rewrite dyn_bytes_enc_spec, store_expr_bytes_none.
    cbn [src_wf] in Hwf. apply N.leb_le in Hwf. unfold MAX_BYTES in Hwf.
    assert (Hlt : (blen bs0 <? 65536) = true) by (apply N.ltb_lt; lia). rewrite Hlt.
    split; [reflexivity|]. eexists. split; reflexivity.
  - apply option_map_some in Hv as [vs [Hvs ->]]. cbn [src_wf] in Hwf.
    exact (seq_dyn_correct TByte set_correct_byte eq_refl l vs Hwf Hvs).
Qed.

Lemma zip_all_length : forall {A C} (fs : list (A -> option C)) l cs, zip_all fs l = Some cs ->
    List.length cs = List.length fs /\ List.length l = List.length fs.
Proof.
  intros A C fs. induction fs as [|f fr IH]; intros [|a r] cs H; cbn [zip_all] in H; try discriminate.
  - injection H as <-. split; reflexivity.
  - apply obind_some in H as [c [_ H]]. apply option_map_some in H as [cs' [H ->]].
    destruct (IH _ _ H) as [H1 H2]. cbn [List.length]. split; congruence.
Qed.

Lemma members_tuple : forall ts, Forall set_correct ts -> forallb pyteal_ty ts = true -> forall l vs,
    forallb src_wf l = true -> zip_all (map (fun x => denote x) ts) l = Some vs ->
    agrees (enc_seq (map (fun x => enc_elem (is_bool x) (is_dynamic x) (arc4_encode x)) ts) vs)
           (zip_forall (map (fun x => set_ok x) ts) l) (zip_all (map (fun x => run_set None x) ts) l)
           (fun es cs => Forall2 rep (combine ts cs) es).
Proof.
  intros ts HF. induction HF as [|t tr He _ IH]; intros Hty l vs Hwf Hvs.
  - destruct l as [|s r]; cbn [map zip_all] in Hvs; [|discriminate]. injection Hvs as <-.
    split; [reflexivity|]. exists []. split; [reflexivity | constructor].
  - destruct l as [|s r]; cbn [map zip_all] in Hvs; [discriminate|].
    apply obind_some in Hvs as [v [Hv Hvs]]. apply option_map_some in Hvs as [vr [Hvr ->]].
    cbn [forallb] in Hwf, Hty. apply andb_true_iff in Hwf as [Hwf1 Hwf2]. apply andb_true_iff in Hty as [Hty1 Hty2].
    cbn [map enc_seq zip_forall zip_all].
    eapply agrees_cons; [|exact (member_step t s v He Hty1 Hwf1 Hv) | exact (IH Hty2 r vr Hwf2 Hvr)].
    intros el c es cs Hc Hcs. constructor; assumption.
Qed.

Lemma types_ok_tuple : forall ts cs, List.length cs = List.length ts ->
    types_ok ts = encode_tuple_ok (combine ts cs).
Proof.
  intros ts cs H. unfold types_ok. apply encode_tuple_ok_types.
  rewrite (map_fst_combine ts cs (eq_sym H)), map_map. cbn [fst]. apply map_id.
Qed.

Lemma set_correct_tuple : forall nm ts, Forall set_correct ts -> forallb pyteal_ty ts = true ->
    set_correct (TTuple nm ts).
Proof.
  intros nm ts HF Hty s v Hwf Hv. cbn [denote copyable] in Hv.
  destruct s as [z|b|k|bs0|bs0|s'|l]; cbn [is_copy negb orb uncopy] in Hv; try discriminate.
  apply option_map_some in Hv as [vs [Hvs ->]]. cbn [src_wf] in Hwf.
  unfold agrees. cbn [set_ok run_set is_copy negb orb uncopy andb arc4_encode tuple_enc cell_ok].
  pose proof (members_tuple ts HF Hty l vs Hwf Hvs) as HM. unfold agrees in HM.
  destruct (enc_seq (map (fun x => enc_elem (is_bool x) (is_dynamic x) (arc4_encode x)) ts) vs) as [es|]; cbn [obind].
  - destruct HM as [Hok [cs [Hrun Hrep]]].
    destruct (zip_all_length _ _ _ Hrun) as [Hlen _]. rewrite map_length in Hlen.
    destruct (encode_tuple_correct _ _ Hrep) as [Tok Tbad].
    rewrite Hok, Hrun, (types_ok_tuple ts cs Hlen). cbn [andb obind].
    destruct (encode_tuple_ok (combine ts cs)) eqn:Hto.
    + rewrite <- (Tok eq_refl). destruct (encode_tuple_run None (combine ts cs)); [|right; reflexivity].
      split; [reflexivity|]. eexists. split; reflexivity.
    + rewrite (Tbad eq_refl). left. reflexivity.
  - destruct HM as [H|H]; [left | right]; rewrite H; reflexivity.
Qed.

(* Tuple.set is refused on the member types alone when the head length does not fit a uint16 *)
Lemma set_ok_tuple_types : forall nm ts s, types_ok ts = false -> set_ok (TTuple nm ts) s = false.
Proof.
  intros nm ts s H. cbn [set_ok]. destruct (uncopy s); rewrite ?H, ?andb_false_r; reflexivity.
Qed.

(* every type PyTeal can build *)
Theorem set_correct_all : forall t, pyteal_ty t = true -> set_correct t.
Proof.
  induction t as [| | n | | | e n IH | e IH | nm ts IH | n | | k | k] using ty_ind'; intro Hty;
    cbn [pyteal_ty] in Hty; try discriminate; try exact set_correct_byte.
  (* the tuple case: by the induction hypothesis on the members *)
  7:{ apply set_correct_tuple; [|exact Hty].
      apply Forall_forall. intros x Hin. rewrite Forall_forall in IH. apply (IH x Hin).
      rewrite forallb_forall in Hty. exact (Hty x Hin). }
  (* every other class has set(<instance of the same class>): the guard holds and only [uncopy s] matters *)
  all: intros s v Hwf Hv; apply src_wf_uncopy in Hwf; cbn [denote copyable] in Hv; rewrite guard_true in Hv;
    cbn [set_ok run_set copyable arc4_encode]; rewrite guard_true; cbn [andb].
  - destruct (uncopy s) as [z|b|n|bs0|bs0|s'|l]; try discriminate; injection Hv as <-;
      (split; [reflexivity|]); (eexists; split; [reflexivity|]).
    + exists b. split; [reflexivity|]. destruct b; reflexivity.
    + exists (negb (n =? 0)). split; [reflexivity|]. unfold sb. rewrite bool_set_expr_correct. reflexivity.
  - exact (uint_src_correct n _ v Hty Hwf Hv).
  - exact (bytes_static_case 32 _ v Hwf Hv).
  - exact (bytes_dyn_case _ v Hwf Hv).
  - destruct (uncopy s) as [z|b|k|bs0|bs0|s'|l]; try discriminate.
    apply option_map_some in Hv as [vs [Hvs ->]]. exact (seq_static_correct e n (IH Hty) Hty l vs Hwf Hvs).
  - destruct (uncopy s) as [z|b|k|bs0|bs0|s'|l]; try discriminate.
    apply option_map_some in Hv as [vs [Hvs ->]]. exact (seq_dyn_correct e (IH Hty) Hty l vs Hwf Hvs).
  - exact (bytes_static_case n _ v Hwf Hv).
  - exact (bytes_dyn_case _ v Hwf Hv).
Qed.

(* the observable outcome of  x.set(<source>); Log(x.encode())  on the idealised (uncapped) AVM *)
Theorem set_encodes_per_arc4 : forall t s v,
    pyteal_ty t = true -> src_wf s = true -> denote t s = Some v ->
    set_outcome None t s =
    match arc4_encode t v with
    | Some bs => OBytes bs
    | None => if set_ok t s then OFail else OReject
    end.
Proof.
  intros t s v Hty Hwf Hv. pose proof (set_correct_all t Hty s v Hwf Hv) as HC. unfold agrees in HC.
  unfold set_outcome. destruct (arc4_encode t v) as [bs|] eqn:Henc.
  - destruct HC as [Hok [c [Hrun Hcell]]]. rewrite Hok, Hrun. cbn [obind].
    rewrite (cell_encode t v bs c Hty Henc Hcell). reflexivity.
  - destruct HC as [H|H]; rewrite H; reflexivity.
Qed.

Corollary set_bytes_iff_spec : forall t s v bs,
    pyteal_ty t = true -> src_wf s = true -> denote t s = Some v ->
    (set_outcome None t s = OBytes bs <-> arc4_encode t v = Some bs).
Proof.
  intros t s v bs Hty Hwf Hv. rewrite (set_encodes_per_arc4 t s v Hty Hwf Hv).
  destruct (arc4_encode t v) as [b|]; [split; intro H; congruence|].
  split; [|discriminate]. destruct (set_ok t s); discriminate.
Qed.
