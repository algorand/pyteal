(* Proofs/ABIDescrProof.v — facts about the model of the TypeSpec classes (ABI/Descr.v):
   PyTeal's __str__ is the ARC-4 type string; a classification of type strings by their last
   character (used to show that the str(a) == str(b) fallback never identifies specs of different
   kinds); soundness and reflexivity of the modelled `==`. *)
From Coq Require Import List NArith Ascii String Bool Lia.
From PV Require Import Base.Sexp ABI.Types ABI.Spec ABI.Layout ABI.Descr.
Import ListNotations.
Local Open Scope string_scope.

(* __str__ = ARC-4 type string *)
Theorem py_str_type_str : forall t, py_str t = type_str t.
Proof.
  (* the two fixpoints have the same body up to the folding of string constants, which Coq's
     conversion sees through; the induction is kept so that a divergence shows up case by case *)
  induction t as [| | n | | | e n IH | e IH | nm ts IH | n | | k | k] using ty_ind'; simpl;
    reflexivity.
Qed.

Fixpoint slast (s : string) (d : ascii) : ascii :=
  match s with EmptyString => d | String c r => slast r c end.

Fixpoint llast (l : list ascii) (d : ascii) : ascii :=
  match l with [] => d | c :: r => llast r c end.

Lemma slast_app : forall s t d, slast (s ++ t) d = slast t (slast s d).
Proof. induction s as [|c r IH]; intros t d; simpl; [reflexivity | apply IH]. Qed.

Lemma slast_of_list : forall l d, slast (string_of_list_ascii l) d = llast l d.
Proof. induction l as [|c r IH]; intro d; simpl; [reflexivity | apply IH]. Qed.

Lemma llast_nonempty : forall l d d', l <> [] -> llast l d = llast l d'.
Proof. intros [|c r] d d' H; [congruence | reflexivity]. Qed.

Lemma dec_digits_llast : forall fuel n acc d0,
    acc <> [] -> llast (dec_digits fuel n acc) d0 = llast acc d0.
Proof.
  induction fuel as [|f IH]; intros n acc d0 Hacc; simpl; [reflexivity|].
  destruct (N.ltb n 10).
  - simpl. apply llast_nonempty; exact Hacc.
  - rewrite IH by discriminate. simpl. apply llast_nonempty; exact Hacc.
Qed.

Lemma N_to_dec_last : forall n d, slast (N_to_dec n) d = ascii_of_N (48 + n mod 10).
Proof.
  intros n d. unfold N_to_dec. rewrite slast_of_list.
  cbn [dec_digits]. destruct (N.ltb n 10); [reflexivity|].
  rewrite dec_digits_llast by discriminate. reflexivity.
Qed.

(* classification of the last character: 0 = ")", 1 = "]", 2 = anything else *)
Definition close_class (c : ascii) : N :=
  if Ascii.eqb c ")" then 0%N else if Ascii.eqb c "]" then 1%N else 2%N.
Definition sclass (s : string) : N := close_class (slast s "x").

Lemma close_class_digit : forall n, close_class (ascii_of_N (48 + n mod 10)) = 2%N.
Proof.
  intro n. unfold close_class.
  assert (Hlt : (n mod 10 < 10)%N) by (apply N.mod_lt; discriminate).
  remember (n mod 10)%N as r eqn:Hr. clear Hr.
  assert (Hemb : N_of_ascii (ascii_of_N (48 + r)) = (48 + r)%N) by (apply N_ascii_embedding; lia).
  destruct (Ascii.eqb (ascii_of_N (48 + r)) ")") eqn:E1.
  - apply Ascii.eqb_eq in E1. rewrite E1 in Hemb. change (N_of_ascii ")") with 41%N in Hemb. lia.
  - destruct (Ascii.eqb (ascii_of_N (48 + r)) "]") eqn:E2; [|reflexivity].
    apply Ascii.eqb_eq in E2. rewrite E2 in Hemb. change (N_of_ascii "]") with 93%N in Hemb. lia.
Qed.

(* the class of a spec's string: tuples end in ")", proper arrays in "]" *)
Definition sck (t : ty) : N :=
  match t with
  | TTuple _ _ => 0%N
  | TStaticArray _ _ | TDynArray _ | TStaticBytes _ | TDynBytes => 1%N
  | _ => 2%N
  end.

Theorem sclass_py_str : forall t, sclass (py_str t) = sck t.
Proof.
  intro t. unfold sclass. destruct t as [| | n | | | e n | e | nm ts | n | | k | k]; cbn [py_str sck];
    try reflexivity.
  - (* uint *) rewrite slast_app, N_to_dec_last. apply close_class_digit.
  - (* T[n] *) rewrite !slast_app. reflexivity.
  - (* T[] *) rewrite slast_app. reflexivity.
  - (* tuple *) rewrite !slast_app. reflexivity.
  - (* byte[n] *) rewrite !slast_app. reflexivity.
  - destruct k; reflexivity.
  - destruct k; reflexivity.
Qed.

(* subclass table: reflexive; a spec is an instance of its own class *)
Lemma pyclass_eqb_refl : forall c, pyclass_eqb c c = true.
Proof. destruct c; simpl; try reflexivity; try apply N.eqb_refl; destruct k; reflexivity. Qed.

Lemma subclass_refl : forall c, subclass c c = true.
Proof. intro c. unfold subclass. simpl. rewrite pyclass_eqb_refl. reflexivity. Qed.

Lemma isinst_self : forall t, isinst t (cls_of t) = true.
Proof. intro t. apply subclass_refl. Qed.

Lemma py_eq_flat_sound : forall a b, py_eq_flat a b = true -> canon a = canon b.
Proof.
  intros a b H. destruct a, b; simpl in H; try discriminate; try reflexivity.
  - apply N.eqb_eq in H; subst; reflexivity.
  - destruct k, k0; simpl in H; try discriminate; reflexivity.
Qed.

Lemma py_eq_flat_byte : forall e, py_eq_flat TByte e = true -> e = TByte.
Proof. destruct e; simpl; congruence. Qed.

(* specs that compare equal have the same layout *)
Theorem py_eq_sound : forall a b, py_eq a b = true -> canon a = canon b.
Proof.
  induction a as [| | n | | | e n IH | e IH | nm ts IH | n | | k | k] using ty_ind'; intros b H;
    try (apply py_eq_flat_sound; exact H).
  - destruct b; simpl in H; try discriminate; reflexivity.
  - destruct b; simpl in H; try discriminate; reflexivity.
  - destruct b as [| | | | | eb m | | | m | | |]; simpl in H; try discriminate.
    + apply andb_true_iff in H as [H1 H2]. apply IH in H1. apply N.eqb_eq in H2. simpl. congruence.
    + apply andb_true_iff in H as [H1 H2]. apply py_eq_flat_byte in H1. apply N.eqb_eq in H2. subst. reflexivity.
  - destruct b; simpl in H; try discriminate. apply IH in H. simpl. congruence.
  - destruct b as [| | | | | | | nb tbs | | | |]; simpl in H; try discriminate.
    apply andb_true_iff in H as [_ H]. simpl. f_equal.
    revert tbs H. induction IH as [|x r Hx _ IHr]; intros [|y r2] H; try discriminate; try reflexivity.
    apply andb_true_iff in H as [Ha Hb]. simpl. rewrite (Hx _ Ha), (IHr _ Hb). reflexivity.
  - destruct b as [| | | | | eb m | | | m | | |]; simpl in H; try discriminate.
    + apply N.eqb_eq in H; subst; reflexivity.
    + apply andb_true_iff in H as [H1 H2]. apply py_eq_flat_byte in H1. apply N.eqb_eq in H2. subst. reflexivity.
    + apply N.eqb_eq in H; subst; reflexivity.
  - destruct b; simpl in H; try discriminate; reflexivity.
Qed.

Theorem py_eq_refl : forall a, py_eq a a = true.
Proof.
  induction a as [| | n | | | e n IH | e IH | nm ts IH | n | | k | k] using ty_ind'; simpl;
    try reflexivity; try apply N.eqb_refl.
  - rewrite IH, N.eqb_refl; reflexivity.
  - exact IH.
  - apply andb_true_iff; split.
    + destruct nm as [[c ns]|]; [apply N.eqb_refl | reflexivity].
    + induction IH as [|x r Hx _ IHr]; [reflexivity|]. rewrite Hx; exact IHr.
  - destruct k; reflexivity.
  - destruct k; reflexivity.
Qed.
