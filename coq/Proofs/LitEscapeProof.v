(* Proofs/LitEscapeProof.v — C13: the escaped spelling of ANY byte string is read back by the
   assembler's tokeniser and string-literal parser as exactly that byte string. *)
From Coq Require Import List NArith Ascii String Bool Lia.
From PV Require Import Base.Bytes Base.Sexp AVM.Syntax AVM.Machine AVM.Parse Lit.Escape Proofs.TextFacts.
Import ListNotations.
Local Open Scope string_scope.
Local Open Scope list_scope.

(* Inside a string, with no pending backslash, the escaped form of one byte is consumed whole and
   leaves the tokeniser inside the string with no pending backslash. *)
Lemma esc_byte_run c : str_run (esc_byte c) false = true.
Proof. revert c. apply ascii_forall. vm_compute. reflexivity. Qed.

(* The literal parser reads one escaped unit back as the byte it came from, provided something
   follows (the closing quote at least): by the cases of [esc_byte]. *)
Lemma parse_unit c : forall x t,
  parse_str_body (esc_byte c ++ x :: t) = option_map (cons c) (parse_str_body (x :: t)).
Proof.
  intros x t. unfold esc_byte. pose proof (ascii_N_embedding c) as E. pose proof (N_ascii_bounded c) as B.
  remember (N_of_ascii c) as n eqn:Hn.
  destruct (N.eqb_spec n 92) as [->|N92]; [now rewrite <- E|].
  destruct (N.eqb_spec n 34) as [->|N34]; [now rewrite <- E|].
  destruct (N.eqb_spec n 9) as [->|_]; [now rewrite <- E|].
  destruct (N.eqb_spec n 10) as [->|_]; [now rewrite <- E|].
  destruct (N.eqb_spec n 13) as [->|_]; [now rewrite <- E|].
  destruct ((n <? 32) || (127 <=? n))%N.
  - change hexlow with hexdigit. cbn [app parse_str_body Ascii.eqb Bool.eqb].
    rewrite !hexval_hexdigit by (apply N.div_lt_upper_bound || apply N.mod_lt; lia).
    unfold chr. now rewrite N.mul_comm, <- N.div_mod, E by lia.
  - apply parse_str_body_plain.
    + destruct (Ascii.eqb_spec c "\") as [->|]; [now elim N92 | reflexivity].
    + destruct (Ascii.eqb_spec c """") as [->|]; [now elim N34 | reflexivity].
Qed.

(* No escaped unit contains a raw line feed, so a literal never spans TEAL lines. *)
Lemma unit_no_newline c : forallb (fun x => negb (Ascii.eqb x (chr 10))) (esc_byte c) = true.
Proof. revert c. apply ascii_forall. vm_compute. reflexivity. Qed.

Lemma tok_body ib b : tok_keeps true false ib (escape_body b).
Proof. apply tok_keeps_flat_map. intros c. apply str_run_keeps, esc_byte_run. Qed.

Lemma parse_body b : parse_str_body (escape_body b ++ [dquote]) = Some b.
Proof.
  induction b as [|c b IH]; [reflexivity|].
  unfold escape_body in *. cbn [flat_map]. rewrite <- app_assoc.
  destruct (flat_map esc_byte b ++ [dquote]) as [|x t] eqn:E.
  - exfalso. eapply app_cons_not_nil. symmetry. exact E.
  - rewrite parse_unit, IH. reflexivity.
Qed.

Lemma body_no_newline b : forallb (fun x => negb (Ascii.eqb x (chr 10))) (escape_body b) = true.
Proof.
  induction b as [|c b IH]; [reflexivity|].
  unfold escape_body in *. cbn [flat_map]. rewrite forallb_app, unit_no_newline, IH. reflexivity.
Qed.

(* From any token boundary (nothing pending, outside a string), the literal is consumed as one
   unit: afterwards the tokeniser is outside the string and the pending token is the literal. *)
Lemma tok_literal b : forall rest ib acc,
  tok_line (escape_list b ++ rest) [] false false ib acc =
  tok_line rest (rev (escape_list b)) false false ib acc.
Proof.
  intros rest ib acc. unfold escape_list. cbn [app tok_line rev]. rewrite <- app_assoc, tok_body.
  cbn [app tok_line]. now rewrite rev_app_distr.
Qed.

Lemma escape_str_first b : exists r, escape_str b = String dquote r.
Proof. unfold escape_str, escape_list. cbn. eauto. Qed.

(* the literal is not one of the words the tokeniser / byte-argument parser treat specially *)
Lemma escape_str_not_kw b :
  String.eqb (escape_str b) "base64" = false /\ String.eqb (escape_str b) "b64" = false /\
  String.eqb (escape_str b) "base32" = false /\ String.eqb (escape_str b) "b32" = false.
Proof. destruct (escape_str_first b) as [r ->]. repeat split; reflexivity. Qed.

Lemma parse_string_literal_escape b : parse_string_literal (escape_str b) = Some b.
Proof. unfold parse_string_literal, escape_str. rewrite los_sol. apply parse_body. Qed.

(* the literal read as the argument of byte / pushbytes *)
Lemma parse_bytes_arg_escape b rest :
  parse_bytes_arg (escape_str b :: rest) = Some (b, rest).
Proof.
  pose proof (parse_string_literal_escape b) as P. destruct (escape_str_first b) as [r E].
  rewrite E in *. unfold dquote in *. now rewrite parse_bytes_arg_quote, P.
Qed.

Definition byte_line (b : bytes) : string := ("byte " ++ escape_str b)%string.

Lemma list_of_escape_str b : list_ascii_of_string (escape_str b) = escape_list b.
Proof. apply los_sol. Qed.

(* after the op word [byte] and one blank the tokeniser is at a token boundary *)
Lemma tok_byte_prefix rest acc :
  tok_line (list_ascii_of_string "byte " ++ rest) [] false false false acc =
  tok_line rest [] false false false ("byte" :: acc).
Proof. reflexivity. Qed.

(* the line `byte <literal>` followed by anything: the literal is the pending token *)
Lemma tok_byte_literal b rest acc :
  exists x l, rev (escape_list b) = x :: l /\ str_of (x :: l) = escape_str b /\
  tok_line (list_ascii_of_string (byte_line b) ++ rest) [] false false false acc =
  tok_line rest (x :: l) false false false ("byte" :: acc).
Proof.
  unfold byte_line. rewrite los_app, <- app_assoc, tok_byte_prefix, list_of_escape_str, tok_literal.
  unfold escape_str. rewrite <- str_of_rev.
  unfold escape_list. cbn [rev]. rewrite rev_app_distr. cbn [rev app]. eauto.
Qed.

(* preceded by another statement on the same line: from ANY token boundary.  A boundary
   state is what the tokeniser is in after a `;` (or at the start of a line). *)
Lemma escape_tokens_after_boundary b acc :
  tok_line (list_ascii_of_string (byte_line b)) [] false false false acc =
  rev acc ++ ["byte"; escape_str b].
Proof.
  rewrite <- (app_nil_r (list_ascii_of_string (byte_line b))).
  destruct (tok_byte_literal b [] acc) as (x & l & _ & E & ->).
  cbn [tok_line rev]. now rewrite E, <- app_assoc.
Qed.

(* the literal alone on its line *)
Lemma escape_tokens b : tokens_of_line (byte_line b) = ["byte"; escape_str b].
Proof. apply (escape_tokens_after_boundary b []). Qed.

(* a pending token that is not a base64 keyword, a blank, a comment *)
Lemma tok_pending_comment x cur cmt acc :
  String.eqb (str_of (x :: cur)) "base64" = false -> String.eqb (str_of (x :: cur)) "b64" = false ->
  tok_line (" "%char :: "/"%char :: "/"%char :: cmt) (x :: cur) false false false acc =
  rev (str_of (x :: cur) :: acc).
Proof.
  intros E1 E2. cbn [tok_line]. change (is_space " ") with true. cbn iota.
  rewrite E1, E2. reflexivity.
Qed.

(* with a trailing comment, whatever the comment contains *)
Lemma escape_tokens_comment b (cmt : string) :
  tokens_of_line (byte_line b ++ " //" ++ cmt)%string = ["byte"; escape_str b].
Proof.
  unfold tokens_of_line. rewrite los_app. destruct (tok_byte_literal b (list_ascii_of_string (" //" ++ cmt)) [])
    as (x & l & _ & E & ->).
  destruct (escape_str_not_kw b) as (E1 & E2 & _). rewrite <- E in E1, E2.
  cbn [append list_ascii_of_string]. rewrite tok_pending_comment by assumption. now rewrite E.
Qed.

(* followed by a statement separator and any further text on the same line *)
Lemma escape_tokens_semicolon b (more : string) :
  tokens_of_line (byte_line b ++ ";" ++ more)%string = ["byte"; escape_str b; ";"] ++ tokens_of_line more.
Proof.
  unfold tokens_of_line. rewrite los_app. destruct (tok_byte_literal b (list_ascii_of_string (";" ++ more)) [])
    as (x & l & _ & E & ->).
  cbn [append list_ascii_of_string tok_line]. change (is_space ";") with false. cbn [Ascii.eqb Bool.eqb]. cbn iota.
  now rewrite E, tok_acc.
Qed.

Definition push_bytes (b : bytes) : option (option stmt) := Some (Some (SInstr (mkP O_byte [IBytes b]))).

Lemma parse_stmt_byte msel ts :
  parse_stmt msel ("byte" :: ts) =
  match parse_bytes_arg ts with Some (b, []) => push_bytes b | _ => None end.
Proof. reflexivity. Qed.

Lemma parse_stmt_byte_escape msel b :
  parse_stmt msel ["byte"; escape_str b] = push_bytes b.
Proof. now rewrite parse_stmt_byte, parse_bytes_arg_escape. Qed.

Lemma escape_roundtrip_stmt msel b :
  parse_stmt msel (tokens_of_line (byte_line b)) = push_bytes b.
Proof. rewrite escape_tokens. apply parse_stmt_byte_escape. Qed.

Lemma escape_roundtrip_stmt_comment msel b cmt :
  parse_stmt msel (tokens_of_line (byte_line b ++ " //" ++ cmt)%string) = push_bytes b.
Proof. rewrite escape_tokens_comment. apply parse_stmt_byte_escape. Qed.

(* the boolean form of [TextFacts.no_lf] ([no_lf_forallb]) *)
Definition no_nl (l : list ascii) : bool := forallb (fun x => negb (Ascii.eqb x (chr 10))) l.

Lemma split_lines_last l : forall cur,
  no_nl l = true -> split_lines l cur = [str_of (rev l ++ cur)].
Proof. intros cur H. now apply split_lines_no_lf, no_lf_forallb. Qed.

Lemma byte_line_no_nl b : no_nl (list_ascii_of_string (byte_line b)) = true.
Proof.
  unfold byte_line, no_nl. rewrite los_app, list_of_escape_str, forallb_app.
  unfold escape_list. cbn [forallb]. now rewrite forallb_app, body_no_newline.
Qed.

Definition nl : string := String (chr 10) "".

(* A program text whose line k is `byte <literal>`: the statements are those of the text
   before, then `byte b`, then those of the text after — the literal neither swallows nor
   spills into neighbouring lines. *)
Lemma program_with_literal msel (pre post : string) b :
  statements_of_text msel (pre ++ nl ++ byte_line b ++ nl ++ post)%string =
  match statements_of_text msel pre, statements_of_text msel post with
  | Some x, Some y => Some (x ++ SInstr (mkP O_byte [IBytes b]) :: y)
  | _, _ => None
  end.
Proof.
  apply (program_with_line msel pre post (byte_line b) ["byte"; escape_str b]).
  - apply no_lf_forallb, byte_line_no_nl.
  - apply escape_tokens.
  - destruct (escape_str_first b) as [r ->]. reflexivity.
  - apply parse_stmt_byte_escape.
Qed.

(* non-vacuity / sanity: a string full of every hazard *)
Example escape_example :
  tokens_of_line (byte_line (list_ascii_of_string "a""b\c // ; x")) =
    ["byte"; """a\""b\\c // ; x"""] /\
  parse_string_literal """a\""b\\c // ; x""" = Some (list_ascii_of_string "a""b\c // ; x").
Proof. split; reflexivity. Qed.
