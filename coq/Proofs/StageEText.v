(* Proofs/StageEText.v — stage E, part 2: the TEXT ROUND TRIP.
   The lines PyTeal prints for an instruction list ([Comp.Assemble.assemble_all], joined with line feeds) are read
   back by the assembler model ([AVM.Parse.statements_of_text]) as exactly the statements of the list
   ([StageELink.stmts_of]): comments dropped, the pragma recognised, every literal with its value. *)
From Coq Require Import List Arith NArith Ascii String Bool Lia.
From PV Require Import Base.Bytes Base.Sexp AVM.Syntax AVM.Machine AVM.Parse Comp.LinearSem Comp.Assemble.
From PV Require Export Proofs.TextFacts.
From PV Require Import Proofs.LitLineProof Proofs.C18Text Proofs.StageELink.
Import ListNotations.
Local Open Scope string_scope.
Local Open Scope list_scope.

(* word characters: ordinary for the tokeniser, and not a line feed *)
Definition wc (c : ascii) : bool := plainc c && negb (Ascii.eqb c newline).

(* a word: word characters, the last one may be a slash (the op names / and b/) *)
Fixpoint wordl (w : list ascii) : bool :=
  match w with
  | [] => true
  | [c] => wc c || Ascii.eqb c "/"
  | c :: t => wc c && wordl t
  end.

Definition word (s : string) : bool :=
  wordl (list_ascii_of_string s) && negb (String.eqb s "") && negb (String.eqb s "base64") && negb (String.eqb s "b64").

Lemma wc_plain c : wc c = true -> ordinary c = true.
Proof. unfold wc. intros H. apply andb_true_iff in H as [H _]. exact H. Qed.

(* a slash that ends the line or stands before a blank starts no comment *)
Lemma tok_wordl : forall w, wordl w = true -> tok_word w.
Proof.
  induction w as [|c w IH]; intros H rest cur ib acc R; [reflexivity|].
  destruct w as [|c2 w'].
  - cbn [wordl] in H. apply orb_true_iff in H as [H|H].
    + now apply (ordinary_keeps ib c (wc_plain c H)).
    + apply Ascii.eqb_eq in H. subst c. destruct R as [->|[t ->]]; reflexivity.
  - change (wordl (c :: c2 :: w')) with (wc c && wordl (c2 :: w')) in H. apply andb_true_iff in H as [Hc Hw].
    change ((c :: c2 :: w') ++ rest) with ([c] ++ ((c2 :: w') ++ rest)).
    rewrite (ordinary_keeps ib c (wc_plain c Hc)), (IH Hw) by exact R. cbn [rev app]. now rewrite <- !app_assoc.
Qed.

Lemma word_sep w : word w = true -> sep_word w.
Proof.
  unfold word. intros H. repeat (apply andb_true_iff in H as [H ?]).
  repeat match goal with X : negb _ = true |- _ => apply negb_true_iff in X end.
  split; [now apply tok_wordl|]. repeat split; try assumption. intros ->. discriminate.
Qed.

(* a word, a blank, the rest of the line *)
Lemma tokens_cons w s : word w = true -> tokens_of_line (w ++ " " ++ s) = w :: tokens_of_line s.
Proof. intros H. destruct (word_sep w H) as (W & N & K1 & K2). now apply tokens_cons_word. Qed.

Lemma tokens_words : forall ws, ws <> [] -> forallb word ws = true ->
  tokens_of_line (concat_sep " " ws) = ws.
Proof.
  intros ws NE H. apply tokens_sep_words; [exact NE|]. apply Forall_forall. intros w Hw.
  apply word_sep. rewrite forallb_forall in H. now apply H.
Qed.

(* no line feed inside *)
Definition no_nlb (s : string) : bool := forallb (fun c => negb (Ascii.eqb c newline)) (list_ascii_of_string s).

Lemma no_nlb_spec s : no_nlb s = true -> no_nl (list_ascii_of_string s).
Proof. apply no_lf_forallb. Qed.

Lemma no_nl_app a b : no_nl a -> no_nl b -> no_nl (a ++ b).
Proof. intros A B. apply Forall_app. now split. Qed.

Lemma wordl_no_nl : forall w, wordl w = true -> no_nl w.
Proof.
  induction w as [|c w IH]; intros H; [constructor|].
  destruct w as [|c2 w'].
  - cbn [wordl] in H. constructor; [|constructor]. intros ->. vm_compute in H. discriminate H.
  - change (wordl (c :: c2 :: w')) with (wc c && wordl (c2 :: w')) in H. apply andb_true_iff in H as [Hc Hw].
    constructor; [|apply IH; exact Hw]. intros ->. vm_compute in Hc. discriminate Hc.
Qed.

Lemma word_no_nl w : word w = true -> no_nl (list_ascii_of_string w).
Proof. unfold word. intros H. apply wordl_no_nl. now repeat (apply andb_true_iff in H as [H _]). Qed.

Lemma no_nl_space : no_nl (list_ascii_of_string " ").
Proof. constructor; [|constructor]. intros E. discriminate E. Qed.

Definition all_no_nl (ls : list string) : Prop := Forall (fun ln => no_nl (list_ascii_of_string ln)) ls.

Lemma concat_sep_no_nl : forall l, all_no_nl l -> no_nl (list_ascii_of_string (concat_sep " " l)).
Proof.
  induction l as [|x t IH]; intros H; [constructor|].
  inversion H as [|? ? Hx Ht]; subst. specialize (IH Ht).
  destruct t as [|y t']; [exact Hx|].
  change (concat_sep " " (x :: y :: t')) with (x ++ " " ++ concat_sep " " (y :: t'))%string.
  rewrite !los_app. apply no_nl_app; [exact Hx|]. apply no_nl_app; [apply no_nl_space|exact IH].
Qed.

Lemma words_no_nl ws : forallb word ws = true -> no_nl (list_ascii_of_string (concat_sep " " ws)).
Proof.
  intros H. apply concat_sep_no_nl, Forall_forall. intros w Hw.
  rewrite forallb_forall in H. apply word_no_nl, H, Hw.
Qed.

Lemma word_not_semi w : word w = true -> String.eqb w ";" = false.
Proof.
  intros H. destruct (String.eqb w ";") eqn:E; [|reflexivity].
  apply String.eqb_eq in E. subst w. vm_compute in H. discriminate H.
Qed.

(* decimal numbers are words *)
Lemma digit_wc c : is_digit c = true -> wc c = true.
Proof. revert c. apply ascii_impl. vm_compute. reflexivity. Qed.

Lemma wc_wordl : forall l, forallb wc l = true -> wordl l = true.
Proof.
  induction l as [|c l IH]; intros H; [reflexivity|].
  cbn [forallb] in H. apply andb_true_iff in H as [Hc Hl].
  destruct l as [|c2 l']; [cbn [wordl]; now rewrite Hc|].
  change (wordl (c :: c2 :: l')) with (wc c && wordl (c2 :: l')). now rewrite Hc, IH.
Qed.

Lemma dec_word n : word (N_to_dec n) = true.
Proof.
  unfold word. pose proof (N_to_dec_digits n) as D.
  rewrite (wc_wordl _ (forallb_impl _ _ digit_wc _ D)). cbn [andb].
  assert (F : forall s, (match s with String c _ => is_digit c | EmptyString => false end) = false ->
                        String.eqb (N_to_dec n) s = false).
  { intros s Hs. destruct (String.eqb (N_to_dec n) s) eqn:E; [|reflexivity].
    apply String.eqb_eq in E. rewrite E in D. destruct s as [|c s']; [exfalso; apply (N_to_dec_nonempty n); exact E|].
    cbn [list_ascii_of_string forallb] in D. apply andb_true_iff in D as [D _]. rewrite D in Hs. discriminate Hs. }
  rewrite !F by reflexivity. reflexivity.
Qed.

(* how the assembler model reads the arguments of an opcode *)
Inductive okind : Type := KComment | KInt | KByte | KAddr | KMethod | KBranch | KExcl | KGen.

Definition kind_of (o : opc) : okind :=
  match o with
  | O_comment => KComment
  | O_int | O_pushint => KInt
  | O_byte | O_pushbytes => KByte
  | O_addr => KAddr
  | O_method_signature => KMethod
  | O_b | O_bz | O_bnz | O_callsub => KBranch
  | O_intcblock | O_pushints | O_bytecblock | O_pushbytess | O_switch | O_match_ | O_frame_dig | O_frame_bury => KExcl
  | _ => KGen
  end.

(* by computation over the 189 opcodes *)
Lemma opc_name_word o : is_comment o = false -> word (opc_name o) = true.
Proof. destruct o; intros H; try discriminate H; vm_compute; reflexivity. Qed.

Lemma opc_name_reads_back o : is_comment o = false -> parse_opc (opc_name o) = Some o.
Proof. intros H. apply parse_opc_name. intros ->. discriminate H. Qed.

Lemma kind_comment o : kind_of o = KComment -> o = O_comment.
Proof. destruct o; intros H; try discriminate H; reflexivity. Qed.

Definition mkS (o : opc) (imms : list imm) : option (option stmt) := Some (Some (SInstr (mkP o imms))).

(* what the assembler reads after an op word, by the kind of the opcode *)
Lemma parse_by_kind msel o :
  match kind_of o with
  | KGen => forall args, parse_stmt msel (opc_name o :: args) = mkS o (map generic_imm args)
  | KInt => forall a, parse_stmt msel [opc_name o; a] =
                      match parse_int_arg a with Some n => mkS o [IInt n] | None => None end
  | KByte => forall ts, parse_stmt msel (opc_name o :: ts) =
                        match parse_bytes_arg ts with Some (b, []) => mkS o [IBytes b] | _ => None end
  | KAddr => forall a, parse_stmt msel [opc_name o; a] =
                       if (String.length a =? 58)%nat
                       then match decode_base32 a with Some b => mkS o [IBytes (firstn 32 b)] | None => None end
                       else None
  | KMethod => forall a, parse_stmt msel [opc_name o; a] =
                         match parse_string_literal a with
                         | Some sig => match alookup String.eqb (string_of_bytes sig) msel with
                                       | Some sel => mkS o [IBytes sel] | None => None end
                         | None => None
                         end
  | KBranch => forall l, parse_stmt msel [opc_name o; l] = mkS o [IName l]
  | KComment | KExcl => True
  end.
Proof. destruct o; cbn [kind_of]; try exact I; intros; reflexivity. Qed.

(* ... and what [imm_of_arg] does for the same opcode *)
Lemma imm_by_kind msel o s :
  imm_of_arg msel o (AStr s) =
  match kind_of o with
  | KInt => option_map IInt (parse_int_arg s)
  | KByte => match parse_bytes_arg (tokens_of_line s) with Some (b, []) => Some (IBytes b) | _ => None end
  | KAddr => match decode_base32 s with Some b => Some (IBytes (firstn 32 b)) | None => None end
  | KMethod => match parse_string_literal s with
               | Some sig => option_map IBytes (alookup String.eqb (string_of_bytes sig) msel)
               | None => None
               end
  | _ => Some (IName s)
  end.
Proof. destruct o; reflexivity. Qed.

Definition is_some {A} (x : option A) : bool := match x with Some _ => true | None => false end.
Definition is_none {A} (x : option A) : bool := match x with Some _ => false | None => true end.

(* an argument of an op without special argument syntax: a number, or a name (a word that is not a number) *)
Definition gen_arg (a : arg) : bool :=
  match a with
  | AInt _ => true
  | AStr s => word s && is_none (parse_uint s)
  | _ => false
  end.

Fixpoint strs_eqb (a b : list string) : bool :=
  match a, b with
  | [], [] => true
  | x :: a', y :: b' => String.eqb x y && strs_eqb a' b'
  | _, _ => false
  end.
Lemma strs_eqb_eq a : forall b, strs_eqb a b = true -> a = b.
Proof.
  induction a as [|x a IH]; intros [|y b] H; try discriminate H; [reflexivity|].
  cbn in H. apply andb_true_iff in H as [H1 H2]. apply String.eqb_eq in H1. now rewrite H1, (IH b H2).
Qed.

(* the syntactic class of instructions whose printed line is read back as the same instruction:
   - comment ops (text without line feed);
   - int / pushint with a number below 2^64 or a named constant;
   - byte / pushbytes with ONE spelling the assembler's literal reader accepts (quoted string with escapes, 0x hex,
     base32(..), base64(..), or the two-token forms), free of line feeds;
   - addr with a 58-character base32 word; method with a quoted signature found in the selector table;
   - b / bz / bnz with a label reference or a label word, callsub with a label word (the resolved subroutine label);
   - every other opcode except the constant blocks, pushints/pushbytess, switch/match and frame_dig/frame_bury:
     numbers and names as arguments. *)
Definition printable_instr (msel : list (string * bytes)) (i : instr) : bool :=
  match kind_of (i_op i), i_args i with
  | KComment, args => forallb (fun a => match a with AStr s => no_nlb s | _ => false end) args
  | KInt, [AInt n] => (n <? 18446744073709551616)%N
  | KInt, [AStr s] => word s && is_some (parse_int_arg s)
  | KByte, [AStr s] =>
      no_nlb s &&
      match parse_bytes_arg (tokens_of_line s) with Some (_, []) => true | _ => false end
  | KAddr, [AStr s] => word s && (String.length s =? 58)%nat && is_some (decode_base32 s)
  | KMethod, [AStr s] =>
      no_nlb s && strs_eqb (tokens_of_line s) [s] &&
      match parse_string_literal s with
      | Some sig => is_some (alookup String.eqb (string_of_bytes sig) msel)
      | None => false
      end
  | KBranch, [ALbl l] => word l && is_branch (i_op i)
  | KBranch, [AStr l] => word l
  | KGen, args => forallb gen_arg args
  | _, _ => false
  end.

Definition printable_comp (msel : list (string * bytes)) (c : comp) : bool :=
  match c with
  | COp i => printable_instr msel i
  | CLabel l _ => negb (String.eqb l "") && forallb label_char (list_ascii_of_string l)
  | CPragma _ => true
  end.

Definition printable (msel : list (string * bytes)) (code : list comp) : bool := forallb (printable_comp msel) code.

(* what one line contributes *)
Definition line_stmts (msel : list (string * bytes)) (ln : string) : option (list stmt) :=
  parse_stmts msel (split_semis (tokens_of_line ln) []).

Lemma line_one msel ln ts r :
  tokens_of_line ln = ts -> forallb (fun t => negb (String.eqb t ";")) ts = true ->
  parse_stmt msel ts = Some r ->
  line_stmts msel ln = Some (match r with Some s => [s] | None => [] end).
Proof.
  intros T Hs Pr. unfold line_stmts. rewrite T, split_semis_none by exact Hs. cbn [rev app parse_stmts].
  rewrite Pr. destruct r; reflexivity.
Qed.

Lemma words_no_semi ws : forallb word ws = true -> forallb (fun t => negb (String.eqb t ";")) ws = true.
Proof. apply forallb_impl. intros w H. now rewrite (word_not_semi w H). Qed.

(* a byte literal the reader accepts as the whole argument contains no statement separator *)
Lemma decode_base64_semi : decode_base64 ";" = None. Proof. vm_compute. reflexivity. Qed.
Lemma decode_base32_semi : decode_base32 ";" = None. Proof. vm_compute. reflexivity. Qed.

(* the two-token forms  base64 <text>  /  base32 <text> *)
Lemma keyword_arg_no_semi (dec : string -> option bytes) rest b : dec ";" = None ->
  match rest with a :: r => option_map (fun b => (b, r)) (dec a) | [] => None end = Some (b, []) ->
  nosemi rest = true.
Proof.
  intros Hd H. destruct rest as [|a r]; [discriminate H|].
  destruct (dec a) as [x|] eqn:D; [|discriminate H]. injection H as _ ->. cbn.
  destruct (String.eqb_spec a ";") as [->|]; [congruence | reflexivity].
Qed.

Lemma parse_bytes_arg_no_semi ts b :
  parse_bytes_arg ts = Some (b, []) -> forallb (fun t => negb (String.eqb t ";")) ts = true.
Proof.
  intros H. destruct ts as [|tk rest]; [reflexivity|]. cbn [forallb].
  destruct (String.eqb_spec tk ";") as [->|_]; [discriminate H|]. unfold parse_bytes_arg in H.
  destruct (String.eqb tk "base64" || String.eqb tk "b64"); [exact (keyword_arg_no_semi _ _ _ decode_base64_semi H)|].
  destruct (String.eqb tk "base32" || String.eqb tk "b32"); [exact (keyword_arg_no_semi _ _ _ decode_base32_semi H)|].
  (* every other form leaves the rest of the tokens as it is *)
  repeat match type of H with
         | match ?x with Some _ => _ | None => _ end = _ => destruct x
         | option_map _ ?x = _ => destruct x; cbn [option_map] in H
         end; try discriminate H; now injection H as _ ->.
Qed.

Lemma gen_args_ok msel o : kind_of o = KGen -> forall args, forallb gen_arg args = true ->
  exists parts, assemble_args args = Some parts /\ forallb word parts = true /\
                imms_of_args msel o args = Some (map generic_imm parts).
Proof.
  intros K. induction args as [|a t IH]; intros H.
  - exists []. repeat split.
  - cbn [forallb] in H. apply andb_true_iff in H as [Ha Ht]. destruct (IH Ht) as (parts & A & W & I).
    destruct a as [n|s|l|u|sb]; try discriminate Ha.
    + exists (N_to_dec n :: parts). cbn [assemble_args assemble_arg imms_of_args imm_of_arg forallb map].
      rewrite A, I, W, dec_word, generic_dec. repeat split.
    + cbn [gen_arg] in Ha. apply andb_true_iff in Ha as [Hw Hn].
      exists (s :: parts). cbn [assemble_args assemble_arg imms_of_args forallb map].
      rewrite A, I, W, Hw, imm_by_kind, K. repeat split.
      unfold generic_imm. destruct (parse_uint s); [discriminate Hn|reflexivity].
Qed.

Lemma one_instr_line msel o args line ts imms :
  is_comment o = false -> imms_of_args msel o args = Some imms ->
  tokens_of_line line = ts -> nosemi ts = true -> parse_stmt msel ts = mkS o imms ->
  exists ss, stmt_of msel (COp (mkI o args)) = Some ss /\ line_stmts msel line = Some ss.
Proof.
  intros C I T S Pr. exists [SInstr (mkP o imms)]. split.
  - cbn [stmt_of i_op i_args]. rewrite C, I. reflexivity.
  - exact (line_one msel line ts _ T S Pr).
Qed.

(* an instruction printed as blank-separated words *)
Lemma words_line msel o args ws imms :
  is_comment o = false -> imms_of_args msel o args = Some imms ->
  forallb word ws = true -> ws <> [] -> parse_stmt msel ws = mkS o imms ->
  no_nl (list_ascii_of_string (concat_sep " " ws)) /\
  exists ss, stmt_of msel (COp (mkI o args)) = Some ss /\ line_stmts msel (concat_sep " " ws) = Some ss.
Proof.
  intros C I W NE Pr. split; [now apply words_no_nl|].
  apply (one_instr_line msel o args _ ws imms C I); [now apply tokens_words | now apply words_no_semi | exact Pr].
Qed.

(* ... and as an op word followed by one argument that is tokenised on its own *)
Lemma op_arg_line msel o s ts imms :
  is_comment o = false -> imms_of_args msel o [AStr s] = Some imms -> no_nlb s = true ->
  tokens_of_line s = ts -> nosemi ts = true -> parse_stmt msel (opc_name o :: ts) = mkS o imms ->
  no_nl (list_ascii_of_string (opc_name o ++ " " ++ s)) /\
  exists ss, stmt_of msel (COp (mkI o [AStr s])) = Some ss /\ line_stmts msel (opc_name o ++ " " ++ s) = Some ss.
Proof.
  intros C I N T S Pr. pose proof (opc_name_word o C) as Wn. split.
  - rewrite !los_app. apply no_nl_app; [now apply word_no_nl|].
    apply no_nl_app; [apply no_nl_space | now apply no_nlb_spec].
  - apply (one_instr_line msel o [AStr s] _ (opc_name o :: ts) imms C I).
    + rewrite tokens_cons by exact Wn. now rewrite T.
    + unfold nosemi. cbn [forallb]. now rewrite (word_not_semi _ Wn).
    + exact Pr.
Qed.

Lemma comment_args_parts : forall args,
  forallb (fun a => match a with AStr s => no_nlb s | _ => false end) args = true ->
  exists parts, assemble_args args = Some parts /\ all_no_nl parts.
Proof.
  induction args as [|a t IH]; intros H; [exists []; split; [reflexivity|constructor]|].
  cbn [forallb] in H. apply andb_true_iff in H as [Ha Ht]. destruct (IH Ht) as (r & Er & Nr).
  destruct a as [n|s|l|u|sb]; try discriminate Ha. exists (s :: r). cbn [assemble_args assemble_arg]. rewrite Er.
  split; [reflexivity|]. constructor; [apply no_nlb_spec, Ha|exact Nr].
Qed.

(* A printable instruction other than a comment: the words it is printed as, the immediates the machine
   gets, and the tokens [ts] of its arguments, from which the assembler reads these immediates.  The tokens
   are the printed words themselves, except for a byte or method literal: that is printed as it stands and
   tokenised on its own (into itself, unless it is a byte literal of several tokens). *)
Lemma printable_reading msel o args :
  is_comment o = false -> printable_instr msel (mkI o args) = true ->
  exists parts ts imms,
    assemble_args args = Some parts /\ imms_of_args msel o args = Some imms /\
    parse_stmt msel (opc_name o :: ts) = mkS o imms /\
    (forallb word parts = true /\ ts = parts \/
     exists s, args = [AStr s] /\ no_nlb s = true /\ tokens_of_line s = ts /\ nosemi ts = true /\
               (kind_of o <> KByte -> ts = [s])).
Proof.
  intros C. unfold printable_instr. cbn [i_op i_args].
  pose proof (parse_by_kind msel o) as Pr. pose proof (imm_by_kind msel o) as Im.
  destruct (kind_of o) eqn:K; intros H; try discriminate H.
  - apply kind_comment in K. subst o. discriminate C.
  - (* int *)
    destruct args as [|[n|s|l|u|sb] [|a2 r]]; try discriminate H.
    + apply N.ltb_lt in H. exists [N_to_dec n], [N_to_dec n], [IInt n].
      split; [reflexivity|]. split; [reflexivity|]. split; [now rewrite Pr, (parse_int_arg_dec n H)|].
      left. cbn [forallb]. now rewrite dec_word.
    + apply andb_true_iff in H as [Hw Hp]. destruct (parse_int_arg s) as [n|] eqn:Pn; [|discriminate Hp].
      exists [s], [s], [IInt n].
      split; [reflexivity|]. split; [cbn [imms_of_args]; now rewrite Im, Pn|]. split; [now rewrite Pr, Pn|].
      left. cbn [forallb]. now rewrite Hw.
  - (* byte *)
    destruct args as [|[n|s|l|u|sb] [|a2 r]]; try discriminate H.
    apply andb_true_iff in H as [Hn Hp].
    destruct (parse_bytes_arg (tokens_of_line s)) as [[b rest]|] eqn:Pb; [|discriminate Hp].
    destruct rest; [|discriminate Hp]. exists [s], (tokens_of_line s), [IBytes b].
    split; [reflexivity|]. split; [cbn [imms_of_args]; now rewrite Im, Pb|]. split; [now rewrite Pr, Pb|].
    right. exists s. split; [reflexivity|]. split; [exact Hn|]. split; [reflexivity|].
    split; [exact (parse_bytes_arg_no_semi _ _ Pb)|]. intros X. now destruct X.
  - (* addr *)
    destruct args as [|[n|s|l|u|sb] [|a2 r]]; try discriminate H.
    apply andb_true_iff in H as [H Hd]. apply andb_true_iff in H as [Hw Hl].
    destruct (decode_base32 s) as [b|] eqn:Db; [|discriminate Hd]. exists [s], [s], [IBytes (firstn 32 b)].
    split; [reflexivity|]. split; [cbn [imms_of_args]; now rewrite Im, Db|]. split; [now rewrite Pr, Hl, Db|].
    left. cbn [forallb]. now rewrite Hw.
  - (* method *)
    destruct args as [|[n|s|l|u|sb] [|a2 r]]; try discriminate H.
    apply andb_true_iff in H as [H Hp]. apply andb_true_iff in H as [Hn Ht]. apply strs_eqb_eq in Ht.
    destruct (parse_string_literal s) as [sig|] eqn:Ps; [|discriminate Hp].
    destruct (alookup String.eqb (string_of_bytes sig) msel) as [sel|] eqn:Al; [|discriminate Hp].
    exists [s], [s], [IBytes sel].
    split; [reflexivity|]. split; [cbn [imms_of_args]; now rewrite Im, Ps, Al|]. split; [now rewrite Pr, Ps, Al|].
    right. exists s. split; [reflexivity|]. split; [exact Hn|]. split; [exact Ht|]. split; [|reflexivity].
    cbn. destruct (String.eqb_spec s ";") as [->|]; [discriminate Ps | reflexivity].
  - (* branch *)
    destruct args as [|[n|s|l|u|sb] [|a2 r]]; try discriminate H.
    + exists [s], [s], [IName s].
      split; [reflexivity|]. split; [cbn [imms_of_args]; now rewrite Im|]. split; [apply Pr|].
      left. cbn [forallb]. now rewrite H.
    + apply andb_true_iff in H as [H _]. exists [l], [l], [IName l].
      split; [reflexivity|]. split; [reflexivity|]. split; [apply Pr|]. left. cbn [forallb]. now rewrite H.
  - (* generic *)
    destruct (gen_args_ok msel o K args H) as (parts & A & Wp & I). exists parts, parts, (map generic_imm parts).
    split; [exact A|]. split; [exact I|]. split; [apply Pr|]. left. split; [exact Wp|reflexivity].
Qed.

Theorem instr_line msel i : printable_instr msel i = true ->
  exists line, assemble_instr i = Some line /\ no_nl (list_ascii_of_string line) /\
  exists ss, stmt_of msel (COp i) = Some ss /\ line_stmts msel line = Some ss.
Proof.
  destruct i as [o args]. intros H. unfold assemble_instr. cbn [i_op i_args].
  destruct (is_comment o) eqn:C.
  { apply is_comment_eq in C. subst o. unfold printable_instr in H. cbn [kind_of i_op i_args] in H.
    destruct (comment_args_parts args H) as (parts & A & N). rewrite A.
    eexists. split; [reflexivity|]. change (opc_name O_comment) with "//". split.
    + apply (concat_sep_no_nl ("//" :: parts)). constructor; [|exact N]. repeat constructor; intros E; discriminate E.
    + exists []. split; [reflexivity|]. unfold line_stmts.
      replace (tokens_of_line (concat_sep " " ("//" :: parts))) with (@nil string); [reflexivity|].
      destruct parts as [|y r]; [reflexivity|]. symmetry. apply (tokens_comment_line (" " ++ concat_sep " " (y :: r))). }
  destruct (printable_reading msel o args C H) as (parts & ts & imms & A & I & Pr & [[W ->]|(s & -> & N & T & Sm & _)]);
    rewrite A; eexists; (split; [reflexivity|]).
  - apply (words_line msel o args (opc_name o :: parts) imms C I); [|discriminate|exact Pr].
    cbn [forallb]. now rewrite (opc_name_word o C), W.
  - injection A as <-. exact (op_arg_line msel o s ts imms C I N T Sm Pr).
Qed.

Lemma pragma_line v : ("#pragma version " ++ N_to_dec v)%string = concat_sep " " ["#pragma"; "version"; N_to_dec v].
Proof. reflexivity. Qed.

Definition lines_stmts (msel : list (string * bytes)) (lines : list string) : option (list stmt) :=
  parse_stmts msel (flat_map (fun ln => split_semis (tokens_of_line ln) []) lines).

Lemma lines_stmts_one msel ln : lines_stmts msel [ln] = line_stmts msel ln.
Proof. unfold lines_stmts, line_stmts. cbn [flat_map]. now rewrite app_nil_r. Qed.

(* what one component prints is one or several whole lines (a subroutine label carries its comment lines and
   an empty line in front); read as lines, they give the component's statements *)
Theorem comp_lines msel c : printable_comp msel c = true ->
  exists item ls, assemble_comp c = Some item /\ ls <> [] /\ item = join_nl ls /\ all_no_nl ls /\
  exists ss, stmt_of msel c = Some ss /\ lines_stmts msel ls = Some ss.
Proof.
  destruct c as [i|l cm|v]; cbn [printable_comp]; intros H.
  - destruct (instr_line msel i H) as (line & A & N & ss & S & P).
    exists line, [line]. cbn [assemble_comp]. split; [exact A|]. split; [discriminate|]. split; [reflexivity|].
    split; [constructor; [exact N|constructor]|]. exists ss. split; [exact S|]. rewrite lines_stmts_one. exact P.
  - apply andb_true_iff in H as [Hne Hc]. apply negb_true_iff in Hne.
    assert (Hl : l <> ""%string) by (intros ->; discriminate Hne).
    destruct cm as [cm|].
    + (* subroutine header: empty line, comment lines, label *)
      destruct (header_lines_statement msel cm l Hl Hc) as (E & N & P).
      eexists (header_text cm l), _. split; [reflexivity|]. split; [|split; [exact E|split; [exact N|]]]; [discriminate|].
      exists [SLabel l]. split; [reflexivity | exact P].
    + destruct (label_line msel l Hl Hc) as (NL & _ & P).
      exists (l ++ ":")%string, [(l ++ ":")%string]. split; [reflexivity|]. split; [discriminate|]. split; [reflexivity|].
      split; [constructor; [exact NL|constructor]|]. exists [SLabel l]. split; [reflexivity|].
      rewrite lines_stmts_one. exact P.
  - exists ("#pragma version " ++ N_to_dec v)%string, [("#pragma version " ++ N_to_dec v)%string].
    split; [reflexivity|]. split; [discriminate|]. split; [reflexivity|]. rewrite pragma_line.
    assert (W : forallb word ["#pragma"; "version"; N_to_dec v] = true).
    { cbn [forallb]. rewrite dec_word. reflexivity. }
    split; [constructor; [apply words_no_nl; exact W|constructor]|].
    exists [SPragma v]. split; [reflexivity|]. rewrite lines_stmts_one.
    apply (line_one msel _ ["#pragma"; "version"; N_to_dec v] (Some (SPragma v))).
    + apply tokens_words; [discriminate|exact W].
    + apply words_no_semi. exact W.
    + cbn -[N_of_dec N_to_dec]. rewrite N_of_dec_to_dec. reflexivity.
Qed.

Lemma lines_stmts_app msel a b :
  lines_stmts msel (a ++ b) =
  match lines_stmts msel a, lines_stmts msel b with Some x, Some y => Some (x ++ y) | _, _ => None end.
Proof. unfold lines_stmts. rewrite flat_map_app. apply parse_stmts_app. Qed.

(* joining: items that are themselves joined lines *)
Lemma join_nl_app : forall a b, a <> [] -> b <> [] -> join_nl (a ++ b) = (join_nl a ++ nl ++ join_nl b)%string.
Proof.
  induction a as [|x t IH]; intros b Ha Hb; [congruence|].
  destruct t as [|y t'].
  - cbn [app]. rewrite join_cons by exact Hb. reflexivity.
  - change ((x :: y :: t') ++ b) with (x :: ((y :: t') ++ b)).
    rewrite join_cons by discriminate. rewrite IH by (try discriminate; exact Hb).
    rewrite (join_cons x (y :: t')) by discriminate. now rewrite !sapp_assoc.
Qed.

Lemma join_nl_concat : forall lss, Forall (fun ls => ls <> []) lss ->
  join_nl (map join_nl lss) = join_nl (List.concat lss).
Proof.
  induction lss as [|ls rest IH]; intros H; [reflexivity|].
  inversion H as [|? ? Hls Hrest]; subst. cbn [map List.concat].
  destruct rest as [|ls2 rest'].
  - cbn [map List.concat join_nl]. now rewrite app_nil_r.
  - rewrite join_cons by discriminate. rewrite IH by exact Hrest.
    rewrite join_nl_app; [reflexivity|exact Hls|].
    inversion Hrest as [|? ? H2 _]; subst. cbn [List.concat]. destruct ls2; [congruence|discriminate].
Qed.

(* the program text: what PyTeal returns, the assembled components joined by line feeds *)
Definition program_text (items : list string) : string := join_nl items.

(* [c] prints as whole lines, and read as lines they give the statements [f] assigns to [c] *)
Definition reads_back (msel : list (string * bytes)) (f : comp -> option (list stmt)) (c : comp) : Prop :=
  exists item ls, assemble_comp c = Some item /\ ls <> [] /\ item = join_nl ls /\ all_no_nl ls /\
    forall ss, f c = Some ss -> lines_stmts msel ls = Some ss.

(* ... then so does a list of such components, for the statements [F] gathers from [f] *)
Section ReadsBack.
Variables (msel : list (string * bytes)) (f : comp -> option (list stmt)) (F : list comp -> option (list stmt)).
Hypothesis Fnil : F [] = Some [].
Hypothesis Fcons : forall c t,
  F (c :: t) = match f c, F t with Some x, Some r => Some (x ++ r) | _, _ => None end.

Lemma reads_back_all : forall code, Forall (reads_back msel f) code ->
  exists items lss,
    assemble_all code = Some items /\ items = map join_nl lss /\
    Forall (fun ls => ls <> []) lss /\ all_no_nl (List.concat lss) /\
    List.length items = List.length code /\
    forall ss, F code = Some ss -> lines_stmts msel (List.concat lss) = Some ss.
Proof.
  induction 1 as [|c t (item & ls & Ac & NEc & Ic & Nc & Rc) _ (items & lss & A & I & NE & N & L & R)].
  - exists [], []. repeat split; try constructor. rewrite Fnil. intros ss Hs. injection Hs as <-. reflexivity.
  - exists (item :: items), (ls :: lss). cbn [assemble_all]. rewrite Ac, A.
    split; [reflexivity|]. split; [cbn [map]; now rewrite Ic, I|]. split; [constructor; assumption|].
    split; [cbn [List.concat]; apply Forall_app; split; assumption|].
    split; [cbn [List.length]; now rewrite L|].
    intros ss Hs. rewrite Fcons in Hs.
    destruct (f c) as [x|]; [|discriminate Hs]. destruct (F t) as [r|]; [|discriminate Hs]. injection Hs as <-.
    cbn [List.concat]. rewrite lines_stmts_app, (Rc x eq_refl), (R r eq_refl). reflexivity.
Qed.

Lemma text_reads code lines : code <> [] -> Forall (reads_back msel f) code ->
  assemble_all code = Some lines ->
  forall ss, F code = Some ss -> statements_of_text msel (program_text lines) = Some ss.
Proof.
  intros Hne H A ss Hs. destruct (reads_back_all code H) as (items & lss & A' & I & NE & N & L & R).
  rewrite A in A'. injection A' as <-.
  unfold statements_of_text, program_text. rewrite I, join_nl_concat by exact NE.
  rewrite split_lines_join; [exact (R ss Hs)| |exact N].
  intros E. destruct lss as [|ls rest]; [subst lines; destruct code; [congruence|discriminate L]|].
  inversion NE as [|? ? Hls _]; subst. cbn [List.concat] in E. destruct ls; [congruence|discriminate E].
Qed.
End ReadsBack.

Lemma stmt_reads_back msel code : printable msel code = true -> Forall (reads_back msel (stmt_of msel)) code.
Proof.
  intros H. unfold printable in H. rewrite forallb_forall in H. apply Forall_forall. intros c Hin.
  destruct (comp_lines msel c (H c Hin)) as (item & ls & A & NE & I & N & ss0 & S0 & P0).
  exists item, ls. repeat (split; [assumption|]). intros ss Hs. rewrite S0 in Hs. now injection Hs as <-.
Qed.

Lemma printable_stmts msel : forall code, printable msel code = true -> exists ss, stmts_of msel code = Some ss.
Proof.
  induction code as [|c t IH]; intros H; [now exists []|].
  unfold printable in H. cbn [forallb] in H. apply andb_true_iff in H as [Hc Ht].
  destruct (comp_lines msel c Hc) as (_ & _ & _ & _ & _ & _ & s1 & Sc & _). destruct (IH Ht) as [ss S].
  exists (s1 ++ ss). cbn [stmts_of]. now rewrite Sc, S.
Qed.

Theorem lines_roundtrip msel : forall code, printable msel code = true ->
  exists items lss ss,
    assemble_all code = Some items /\ items = map join_nl lss /\
    Forall (fun ls => ls <> []) lss /\ all_no_nl (List.concat lss) /\
    List.length items = List.length code /\
    stmts_of msel code = Some ss /\ lines_stmts msel (List.concat lss) = Some ss.
Proof.
  intros code H. destruct (printable_stmts msel code H) as [ss S].
  destruct (reads_back_all msel _ (stmts_of msel) eq_refl (fun _ _ => eq_refl) code (stmt_reads_back msel code H))
    as (items & lss & A & I & NE & N & L & R).
  exists items, lss, ss. repeat (split; [assumption|]). exact (R ss S).
Qed.

Theorem text_roundtrip msel code lines :
  printable msel code = true -> code <> [] -> assemble_all code = Some lines ->
  exists ss, stmts_of msel code = Some ss /\ statements_of_text msel (program_text lines) = Some ss.
Proof.
  intros H Hne A. destruct (printable_stmts msel code H) as [ss S]. exists ss. split; [exact S|].
  exact (text_reads msel _ (stmts_of msel) eq_refl (fun _ _ => eq_refl) code lines Hne (stmt_reads_back msel code H) A ss S).
Qed.

(* the assembler's program for the text is the linked program of the list *)
Corollary text_links msel code lines :
  printable msel code = true -> code <> [] -> assemble_all code = Some lines ->
  parse_program msel (program_text lines) = link msel code.
Proof.
  intros H Hne A. destruct (text_roundtrip msel code lines H Hne A) as (ss & S & T).
  unfold parse_program, link. rewrite T, S. reflexivity.
Qed.

(* printable lists always assemble *)
Corollary printable_assembles msel code : printable msel code = true -> exists lines, assemble_all code = Some lines.
Proof. intros H. destruct (lines_roundtrip msel code H) as (items & lss & ss & A & _). exists items. exact A. Qed.
