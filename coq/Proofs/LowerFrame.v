(* Proofs/LowerFrame.v — bookkeeping of the lowering: graphs only grow; blocks defined before a
   lowering step are untouched by it (the "frame" property, CompCert RTLgen style) — and one traversal of
   [lower] (Comp/Lower.v), [lower_inv], shared by the facts about the lowered graph that are stated of
   well-formed graphs and compose fragment by fragment: the three instances named below.  (The shape
   facts of Proofs/LowerShape.v are not among them; that file says why.)

   A fragment is what lowering one recipe adds to the graph: it has a start block, an end block and a
   continuation.  A fact [Q g k s en g'] about the fragment built from g to g' (continuation k, start s,
   end en) is given by a handful of composition rules ([frag_rules]): one block is a fragment; a fragment
   built after another and continuing with its start composes with it; a fragment survives neutral
   extensions [N] of the graph (material that control does not fall out of); a conditional block in front
   of a fragment.  With rules for Break/Continue and for loops, and the way the side condition on the
   recipe passes to its parts ([part_rules]), [lower_inv] proves Q of every recipe once and for all.
   Instances: the frame property itself (below, no side condition), the single exit
   (Proofs/EndToEndExits.v) and the reachability of the end block (Proofs/LatePassTotalReach.v).

   Well-formedness and frames are threaded once, in the combinators [fq]/[fn], so that the traversal
   composes fragments without mentioning them. *)
From Coq Require Import List Arith NArith String Bool Lia.
From PV Require Import Base.Bytes AVM.Syntax Src.Expr Comp.Blocks Comp.WideRatio Comp.Lower.
Import ListNotations.

(* a strong induction principle for the nested inductive [expr] *)
Inductive opt_all (P : expr -> Prop) : option expr -> Prop :=
| oa_none : opt_all P None
| oa_some x : P x -> opt_all P (Some x).

Lemma opt_all_some (P : expr -> Prop) x : opt_all P (Some x) -> P x.
Proof. intros H. inversion H; subst. assumption. Qed.

Section ExprInd.
  Variable P : expr -> Prop.
  Hypothesis H_op : forall o imms t args, Forall P args -> P (EOp o imms t args).
  Hypothesis H_nary : forall o t args, Forall P args -> P (ENary o t args).
  Hypothesis H_seq : forall es, Forall P es -> P (ESeq es).
  Hypothesis H_if : forall c th el, P c -> P th -> opt_all P el -> P (EIf c th el).
  Hypothesis H_cond : forall arms, Forall (fun a => P (fst a) /\ P (snd a)) arms -> P (ECond arms).
  Hypothesis H_while : forall c b, P c -> P b -> P (EWhile c b).
  Hypothesis H_for : forall i c s b, P i -> P c -> P s -> P b -> P (EFor i c s b).
  Hypothesis H_break : P EBreak.
  Hypothesis H_continue : P EContinue.
  Hypothesis H_assert : forall conds cm, Forall P conds -> P (EAssert conds cm).
  Hypothesis H_return : forall v, opt_all P v -> P (EReturn v).
  Hypothesis H_exit : forall v, P v -> P (EExit v).
  Hypothesis H_multi : forall o imms args outs, Forall P args -> P (EMulti o imms args outs).
  Hypothesis H_call : forall s t args, Forall P args -> P (ECall s t args).
  Hypothesis H_wide : forall ns ds, Forall P ns -> Forall P ds -> P (EWide ns ds).
  Hypothesis H_param : forall i, P (EParam i).

  Fixpoint expr_ind' (e : expr) : P e :=
    let fl := (fix go (l : list expr) : Forall P l :=
                 match l with
                 | [] => Forall_nil P
                 | x :: t => Forall_cons x (expr_ind' x) (go t)
                 end) in
    match e with
    | EOp o imms t args => H_op o imms t args (fl args)
    | ENary o t args => H_nary o t args (fl args)
    | ESeq es => H_seq es (fl es)
    | EIf c th el =>
        H_if c th el (expr_ind' c) (expr_ind' th)
             (match el with Some y => oa_some P y (expr_ind' y) | None => oa_none P end)
    | ECond arms =>
        H_cond arms ((fix go (l : list (expr * expr)) : Forall (fun a => P (fst a) /\ P (snd a)) l :=
                        match l with
                        | [] => Forall_nil _
                        | a :: t => Forall_cons a (conj (expr_ind' (fst a)) (expr_ind' (snd a))) (go t)
                        end) arms)
    | EWhile c b => H_while c b (expr_ind' c) (expr_ind' b)
    | EFor i c s b => H_for i c s b (expr_ind' i) (expr_ind' c) (expr_ind' s) (expr_ind' b)
    | EBreak => H_break
    | EContinue => H_continue
    | EAssert conds cm => H_assert conds cm (fl conds)
    | EReturn v =>
        H_return v
             (match v with Some y => oa_some P y (expr_ind' y) | None => oa_none P end)
    | EExit v => H_exit v (expr_ind' v)
    | EMulti o imms args outs => H_multi o imms args outs (fl args)
    | ECall s t args => H_call s t args (fl args)
    | EWide ns ds => H_wide ns ds (fl ns) (fl ds)
    | EParam i => H_param i
    end.
End ExprInd.

Definition wf (g : graph) : Prop := forall i, g_next g <= i -> g_blk g i = None.

Definition frame (g g' : graph) : Prop :=
  g_next g <= g_next g' /\ (forall j, j < g_next g -> g_blk g' j = g_blk g j) /\ wf g'.

Lemma wf_empty : wf empty_graph.
Proof. intros i _. reflexivity. Qed.

Lemma frame_refl g : wf g -> frame g g.
Proof. intros W. repeat split; auto. Qed.

Lemma frame_trans a b c : frame a b -> frame b c -> frame a c.
Proof.
  intros (A1 & A2 & A3) (B1 & B2 & B3). repeat split; auto; [lia|].
  intros j H. rewrite B2 by lia. auto.
Qed.

Lemma frame_wf a b : frame a b -> wf b.
Proof. intros (_ & _ & W). exact W. Qed.

Lemma frame_keeps a b j x : frame a b -> wf a -> g_blk a j = Some x -> g_blk b j = Some x.
Proof.
  intros (A1 & A2 & A3) W E.
  destruct (Nat.lt_ge_cases j (g_next a)) as [L|L]; [rewrite A2; auto|].
  rewrite W in E by lia. discriminate.
Qed.

Lemma upd_same {A} (f : id -> A) k v : upd f k v k = v.
Proof. unfold upd. rewrite Nat.eqb_refl. reflexivity. Qed.
Lemma upd_other {A} (f : id -> A) k v j : j <> k -> upd f k v j = f j.
Proof. intros H. unfold upd. destruct (Nat.eqb_spec j k); [contradiction|reflexivity]. Qed.

Lemma add_block_spec g b i g' : wf g -> add_block g b = (i, g') ->
  frame g g' /\ g_blk g' i = Some b /\ i = g_next g /\ g_next g' = S i.
Proof.
  intros W E. unfold add_block in E. inversion E; subst; clear E. cbn [g_next g_blk].
  repeat split; cbn [g_next g_blk]; auto.
  - intros j H. apply upd_other. lia.
  - intros j H. cbn [g_next g_blk] in *. rewrite upd_other by lia. apply W. lia.
  - apply upd_same.
Qed.

Lemma reserve_spec g i g' : wf g -> reserve g = (i, g') ->
  frame g g' /\ g_blk g' i = None /\ i = g_next g /\ g_next g' = S i.
Proof.
  intros W E. unfold reserve in E. inversion E; subst; clear E. cbn [g_next g_blk].
  repeat split; cbn [g_next g_blk]; auto.
  - intros j H. cbn [g_next g_blk] in *. apply W. lia.
Qed.

Lemma define_spec g i b : wf g -> i < g_next g ->
  wf (define g i b) /\ g_next (define g i b) = g_next g /\ g_blk (define g i b) i = Some b /\
  (forall j, j <> i -> g_blk (define g i b) j = g_blk g j).
Proof.
  intros W L. unfold define. cbn [g_next g_blk]. repeat split.
  - intros j H. cbn [g_next g_blk] in *. rewrite upd_other by lia. apply W. lia.
  - apply upd_same.
  - intros j H. apply upd_other. exact H.
Qed.

Lemma define_frame g g' i b : frame g g' -> g_next g <= i < g_next g' -> frame g (define g' i b).
Proof.
  intros (A1 & A2 & A3) [L1 L2]. destruct (define_spec g' i b A3 L2) as (D1 & D2 & _ & D4).
  repeat split; [rewrite D2; exact A1| |exact D1].
  intros j Hj. rewrite D4 by lia. apply A2; exact Hj.
Qed.

Arguments add_block : simpl never.
Arguments reserve : simpl never.
Arguments define : simpl never.

(* the frame property of a single-expression lowering function *)
Definition lw_frame (lw : expr -> option id -> graph -> (id * id) * graph) (e : expr) : Prop :=
  forall k g r g', wf g -> lw e k g = (r, g') -> frame g g'.

(* the targets of Break and Continue *)
Definition actx (c : lctx) : option id -> Prop := fun n => n = l_brk c \/ n = l_cont c.

(* the direct parts of a recipe that are lowered in the loop context of the recipe itself *)
Definition subs (e : expr) : list expr :=
  match e with
  | EOp _ _ _ l | ENary _ _ l | ESeq l | EAssert l _ | EMulti _ _ l _ | ECall _ _ l => l
  | EIf c t el => c :: t :: match el with Some x => [x] | None => [] end
  | ECond arms => flat_map (fun a => [fst a; snd a]) arms
  | EReturn (Some v) | EExit v => [v]
  | EWide ns ds => ns ++ ds
  | EWhile _ _ | EFor _ _ _ _ | EReturn None | EBreak | EContinue | EParam _ => []
  end.

Lemma Forall_arms {P : expr -> Prop} (arms : list (expr * expr)) :
  Forall P (flat_map (fun a => [fst a; snd a]) arms) -> Forall (fun a => P (fst a) /\ P (snd a)) arms.
Proof.
  induction arms as [|a t IH]; cbn [flat_map app]; intros H; [constructor|].
  apply Forall_cons_iff in H as [H1 H]. apply Forall_cons_iff in H as [H2 H]. constructor; auto.
Qed.

Lemma or_some_else a b : or_some a b = Some (or_else a b).
Proof. destruct a; reflexivity. Qed.

(* fragments in one loop context *)
Section Fragments.
  Set Implicit Arguments.
  Variable Q : graph -> option id -> id -> id -> graph -> Prop.
  Variable N : graph -> graph -> Prop.
  Variable EC : Prop.      (* a Cond without arms is acceptable *)

  Record frag_rules : Prop := {
    r_block : forall g ops k b g', wf g -> add_block g (BSimple ops k) = (b, g') -> Q g k b b g';
    (* the fragment built second continues with the start of the one built first *)
    r_seq : forall g k s2 e2 g1 s1 e1 g2,
      wf g -> frame g g1 -> frame g1 g2 -> Q g k s2 e2 g1 -> Q g1 (Some s2) s1 e1 g2 -> Q g k s1 e2 g2;
    r_ext : forall g k s en g1 g2,
      wf g -> frame g g1 -> frame g1 g2 -> Q g k s en g1 -> N g1 g2 -> Q g k s en g2;
    r_branch : forall g k s en g1 ops f br g2,
      wf g -> frame g g1 -> Q g k s en g1 -> add_block g1 (BCond ops (Some s) (Some f)) = (br, g2) ->
      Q g k br en g2;
    (* Cond(): the start is the bare err block *)
    r_no_arms : EC -> forall g k s s' en g', Q g k s en g' -> Q g k s' en g';
    n_refl : forall g, N g g;
    n_trans : forall a b c, wf a -> frame a b -> frame b c -> N a b -> N b c -> N a c;
    n_frag : forall g k0 s en g', wf g -> frame g g' -> Q g (Some k0) s en g' -> N g g';
    n_err : forall g i g', wf g -> add_block g (BSimple [I O_err []] None) = (i, g') -> N g g';
    n_cond : forall g ops t f i g', wf g -> add_block g (BCond ops (Some t) (Some f)) = (i, g') -> N g g' }.

  Hypothesis R : frag_rules.

  (* the rules with well-formedness and frames threaded: [fq] for a fragment (Q), [fn] for a neutral
     extension (N) *)
  Definition fq (g : graph) (k : option id) (s en : id) (g' : graph) : Prop :=
    wf g -> frame g g' /\ Q g k s en g'.
  Definition fn (g g' : graph) : Prop := wf g -> frame g g' /\ N g g'.

  Lemma fq_block {g ops k b g'} : add_block g (BSimple ops k) = (b, g') -> fq g k b b g'.
  Proof. intros E W. split; [apply (add_block_spec _ _ _ _ W E)|eapply r_block; eauto]. Qed.

  Lemma fq_seq {g k s2 e2 g1 s1 e1 g2} : fq g k s2 e2 g1 -> fq g1 (Some s2) s1 e1 g2 -> fq g k s1 e2 g2.
  Proof.
    intros H1 H2 W. destruct (H1 W) as [F1 Q1]. destruct (H2 (frame_wf _ _ F1)) as [F2 Q2].
    split; [eapply frame_trans; eauto|eapply r_seq; eauto].
  Qed.

  Lemma fq_ext {g k s en g1 g2} : fq g k s en g1 -> fn g1 g2 -> fq g k s en g2.
  Proof.
    intros H1 H2 W. destruct (H1 W) as [F1 Q1]. destruct (H2 (frame_wf _ _ F1)) as [F2 N2].
    split; [eapply frame_trans; eauto|eapply r_ext; eauto].
  Qed.

  Lemma fq_branch {g k s en g1 ops f br g2} :
    fq g k s en g1 -> add_block g1 (BCond ops (Some s) (Some f)) = (br, g2) -> fq g k br en g2.
  Proof.
    intros H1 E W. destruct (H1 W) as [F1 Q1].
    split; [eapply frame_trans; [exact F1|apply (add_block_spec _ _ _ _ (frame_wf _ _ F1) E)]|eapply r_branch; eauto].
  Qed.

  Lemma fn_refl {g} : fn g g.
  Proof. intros W. split; [apply frame_refl; exact W|apply (n_refl R)]. Qed.

  Lemma fn_trans {a b c} : fn a b -> fn b c -> fn a c.
  Proof.
    intros H1 H2 W. destruct (H1 W) as [F1 N1]. destruct (H2 (frame_wf _ _ F1)) as [F2 N2].
    split; [eapply frame_trans; eauto|eapply n_trans; eauto].
  Qed.

  Lemma fn_frag {g k0 s en g'} : fq g (Some k0) s en g' -> fn g g'.
  Proof. intros H W. destruct (H W) as [F1 Q1]. split; [exact F1|eapply n_frag; eauto]. Qed.

  Lemma fn_err {g i g'} : add_block g (BSimple [I O_err []] None) = (i, g') -> fn g g'.
  Proof. intros E W. split; [apply (add_block_spec _ _ _ _ W E)|eapply n_err; eauto]. Qed.

  Lemma fn_cond {g ops t f i g'} : add_block g (BCond ops (Some t) (Some f)) = (i, g') -> fn g g'.
  Proof. intros E W. split; [apply (add_block_spec _ _ _ _ W E)|eapply n_cond; eauto]. Qed.

  Variable lw : expr -> option id -> graph -> (id * id) * graph.

  Definition lw_q (e : expr) : Prop :=
    forall k g s en g', lw e k g = ((s, en), g') -> fq g k s en g'.

  (* right-to-left chains: [ks] is the start of the first element, [endo] the block that received [k] *)
  Definition chain_q (g : graph) (k ks endo : option id) (g' : graph) : Prop :=
    match endo with
    | None => ks = k /\ g' = g
    | Some en => exists s, ks = Some s /\ fq g k s en g'
    end.

  Lemma chain_cons {g k kt endt g1 s en g2} :
    chain_q g k kt endt g1 -> fq g1 kt s en g2 -> fq g k s (or_else endt en) g2.
  Proof.
    destruct endt as [en'|]; cbn [chain_q or_else].
    - intros (s' & -> & H1) H2. exact (fq_seq H1 H2).
    - intros [-> ->] H2. exact H2.
  Qed.

  Lemma chain_some {g k s x y g'} : fq g k s (or_else x y) g' -> chain_q g k (Some s) (or_some x y) g'.
  Proof. intros H. rewrite or_some_else. exists s. split; [reflexivity|exact H]. Qed.

  (* a block in front of a chain *)
  Lemma chain_head {g k ks endo g1 ops b g2} :
    chain_q g k ks endo g1 -> add_block g1 (BSimple ops ks) = (b, g2) -> fq g k b (or_else endo b) g2.
  Proof. intros H E. exact (chain_cons H (fq_block E)). Qed.

  (* a chain in front of a fragment *)
  Lemma chain_tail {g k s en g1 ks x g2} :
    fq g k s en g1 -> chain_q g1 (Some s) ks x g2 -> fq g k (or_else ks s) en g2.
  Proof.
    intros H. destruct x as [en'|]; cbn [chain_q].
    - intros (s' & -> & H'). exact (fq_seq H H').
    - intros [-> ->]. exact H.
  Qed.

  Lemma chain_q_start {g s0 ks x g'} : chain_q g (Some s0) ks x g' -> ks = Some (or_else ks s0).
  Proof. destruct x; cbn [chain_q]; [intros (s & -> & _)|intros [-> _]]; reflexivity. Qed.

  Lemma lower_chain_q {es} : Forall lw_q es ->
    forall {k g ks endo g'}, lower_chain lw es k g = ((ks, endo), g') -> chain_q g k ks endo g'.
  Proof.
    induction 1 as [|e t He Ht IH]; intros k g ks endo g' E; cbn [lower_chain] in E.
    - injection E as <- <- <-. split; reflexivity.
    - destruct (lower_chain lw t k g) as [[kt endt] g1] eqn:E1.
      destruct (lw e kt g1) as [[s en] g2] eqn:E2. injection E as <- <- <-.
      apply IH in E1. apply He in E2. exact (chain_some (chain_cons E1 E2)).
  Qed.

  (* NaryExpr / WideRatio: every element is followed by an operation block *)
  Lemma chain_op {g k kt endt g1 ops opb g2 s en g3} :
    chain_q g k kt endt g1 -> add_block g1 (BSimple ops kt) = (opb, g2) -> fq g2 (Some opb) s en g3 ->
    chain_q g k (Some s) (or_some endt opb) g3.
  Proof. intros H1 E2 H3. exact (chain_some (fq_seq (chain_head H1 E2) H3)). Qed.

  Lemma lower_nary_rest_q {op l} : Forall lw_q l ->
    forall {k g ks endo g'}, lower_nary_rest lw op l k g = ((ks, endo), g') -> chain_q g k ks endo g'.
  Proof.
    induction 1 as [|e t He Ht IH]; intros k g ks endo g' E; cbn [lower_nary_rest] in E.
    - injection E as <- <- <-. split; reflexivity.
    - destruct (lower_nary_rest lw op t k g) as [[kt endt] g1] eqn:E1.
      destruct (add_block g1 (BSimple [I op []] kt)) as [opb g2] eqn:E2.
      destruct (lw e (Some opb) g2) as [[s en] g3] eqn:E3. injection E as <- <- <-.
      apply IH in E1. apply He in E3. exact (chain_op E1 E2 E3).
  Qed.

  Lemma lower_wide_rest_q {l} : Forall lw_q l ->
    forall {k g ks endo g'}, lower_wide_rest lw l k g = ((ks, endo), g') -> chain_q g k ks endo g'.
  Proof.
    induction 1 as [|e t He Ht IH]; intros k g ks endo g' E; cbn [lower_wide_rest] in E.
    - injection E as <- <- <-. split; reflexivity.
    - destruct (lower_wide_rest lw t k g) as [[kt endt] g1] eqn:E1.
      destruct (add_block g1 (BSimple mul_step_ops kt)) as [opb g2] eqn:E2.
      destruct (lw e (Some opb) g2) as [[s en] g3] eqn:E3. injection E as <- <- <-.
      apply IH in E1. apply He in E3. exact (chain_op E1 E2 E3).
  Qed.

  (* Cond arms, below an end block [en] that belongs to the fragment being built from g0: the arms are
     neutral, and the first condition leads to [en] through the first arm *)
  Lemma lower_cond_arms_q {l} : Forall (fun a => lw_q (fst a) /\ lw_q (snd a)) l ->
    forall g0 k {en errb g st g'}, lower_cond_arms lw l en errb g = (st, g') ->
      fn g g' /\ (fq g0 k en en g -> l <> [] \/ EC -> fq g0 k st en g').
  Proof.
    induction 1 as [|[cnd pred] t [Hc Hp] Ht IH]; intros g0 k en errb g st g' E; cbn [lower_cond_arms] in E.
    - injection E as <- <-. split; [apply fn_refl|].
      intros H [X|X]; [destruct (X eq_refl)|]. intros W. destruct (H W) as [F Q0].
      split; [exact F|eapply r_no_arms; eauto].
    - cbn [fst snd] in *.
      destruct (lower_cond_arms lw t en errb g) as [fls g1] eqn:E1.
      destruct (lw pred (Some en) g1) as [[ps pe] g2] eqn:E2.
      destruct (add_block g2 (BCond [] (Some ps) (Some fls))) as [br g3] eqn:E3.
      destruct (lw cnd (Some br) g3) as [[cs ce] g4] eqn:E4. injection E as <- <-.
      apply (IH g0 k) in E1 as [N1 _]. apply Hp in E2. apply Hc in E4.
      split.
      + exact (fn_trans N1 (fn_trans (fn_frag E2) (fn_trans (fn_cond E3) (fn_frag E4)))).
      + intros H0 _. exact (fq_seq (fq_branch (fq_seq (fq_ext H0 N1) E2) E3) E4).
  Qed.

  (* multiplyFactors *)
  Lemma lower_factors_q {fs} : Forall lw_q fs ->
    forall {k g st en g'}, lower_factors lw fs k g = ((st, en), g') -> fq g k st en g'.
  Proof.
    intros HF k g st en g' E. unfold lower_factors in E.
    destruct fs as [|f0 [|f1 rest]].
    - destruct (add_block g (BSimple [] k)) as [b g1] eqn:E1. injection E as <- <- <-.
      exact (fq_block E1).
    - inversion HF as [|? ? H0 _]; subst.
      destruct (lw f0 k g) as [[s0 e0] g1] eqn:E1.
      destruct (add_block g1 (BSimple [I1 O_int 0] (Some s0))) as [hw g2] eqn:E2.
      destruct (add_block g2 (BSimple [] (Some hw))) as [st0 g3] eqn:E3. injection E as <- <- <-.
      apply H0 in E1. exact (fq_seq (fq_seq E1 (fq_block E2)) (fq_block E3)).
    - inversion HF as [|? ? H0 HF1]; subst. inversion HF1 as [|? ? H1 HR]; subst.
      destruct (lower_wide_rest lw rest k g) as [[krest endrest] g1] eqn:E1.
      destruct (add_block g1 (BSimple [I0 O_mulw] krest)) as [m2 g2] eqn:E2.
      destruct (lw f1 (Some m2) g2) as [[s1 e1] g3] eqn:E3.
      destruct (lw f0 (Some s1) g3) as [[s0 e0] g4] eqn:E4.
      destruct (add_block g4 (BSimple [] (Some s0))) as [st0 g5] eqn:E5. injection E as <- <- <-.
      apply (lower_wide_rest_q HR) in E1. apply H1 in E3. apply H0 in E4.
      exact (fq_seq (fq_seq (fq_seq (chain_head E1 E2) E3) E4) (fq_block E5)).
  Qed.

  (* the comment lines of an Assert: a chain of single blocks *)
  Lemma lower_comment_lines_q lines : forall {k g ks g'},
    lower_comment_lines lines k g = (ks, g') -> exists endo, chain_q g k ks endo g'.
  Proof.
    induction lines as [|l t IH]; intros k g ks g' E; cbn [lower_comment_lines] in E.
    - injection E as <- <-. exists None. split; reflexivity.
    - destruct (lower_comment_lines t k g) as [kt g1] eqn:E1.
      destruct (add_block g1 (BSimple [mkI O_comment [AStr l]] kt)) as [b g2] eqn:E2. injection E as <- <-.
      destruct (IH _ _ _ _ E1) as [x C]. exists (or_some x b). exact (chain_some (chain_head C E2)).
  Qed.

  (* MultiValue's stores: a chain of single blocks, built front to front *)
  Lemma lower_stores_q outs : forall {kk first g kst lastst g'},
    lower_stores outs kk first g = (kst, lastst, g') ->
    exists endo, chain_q g kk kst endo g' /\ lastst = match first with Some _ => first | None => endo end.
  Proof.
    induction outs as [|x t IH]; intros kk first g kst lastst g' E; cbn [lower_stores] in E.
    - injection E as <- <- <-. exists None. split; [split; reflexivity|destruct first; reflexivity].
    - destruct (add_block g (BSimple [I O_store [ASlot x]] kk)) as [b g1] eqn:E1.
      destruct (IH _ _ _ _ _ _ E) as (x' & C & ->). exists (Some b). split; [|destruct first; reflexivity].
      exists (or_else kst b). split; [exact (chain_q_start C)|exact (chain_tail (fq_block E1) C)].
  Qed.

  Lemma lower_assert1_q {version comment cnd} : lw_q cnd ->
    forall {k g s en g'}, lower_assert1 lw version comment cnd k g = ((s, en), g') -> fq g k s en g'.
  Proof.
    intros Hc k g s en g' E. unfold lower_assert1 in E.
    destruct (N.leb 3 version).
    - destruct (add_block g (BSimple [I O_assert_ []] k)) as [opb g1] eqn:E1.
      destruct comment as [lines|].
      + destruct (lower_comment_lines lines (Some opb) g1) as [ks ga] eqn:E2.
        destruct (add_block ga (BSimple [] ks)) as [st gb] eqn:E3.
        destruct (lw cnd (Some st) gb) as [[cs ce] g3] eqn:E4. injection E as <- <- <-.
        destruct (lower_comment_lines_q _ E2) as [x C]. apply Hc in E4.
        exact (fq_seq (fq_seq (fq_block E1) (chain_head C E3)) E4).
      + destruct (lw cnd (Some opb) g1) as [[cs ce] g3] eqn:E4. injection E as <- <- <-.
        apply Hc in E4. exact (fq_seq (fq_block E1) E4).
    - destruct (add_block g (BSimple [] k)) as [en0 g1] eqn:E1.
      destruct (add_block g1 (BSimple [I O_err []] None)) as [errb g2] eqn:E2.
      destruct (add_block g2 (BCond [] (Some en0) (Some errb))) as [br g3] eqn:E3.
      destruct (lw cnd (Some br) g3) as [[cs ce] g4] eqn:E4. injection E as <- <- <-.
      apply Hc in E4. exact (fq_seq (fq_branch (fq_ext (fq_block E1) (fn_err E2)) E3) E4).
  Qed.
End Fragments.

Unset Implicit Arguments.

Section Traversal.
  Variable o : copts.
  (* the side condition on a recipe lowered in context c, inside a loop ([il]), in a loop header ([pb]) *)
  Variable ok : lctx -> bool -> bool -> expr -> Prop.
  Variable J : option id -> Prop.       (* what Break/Continue need of their target *)
  Variable EC : Prop.
  Variable Q : lctx -> graph -> option id -> id -> id -> graph -> Prop.
  Variable N : graph -> graph -> Prop.

  Record part_rules : Prop := {
    ok_subs : forall c il pb e, ok c il pb e -> Forall (ok c il pb) (subs e);
    ok_while : forall c il pb cnd b, ok c il pb (EWhile cnd b) -> forall en cs : id,
      ok (mkL (l_sub_ret c) (Some en) None (l_param c)) true true cnd /\
      ok (mkL (l_sub_ret c) (Some en) (Some cs) (l_param c)) true false b;
    ok_for : forall c il pb i cnd s b, ok c il pb (EFor i cnd s b) -> forall en ss : id,
      let c1 := mkL (l_sub_ret c) (Some en) None (l_param c) in
      ok c1 true true i /\ ok c1 true true cnd /\ ok c1 true true s /\
      ok (mkL (l_sub_ret c) (Some en) (Some ss) (l_param c)) true false b;
    ok_brk : forall c il pb, ok c il pb EBreak -> J (l_brk c);
    ok_cont : forall c il pb, ok c il pb EContinue -> J (l_cont c);
    ok_no_arms : forall c il pb, ok c il pb (ECond []) -> EC }.

  Hypothesis P : part_rules.
  Hypothesis R : forall c, frag_rules (Q c) N EC.
  Hypothesis Q_jump : forall c g k t b g',
    wf g -> actx c t -> J t -> add_block g (BSimple [] t) = (b, g') -> Q c g k b b g'.
  (* a loop: end block, reserved branch block, the condition (continuing with the branch block), a
     neutral part (body, step), possibly an initialiser continuing with the condition; finally the branch
     block is defined *)
  Hypothesis Q_loop : forall c k g en g1 br g2 cs ce g3 g5 s ie g4 ds,
    let c1 := mkL (l_sub_ret c) (Some en) None (l_param c) in
    wf g -> add_block g (BSimple [] k) = (en, g1) -> reserve g1 = (br, g2) ->
    frame g2 g3 -> Q c1 g2 (Some br) cs ce g3 ->
    frame g3 g5 -> N g3 g5 ->
    frame g5 g4 -> (s = cs /\ g4 = g5 \/ Q c1 g5 (Some cs) s ie g4) ->
    Q c g k s en (define g4 br (BCond [] (Some ds) (Some en))).

  Lemma fq_loop {c k g en g1 br g2 cs ce g3 g5 s ie g4 ds} :
    let c1 := mkL (l_sub_ret c) (Some en) None (l_param c) in
    add_block g (BSimple [] k) = (en, g1) -> reserve g1 = (br, g2) ->
    fq (Q c1) g2 (Some br) cs ce g3 -> fn N g3 g5 ->
    (s = cs /\ g4 = g5 \/ fq (Q c1) g5 (Some cs) s ie g4) ->
    fq (Q c) g k s en (define g4 br (BCond [] (Some ds) (Some en))).
  Proof.
    intros c1 E1 E2 H3 H5 H4 W.
    destruct (add_block_spec _ _ _ _ W E1) as (F1 & _ & I1 & N1).
    destruct (reserve_spec _ _ _ (frame_wf _ _ F1) E2) as (F2 & _ & I2 & N2).
    destruct (H3 (frame_wf _ _ F2)) as [F3 Q3]. destruct (H5 (frame_wf _ _ F3)) as [F5 N5].
    assert (R4 : frame g5 g4 /\ (s = cs /\ g4 = g5 \/ Q c1 g5 (Some cs) s ie g4)).
    { destruct H4 as [[-> ->]|H4]; [split; [apply frame_refl; exact (frame_wf _ _ F5)|left; auto]|].
      destruct (H4 (frame_wf _ _ F5)) as [F4 Q4]. split; [exact F4|right; exact Q4]. }
    destruct R4 as [F4 R4].
    split; [|eapply Q_loop; eauto].
    apply define_frame.
    - eapply frame_trans; [exact F1|]. eapply frame_trans; [exact F2|]. eapply frame_trans; [exact F3|].
      eapply frame_trans; eauto.
    - destruct F3 as (L3 & _). destruct F5 as (L5 & _). destruct F4 as (L4 & _). lia.
  Qed.

  Definition lw_inv (c : lctx) (e : expr) : Prop := lw_q (Q c) (lower o c) e.

  (* the induction hypothesis for a list of parts, at one context *)
  Lemma ih_list {c il pb} {l : list expr} :
    Forall (fun a => forall c il pb, ok c il pb a -> lw_inv c a) l ->
    Forall (ok c il pb) l -> Forall (lw_inv c) l.
  Proof.
    intros H. induction H as [|a t Ha Ht IH]; intros Ok; inversion Ok as [|? ? O1 O2]; subst; constructor;
      [exact (Ha _ _ _ O1)|exact (IH O2)].
  Qed.

  Lemma ih_arms {c il pb} {arms : list (expr * expr)} :
    Forall (fun a => (forall c il pb, ok c il pb (fst a) -> lw_inv c (fst a)) /\
                     (forall c il pb, ok c il pb (snd a) -> lw_inv c (snd a))) arms ->
    Forall (fun a => ok c il pb (fst a) /\ ok c il pb (snd a)) arms ->
    Forall (fun a => lw_inv c (fst a) /\ lw_inv c (snd a)) arms.
  Proof.
    intros H. induction H as [|a t [Ha Hb] Ht IH]; intros Ok; inversion Ok as [|? ? [O1 O2] Ok']; subst;
      constructor; [split; [exact (Ha _ _ _ O1)|exact (Hb _ _ _ O2)]|exact (IH Ok')].
  Qed.

  Theorem lower_inv e : forall c il pb, ok c il pb e -> lw_inv c e.
  Proof.
    induction e using expr_ind'; intros c il pb Ok k g s0 en g' E; cbn [lower] in E;
      pose proof (ok_subs P _ _ _ _ Ok) as Os; cbn [subs] in Os; pose proof (R c) as Rc.
    - (* EOp *)
      destruct (add_block g (BSimple [I o0 imms] k)) as [opb g1] eqn:E1.
      destruct (lower_chain (lower o c) args (Some opb) g1) as [[ks x] g2] eqn:E2. injection E as <- <- <-.
      exact (chain_tail Rc (fq_block Rc E1) (lower_chain_q Rc (ih_list H Os) E2)).
    - (* ENary *)
      pose proof (ih_list H Os) as Ha.
      destruct args as [|a1 rest].
      + destruct (add_block g (BSimple [] k)) as [b g1] eqn:E1. injection E as <- <- <-.
        exact (fq_block Rc E1).
      + inversion Ha as [|? ? H1 HR]; subst.
        destruct (lower_nary_rest (lower o c) o0 rest k g) as [[krest endrest] g1] eqn:E1.
        destruct (lower o c a1 krest g1) as [[s1 e1] g2] eqn:E2. injection E as <- <- <-.
        apply H1 in E2. exact (chain_cons Rc (lower_nary_rest_q Rc HR E1) E2).
    - (* ESeq *)
      destruct (lower_chain (lower o c) es k g) as [[ks en0] g1] eqn:E1.
      destruct (add_block g1 (BSimple [] ks)) as [st g2] eqn:E2. injection E as <- <- <-.
      exact (chain_head Rc (lower_chain_q Rc (ih_list H Os) E1) E2).
    - (* EIf *)
      apply Forall_cons_iff in Os as [O1 Os]. apply Forall_cons_iff in Os as [O2 Os].
      destruct (add_block g (BSimple [] k)) as [en0 g1] eqn:E1.
      destruct (lower o c e2 (Some en0) g1) as [[ths the] g2] eqn:E2. apply (IHe2 c il pb O2) in E2.
      assert (X : exists els g3, (match el with
                                  | Some x => let '((s, _), g'0) := lower o c x (Some en0) g2 in (s, g'0)
                                  | None => (en0, g2)
                                  end) = (els, g3) /\ fn N g2 g3).
      { destruct el as [x|].
        - destruct (lower o c x (Some en0) g2) as [[sx ex] g3] eqn:E3.
          exists sx, g3. split; [reflexivity|].
          apply (opt_all_some _ _ H c il pb (Forall_inv Os)) in E3. exact (fn_frag Rc E3).
        - exists en0, g2. split; [reflexivity|apply (fn_refl Rc)]. }
      destruct X as (els & g3 & E3 & N3). rewrite E3 in E.
      destruct (add_block g3 (BCond [] (Some ths) (Some els))) as [br g4] eqn:E4.
      destruct (lower o c e1 (Some br) g4) as [[cs ce] g5] eqn:E5. injection E as <- <- <-.
      apply (IHe1 c il pb O1) in E5.
      exact (fq_seq Rc (fq_branch Rc (fq_ext Rc (fq_seq Rc (fq_block Rc E1) E2) N3) E4) E5).
    - (* ECond *)
      destruct (add_block g (BSimple [] k)) as [en0 g1] eqn:E1.
      destruct (add_block g1 (BSimple [I O_err []] None)) as [errb g2] eqn:E2.
      destruct (lower_cond_arms (lower o c) arms en0 errb g2) as [st g3] eqn:E3. injection E as <- <- <-.
      apply (lower_cond_arms_q Rc (ih_arms H (Forall_arms _ Os)) g k) in E3 as [_ H3]. apply H3.
      + exact (fq_ext Rc (fq_block Rc E1) (fn_err Rc E2)).
      + destruct arms; [right; exact (ok_no_arms P _ _ _ Ok)|left; discriminate].
    - (* EWhile *)
      destruct (add_block g (BSimple [] k)) as [en0 g1] eqn:E1.
      destruct (reserve g1) as [br g2] eqn:E2.
      destruct (lower o (mkL (l_sub_ret c) (Some en0) None (l_param c)) e1 (Some br) g2) as [[cs ce] g3] eqn:E3.
      destruct (lower o (mkL (l_sub_ret c) (Some en0) (Some cs) (l_param c)) e2 (Some cs) g3) as [[ds de] g4] eqn:E4.
      injection E as <- <- <-.
      destruct (ok_while P _ _ _ _ _ Ok en0 cs) as [O1 O2].
      apply (IHe1 _ _ _ O1) in E3. apply (IHe2 _ _ _ O2) in E4.
      exact (fq_loop (ie:=cs) E1 E2 E3 (fn_frag (R _) E4) (or_introl (conj eq_refl eq_refl))).
    - (* EFor *)
      destruct (add_block g (BSimple [] k)) as [en0 g1] eqn:E1.
      destruct (reserve g1) as [br g2] eqn:E2.
      destruct (lower o (mkL (l_sub_ret c) (Some en0) None (l_param c)) e2 (Some br) g2) as [[cs ce] g3] eqn:E3.
      destruct (lower o (mkL (l_sub_ret c) (Some en0) None (l_param c)) e3 (Some cs) g3) as [[ss se] g4] eqn:E4.
      destruct (lower o (mkL (l_sub_ret c) (Some en0) (Some ss) (l_param c)) e4 (Some ss) g4) as [[ds de] g5] eqn:E5.
      destruct (lower o (mkL (l_sub_ret c) (Some en0) None (l_param c)) e1 (Some cs) g5) as [[is_ ie] g6] eqn:E6.
      injection E as <- <- <-.
      destruct (ok_for P _ _ _ _ _ _ _ Ok en0 ss) as (O1 & O2 & O3 & O4).
      apply (IHe2 _ _ _ O2) in E3. apply (IHe3 _ _ _ O3) in E4. apply (IHe4 _ _ _ O4) in E5.
      apply (IHe1 _ _ _ O1) in E6.
      exact (fq_loop E1 E2 E3 (fn_trans (R c) (fn_frag (R _) E4) (fn_frag (R _) E5)) (or_intror E6)).
    - (* EBreak *)
      destruct (add_block g (BSimple [] (l_brk c))) as [b g1] eqn:E1. injection E as <- <- <-.
      intros W. split; [apply (add_block_spec _ _ _ _ W E1)|].
      exact (Q_jump _ _ _ _ _ _ W (or_introl eq_refl) (ok_brk P _ _ _ Ok) E1).
    - (* EContinue *)
      destruct (add_block g (BSimple [] (l_cont c))) as [b g1] eqn:E1. injection E as <- <- <-.
      intros W. split; [apply (add_block_spec _ _ _ _ W E1)|].
      exact (Q_jump _ _ _ _ _ _ W (or_intror eq_refl) (ok_cont P _ _ _ Ok) E1).
    - (* EAssert *)
      pose proof (ih_list H Os) as Ha.
      destruct conds as [|c1 [|c2 rest]].
      + cbn [lower_asserts] in E.
        destruct (add_block g (BSimple [] k)) as [st g2] eqn:E2. injection E as <- <- <-.
        exact (fq_block Rc E2).
      + exact (lower_assert1_q Rc (Forall_inv Ha) E).
      + (* several conditions: the chain of their single-condition Asserts *)
        change (lower_asserts (lower o c) (o_version o) cm)
          with (lower_chain (lower_assert1 (lower o c) (o_version o) cm)) in E.
        destruct (lower_chain (lower_assert1 (lower o c) (o_version o) cm) (c1 :: c2 :: rest) k g)
          as [[ks en0] g1] eqn:E1.
        destruct (add_block g1 (BSimple [] ks)) as [st g2] eqn:E2. injection E as <- <- <-.
        refine (chain_head Rc (lower_chain_q Rc _ E1) E2).
        eapply Forall_impl; [|exact Ha]. intros a Hq k0 g0 sa ea ga. exact (lower_assert1_q Rc Hq).
    - (* EReturn *)
      destruct (add_block g (BSimple [I match l_sub_ret c with Some _ => O_retsub | None => O_return_ end []] k))
        as [opb g1] eqn:E1.
      destruct v as [x|].
      + destruct (lower o c x (Some opb) g1) as [[sx ex] g2] eqn:E2. injection E as <- <- <-.
        apply (opt_all_some _ _ H c il pb (Forall_inv Os)) in E2. exact (fq_seq Rc (fq_block Rc E1) E2).
      + injection E as <- <- <-. exact (fq_block Rc E1).
    - (* EExit *)
      destruct (add_block g (BSimple [I O_return_ []] k)) as [opb g1] eqn:E1.
      destruct (lower o c e (Some opb) g1) as [[sx ex] g2] eqn:E2. injection E as <- <- <-.
      apply (IHe c il pb (Forall_inv Os)) in E2. exact (fq_seq Rc (fq_block Rc E1) E2).
    - (* EMulti *)
      destruct (lower_stores outs k None g) as [[kst lastst] g1] eqn:E1.
      destruct (add_block g1 (BSimple [I o0 imms] kst)) as [opb g2] eqn:E2.
      destruct (lower_chain (lower o c) args (Some opb) g2) as [[ks xx] g3] eqn:E3. injection E as <- <- <-.
      destruct (lower_stores_q Rc outs E1) as (x & C & ->).
      exact (chain_tail Rc (chain_head Rc C E2) (lower_chain_q Rc (ih_list H Os) E3)).
    - (* ECall *)
      destruct (add_block g (BSimple [I O_callsub [ASub s]] k)) as [opb g1] eqn:E1.
      destruct (lower_chain (lower o c) args (Some opb) g1) as [[ks x] g2] eqn:E2. injection E as <- <- <-.
      exact (chain_tail Rc (fq_block Rc E1) (lower_chain_q Rc (ih_list H Os) E2)).
    - (* EWide *)
      apply Forall_app in Os. destruct Os as [On Od].
      destruct (add_block g (BSimple combine_ops k)) as [cb g1] eqn:E1.
      destruct (lower_factors (lower o c) ds (Some cb) g1) as [[dstart dend] g2] eqn:E2.
      destruct (lower_factors (lower o c) ns (Some dstart) g2) as [[nstart nend] g3] eqn:E3.
      injection E as <- <- <-.
      exact (fq_seq Rc (fq_seq Rc (fq_block Rc E1) (lower_factors_q Rc (ih_list H0 Od) E2))
               (lower_factors_q Rc (ih_list H On) E3)).
    - (* EParam *)
      destruct (add_block g (BSimple [l_param c i] k)) as [b g1] eqn:E1. injection E as <- <- <-.
      exact (fq_block Rc E1).
  Qed.
End Traversal.

(* the frame property: the traversal without a side condition and with nothing to establish *)
Lemma frame_rules : frag_rules (fun _ _ _ _ _ => True) (fun _ _ => True) True.
Proof. constructor; intros; exact Logic.I. Qed.

Section HelperFrames.
  Variable lw : expr -> option id -> graph -> (id * id) * graph.

  Local Notation lwq := (lw_q (fun _ _ _ _ _ => True) lw).

  Lemma lw_frame_q e : lw_frame lw e -> lwq e.
  Proof. intros H k g s en g' E W. split; [exact (H _ _ _ _ W E)|exact Logic.I]. Qed.

  Lemma lw_frames_q l : Forall (lw_frame lw) l -> Forall lwq l.
  Proof. apply Forall_impl. exact lw_frame_q. Qed.

  Lemma chain_frame g k ks endo g' : chain_q (fun _ _ _ _ _ => True) g k ks endo g' -> wf g -> frame g g'.
  Proof.
    destruct endo as [en|]; cbn [chain_q]; [intros (s & _ & H) W; exact (proj1 (H W))|].
    intros [_ ->] W. apply frame_refl; exact W.
  Qed.

  Lemma lower_chain_frame es : Forall (lw_frame lw) es ->
    forall k g r g', wf g -> lower_chain lw es k g = (r, g') -> frame g g'.
  Proof.
    intros H k g [ks endo] g' W E. exact (chain_frame _ _ _ _ _ (lower_chain_q frame_rules (lw_frames_q _ H) E) W).
  Qed.

  Lemma lower_nary_rest_frame op l : Forall (lw_frame lw) l ->
    forall k g r g', wf g -> lower_nary_rest lw op l k g = (r, g') -> frame g g'.
  Proof.
    intros H k g [ks endo] g' W E.
    exact (chain_frame _ _ _ _ _ (lower_nary_rest_q frame_rules (lw_frames_q _ H) E) W).
  Qed.

  Lemma lower_cond_arms_frame l : Forall (fun a => lw_frame lw (fst a) /\ lw_frame lw (snd a)) l ->
    forall en errb g r g', wf g -> lower_cond_arms lw l en errb g = (r, g') -> frame g g'.
  Proof.
    intros H en errb g r g' W E.
    refine (proj1 (proj1 (lower_cond_arms_q frame_rules _ g None E) W)).
    eapply Forall_impl; [|exact H]. intros a [Ha Hb]. split; apply lw_frame_q; assumption.
  Qed.

  Lemma lower_wide_rest_frame l : Forall (lw_frame lw) l ->
    forall k g r g', wf g -> lower_wide_rest lw l k g = (r, g') -> frame g g'.
  Proof.
    intros H k g [ks endo] g' W E.
    exact (chain_frame _ _ _ _ _ (lower_wide_rest_q frame_rules (lw_frames_q _ H) E) W).
  Qed.

  Lemma lower_factors_frame fs : Forall (lw_frame lw) fs ->
    forall k g r g', wf g -> lower_factors lw fs k g = (r, g') -> frame g g'.
  Proof.
    intros H k g [st en] g' W E. exact (proj1 (lower_factors_q frame_rules (lw_frames_q _ H) E W)).
  Qed.
End HelperFrames.

Lemma lower_comment_lines_frame lines : forall k g r g', wf g ->
  lower_comment_lines lines k g = (r, g') -> frame g g'.
Proof.
  intros k g r g' W E. destruct (lower_comment_lines_q frame_rules lines E) as [x C].
  exact (chain_frame _ _ _ _ _ C W).
Qed.

Lemma lower_stores_frame outs : forall kk first g r1 r2 g', wf g ->
  lower_stores outs kk first g = (r1, r2, g') -> frame g g'.
Proof.
  intros kk first g r1 r2 g' W E. destruct (lower_stores_q frame_rules outs E) as (x & C & _).
  exact (chain_frame _ _ _ _ _ C W).
Qed.

Section AssertFrames.
  Variable lw : expr -> option id -> graph -> (id * id) * graph.
  Variable version : N.
  Variable comment : option (list string).

  Lemma lower_assert1_frame cnd : lw_frame lw cnd ->
    forall k g r g', wf g -> lower_assert1 lw version comment cnd k g = (r, g') -> frame g g'.
  Proof.
    intros H k g [s en] g' W E. exact (proj1 (lower_assert1_q frame_rules (lw_frame_q _ _ H) E W)).
  Qed.

  Lemma lower_asserts_frame l : Forall (lw_frame lw) l ->
    forall k g r g', wf g -> lower_asserts lw version comment l k g = (r, g') -> frame g g'.
  Proof.
    intros H k g [ks endo] g' W E.
    change (lower_asserts lw version comment) with (lower_chain (lower_assert1 lw version comment)) in E.
    refine (chain_frame _ _ _ _ _ (lower_chain_q frame_rules _ E) W).
    eapply Forall_impl; [|exact H]. intros a Ha k0 g0 sa ea ga. exact (lower_assert1_q frame_rules (lw_frame_q _ _ Ha)).
  Qed.
End AssertFrames.

Theorem lower_frame o e : forall c, lw_frame (lower o c) e.
Proof.
  intros c k g [s en] g' W E.
  refine (proj1 (lower_inv o (fun _ _ _ _ => True) (fun _ => True) True (fun _ _ _ _ _ _ => True) (fun _ _ => True)
                   _ (fun _ => frame_rules) _ _ e c false false Logic.I k g s en g' E W)).
  - constructor; intros; repeat split. apply Forall_forall. intros x _. exact Logic.I.
  - intros; exact Logic.I.
  - intros; exact Logic.I.
Qed.
