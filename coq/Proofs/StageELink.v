(* Proofs/StageELink.v — stage E, part 1: LINKING.
   A flattened instruction list ([list comp], executed by Comp/LinearSem.v with labels resolved by
   position in the list) is LINKED into a [program] of AVM/Machine.v (labels resolved to indices into the
   list of real instructions) by the assembler's own [build_prog].  This file characterises the linked program
   ([link_spec], [linked]) and states the relation between list configurations and machine states under which
   [Machine.step] simulates [lstep]; the simulation itself is proved once, for the richest of the list semantics
   (Proofs/CallMachineFpSem.v), and specialised in Proofs/CallMachineSim.v. *)
From Coq Require Import List Arith NArith Ascii String Bool Lia.
From PV Require Import Base.Bytes AVM.Syntax AVM.Machine AVM.Parse Src.Denote Comp.LinearSem.
Import ListNotations.

(* what the assembler makes of one argument; as [Src.Denote.arg_to_imm] without placeholders (a slot object
   or an unresolved subroutine cannot be assembled), the method selectors being the table [msel] *)
Definition imm_of_arg (msel : list (string * bytes)) (o : opc) (a : arg) : option imm :=
  match a with
  | AInt n => Some (IInt n)
  | ASlot _ => None
  | ALbl l => Some (IName l)
  | ASub _ => None
  | AStr s =>
      match o with
      | O_byte | O_pushbytes =>
          match parse_bytes_arg (tokens_of_line s) with Some (b, []) => Some (IBytes b) | _ => None end
      | O_int | O_pushint => option_map IInt (parse_int_arg s)
      | O_addr => match decode_base32 s with Some b => Some (IBytes (firstn 32 b)) | None => None end
      | O_method_signature =>
          match parse_string_literal s with
          | Some sig => option_map IBytes (alookup String.eqb (string_of_bytes sig) msel)
          | None => None
          end
      | _ => Some (IName s)
      end
  end.

Fixpoint imms_of_args (msel : list (string * bytes)) (o : opc) (l : list arg) : option (list imm) :=
  match l with
  | [] => Some []
  | a :: t => match imm_of_arg msel o a, imms_of_args msel o t with Some x, Some r => Some (x :: r) | _, _ => None end
  end.

Lemma imm_of_arg_env env o a x : imm_of_arg (e_msel env) o a = Some x -> arg_to_imm env o a = Some x.
Proof. destruct a as [n|s|l|u|sb]; cbn [imm_of_arg arg_to_imm]; intros H; try exact H; discriminate H. Qed.

Lemma imms_of_args_env env o l : forall im, imms_of_args (e_msel env) o l = Some im -> args_to_imms env o l = Some im.
Proof.
  induction l as [|a t IH]; intros im H; cbn [imms_of_args args_to_imms] in *; [exact H|].
  destruct (imm_of_arg (e_msel env) o a) as [x|] eqn:Ea; [|discriminate H].
  destruct (imms_of_args (e_msel env) o t) as [r|] eqn:Et; [|discriminate H].
  rewrite (imm_of_arg_env env o a x Ea), (IH r eq_refl). exact H.
Qed.

Lemma imms_of_args_no_slot msel o l im : imms_of_args msel o l = Some im -> forall u, l <> [ASlot u].
Proof. intros H u E. subst l. cbn in H. discriminate H. Qed.

Definition is_comment (o : opc) : bool := match o with O_comment => true | _ => false end.

(* a component the assembler turns into an instruction: an op that is not a comment *)
Definition real (c : comp) : bool :=
  match c with COp i => negb (is_comment (i_op i)) | _ => false end.

(* the statements of one component: a comment op is a comment line (no statement) *)
Definition stmt_of (msel : list (string * bytes)) (c : comp) : option (list stmt) :=
  match c with
  | COp i =>
      if is_comment (i_op i) then Some []
      else option_map (fun im => [SInstr (mkP (i_op i) im)]) (imms_of_args msel (i_op i) (i_args i))
  | CLabel l _ => Some [SLabel l]
  | CPragma v => Some [SPragma v]
  end.

Fixpoint stmts_of (msel : list (string * bytes)) (code : list comp) : option (list stmt) :=
  match code with
  | [] => Some []
  | c :: t => match stmt_of msel c, stmts_of msel t with Some x, Some r => Some (x ++ r) | _, _ => None end
  end.

(* LINKING = the assembler's own label resolution applied to these statements *)
Definition link (msel : list (string * bytes)) (code : list comp) : option program :=
  match stmts_of msel code with
  | Some ss => build_prog ss 0 1%N [] []
  | None => None
  end.

(* machine pc of a list position: the number of real instructions before it *)
Fixpoint mpc (code : list comp) (pc : nat) : nat :=
  match pc, code with
  | S k, c :: t => (if real c then 1 else 0) + mpc t k
  | _, _ => 0
  end.

Lemma mpc_0 code : mpc code 0 = 0.
Proof. destruct code; reflexivity. Qed.

(* the instruction the assembler makes of an op *)
Definition pinstr_of (msel : list (string * bytes)) (i : instr) : option pinstr :=
  option_map (mkP (i_op i)) (imms_of_args msel (i_op i) (i_args i)).

(* the version of the last pragma *)
Fixpoint version_of (code : list comp) (ver : N) : N :=
  match code with
  | [] => ver
  | CPragma v :: t => version_of t v
  | _ :: t => version_of t ver
  end.

(* where the instruction at a list position sits in the instruction list [ins] of the program *)
Definition at_pos (msel : list (string * bytes)) (code : list comp) (ins : list pinstr) (pc : nat)
           (c : option comp) : Prop :=
  match c with
  | Some (COp i) =>
      if is_comment (i_op i) then mpc code (S pc) = mpc code pc
      else exists im, imms_of_args msel (i_op i) (i_args i) = Some im /\
                      nth_error ins (mpc code pc) = Some (mkP (i_op i) im) /\
                      mpc code (S pc) = S (mpc code pc)
  | Some _ => mpc code (S pc) = mpc code pc
  | None => nth_error ins (mpc code pc) = None
  end.

Section BuildSpec.
  Variable msel : list (string * bytes).

  (* the instructions of the program, in list order *)
  Fixpoint pinstrs (code : list comp) : list pinstr :=
    match code with
    | [] => []
    | COp i :: t =>
        if is_comment (i_op i) then pinstrs t
        else match pinstr_of msel i with Some p => p :: pinstrs t | None => pinstrs t end
    | _ :: t => pinstrs t
    end.

  (* the statements of a list, one component at a time *)
  Lemma stmts_of_cons c t ss : stmts_of msel (c :: t) = Some ss ->
    exists r, stmts_of msel t = Some r /\
      match c with
      | COp i =>
          if is_comment (i_op i) then ss = r
          else exists im, imms_of_args msel (i_op i) (i_args i) = Some im /\ ss = SInstr (mkP (i_op i) im) :: r
      | CLabel l _ => ss = SLabel l :: r
      | CPragma v => ss = SPragma v :: r
      end.
  Proof.
    cbn [stmts_of]. destruct (stmt_of msel c) as [s1|] eqn:E1; [|discriminate].
    destruct (stmts_of msel t) as [r|]; [|discriminate]. intros S. injection S as <-.
    exists r. split; [reflexivity|]. destruct c as [i|l cm|v]; cbn [stmt_of] in E1.
    - destruct (is_comment (i_op i)); [injection E1 as <-; reflexivity|].
      destruct (imms_of_args msel (i_op i) (i_args i)) as [im|]; [|discriminate E1].
      injection E1 as <-. exists im. split; reflexivity.
    - injection E1 as <-. reflexivity.
    - injection E1 as <-. reflexivity.
  Qed.

  (* the program: its instructions, its label table, its version; a label already in the table is not defined
     again *)
  Lemma build_prog_spec : forall code ss pc ver acc labels P,
    stmts_of msel code = Some ss -> build_prog ss pc ver acc labels = Some P ->
    pr_code P = (rev acc ++ pinstrs code)%list /\
    (forall l, label_pc P l =
               match find_label l code with
               | Some p => Some (pc + mpc code p)
               | None => alookup String.eqb l labels
               end) /\
    pr_version P = version_of code ver /\
    (forall l x, alookup String.eqb l labels = Some x -> find_label l code = None).
  Proof.
    induction code as [|c t IH]; intros ss pc ver acc labels P S B.
    - injection S as <-. injection B as <-. cbn [pr_code pinstrs]. rewrite app_nil_r. repeat split.
    - destruct (stmts_of_cons c t ss S) as (r & Et & E).
      destruct c as [i|l' cm|v]; cbn [find_label pinstrs version_of].
      + destruct (is_comment (i_op i)) eqn:Ec.
        * subst ss. destruct (IH _ _ _ _ _ _ Et B) as (C & L & V & D). split; [exact C|]. split; [|split; [exact V|]].
          { intros l. rewrite L. destruct (find_label l t); [|reflexivity]. cbn [option_map mpc real]. now rewrite Ec. }
          intros l x Hl. now rewrite (D l x Hl).
        * destruct E as (im & Ei & ->). unfold pinstr_of. rewrite Ei. cbn [option_map build_prog] in B |- *.
          destruct (IH _ _ _ _ _ _ Et B) as (C & L & V & D).
          split; [rewrite C; cbn [rev]; now rewrite <- app_assoc|]. split; [|split; [exact V|]].
          { intros l. rewrite L. destruct (find_label l t); [|reflexivity].
            cbn [option_map mpc real]. rewrite Ec. cbn [negb]. f_equal. lia. }
          intros l x Hl. now rewrite (D l x Hl).
      + subst ss. cbn [build_prog] in B. destruct (alookup String.eqb l' labels) eqn:E2; [discriminate B|].
        destruct (IH _ _ _ _ _ _ Et B) as (C & L & V & D). split; [exact C|]. split; [|split; [exact V|]].
        * intros l. rewrite L. destruct (String.eqb l l') eqn:El.
          { apply String.eqb_eq in El. subst l'.
            assert (L' : alookup String.eqb l ((l, pc) :: labels) = Some pc) by (cbn [alookup]; now rewrite String.eqb_refl).
            rewrite (D l pc L'), L', mpc_0. f_equal. lia. }
          destruct (find_label l t); cbn [option_map mpc real]; [reflexivity|]. cbn [alookup]. now rewrite El.
        * intros l x Hl. destruct (String.eqb l l') eqn:El.
          { apply String.eqb_eq in El. subst l'. rewrite Hl in E2. discriminate E2. }
          rewrite (D l x); [reflexivity|]. cbn [alookup]. now rewrite El.
      + subst ss. cbn [build_prog] in B.
        destruct (IH _ _ _ _ _ _ Et B) as (C & L & V & D). split; [exact C|]. split; [|split; [exact V|]].
        * intros l. rewrite L. destruct (find_label l t); reflexivity.
        * intros l x Hl. now rewrite (D l x Hl).
  Qed.

  Lemma pinstrs_nth : forall code ss pc,
    stmts_of msel code = Some ss -> at_pos msel code (pinstrs code) pc (nth_error code pc).
  Proof.
    induction code as [|c t IH]; intros ss pc HS.
    - destruct pc; reflexivity.
    - destruct (stmts_of_cons c t ss HS) as (r & Et & E). destruct pc as [|k]; cbn [nth_error].
      + destruct c as [i|l' cm|v]; cbn [at_pos mpc real]; rewrite ?mpc_0; try reflexivity.
        destruct (is_comment (i_op i)) eqn:Ec; [reflexivity|]. destruct E as (im & Ei & _).
        exists im. split; [exact Ei|]. cbn [pinstrs]. unfold pinstr_of. rewrite Ec, Ei. split; reflexivity.
      + specialize (IH r k Et). unfold at_pos in *.
        assert (Nth : forall n, nth_error (pinstrs (c :: t)) ((if real c then 1 else 0) + n) = nth_error (pinstrs t) n).
        { intros n. destruct c as [i|l' cm|v]; cbn [real pinstrs]; try reflexivity.
          destruct (is_comment (i_op i)); [reflexivity|]. destruct E as (im & Ei & _).
          unfold pinstr_of. rewrite Ei. reflexivity. }
        change (mpc (c :: t) (S (S k))) with ((if real c then 1 else 0) + mpc t (S k)).
        change (mpc (c :: t) (S k)) with ((if real c then 1 else 0) + mpc t k). rewrite Nth.
        destruct (nth_error t k) as [[i|l' cm|v]|]; try (now rewrite IH).
        destruct (is_comment (i_op i)); [now rewrite IH|].
        destruct IH as (im & Ei & En & Em). exists im. split; [exact Ei|]. split; [exact En|]. rewrite Em. lia.
  Qed.
End BuildSpec.

(* the linked program, characterised *)
Lemma link_spec msel code P : link msel code = Some P ->
  pr_code P = pinstrs msel code /\
  forall l, label_pc P l = option_map (mpc code) (find_label l code).
Proof.
  unfold link. destruct (stmts_of msel code) as [ss|] eqn:S; [|discriminate]. intros B.
  destruct (build_prog_spec msel code ss 0 1%N [] [] P S B) as (C & L & _). split; [exact C|].
  intros l. rewrite L. destruct (find_label l code); reflexivity.
Qed.

Lemma link_version msel code P : link msel code = Some P -> pr_version P = version_of code 1%N.
Proof.
  unfold link. destruct (stmts_of msel code) as [ss|] eqn:S; [|discriminate]. intros B.
  exact (proj1 (proj2 (proj2 (build_prog_spec msel code ss 0 1%N [] [] P S B)))).
Qed.

(* what the simulation proofs use of a linked program: the list assembles, and the program's instructions and
   labels are those of the list *)
Definition linked (msel : list (string * bytes)) (code : list comp) (P : program) : Prop :=
  (exists ss, stmts_of msel code = Some ss) /\
  pr_code P = pinstrs msel code /\
  forall l, label_pc P l = option_map (mpc code) (find_label l code).

Lemma link_linked msel code P : link msel code = Some P -> linked msel code P.
Proof.
  intros LK. split; [|exact (link_spec msel code P LK)].
  unfold link in LK. destruct (stmts_of msel code) as [ss|]; [eexists; reflexivity|discriminate LK].
Qed.

(* a pragma is not an instruction and shifts every position by one: the program linked from [#pragma :: L] is a
   linked program for L *)
Lemma link_pragma_linked msel v L P : link msel (CPragma v :: L) = Some P -> linked msel L P.
Proof.
  intros LK. destruct (link_linked _ _ _ LK) as ([ss HS] & C & PL).
  destruct (stmts_of_cons msel _ _ _ HS) as (r & Et & _). split; [exists r; exact Et|]. split; [exact C|].
  intros l. rewrite PL. cbn [find_label]. destruct (find_label l L); reflexivity.
Qed.

Lemma linked_at msel code P : linked msel code P -> forall pc, at_pos msel code (pr_code P) pc (nth_error code pc).
Proof. intros ([ss HS] & C & _) pc. rewrite C. exact (pinstrs_nth msel code ss pc HS). Qed.

(* a component list whose labels are pairwise different and whose arguments assemble can be linked *)
Fixpoint labels_of (code : list comp) : list string :=
  match code with
  | [] => []
  | CLabel l _ :: t => l :: labels_of t
  | _ :: t => labels_of t
  end.

Lemma find_label_none code l : ~ In l (labels_of code) -> find_label l code = None.
Proof.
  induction code as [|c t IH]; intros H; [reflexivity|].
  destruct c as [i|l' cm|v]; cbn [find_label labels_of] in *.
  - now rewrite IH.
  - destruct (String.eqb l l') eqn:E.
    + apply String.eqb_eq in E. subst. exfalso. apply H. left. reflexivity.
    + rewrite IH; [reflexivity|]. intros Hin. apply H. right. exact Hin.
  - now rewrite IH.
Qed.

Lemma build_prog_total msel : forall code ss pc ver acc labels,
  stmts_of msel code = Some ss -> NoDup (labels_of code) ->
  (forall l, In l (labels_of code) -> alookup String.eqb l labels = None) ->
  exists P, build_prog ss pc ver acc labels = Some P.
Proof.
  induction code as [|c t IH]; intros ss pc ver acc labels S N D.
  - injection S as <-. eexists. reflexivity.
  - destruct (stmts_of_cons msel c t ss S) as (r & Et & E).
    destruct c as [i|l' cm|v]; cbn [labels_of] in N, D.
    + destruct (is_comment (i_op i)); [subst ss|destruct E as (im & _ & ->)]; apply (IH r); auto.
    + subst ss. cbn [build_prog]. rewrite (D l' (or_introl eq_refl)).
      inversion N as [|? ? Hn Nt]; subst. apply (IH r); auto.
      intros l Hin. cbn [alookup]. destruct (String.eqb l l') eqn:E.
      * apply String.eqb_eq in E. subst. contradiction.
      * apply D. right. exact Hin.
    + subst ss. apply (IH r); auto.
Qed.

Lemma link_total msel code ss : stmts_of msel code = Some ss -> NoDup (labels_of code) ->
  exists P, link msel code = Some P.
Proof.
  intros S N. unfold link. rewrite S. apply (build_prog_total msel code ss 0 1%N [] [] S N). intros; reflexivity.
Qed.

Lemma exec_op_err cx im stk st : exec_op cx O_err im stk st = ONot.
Proof. reflexivity. Qed.

(* list configuration (pc counts every component) ~ machine (pc counts real instructions): same operand
   stack, same machine state, empty call stack (LinearSem runs ONE routine: callsub is outside it) *)
Definition rel (code : list comp) (pc : nat) (stk : list value) (st : mstate) (m : mach) : Prop :=
  m_pc m = mpc code pc /\ m_stack m = stk /\ m_st m = st /\ m_calls m = [].

Definition exit_verdict (v : value) : verdict :=
  match v with VI n => if (n =? 0)%N then VReject else VApprove | VB _ => VFail end.
Definition end_verdict (stk : list value) : verdict :=
  match stk with [VI n] => if (n =? 0)%N then VReject else VApprove | _ => VFail end.

(* the verdict the machine gives when the list halts; [LUnsup] (LinearSem is inconclusive) has none *)
Definition verdict_of (h : lconf) : option verdict :=
  match h with
  | LExit v _ => Some (exit_verdict v)
  | LEnd stk _ => Some (end_verdict stk)
  | LRet _ _ => Some VFail          (* retsub with an empty call stack *)
  | LFail => Some VFail
  | LUnsup _ => None
  | LAt _ _ _ => None
  end.

(* the machine at the moment of the verdict *)
Definition final_ok (h : lconf) (m : mach) : Prop :=
  match h with
  | LExit v st => m_st m = st /\ hd_error (m_stack m) = Some v
  | LEnd stk st => m_st m = st /\ m_stack m = stk
  | LRet stk st => m_st m = st /\ m_stack m = stk
  | _ => True
  end.

(* every branch target is defined in the list *)
Definition target_ok (code : list comp) (c : comp) : bool :=
  match c with
  | COp i => match jump_of i with
             | Some (_, l) => match find_label l code with Some _ => true | None => false end
             | None => true
             end
  | _ => true
  end.
Definition targets_ok (code : list comp) : bool := forallb (target_ok code) code.

Lemma targets_ok_label code : targets_ok code = true -> forall pc i k l,
  nth_error code pc = Some (COp i) -> jump_of i = Some (k, l) -> exists p, find_label l code = Some p.
Proof.
  intros TG pc i k l Hn Hj. unfold targets_ok in TG. rewrite forallb_forall in TG.
  specialize (TG (COp i) (nth_error_In _ _ Hn)). cbn [target_ok] in TG. rewrite Hj in TG.
  destruct (find_label l code) as [p|]; [eexists; reflexivity|discriminate TG].
Qed.

Lemma targets_ok_pragma v L : targets_ok (CPragma v :: L) = true -> targets_ok L = true.
Proof.
  unfold targets_ok. cbn [forallb target_ok andb]. rewrite !forallb_forall. intros H c Hc. specialize (H c Hc).
  destruct c as [i|l cm|w]; try reflexivity. cbn [target_ok find_label] in *.
  destruct (jump_of i) as [[k l]|]; [|reflexivity]. destruct (find_label l L); [reflexivity|discriminate H].
Qed.

Lemma is_return_eq o : is_return o = true -> o = O_return_.
Proof. destruct o; intros H; try discriminate H; reflexivity. Qed.
Lemma is_retsub_eq o : is_retsub o = true -> o = O_retsub.
Proof. destruct o; intros H; try discriminate H; reflexivity. Qed.
Lemma is_err_eq o : is_err o = true -> o = O_err.
Proof. destruct o; intros H; try discriminate H; reflexivity. Qed.
Lemma is_comment_eq o : is_comment o = true -> o = O_comment.
Proof. destruct o; intros H; try discriminate H; reflexivity. Qed.

Definition jop (k : jkind) : opc := match k with JB => O_b | JBz => O_bz | JBnz => O_bnz end.

Lemma jump_of_inv i k l : jump_of i = Some (k, l) -> i_op i = jop k /\ i_args i = [ALbl l].
Proof.
  unfold jump_of. destruct i as [o a]. cbn [i_op i_args].
  destruct o; try discriminate; destruct a as [|[n|s|l'|u|sb] [|? ?]]; try discriminate;
    intros H; injection H as <- <-; split; reflexivity.
Qed.

Lemma slot_access_none msel o a im : imms_of_args msel o a = Some im -> slot_access o a = None.
Proof.
  intros H. unfold slot_access. destruct a as [|[n|s|l|u|sb] [|? ?]]; try reflexivity.
  cbn in H. discriminate H.
Qed.

Lemma slot_access_comment a : slot_access O_comment a = None.
Proof. unfold slot_access. destruct a as [|[n|s|l|u|sb] [|? ?]]; reflexivity. Qed.

(* the operand stack stays within the AVM's limit along the run from c0 *)
Definition stack_bounded (env : denv) (code : list comp) (c0 : lconf) : Prop :=
  forall pc stk st, lstar env code c0 (LAt pc stk st) -> List.length stk <= STACK_MAX.
