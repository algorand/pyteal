(* Proofs/ABIEncodeCap.v — the AVM caps byte strings at 4096 bytes (concat fails beyond).  Whatever the model
   computes WITH a cap it also computes without one: a capped run never produces bytes the uncapped run would
   not produce; and it produces them whenever they fit the cap.  (Construction-time acceptance does not depend
   on the cap at all.)  Also: Array.set and String.set stated on their own. *)
From Coq Require Import List Arith NArith ZArith Ascii String Bool Lia.
From PV Require Import Base.Bytes Base.U64 AVM.Ops ABI.Types ABI.Spec ABI.Encode
  Proofs.ABISpecProof Proofs.ABIEncodeOps Proofs.ABIEncodeDescr Proofs.ABIEncodeBool Proofs.ABIEncodeTuple
  Proofs.ABIEncodeSet.
Import ListNotations.
Local Open Scope N_scope.

Definition inv (st : tstate) : Prop := ts_first st = true -> ts_holder st = [].

Lemma inv_init : inv (mkTS true [] 0).
Proof. intro H. reflexivity. Qed.

Lemma x_concat_some : forall lim a b c, x_concat lim a b = Some c -> c = a ++ b.
Proof. intros [l|] a b c H; cbn in H; [destruct (blen (a ++ b) <=? l)|]; congruence. Qed.

Lemma combine_snd_forall : forall {A B} (P : B -> Prop) (l1 : list A) (l2 : list B),
    List.length l2 = List.length l1 -> Forall (fun m => P (snd m)) (combine l1 l2) -> Forall P l2.
Proof.
  intros A B P l1. induction l1 as [|a r IH]; intros [|b r2] Hlen H; try discriminate; [constructor|].
  cbn [combine] in H. inversion H as [|x y Hx Hy]; subst. constructor; [exact Hx|].
  apply IH; [injection Hlen as Hlen; exact Hlen | exact Hy].
Qed.

(* a predicate on byte strings, on cells (uint64 cells hold none) *)
Definition on_bytes (P : bytes -> Prop) (c : sval) : Prop := match c with SB b => P b | SI _ => True end.

(* _encode_tuple under two caps: what succeeds under lim1 succeeds under lim2 when the result satisfies
   a predicate P that every piece of a string inherits; every intermediate string (heads so far, tail_holder)
   is a piece of the result *)
Section Caps.
  Variables (lim1 lim2 : option N) (P : bytes -> Prop).
  Hypothesis Hx : forall a b c, x_concat lim1 a b = Some c -> P c -> x_concat lim2 a b = Some c.
  Hypothesis HP : forall a b, P (a ++ b) -> P a /\ P b.
  (* the member cells are pieces of the result as well *)
  Hypothesis Hcells : forall d vals b, array_set_run lim1 d vals = Some b -> P b -> Forall (fun m => on_bytes P (snd m)) vals.

  Lemma run_head_caps : forall hls h st b st',
      inv st -> run_head lim1 hls h st = Some (b, st') ->
      inv st' /\ (exists e, ts_holder st' = ts_holder st ++ e) /\
      (P (ts_holder st') -> run_head lim2 hls h st = Some (b, st')).
  Proof.
    intros hls h st b st' Hinv H. destruct h as [vs|v notlast|t v]; cbn [run_head] in *.
    - apply obind_some in H as [ns [Hns H]]. apply option_map_some in H as [x [Hx' Heq]]. injection Heq as <- <-.
      split; [exact Hinv|]. split; [exists []; symmetry; apply app_nil_r|]. intros _. rewrite Hns. cbn [obind]. rewrite Hx'. reflexivity.
    - apply obind_some in H as [e [He H]]. apply obind_some in H as [holder' [Hh H]].
      apply obind_some in H as [acc' [Hacc H]]. apply option_map_some in H as [o [Ho Heq]]. injection Heq as -> ->.
      cbn [ts_first ts_holder]. split; [intro Hf; discriminate|].
      assert (Hholder : holder' = ts_holder st ++ e).
      { destruct (ts_first st) eqn:Hf; [rewrite (Hinv Hf); cbn [app]; congruence | exact (x_concat_some _ _ _ _ Hh)]. }
      split; [exists e; exact Hholder|].
      intros Hp. rewrite He. cbn [obind].
      assert (Hh' : (if ts_first st then Some e else x_concat lim2 (ts_holder st) e) = Some holder')
        by (destruct (ts_first st); [exact Hh | exact (Hx _ _ _ Hh Hp)]).
      rewrite Hh'. cbn [obind]. rewrite Hacc. cbn [obind]. rewrite Ho. reflexivity.
    - apply option_map_some in H as [x [Hx' Heq]]. injection Heq as <- <-.
      split; [exact Hinv|]. split; [exists []; symmetry; apply app_nil_r|]. intros _. rewrite Hx'. reflexivity.
  Qed.

  Lemma run_heads_caps : forall hls hs st parts st',
      inv st -> run_heads lim1 hls hs st = Some (parts, st') ->
      inv st' /\ (exists e, ts_holder st' = ts_holder st ++ e) /\
      (P (ts_holder st') -> run_heads lim2 hls hs st = Some (parts, st')).
  Proof.
    intros hls hs. induction hs as [|h r IH]; intros st parts st' Hinv H; cbn [run_heads] in *.
    - injection H as <- <-. split; [exact Hinv|]. split; [exists []; symmetry; apply app_nil_r|]. reflexivity.
    - apply obind_some in H as [[b st1] [Hb H]]. apply obind_some in H as [[ps st2] [Hr H]].
      cbn [fst snd] in *. injection H as <- <-.
      destruct (run_head_caps hls h st b st1 Hinv Hb) as (Hinv1 & [e1 E1] & Hc1).
      destruct (IH st1 ps st2 Hinv1 Hr) as (Hinv2 & [e2 E2] & Hc2).
      split; [exact Hinv2|]. split; [exists (e1 ++ e2); rewrite E2, E1, app_assoc; reflexivity|].
      intros Hp. rewrite Hc1 by (rewrite E2 in Hp; exact (proj1 (HP _ _ Hp))). cbn [obind snd fst].
      rewrite (Hc2 Hp). reflexivity.
  Qed.

  Lemma concat_all_caps : forall parts c, concat_all lim1 parts = Some c -> P c ->
      concat_all lim2 parts = Some c /\ c = List.concat parts.
  Proof.
    intros [|p r] c H Hp; [injection H as <-; auto|]. cbn [concat_all List.concat] in *.
    revert p H. induction r as [|x r IH]; intros p H; cbn [fold_left List.concat] in *.
    - injection H as <-. rewrite app_nil_r. auto.
    - cbn [obind] in H. destruct (x_concat lim1 p x) as [q|] eqn:Eq.
      + destruct (IH q H) as [H2 Hc]. pose proof (x_concat_some _ _ _ _ Eq) as Eq'.
        cbn [obind]. rewrite (Hx _ _ _ Eq); [split; [exact H2 | rewrite Hc, Eq', app_assoc; reflexivity]|].
        rewrite Hc in Hp. exact (proj1 (HP _ _ Hp)).
      + exfalso. clear -H. induction r as [|y r IH]; [discriminate | exact (IH H)].
  Qed.

  Lemma encode_tuple_run_caps : forall vals c,
      encode_tuple_run lim1 vals = Some c -> P c -> encode_tuple_run lim2 vals = Some c.
  Proof.
    intros vals c H Hp. unfold encode_tuple_run in *.
    apply obind_some in H as [[parts st'] [Hr H]]. cbn [fst snd] in H.
    destruct (concat_all_caps _ _ H Hp) as [H2 Hc].
    destruct (run_heads_caps _ _ _ _ _ inv_init Hr) as (Hinv & _ & Hc2).
    rewrite Hc2; [exact H2|].
    destruct (ts_first st') eqn:Hf.
    - rewrite (Hinv Hf). rewrite <- (app_nil_r c) in Hp. exact (proj2 (HP _ _ Hp)).
    - rewrite Hc, concat_app in Hp. cbn [List.concat] in Hp. rewrite app_nil_r in Hp. exact (proj2 (HP _ _ Hp)).
  Qed.

  Lemma array_set_run_caps : forall d vals c,
      array_set_run lim1 d vals = Some c -> P c -> array_set_run lim2 d vals = Some c.
  Proof.
    intros d vals c H Hp. unfold array_set_run in *. destruct d; [|exact (encode_tuple_run_caps vals c H Hp)].
    apply obind_some in H as [p [Hp1 H]]. rewrite Hp1. cbn [obind].
    apply obind_some in H as [body [Hb H]]. pose proof (x_concat_some _ _ _ _ H) as ->.
    rewrite (encode_tuple_run_caps vals body Hb (proj2 (HP _ _ Hp))). cbn [obind]. exact (Hx _ _ _ H Hp).
  Qed.

  (* run_set: above _encode_tuple the recursion does not look at the caps *)
  Lemma map_all_transfer : forall {A} (f g : A -> option sval) ms cs,
      (forall a c, f a = Some c -> on_bytes P c -> g a = Some c) ->
      map_all f ms = Some cs -> Forall (on_bytes P) cs -> map_all g ms = Some cs.
  Proof.
    intros A f g ms. induction ms as [|a r IH]; intros cs HF H Hb; [exact H|]. cbn [map_all] in *.
    apply obind_some in H as [c [Hc H]]. apply option_map_some in H as [cs' [H ->]].
    inversion Hb as [|x y Hc1 Hc2]; subst.
    rewrite (HF a c Hc Hc1). cbn [obind]. rewrite (IH cs' HF H Hc2). reflexivity.
  Qed.

  Lemma zip_all_transfer : forall (fs gs : list (src -> option sval)) ms cs,
      Forall2 (fun f g => forall a c, f a = Some c -> on_bytes P c -> g a = Some c) fs gs ->
      zip_all fs ms = Some cs -> Forall (on_bytes P) cs -> zip_all gs ms = Some cs.
  Proof.
    intros fs gs ms cs HF. revert ms cs. induction HF as [|f g fr gr Hfg _ IH]; intros [|a r] cs H Hb;
      cbn [zip_all] in *; try discriminate; [exact H|].
    apply obind_some in H as [c [Hc H]]. apply option_map_some in H as [cs' [H ->]].
    inversion Hb as [|x y Hc1 Hc2]; subst.
    rewrite (Hfg a c Hc Hc1). cbn [obind]. rewrite (IH r cs' H Hc2). reflexivity.
  Qed.

  Lemma seq_run_transfer : forall d e (f g : src -> option sval) ms c,
      (forall a c, f a = Some c -> on_bytes P c -> g a = Some c) ->
      seq_run lim1 d e f ms = Some c -> on_bytes P c -> seq_run lim2 d e g ms = Some c.
  Proof.
    intros d e f g ms c HF H Hc. unfold seq_run in *.
    apply obind_some in H as [vs [Hvs H]]. apply option_map_some in H as [b [H ->]].
    pose proof (Hcells d _ b H Hc) as HB. rewrite Forall_map in HB.
    rewrite (map_all_transfer f g ms vs HF Hvs HB). cbn [obind]. rewrite (array_set_run_caps d _ b H Hc). reflexivity.
  Qed.

  Theorem run_set_transfer : forall t s c, run_set lim1 t s = Some c -> on_bytes P c -> run_set lim2 t s = Some c.
  Proof.
    induction t as [| | n | | | e n IH | e IH | nm ts IH | n | | k | k] using ty_ind'; intros s c H Hc;
      cbn [run_set] in *; try exact H; try discriminate;
      destruct (uncopy s) as [z|b|k|bs0|bs0|s'|ms]; try exact H.
    (* Sequence[Byte] and Sequence[e] arguments *)
    all: try (eapply seq_run_transfer; [|exact H|exact Hc]; intros a c0 Hc0 Hp; first [exact Hc0 | apply IH; assumption]).
    (* String.set(Expr), DynamicBytes.set(Expr) *)
    all: try (apply option_map_some in H as [b [H ->]]; unfold store_encoded_expr_byte_string in *;
              apply obind_some in H as [p [Hp H]]; rewrite Hp; cbn [obind]; rewrite (Hx _ _ _ H Hc); reflexivity).
    (* Tuple.set *)
    apply obind_some in H as [vs [Hvs H]]. apply option_map_some in H as [b [H ->]].
    destruct (zip_all_length _ _ _ Hvs) as [Hlen _]. rewrite map_length in Hlen.
    pose proof (Hcells false _ b H Hc) as HB. apply (combine_snd_forall (on_bytes P) ts vs Hlen) in HB.
    assert (Hz : zip_all (map (fun x => run_set lim2 x) ts) ms = Some vs).
    { eapply zip_all_transfer; [|exact Hvs|exact HB]. clear -IH.
      induction IH as [|x r Hx _ IHr]; cbn [map]; constructor; [exact Hx | exact IHr]. }
    rewrite Hz. cbn [obind]. rewrite (encode_tuple_run_caps _ b H Hc). reflexivity.
  Qed.
End Caps.

(* in particular tail_holder only grows *)
Lemma run_heads_grows : forall hls hs st parts st',
    inv st -> run_heads None hls hs st = Some (parts, st') ->
    inv st' /\ blen (ts_holder st) <= blen (ts_holder st').
Proof.
  intros hls hs st parts st' Hinv H.
  destruct (run_heads_caps None None (fun _ => True) (fun _ _ _ E _ => E) (fun _ _ _ => conj I I) _ _ _ _ _ Hinv H)
    as (Hinv' & [e E] & _).
  split; [exact Hinv'|]. rewrite E, blen_app. lia.
Qed.

Definition cell_size (c : sval) : N := match c with SB b => blen b | SI _ => 0 end.

Lemma blen_concat_app : forall (ps qs : list bytes), blen (List.concat (ps ++ qs)) = blen (List.concat ps) + blen (List.concat qs).
Proof. intros. rewrite concat_app, blen_app. reflexivity. Qed.

Lemma elem_encode_bytes_cell : forall t b x, elem_encode t (SB b) = Some x -> x = b.
Proof. intros t b x H. destruct t; cbn [elem_encode sv_int sv_bytes obind] in H; congruence. Qed.

Lemma elem_encode_size : forall t c bs, elem_encode t c = Some bs -> cell_size c <= blen bs.
Proof.
  intros t c bs H. destruct c as [n|b]; [cbn; lia|]. apply elem_encode_bytes_cell in H. subst. cbn. lia.
Qed.

Lemma sv_ints_no_bytes : forall vs ns, sv_ints vs = Some ns -> Forall (fun c => cell_size c = 0) vs.
Proof.
  induction vs as [|v r IH]; intros ns H; [constructor|]. cbn [sv_ints] in H.
  apply obind_some in H as [n [Hn H]]. apply option_map_some in H as [ns' [H _]].
  constructor; [destruct v; [reflexivity | discriminate] | exact (IH _ H)].
Qed.

(* the cells a head reads *)
Definition head_cells (h : head) : list sval :=
  match h with HBools vs => vs | HDyn v _ | HStatic _ v => [v] end.

(* between them the heads read every member cell, in order *)
Lemma plan'_cells : forall vals pend,
    List.concat (map head_cells (fst (plan' vals pend))) = rev pend ++ map snd vals.
Proof.
  assert (Hflush : forall pend, List.concat (map head_cells (flush pend)) = rev pend).
  { intros [|p r]; [reflexivity|]. cbn [flush map head_cells List.concat]. apply app_nil_r. }
  induction vals as [|m r IH]; intro pend; cbn [plan'].
  - cbn [fst map]. rewrite Hflush, app_nil_r. reflexivity.
  - destruct (mem_is_bool m).
    + rewrite IH. cbn [rev map]. rewrite <- app_assoc. reflexivity.
    + cbn [fst]. rewrite map_app, concat_app, Hflush. cbn [map List.concat]. rewrite IH.
      unfold dyn_or_static. destruct (mem_is_dyn m); reflexivity.
Qed.

(* a cell that a head reads is a piece of what the head yields: of its bytes, or of tail_holder *)
Lemma run_head_cells : forall hls h st b st', run_head None hls h st = Some (b, st') ->
    Forall (fun c => cell_size c <= blen b + blen (ts_holder st')) (head_cells h).
Proof.
  intros hls h st b st' H. destruct h as [vs|v notlast|t v]; cbn [run_head head_cells] in *.
  - apply obind_some in H as [ns [Hns _]]. eapply Forall_impl; [|exact (sv_ints_no_bytes vs ns Hns)].
    intros c Hc. cbn beta in Hc. rewrite Hc. lia.
  - apply obind_some in H as [e [He H]]. apply obind_some in H as [holder' [Hh H]].
    apply obind_some in H as [acc' [_ H]]. apply option_map_some in H as [o [_ Heq]]. injection Heq as _ ->.
    destruct v as [n|e0]; [discriminate|]. injection He as ->.
    constructor; [|constructor]. cbn [ts_holder cell_size].
    destruct (ts_first st); [injection Hh as <- | apply x_concat_some in Hh as ->; rewrite blen_app]; lia.
  - apply option_map_some in H as [x [Hx Heq]]. injection Heq as <- _.
    constructor; [|constructor]. pose proof (elem_encode_size t v b Hx). lia.
Qed.

Lemma run_heads_cells : forall hls hs st parts st', inv st -> run_heads None hls hs st = Some (parts, st') ->
    Forall (fun c => cell_size c <= blen (List.concat parts) + blen (ts_holder st')) (List.concat (map head_cells hs)).
Proof.
  intros hls hs. induction hs as [|h r IH]; intros st parts st' Hinv H; cbn [run_heads map List.concat] in *;
    [constructor|].
  apply obind_some in H as [[b st1] [Hb H]]. apply obind_some in H as [[ps st2] [Hr H]].
  cbn [fst snd] in *. injection H as <- <-.
  destruct (run_heads_grows hls [h] st [b] st1 Hinv) as [Hinv1 _]; [cbn [run_heads]; rewrite Hb; reflexivity|].
  destruct (run_heads_grows hls r st1 ps st2 Hinv1 Hr) as [_ Hg].
  cbn [List.concat]. rewrite blen_app. apply Forall_app. split.
  - eapply Forall_impl; [|exact (run_head_cells hls h st b st1 Hb)]. intros c Hc. cbn beta in Hc. lia.
  - eapply Forall_impl; [|exact (IH st1 ps st2 Hinv1 Hr)]. intros c Hc. cbn beta in Hc. lia.
Qed.

Lemma encode_tuple_cells_bounded : forall vals bs, encode_tuple_run None vals = Some bs ->
    Forall (fun m => cell_size (snd m) <= blen bs) vals.
Proof.
  intros vals bs H. unfold encode_tuple_run in H. rewrite plan_eq in H.
  apply obind_some in H as [[parts st'] [Hr H]]. cbn [fst snd] in H. rewrite concat_all_none in H. injection H as <-.
  pose proof (run_heads_cells _ _ _ parts st' inv_init Hr) as HB. rewrite plan'_cells in HB. cbn [rev app] in HB.
  destruct (run_heads_grows _ _ _ _ _ inv_init Hr) as [Hinv _].
  rewrite Forall_map in HB. eapply Forall_impl; [|exact HB]. intros m Hm. cbn beta in Hm.
  destruct (ts_first st') eqn:Hf.
  - rewrite (Hinv Hf) in Hm. cbn in Hm. lia.
  - rewrite blen_concat_app. cbn [List.concat]. rewrite app_nil_r. exact Hm.
Qed.

Lemma array_cells_bounded : forall d vals bs, array_set_run None d vals = Some bs ->
    Forall (fun m => cell_size (snd m) <= blen bs) vals.
Proof.
  intros d vals bs H. unfold array_set_run in H. destruct d; [|exact (encode_tuple_cells_bounded vals bs H)].
  apply obind_some in H as [p [_ H]]. apply obind_some in H as [body [Hb H]]. cbn [x_concat] in H. injection H as <-.
  eapply Forall_impl; [|exact (encode_tuple_cells_bounded vals body Hb)]. intros m Hm. cbn beta in Hm.
  rewrite blen_app. lia.
Qed.

Theorem run_set_mono : forall l t s c, run_set (Some l) t s = Some c -> run_set None t s = Some c.
Proof.
  intros l t s c H. apply (run_set_transfer (Some l) None (fun _ => True)) with (4 := H).
  - intros a b x E _. exact (x_concat_mono l a b x E).
  - auto.
  - intros d vals b _ _. apply Forall_forall. intros m _. destruct (snd m); exact I.
  - destruct c; exact I.
Qed.

Theorem run_set_within : forall l t s c,
    run_set None t s = Some c -> cell_size c <= l -> run_set (Some l) t s = Some c.
Proof.
  intros l t s c H Hl. apply (run_set_transfer None (Some l) (fun x => blen x <= l)) with (4 := H).
  - intros a b x E Hx. apply x_concat_some in E as ->. apply x_concat_within, Hx.
  - intros a b Hab. rewrite blen_app in Hab. lia.
  - intros d vals b Hb Hs. eapply Forall_impl; [|exact (array_cells_bounded d vals b Hb)].
    intros m Hm. cbn beta in Hm. destruct (snd m); cbn in *; [exact I | lia].
  - destruct c; [exact I | exact Hl].
Qed.

(* on the capped machine: bytes that come out are the bytes of the uncapped machine; rejection is the same *)
Theorem capped_outcome_sound : forall l t s,
    (forall bs, set_outcome (Some l) t s = OBytes bs -> set_outcome None t s = OBytes bs) /\
    (set_outcome (Some l) t s = OReject <-> set_outcome None t s = OReject).
Proof.
  intros l t s. unfold set_outcome. destruct (set_ok t s).
  - split.
    + intros bs H. destruct (run_set (Some l) t s) as [c|] eqn:Hr; cbn [obind] in H; [|discriminate].
      rewrite (run_set_mono l t s c Hr). cbn [obind]. exact H.
    + split; intro H.
      * destruct (obind (run_set (Some l) t s) (elem_encode t)); discriminate.
      * destruct (obind (run_set None t s) (elem_encode t)); discriminate.
  - split; [discriminate|]. split; reflexivity.
Qed.

(* hence, on the capped machine, bytes that come out are the ARC-4 encoding of the denoted value *)
Corollary capped_bytes_are_arc4 : forall l t s v bs,
    pyteal_ty t = true -> src_wf s = true -> denote t s = Some v ->
    set_outcome (Some l) t s = OBytes bs -> arc4_encode t v = Some bs.
Proof.
  intros l t s v bs Hty Hwf Hv H.
  apply (proj1 (capped_outcome_sound l t s)) in H.
  exact (proj1 (set_bytes_iff_spec t s v bs Hty Hwf Hv) H).
Qed.

(* the capped machine produces the same bytes whenever they fit the cap *)
Theorem capped_complete : forall l t s bs,
    set_outcome None t s = OBytes bs -> blen bs <= l -> set_outcome (Some l) t s = OBytes bs.
Proof.
  intros l t s bs H Hl. unfold set_outcome in *. destruct (set_ok t s); [|discriminate].
  destruct (run_set None t s) as [c|] eqn:Hr; cbn [obind] in H; [|discriminate].
  destruct (elem_encode t c) as [b|] eqn:He; [|discriminate]. injection H as ->.
  rewrite (run_set_within l t s c Hr); [cbn [obind]; rewrite He; reflexivity|].
  pose proof (elem_encode_size t c bs He). lia.
Qed.

(* the outcome on the capped machine read off the uncapped one.  Where the bytes exceed the cap the equation
   says nothing (the right-hand side is the left-hand side): what happens then is in
   [set_encodes_per_arc4_capped] *)
Theorem capped_outcome : forall l t s,
    set_outcome (Some l) t s =
    match set_outcome None t s with
    | OBytes bs => if blen bs <=? l then OBytes bs else set_outcome (Some l) t s
    | OReject => OReject
    | OFail => OFail
    end.
Proof.
  intros l t s. destruct (set_outcome None t s) as [bs| |] eqn:H.
  - destruct (N.leb_spec (blen bs) l) as [Hl|Hl]; [exact (capped_complete l t s bs H Hl) | reflexivity].
  - exact (proj2 (proj2 (capped_outcome_sound l t s)) H).
  - destruct (set_outcome (Some l) t s) as [bs| |] eqn:Hc; [| |reflexivity].
    + rewrite (proj1 (capped_outcome_sound l t s) bs Hc) in H. discriminate.
    + rewrite (proj1 (proj2 (capped_outcome_sound l t s)) Hc) in H. discriminate.
Qed.

(* end to end on the capped machine (l = 4096: the AVM) *)
Theorem set_encodes_per_arc4_capped : forall l t s v,
    pyteal_ty t = true -> src_wf s = true -> denote t s = Some v ->
    match arc4_encode t v with
    | Some bs =>
        if blen bs <=? l then set_outcome (Some l) t s = OBytes bs
        else set_outcome (Some l) t s = OBytes bs \/ set_outcome (Some l) t s = OFail
    | None => set_outcome (Some l) t s = if set_ok t s then OFail else OReject
    end.
Proof.
  intros l t s v Hty Hwf Hv. pose proof (set_encodes_per_arc4 t s v Hty Hwf Hv) as Hu.
  pose proof (capped_outcome l t s) as Hc. destruct (capped_outcome_sound l t s) as [Hs1 Hs2].
  destruct (arc4_encode t v) as [bs|].
  - rewrite Hu in Hc. destruct (blen bs <=? l); [exact Hc|].
    destruct (set_outcome (Some l) t s) as [b| |] eqn:Ho.
    + left. pose proof (Hs1 b eq_refl) as Hb. rewrite Hu in Hb. symmetry. exact Hb.
    + exfalso. pose proof (proj1 Hs2 eq_refl) as Hb. rewrite Hu in Hb. discriminate.
    + right. reflexivity.
  - rewrite Hu in Hc. destruct (set_ok t s); exact Hc.
Qed.

(* Array.set on its own: _encode_tuple of the members (+ uint16 element count) *)
Theorem array_set_correct : forall (dynamic : bool) vals es, Forall2 rep vals es ->
    let spec := if dynamic
                then obind (u16 (N.of_nat (List.length vals))) (fun p => obind (assemble es) (fun b => Some (p ++ b)))
                else assemble es in
    (array_set_ok dynamic vals = true -> array_set_run None dynamic vals = spec) /\
    (array_set_ok dynamic vals = false -> spec = None).
Proof.
  intros dynamic vals es H spec. subst spec. destruct (encode_tuple_correct vals es H) as [Tok Tbad].
  unfold array_set_ok, array_set_run, u16. destruct dynamic.
  - rewrite uint_encode_16. cbn [obind]. destruct (encode_tuple_ok vals) eqn:Hok; cbn [andb].
    + rewrite (Tok eq_refl). split.
      * intro Hn. rewrite Hn. cbn [obind]. destruct (assemble es); reflexivity.
      * intro Hn. rewrite Hn. reflexivity.
    + split; [discriminate|]. intros _. rewrite (Tbad eq_refl).
      destruct (N.of_nat (List.length vals) <? 65536); reflexivity.
  - rewrite andb_true_r. split; intro Hok; [exact (Tok Hok) | exact (Tbad Hok)].
Qed.

(* String.set / DynamicBytes.set on their own *)
Theorem string_set_correct : forall bs,
    (* from Python bytes / str: accepted iff the length fits a uint16; the constant is the encoding *)
    (encoded_byte_string bs = arc4_encode TString (VBytes bs)) /\
    (* from an expression, on a machine whose byte strings are capped below 2^16 (the AVM: 4096) *)
    (blen bs <= MAX_BYTES -> store_encoded_expr_byte_string None bs = arc4_encode TString (VBytes bs)) /\
    (forall l b, store_encoded_expr_byte_string (Some l) bs = Some b -> store_encoded_expr_byte_string None bs = Some b).
Proof.
  intro bs. cbn [arc4_encode]. rewrite dyn_bytes_enc_spec. split; [reflexivity|]. split.
  - intro H. unfold MAX_BYTES in H. rewrite store_expr_bytes_none.
    assert (Hlt : (blen bs <? 65536) = true) by (apply N.ltb_lt; lia). rewrite Hlt. reflexivity.
  - intros l b H. unfold store_encoded_expr_byte_string in *.
    apply obind_some in H as [p [Hp H]]. rewrite Hp. cbn [obind]. exact (x_concat_mono l _ _ _ H).
Qed.

(* the length prefix written by String.set(Expr) is NOT range-checked: without the AVM's cap a 65536-byte
   argument would be stored with the prefix 0x0000 (the hypothesis [blen bs <= MAX_BYTES] above is needed) *)
Lemma string_set_expr_wraps_without_cap :
  let bs := repeat zero (N.to_nat 65536) in
  store_encoded_expr_byte_string None bs = Some (be_encode 2 0 ++ bs) /\ arc4_encode TString (VBytes bs) = None.
Proof.
  cbn zeta. split.
  - rewrite store_expr_bytes_none. unfold blen. rewrite repeat_length, N2Nat.id. reflexivity.
  - cbn [arc4_encode]. rewrite dyn_bytes_enc_spec. unfold blen. rewrite repeat_length, N2Nat.id. reflexivity.
Qed.
