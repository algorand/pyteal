(* Proofs/ABIEncodeTuple.v — _encode_tuple (ABI/Encode.v: plan / run_heads / encode_tuple_run) computes the
   ARC-4 head/tail encoding (ABI/Spec.v: assemble), and is rejected / fails exactly when an offset does not
   fit a uint16. *)
From Coq Require Import List Arith NArith Ascii String Bool Lia.
From PV Require Import Base.Bytes Base.U64 AVM.Ops ABI.Types ABI.Spec ABI.Encode
  Proofs.ABISpecProof Proofs.ABIIndexBits Proofs.ABIIndexAsm Proofs.ABIIndexElems
  Proofs.ABIEncodeOps Proofs.ABIEncodeDescr Proofs.ABIEncodeBool.
Import ListNotations.
Local Open Scope N_scope.

(* the ignoreNext loop = an element-by-element pass with pending bools *)
Definition flush (pend : list sval) : list head :=
  match pend with [] => [] | _ => [HBools (rev pend)] end.

Definition dyn_or_static (m : member) (r : list member) : head :=
  if mem_is_dyn m then HDyn (snd m) (existsb mem_is_dyn r) else HStatic (fst m) (snd m).

Definition head_size (m : member) : N := if mem_is_dyn m then 2 else bls (fst m).

(* pend: the cells of the bools of the current run, most recent first *)
Fixpoint plan' (vals : list member) (pend : list sval) : list head * N :=
  match vals with
  | [] => (flush pend, bool_sequence_length (N.of_nat (List.length pend)))
  | m :: r =>
      if mem_is_bool m then plan' r (snd m :: pend)
      else let p := plan' r [] in
           (flush pend ++ dyn_or_static m r :: fst p,
            bool_sequence_length (N.of_nat (List.length pend)) + head_size m + snd p)
  end.

Lemma bsl_0 : bool_sequence_length 0 = 0.
Proof. reflexivity. Qed.

Lemma plan_step_nonbool : forall m r, mem_is_bool m = false ->
    plan (m :: r) 0 = (dyn_or_static m r :: fst (plan r 0), head_size m + snd (plan r 0)).
Proof.
  intros m r H. cbn [plan]. rewrite H. unfold dyn_or_static, head_size.
  destruct (mem_is_dyn m); reflexivity.
Qed.

Lemma plan_eq_gen : forall vals,
    plan vals 0 = plan' vals [] /\
    forall p pend,
      let c := consecutive_true (map mem_is_bool vals) in
      (HBools (rev (p :: pend) ++ map snd (firstn c vals)) :: fst (plan vals c),
       bool_sequence_length (N.of_nat (List.length (p :: pend) + c)) + snd (plan vals c))
      = plan' vals (p :: pend).
Proof.
  induction vals as [|m r [IHA IHB]].
  - split; [reflexivity|]. intros p pend c. subst c. cbn [map consecutive_true firstn plan plan' fst snd flush].
    rewrite app_nil_r, Nat.add_0_r, N.add_0_r. reflexivity.
  - destruct (mem_is_bool m) eqn:Hb.
    + split.
      * cbn [plan]. rewrite Hb. cbn [map consecutive_true]. rewrite Hb.
        replace (S (consecutive_true (map mem_is_bool r)) - 1)%nat with (consecutive_true (map mem_is_bool r)) by lia.
        cbn [firstn map plan']. rewrite Hb.
        specialize (IHB (snd m) []). cbn zeta in IHB. rewrite <- IHB.
        cbn [rev app List.length fst snd]. f_equal.
      * intros p pend c. subst c. cbn [map consecutive_true]. rewrite Hb.
        cbn [plan firstn map plan']. rewrite Hb.
        specialize (IHB (snd m) (p :: pend)). cbn zeta in IHB. rewrite <- IHB.
        f_equal.
        -- f_equal. f_equal. cbn [rev]. rewrite <- !app_assoc. reflexivity.
        -- f_equal. f_equal. f_equal. cbn [List.length]. lia.
    + split.
      * rewrite (plan_step_nonbool m r Hb). cbn [plan']. rewrite Hb, <- IHA.
        reflexivity.
      * intros p pend c. subst c. cbn [map consecutive_true]. rewrite Hb.
        cbn [firstn map]. rewrite app_nil_r, Nat.add_0_r.
        rewrite (plan_step_nonbool m r Hb). cbn [plan']. rewrite Hb, <- IHA.
        cbn [flush app fst snd]. f_equal. lia.
Qed.

Lemma plan_eq : forall vals, plan vals 0 = plan' vals [].
Proof. intro vals. exact (proj1 (plan_eq_gen vals)). Qed.

(* members vs the spec's element encodings *)
Definition sb (b : bool) : sval := SI (b2N b).

(* what the cell of a member holds, given what the ARC-4 spec encodes for it *)
Inductive rep : member -> eenc -> Prop :=
| rep_bool : forall b, rep (TBool, sb b) (EB b)
| rep_static : forall t v bs,
    is_bool t = false -> py_is_dynamic t = false ->
    elem_encode t v = Some bs -> bls t = blen bs -> rep (t, v) (ES bs)
| rep_dyn : forall t bs, py_is_dynamic t = true -> rep (t, SB bs) (ED bs).

Lemma dyn_not_bool : forall t, py_is_dynamic t = true -> is_bool t = false.
Proof. destruct t; simpl; congruence. Qed.

Lemma rep_dyn_flags : forall vals es, Forall2 rep vals es -> existsb mem_is_dyn vals = existsb is_ED es.
Proof.
  intros vals es H. induction H as [|m e r er Hm _ IH]; [reflexivity|].
  cbn [existsb]. rewrite IH. f_equal. destruct Hm; unfold mem_is_dyn; cbn [fst is_ED]; try assumption; reflexivity.
Qed.

(* head_length_static = the spec's head length *)
Lemma hlen_spec : forall vals es, Forall2 rep vals es -> forall pendb,
    snd (plan' vals (map sb pendb)) = head_len es (N.of_nat (List.length pendb)).
Proof.
  intros vals es H. induction H as [|m e r er Hm _ IH]; intro pendb.
  - cbn [plan' snd head_len]. rewrite map_length. apply bool_sequence_length_spec.
  - destruct Hm as [b | t v bs Hb Hd He Hl | t bs Hd].
    + cbn [plan']. unfold mem_is_bool. cbn [fst is_bool snd]. change (sb b :: map sb pendb) with (map sb (b :: pendb)).
      rewrite IH. cbn [head_len List.length]. f_equal. lia.
    + cbn [plan']. unfold mem_is_bool. cbn [fst]. rewrite Hb. cbn [snd head_len].
      change (@nil sval) with (map sb []). rewrite IH. rewrite map_length, bool_sequence_length_spec.
      unfold head_size, mem_is_dyn. cbn [fst]. rewrite Hd, Hl. reflexivity.
    + cbn [plan']. unfold mem_is_bool. cbn [fst]. rewrite (dyn_not_bool t Hd). cbn [snd head_len].
      change (@nil sval) with (map sb []). rewrite IH. rewrite map_length, bool_sequence_length_spec.
      unfold head_size, mem_is_dyn. cbn [fst]. rewrite Hd. reflexivity.
Qed.

Lemma asm_overflow : forall es pend off, 65536 <= off -> existsb is_ED es = true -> asm es pend off = None.
Proof.
  induction es as [|e r IH]; intros pend off Hoff Hd; [discriminate|].
  destruct e as [b|bs|bs]; cbn [asm existsb is_ED orb] in *.
  - apply IH; assumption.
  - rewrite (IH [] off Hoff Hd). reflexivity.
  - unfold u16. assert (Hf : (off <? 65536) = false) by (apply N.ltb_ge; exact Hoff). rewrite Hf. reflexivity.
Qed.

Lemma asm_no_dyn : forall es pend off h tl, existsb is_ED es = false -> asm es pend off = Some (h, tl) -> tl = [].
Proof.
  intros es pend off h tl Hd H. apply asm_spec in H as [_ ->].
  apply tails_of_no_dyn, existsb_false_forallb, Hd.
Qed.

Lemma sv_ints_sb : forall l, sv_ints (map sb l) = Some (map b2N l).
Proof. induction l as [|b r IH]; [reflexivity|]. cbn [map sv_ints sb sv_int obind]. rewrite IH. reflexivity. Qed.

Definition flushparts (pendb : list bool) : list bytes :=
  match pendb with [] => [] | _ => [pack_bools (rev' pendb)] end.

Lemma concat_flushparts : forall pendb, List.concat (flushparts pendb) = pack_bools (rev' pendb).
Proof. intros [|b r]; [reflexivity|]. cbn [flushparts List.concat]. apply app_nil_r. Qed.

Lemma run_flush : forall lim hls pendb hs st,
    run_heads lim hls (flush (map sb pendb) ++ hs) st =
    option_map (fun r => (flushparts pendb ++ fst r, snd r)) (run_heads lim hls hs st).
Proof.
  intros lim hls pendb hs st. destruct pendb as [|b r].
  - cbn [map flush app flushparts]. destruct (run_heads lim hls hs st) as [[ps st']|]; reflexivity.
  - change (flush (map sb (b :: r))) with [HBools (rev (map sb (b :: r)))].
    cbn [app run_heads run_head]. rewrite <- map_rev, sv_ints_sb. cbn [obind].
    rewrite bool_pack_correct. cbn [option_map obind snd fst].
    destruct (run_heads lim hls hs st) as [[ps st']|]; [|reflexivity].
    cbn [obind option_map fst snd flushparts app]. rewrite rev'_rev. reflexivity.
Qed.

Lemma uint_set_expr_16 : forall x, uint_set_expr 16 x = if x <? 65536 then Some x else None.
Proof. reflexivity. Qed.

Lemma run_static_step : forall hls pendb t v r hs st bs,
    py_is_dynamic t = false -> elem_encode t v = Some bs ->
    run_heads None hls (flush (map sb pendb) ++ dyn_or_static (t, v) r :: hs) st =
    option_map (fun x => (flushparts pendb ++ bs :: fst x, snd x)) (run_heads None hls hs st).
Proof.
  intros hls pendb t v r hs st bs Hd He.
  rewrite run_flush. unfold dyn_or_static, mem_is_dyn. cbn [fst snd]. rewrite Hd.
  cbn [run_heads run_head]. rewrite He. cbn [option_map obind fst snd].
  destruct (run_heads None hls hs st) as [[ps st']|]; reflexivity.
Qed.

(* a dynamic member: its offset goes to the head; when another dynamic member follows, the accumulator is set
   to the end of this tail and range-checked *)
Lemma run_dyn_step : forall hls pendb t bs r hs st off,
    py_is_dynamic t = true ->
    (ts_first st = true -> ts_holder st = []) ->
    (if ts_first st then hls else ts_acc st) = off -> off < 65536 ->
    run_heads None hls (flush (map sb pendb) ++ dyn_or_static (t, SB bs) r :: hs) st =
    if existsb mem_is_dyn r && negb (off + blen bs <? 65536) then None
    else option_map (fun x => (flushparts pendb ++ be_encode 2 off :: fst x, snd x))
           (run_heads None hls hs
              (mkTS false (ts_holder st ++ bs) (if existsb mem_is_dyn r then off + blen bs else ts_acc st))).
Proof.
  intros hls pendb t bs r hs st off Hd Hh Hoffeq Hofflt.
  rewrite run_flush. unfold dyn_or_static, mem_is_dyn at 1. cbn [fst snd]. rewrite Hd.
  cbn [run_heads run_head sv_bytes obind].
  assert (Hholder : (if ts_first st then Some bs else x_concat None (ts_holder st) bs) = Some (ts_holder st ++ bs)).
  { destruct (ts_first st) eqn:Hf; [rewrite (Hh eq_refl); reflexivity | reflexivity]. }
  rewrite Hholder. cbn [obind]. rewrite Hoffeq, uint_encode_16.
  destruct (existsb mem_is_dyn r); cbn [andb].
  - rewrite uint_set_expr_16. destruct (off + blen bs <? 65536); [|reflexivity].
    cbn [negb obind option_map fst snd].
    destruct (run_heads None hls hs _) as [[ps st']|]; reflexivity.
  - cbn [obind option_map fst snd].
    destruct (run_heads None hls hs _) as [[ps st']|]; reflexivity.
Qed.

Lemma run_heads_correct : forall vals es, Forall2 rep vals es -> forall pendb st off hls,
    (ts_first st = true -> ts_holder st = []) ->
    (existsb mem_is_dyn vals = true -> (if ts_first st then hls else ts_acc st) = off /\ off < 65536) ->
    match asm es pendb off with
    | Some ht =>
        exists parts st',
          run_heads None hls (fst (plan' vals (map sb pendb))) st = Some (parts, st')
          /\ List.concat parts = fst ht
          /\ ts_holder st' = ts_holder st ++ snd ht
          /\ ts_first st' = ts_first st && negb (existsb mem_is_dyn vals)
    | None => run_heads None hls (fst (plan' vals (map sb pendb))) st = None
    end.
Proof.
  intros vals es H. induction H as [|m e r er Hm Hr IH]; intros pendb st off hls Hh Hoff.
  - (* end of the members *)
    cbn [asm plan' fst snd]. exists (flushparts pendb), st.
    rewrite <- (app_nil_r (flush (map sb pendb))), run_flush. cbn [run_heads option_map fst snd].
    rewrite !app_nil_r, concat_flushparts, andb_true_r. repeat split; reflexivity.
  - destruct Hm as [b | t v bs Hb Hd He Hl | t bs Hd].
    + (* bool: joins the pending run *)
      cbn [asm plan']. unfold mem_is_bool. cbn [fst is_bool snd].
      change (sb b :: map sb pendb) with (map sb (b :: pendb)).
      change (existsb mem_is_dyn ((TBool, sb b) :: r)) with (existsb mem_is_dyn r) in *.
      apply IH; assumption.
    + (* static member *)
      assert (Hnd : forall x : member, x = (t, v) -> existsb mem_is_dyn (x :: r) = existsb mem_is_dyn r).
      { intros x ->. cbn [existsb]. unfold mem_is_dyn at 1. cbn [fst]. rewrite Hd. reflexivity. }
      assert (Hoff' : existsb mem_is_dyn r = true -> (if ts_first st then hls else ts_acc st) = off /\ off < 65536).
      { intro Hx. apply Hoff. rewrite (Hnd _ eq_refl). exact Hx. }
      specialize (IH [] st off hls Hh Hoff'). cbn [map] in IH.
      cbn [asm plan']. unfold mem_is_bool. cbn [fst]. rewrite Hb. cbn [fst snd].
      rewrite (run_static_step hls pendb t v r _ st bs Hd He), (Hnd _ eq_refl).
      destruct (asm er [] off) as [ht|]; cbn [obind].
      * destruct IH as [parts [st' [Hrun [Hc [Hho Hf]]]]].
        exists (flushparts pendb ++ bs :: parts), st'. rewrite Hrun. cbn [option_map fst snd].
        repeat split; try assumption.
        rewrite concat_app, concat_flushparts. cbn [List.concat]. rewrite Hc. reflexivity.
      * rewrite IH. reflexivity.
    + (* dynamic member *)
      assert (Hnd : forall x : member, x = (t, SB bs) -> existsb mem_is_dyn (x :: r) = true).
      { intros x ->. cbn [existsb]. unfold mem_is_dyn at 1. cbn [fst]. rewrite Hd. reflexivity. }
      destruct (Hoff (Hnd _ eq_refl)) as [Hoffeq Hofflt]. clear Hoff.
      cbn [asm plan']. unfold mem_is_bool. cbn [fst]. rewrite (dyn_not_bool t Hd). cbn [fst snd].
      rewrite (run_dyn_step hls pendb t bs r _ st off Hd Hh Hoffeq Hofflt), (u16_ok off Hofflt). cbn [obind].
      rewrite (Hnd _ eq_refl). cbn [negb]. rewrite andb_false_r.
      destruct (existsb mem_is_dyn r && negb (off + blen bs <? 65536)) eqn:Hov.
      * (* another dynamic member follows and the end of this tail does not fit *)
        apply andb_true_iff in Hov as [Hnext Hge]. apply negb_true_iff, N.ltb_ge in Hge.
        rewrite (asm_overflow er [] (off + blen bs) Hge) by (rewrite <- (rep_dyn_flags _ _ Hr); exact Hnext).
        reflexivity.
      * specialize (IH [] (mkTS false (ts_holder st ++ bs) (if existsb mem_is_dyn r then off + blen bs else ts_acc st))
                       (off + blen bs) hls ltac:(discriminate)).
        cbn [map ts_first ts_holder ts_acc] in IH.
        assert (Hoff1 : existsb mem_is_dyn r = true ->
                  (if existsb mem_is_dyn r then off + blen bs else ts_acc st) = off + blen bs /\ off + blen bs < 65536).
        { intro Hnext. rewrite Hnext in *. split; [reflexivity|]. apply N.ltb_lt, negb_false_iff, Hov. }
        specialize (IH Hoff1).
        destruct (asm er [] (off + blen bs)) as [ht|]; cbn [obind].
        -- destruct IH as [parts [st' [Hrun [Hc [Hho Hf]]]]].
           exists (flushparts pendb ++ be_encode 2 off :: parts), st'. rewrite Hrun. cbn [option_map fst snd].
           repeat split.
           ++ rewrite concat_app, concat_flushparts. cbn [List.concat]. rewrite Hc. reflexivity.
           ++ rewrite Hho, <- app_assoc. reflexivity.
           ++ exact Hf.
        -- rewrite IH. reflexivity.
Qed.

Theorem encode_tuple_correct : forall vals es, Forall2 rep vals es ->
    (encode_tuple_ok vals = true -> encode_tuple_run None vals = assemble es) /\
    (encode_tuple_ok vals = false -> assemble es = None).
Proof.
  intros vals es H.
  assert (Hhls : snd (plan vals 0) = head_len es 0).
  { rewrite plan_eq. exact (hlen_spec vals es H []). }
  pose proof (rep_dyn_flags vals es H) as Hflags.
  unfold encode_tuple_ok, encode_tuple_run, assemble. rewrite Hhls. split; intro Hok.
  - rewrite plan_eq.
    pose proof (run_heads_correct vals es H [] (mkTS true [] 0) (head_len es 0) (head_len es 0)) as Hrun.
    cbn [map ts_first ts_holder ts_acc] in Hrun.
    specialize (Hrun ltac:(reflexivity)).
    assert (Hpre : existsb mem_is_dyn vals = true -> head_len es 0 = head_len es 0 /\ head_len es 0 < 65536).
    { intro Hd. rewrite Hd in Hok. apply N.ltb_lt in Hok. split; [reflexivity | exact Hok]. }
    specialize (Hrun Hpre).
    destruct (asm es [] (head_len es 0)) as [[h tl]|] eqn:Hasm.
    + destruct Hrun as [parts [st' [Hr [Hc [Hho Hf]]]]]. cbn [fst snd] in Hc, Hho. rewrite Hr. cbn [obind fst snd].
      rewrite concat_all_none. rewrite Hf. cbn [andb].
      destruct (existsb mem_is_dyn vals) eqn:Hd in |- *; cbn [negb].
      * rewrite concat_app, Hc, Hho. cbn [List.concat app]. rewrite app_nil_r. reflexivity.
      * rewrite Hc. rewrite Hd in Hflags. symmetry in Hflags.
        rewrite (asm_no_dyn es [] _ h tl Hflags Hasm), app_nil_r. reflexivity.
    + rewrite Hrun. reflexivity.
  - destruct (existsb mem_is_dyn vals) eqn:Hd; [|discriminate].
    apply N.ltb_ge in Hok. rewrite asm_overflow; [reflexivity | exact Hok | rewrite <- Hflags; reflexivity].
Qed.
