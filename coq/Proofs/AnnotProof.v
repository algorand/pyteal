(* Proofs/AnnotProof.v — appending blanks and a // comment to a TEAL line that ends outside a
   string literal / base64 argument never changes what the assembler tokeniser reads. *)
From Coq Require Import List NArith Ascii String Bool Lia.
From PV Require Import Proofs.TextFacts AVM.Parse Lit.R3 Lit.Annot.
Import ListNotations.

Lemma space_not_slash : forall w, is_space w = true -> Ascii.eqb w slash = false.
Proof.
  intros w H. destruct (Ascii.eqb_spec w slash) as [->|]; [|reflexivity].
  vm_compute in H. discriminate.
Qed.

Lemma space_not_newline : forall w, is_space w = true -> w <> newline.
Proof. intros w H ->. vm_compute in H. discriminate. Qed.

Lemma tok_blanks_comment : forall ws text acc esc, forallb is_space ws = true ->
  tok_line (ws ++ slash :: slash :: text) [] false esc false acc = rev acc.
Proof.
  induction ws as [|w ws IH]; intros text acc esc H.
  - reflexivity.
  - cbn [forallb] in H. apply andb_prop in H. destruct H as [Hw Hws].
    cbn [app tok_line]. rewrite Hw. apply (IH text acc false Hws).
Qed.

Lemma tok_annot : forall L ws text cur in_str esc in_b64 acc,
  ws <> [] -> forallb is_space ws = true ->
  ends_clean_from L cur in_str esc in_b64 = true ->
  tok_line (L ++ ws ++ slash :: slash :: text) cur in_str esc in_b64 acc =
  tok_line L cur in_str esc in_b64 acc.
Proof.
  induction L as [|c t IH]; intros ws text cur in_str esc in_b64 acc Hne Hws H.
  - destruct ws as [|w ws]; [congruence|].
    cbn [forallb] in Hws. apply andb_prop in Hws. destruct Hws as [Hw Hws].
    cbn [ends_clean_from] in H. apply andb_prop in H. destruct H as [H1 H2].
    apply negb_true_iff in H1. subst in_str.
    cbn [app tok_line]. rewrite Hw.
    destruct cur as [|a cur].
    + apply negb_true_iff in H2. subst in_b64.
      apply (tok_blanks_comment ws text acc false Hws).
    + destruct in_b64.
      * apply (tok_blanks_comment ws text _ false Hws).
      * apply negb_true_iff in H2. rewrite H2.
        apply (tok_blanks_comment ws text _ false Hws).
  - revert H. cbn [app tok_line ends_clean_from].
    destruct in_str.
    { destruct esc; [intros H; apply IH; assumption|].
      destruct (Ascii.eqb c "\"); [intros H; apply IH; assumption|].
      destruct (Ascii.eqb c """"); intros H; apply IH; assumption. }
    destruct (is_space c).
    { destruct cur; intros H; apply IH; assumption. }
    destruct (Ascii.eqb c """").
    { destruct cur; intros H; apply IH; assumption. }
    destruct (Ascii.eqb c "/").
    { destruct t as [|c2 t'].
      - destruct ws as [|w ws']; [congruence|].
        cbn [app]. pose proof Hws as Hws'. cbn [forallb] in Hws'. apply andb_prop in Hws'.
        destruct Hws' as [Hw _]. apply space_not_slash in Hw. unfold slash in Hw. rewrite Hw.
        cbn [andb]. intros H. apply (IH (w :: ws')); assumption.
      - cbn [app]. destruct (Ascii.eqb c2 "/" && negb in_b64); [reflexivity|].
        intros H. apply IH; assumption. }
    destruct (Ascii.eqb c "(").
    { intros H. apply IH; assumption. }
    destruct (Ascii.eqb c ")").
    { intros H. apply IH; assumption. }
    destruct (Ascii.eqb c ";").
    { destruct in_b64; intros H; apply IH; assumption. }
    intros H. apply IH; assumption.
Qed.

(* line level, on strings *)
Lemma annotation_strips_line : forall L ws text : string,
  line_ends_clean L = true ->
  blanks (list_ascii_of_string ws) ->
  tokens_of_line (annotate L ws text) = tokens_of_line L.
Proof.
  intros L ws text H [Hne Hws]. unfold tokens_of_line, annotate.
  rewrite !los_app. apply tok_annot; assumption.
Qed.

(* program level: text = lines joined by newline *)
Record aline : Type := mkALine { al_teal : list ascii; al_ws : list ascii; al_text : list ascii }.

Definition aline_ok (a : aline) : Prop :=
  ends_clean_from (al_teal a) [] false false false = true /\ blanks (al_ws a) /\
  ~ In newline (al_teal a) /\ ~ In newline (al_text a).

Definition aline_annotated (a : aline) : list ascii := annotate_chars (al_teal a) (al_ws a) (al_text a).

Lemma annotated_no_newline : forall a, aline_ok a -> ~ In newline (aline_annotated a).
Proof.
  intros a (_ & (_ & Hws) & H1 & H2) Hin. unfold aline_annotated, annotate_chars in Hin.
  apply in_app_or in Hin. destruct Hin as [Hin|Hin]; [exact (H1 Hin)|].
  apply in_app_or in Hin. destruct Hin as [Hin|Hin].
  - rewrite forallb_forall in Hws. exact (space_not_newline _ (Hws _ Hin) eq_refl).
  - destruct Hin as [E|[E|Hin]]; [discriminate E|discriminate E|exact (H2 Hin)].
Qed.

Lemma annotation_strips_program : forall prog : list aline, prog <> [] -> Forall aline_ok prog ->
  map tokens_of_line (split_lines (join_with newline (map aline_annotated prog)) []) =
  map tokens_of_line (split_lines (join_with newline (map al_teal prog)) []).
Proof.
  intros prog Hne HF.
  rewrite !split_lines_split_on, !split_on_join.
  - rewrite !map_map. apply map_ext_in. intros a Ha.
    rewrite Forall_forall in HF. destruct (HF a Ha) as (Hc & [Hn Hs] & _ & _).
    unfold tokens_of_line. rewrite !list_ascii_of_string_of_list_ascii.
    unfold aline_annotated, annotate_chars. apply tok_annot; assumption.
  - destruct prog; [congruence|discriminate].
  - apply Forall_forall. intros p Hp. apply in_map_iff in Hp. destruct Hp as (a & <- & Ha).
    rewrite Forall_forall in HF. destruct (HF a Ha) as (_ & _ & H1 & _). exact H1.
  - destruct prog; [congruence|discriminate].
  - apply Forall_forall. intros p Hp. apply in_map_iff in Hp. destruct Hp as (a & <- & Ha).
    rewrite Forall_forall in HF. apply annotated_no_newline. apply HF. exact Ha.
Qed.
