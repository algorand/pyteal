(* Proofs/SlotsExamples.v — C10: the hypotheses of the theorems are satisfiable and the model
   computes what one expects on concrete programs (closed computations, except at the slot limit). *)
From Coq Require Import List NArith ZArith Bool Lia Permutation.
From PV Require Import Base.Bytes AVM.Syntax AVM.Machine Gen.SlotConfig Comp.Slots Proofs.SlotsProof Proofs.SlotsCells.
Import ListNotations.
Local Open Scope N_scope.

Lemma set_order_refl inp : set_order inp (all_slots inp).
Proof. apply Permutation_refl. Qed.

Definition auto (u : N) : slot := mkSlot u (256 + u) false.
Definition req (u i : N) : slot := mkSlot u i true.

(* main: x (automatic), y (requested 1), ScratchIndex of y, z (requested 0); sub: x again, w, v *)
Definition ex_inp : input :=
  [ [mkOp KStore [ASlot (auto 7)]; mkOp KStore [ASlot (req 8 1)]; mkOp KInt [ASlot (req 8 1)];
     mkOp KStore [ASlot (req 9 0)]; mkOp KLoad [ASlot (auto 7)]; mkOp KOther [ANum 5]];
    [mkOp KLoad [ASlot (auto 7)]; mkOp KStore [ASlot (auto 10)]; mkOp KStore [ASlot (auto 11)]; mkOp KLoad [ASlot (auto 10)]] ].

Example ex_assign :
  assign ex_inp true =
  Ok (mkAssignment
        [(req 9 0, 0); (req 8 1, 1); (auto 7, 2); (auto 10, 3); (auto 11, 4)]
        [ [mkOp KStore [ANum 2]; mkOp KStore [ANum 1]; mkOp KInt [ANum 1]; mkOp KStore [ANum 0]; mkOp KLoad [ANum 2]; mkOp KOther [ANum 5]];
          [mkOp KLoad [ANum 2]; mkOp KStore [ANum 3]; mkOp KStore [ANum 4]; mkOp KLoad [ANum 3]] ]
        [ [1; 0]; [4; 3] ]).
Proof. vm_compute. reflexivity. Qed.

(* the numbering loop skips requested ids, also when one equals the next automatic index after an
   earlier assignment: requested 0, 1, 3 and three automatic slots -> 2, 4, 5 *)
Definition ex_skip : input :=
  [ [mkOp KStore [ASlot (req 1 0)]; mkOp KStore [ASlot (req 2 1)]; mkOp KStore [ASlot (req 3 3)];
     mkOp KStore [ASlot (auto 4)]; mkOp KStore [ASlot (auto 5)]; mkOp KStore [ASlot (auto 6)]] ].
Example ex_skip_assign :
  match assign ex_skip true with
  | Ok a => map snd (r_map a) = [0; 1; 3; 2; 4; 5]
  | Err _ => False
  end.
Proof. vm_compute. reflexivity. Qed.

(* two different slot objects requesting id 5: rejected; the same object used twice: fine *)
Example ex_conflict : assign [[mkOp KStore [ASlot (req 1 5)]; mkOp KStore [ASlot (req 2 5)]]] true = Err (SlotIdAssignedTwice 5).
Proof. vm_compute. reflexivity. Qed.
Example ex_conflict_is_conflict : has_conflict [[mkOp KStore [ASlot (req 1 5)]; mkOp KStore [ASlot (req 2 5)]]].
Proof.
  exists 5, (req 1 5), (req 2 5). unfold referenced. cbn. repeat split; auto. discriminate.
Qed.
Example ex_same_object_twice :
  match assign [[mkOp KStore [ASlot (req 1 5)]; mkOp KLoad [ASlot (req 1 5)]]] true with Ok a => r_map a = [(req 1 5, 5)] | Err _ => False end.
Proof. vm_compute. reflexivity. Qed.

(* the limit: NUM_SLOTS automatic slots fit, one more is rejected.  [many k] references k different
   automatic slots, for every k, so both outcomes follow from the theorems without running the model *)
Definition many (k : nat) : input := [map (fun i => mkOp KStore [ASlot (auto (N.of_nat i))]) (seq 0 k)].

Lemma many_refs k : all_refs (many k) = map (fun i => auto (N.of_nat i)) (seq 0 k).
Proof.
  unfold many, all_refs, routine_refs. cbn [flat_map]. rewrite app_nil_r.
  induction (seq 0 k) as [|i t IH]; [reflexivity|]. cbn [map flat_map]. rewrite IH. reflexivity.
Qed.

Lemma many_auto k s : referenced (many k) s -> sl_res s = false.
Proof.
  unfold referenced. rewrite many_refs. intros H. apply in_map_iff in H. destruct H as (i & <- & _). reflexivity.
Qed.

Lemma many_count k : List.length (all_slots (many k)) = k.
Proof.
  transitivity (List.length (all_refs (many k))); [|rewrite many_refs, map_length; apply seq_length].
  apply Permutation_length, NoDup_Permutation; [apply all_slots_NoDup| |apply all_slots_spec].
  rewrite many_refs. apply FinFun.Injective_map_NoDup; [|apply seq_NoDup]. intros a b E. injection E as E _. lia.
Qed.

Lemma many_no_conflict k : ~ has_conflict (many k).
Proof. intros (i & s1 & s2 & H1 & _ & _ & R1 & _). rewrite (many_auto k s1 H1) in R1. discriminate R1. Qed.

Example ex_limit_ok :
  match assign (many (N.to_nat NUM_SLOTS)) true with
  | Ok a => forallb (fun kv => snd kv <? NUM_SLOTS) (r_map a) = true /\ List.length (r_map a) = N.to_nat NUM_SLOTS
  | Err _ => False
  end.
Proof.
  pose proof (set_order_refl (many (N.to_nat NUM_SLOTS))) as Ho.
  destruct (assign_error_iff_lemma _ _ true Ho) as (_ & _ & _ & H).
  destruct H as (a & Ea); [apply many_no_conflict|unfold slot_count; rewrite many_count; lia|reflexivity|].
  unfold assign. rewrite Ea. destruct (assign_ok_facts _ _ _ _ Ho Ea) as [Hk Hn _ _]. split.
  - apply forallb_forall. intros [s n] Hin. apply N.ltb_lt.
    refine (assign_in_range_lemma _ _ _ _ Ho _ Ea s n (In_lookup _ s n Hn Hin)).
    intros s' Hs R. rewrite (many_auto _ s' Hs) in R. discriminate R.
  - rewrite <- (map_length fst), <- (many_count (N.to_nat NUM_SLOTS)).
    apply Permutation_length, NoDup_Permutation; [exact Hn|apply all_slots_NoDup|].
    intros s. rewrite Hk, all_slots_spec. reflexivity.
Qed.
Example ex_limit_exceeded : assign (many (S (N.to_nat NUM_SLOTS))) true = Err (TooManySlots (NUM_SLOTS + 1)).
Proof.
  destruct (assign_error_iff_lemma (many (S (N.to_nat NUM_SLOTS))) _ true (set_order_refl _)) as (_ & H & _).
  unfold assign. rewrite H; [|apply many_no_conflict|]; unfold slot_count; rewrite many_count; reflexivity.
Qed.

(* hypotheses of the theorems hold for the example program *)
Example ex_valid : requested_ids_valid ex_inp.
Proof.
  intros s Hs R. unfold referenced in Hs. cbn in Hs.
  repeat (destruct Hs as [<-|Hs]; [first [discriminate R | vm_compute; reflexivity]|]). destruct Hs.
Qed.
Example ex_no_conflict : ~ has_conflict ex_inp.
Proof. apply (no_conflict_of_inr ex_inp (all_slots ex_inp) [0; 1] (set_order_refl _)). vm_compute. reflexivity. Qed.

(* constructor *)
Example ex_make_slots :
  make_slots [None; Some 3%Z; None; Some 255%Z] 0 256 =
  Some ([mkSlot 0 256 false; mkSlot 1 3 true; mkSlot 2 257 false; mkSlot 3 255 true], 258).
Proof. vm_compute. reflexivity. Qed.
Example ex_make_slots_invalid : make_slots [None; Some 256%Z] 0 256 = None /\ make_slots [Some (-1)%Z] 0 256 = None.
Proof. vm_compute. auto. Qed.

(* frame locals: from 126 locals, four allocations give indices 126, 127, then scratch *)
Example ex_alloc : alloc_many 4 (Some (MAX_FRAME_LOCAL_VARS - 2)) =
  ([FrameVarAt (MAX_FRAME_LOCAL_VARS - 2); FrameVarAt (MAX_FRAME_LOCAL_VARS - 1); ScratchVarNew; ScratchVarNew], Some MAX_FRAME_LOCAL_VARS).
Proof. vm_compute. reflexivity. Qed.

(* cells: x and y interleaved through store/stores/load/loads on the machine *)
Example ex_cells :
  let num := fun x : N => x + 10 in
  let cx := mkCtx true [] 0 [] [] 0 in
  match exec_actions cx num [Store 1 (VI 111); StoreDyn 2 (VI 222); Load 1; Store 2 (VI 333); LoadDyn 1; Load 2; Store 1 (VI 444); LoadDyn 2; Load 1]
                     [] (init_state [] [] []) with
  | OOk stk _ => stk = [VI 444; VI 333; VI 333; VI 111; VI 111]
  | _ => False
  end.
Proof. vm_compute. reflexivity. Qed.
