(* Proofs/TotalityChain.v — property C20, part 1: the straight-line fragment and what it lowers to.

   Fragment ([straight]): operator trees of any depth and width (EOp with plain immediates, NaryExpr),
   sequences of them nested to any depth (ESeq), Approve/Reject/ExitProgram (EExit) and the main
   routine's Return(e) — no branching, no loops, no scratch slots, no subroutine calls.  Every
   operator must pass PyTeal's own availability check ([op_version_ok]) and a caller-supplied
   predicate [okop] (used later for: present in the target version and mode, not store/load).

   Result ([lower_straight]): such an expression lowers to a DESCENDING CHAIN of simple blocks:
   the fragment occupies the ids [g_next g, g_next g'), the block with the lowest id is the
   fragment's end and continues with the continuation k, every other block i continues with i-1,
   and the fragment's start is the highest id.  One block per operator node, plus one (empty) per
   Seq: the chain is as long as the program. *)
From Coq Require Import List Arith NArith String Bool Lia.
From PV Require Import Base.Bytes AVM.Syntax Src.Expr Comp.Blocks Comp.Lower
  Proofs.LowerFrame Proofs.EndToEndExits.
Import ListNotations.

Definition plain_arg (a : arg) : bool := match a with AInt _ | AStr _ => true | _ => false end.

Lemma add_block_inc g b i g' : add_block g b = (i, g') -> g_inc g' = g_inc g.
Proof. unfold add_block. intros E. inversion E; subst. reflexivity. Qed.

(* number of blocks an expression of the fragment lowers to: one per operator node, one per Seq *)
Fixpoint blocks (e : expr) : nat :=
  match e with
  | EOp _ _ _ args => S (list_sum (map blocks args))
  | ENary _ _ args => (List.length args - 1) + list_sum (map blocks args)
  | ESeq es => S (list_sum (map blocks es))
  | EExit v => S (blocks v)
  | EReturn (Some v) => S (blocks v)
  | _ => 0
  end.

Section Fragment.
  Variable o : copts.
  Variable okop : opc -> bool.

  Fixpoint straight (e : expr) : bool :=
    match e with
    | EOp op imms _ args =>
        okop op && op_version_ok o op imms && forallb plain_arg imms && forallb straight args
    | ENary op _ args =>
        okop op && match args with [] => false | _ => true end && forallb straight args
    | ESeq es => forallb straight es
    | EExit v => okop O_return_ && straight v
    | EReturn (Some v) => okop O_return_ && types_match (type_of v) TUint && straight v
    | _ => false
    end.

  Definition good (i : instr) : Prop := okop (i_op i) = true /\ forallb plain_arg (i_args i) = true.

  (* successor of block i in a descending chain whose lowest block is lo and continues with k *)
  Definition nxt (lo i : nat) (k : option id) : option id := if Nat.eqb i lo then k else Some (i - 1).
  (* entry of the (possibly empty) chain [lo, hi) *)
  Definition top (lo hi : nat) (k : option id) : option id := if Nat.eqb lo hi then k else Some (hi - 1).

  Definition seg (g : graph) (lo hi : nat) (k : option id) : Prop :=
    forall i, lo <= i -> i < hi ->
      exists ops, g_blk g i = Some (BSimple ops (nxt lo i k)) /\ Forall good ops.

  Lemma seg_one g lo ops k : g_blk g lo = Some (BSimple ops k) -> Forall good ops -> seg g lo (S lo) k.
  Proof.
    intros B G i L1 L2. assert (i = lo) by lia. subst. exists ops. unfold nxt. rewrite Nat.eqb_refl. auto.
  Qed.

  Lemma seg_frame g g' lo hi k : frame g g' -> hi <= g_next g -> seg g lo hi k -> seg g' lo hi k.
  Proof.
    intros (_ & F & _) H S i L1 L2. destruct (S i L1 L2) as (ops & B & G). exists ops. split; [|exact G].
    rewrite F by lia. exact B.
  Qed.

  Lemma seg_app g lo mid hi k : lo <= mid -> seg g lo mid k -> seg g mid hi (top lo mid k) -> seg g lo hi k.
  Proof.
    intros L S1 S2 i L1 L2. destruct (Nat.lt_ge_cases i mid) as [C|C].
    - apply S1; assumption.
    - destruct (S2 i C L2) as (ops & B & G). exists ops. split; [|exact G]. rewrite B. f_equal. f_equal.
      unfold nxt, top. destruct (Nat.eqb_spec i mid) as [->|N1].
      + destruct (Nat.eqb_spec lo mid) as [->|N2]; [rewrite Nat.eqb_refl; reflexivity|].
        destruct (Nat.eqb_spec mid lo); [lia|reflexivity].
      + destruct (Nat.eqb_spec i lo); [lia|reflexivity].
  Qed.

  Lemma top_succ lo k : top lo (S lo) k = Some lo.
  Proof. unfold top. destruct (Nat.eqb_spec lo (S lo)); [lia|]. f_equal. lia. Qed.

  Lemma top_lt lo hi k : lo < hi -> top lo hi k = Some (hi - 1).
  Proof. intros L. unfold top. destruct (Nat.eqb_spec lo hi); [lia|reflexivity]. Qed.

  Lemma top_eq lo k : top lo lo k = k.
  Proof. unfold top. rewrite Nat.eqb_refl. reflexivity. Qed.

  (* what lowering one expression of the fragment yields: a chain of n blocks *)
  Definition one_res (k : option id) (g : graph) (s en : id) (g' : graph) (n : nat) : Prop :=
    frame g g' /\ g_inc g' = g_inc g /\ g_next g < g_next g' /\ s = g_next g' - 1 /\ en = g_next g /\
    seg g' (g_next g) (g_next g') k /\ g_next g' = g_next g + n.

  Definition lw_chain (lw : expr -> option id -> graph -> (id * id) * graph) (e : expr) : Prop :=
    forall k g s en g', wf g -> lw e k g = ((s, en), g') -> one_res k g s en g' (blocks e).

  (* ... and a list of them in sequence (possibly empty) *)
  Definition list_res (k : option id) (g : graph) (ks en : option id) (g' : graph) (n : nat) : Prop :=
    frame g g' /\ g_inc g' = g_inc g /\ g_next g <= g_next g' /\
    ks = top (g_next g) (g_next g') k /\
    en = (if Nat.eqb (g_next g) (g_next g') then None else Some (g_next g)) /\
    seg g' (g_next g) (g_next g') k /\ g_next g' = g_next g + n.

  Lemma list_res_nil k g : wf g -> list_res k g k None g 0.
  Proof.
    intros W. unfold list_res. rewrite top_eq, Nat.eqb_refl.
    split; [apply frame_refl; exact W|]. split; [reflexivity|]. split; [lia|].
    split; [reflexivity|]. split; [reflexivity|]. split; [intros i L1 L2; lia|lia].
  Qed.

  (* a chain on top of a chain *)
  Lemma list_res_app {k g kt endt g1 n ks x g2 m} :
    list_res k g kt endt g1 n -> list_res kt g1 ks x g2 m ->
    list_res k g ks (match endt with Some y => Some y | None => x end) g2 (n + m).
  Proof.
    intros (F1 & I1 & L1 & K1 & N1 & S1 & C1) (F2 & I2 & L2 & K2 & N2 & S2 & C2). unfold list_res.
    split; [eapply frame_trans; eauto|]. split; [congruence|]. split; [lia|]. subst kt endt ks x.
    split; [|split; [|split; [|lia]]].
    - unfold top. destruct (Nat.eqb_spec (g_next g1) (g_next g2)) as [Q|Q].
      + rewrite Q. reflexivity.
      + destruct (Nat.eqb_spec (g_next g) (g_next g2)); [lia|reflexivity].
    - destruct (Nat.eqb_spec (g_next g) (g_next g1)) as [Q|Q]; [rewrite Q; reflexivity|].
      destruct (Nat.eqb_spec (g_next g) (g_next g2)); [lia|reflexivity].
    - apply (seg_app _ _ (g_next g1)); [exact L1|eapply seg_frame; [exact F2|lia|exact S1]|exact S2].
  Qed.

  Lemma one_res_block {k g ops b g'} :
    wf g -> add_block g (BSimple ops k) = (b, g') -> Forall good ops -> one_res k g b b g' 1.
  Proof.
    intros W E G. destruct (add_block_spec _ _ _ _ W E) as (F & B & P & Q). unfold one_res. rewrite Q, <- P.
    split; [exact F|]. split; [exact (add_block_inc _ _ _ _ E)|].
    repeat (split; [lia|]). split; [exact (seg_one _ _ _ _ B G)|lia].
  Qed.

  Lemma list_res_one {k g s en g' n} : one_res k g s en g' n -> list_res k g (Some s) (Some en) g' n.
  Proof.
    intros (F & I & L & K & N & S & C). unfold list_res. repeat (split; [assumption || lia|]).
    split; [rewrite top_lt by lia; subst; reflexivity|].
    split; [destruct (Nat.eqb_spec (g_next g) (g_next g')); [lia|subst; reflexivity]|]. split; assumption.
  Qed.

  Lemma one_res_list {k g ks x g' n} : list_res k g ks x g' n -> g_next g < g_next g' ->
    exists s en, ks = Some s /\ x = Some en /\ one_res k g s en g' n.
  Proof.
    intros (F & I & L & K & N & S & C) Lt. exists (g_next g' - 1), (g_next g).
    split; [rewrite K; apply top_lt; exact Lt|].
    split; [rewrite N; destruct (Nat.eqb_spec (g_next g) (g_next g')); [lia|reflexivity]|].
    unfold one_res. repeat (split; [assumption || reflexivity|]). assumption.
  Qed.

  (* an expression on top of a chain *)
  Lemma one_on_chain {k g kt endt g1 n s e1 g2 m} :
    list_res k g kt endt g1 n -> one_res kt g1 s e1 g2 m -> one_res k g s (or_else endt e1) g2 (n + m).
  Proof.
    intros R1 R2.
    assert (Lt : g_next g < g_next g2) by (destruct R1 as (_ & _ & L1 & _), R2 as (_ & _ & L2 & _); lia).
    destruct (one_res_list (list_res_app R1 (list_res_one R2)) Lt) as (s' & en & [= <-] & Qe & R).
    replace (or_else endt e1) with en by (destruct endt; injection Qe as <-; reflexivity). exact R.
  Qed.

  Section Helpers.
    Variable lw : expr -> option id -> graph -> (id * id) * graph.

    Lemma lower_chain_chain es : Forall (lw_chain lw) es ->
      forall k g ks en g', wf g -> lower_chain lw es k g = ((ks, en), g') -> list_res k g ks en g' (list_sum (map blocks es)).
    Proof.
      induction 1 as [|e t He Ht IH]; intros k g ks en g' W E; cbn [lower_chain] in E.
      - inversion E; subst. apply list_res_nil; exact W.
      - destruct (lower_chain lw t k g) as [[kt endt] g1] eqn:E1.
        destruct (lw e kt g1) as [[s en0] g2] eqn:E2. inversion E; subst; clear E.
        pose proof (IH _ _ _ _ _ W E1) as R1.
        pose proof (list_res_one (He _ _ _ _ _ (frame_wf _ _ (proj1 R1)) E2)) as R2.
        replace (list_sum (map blocks (e :: t))) with (list_sum (map blocks t) + blocks e)
          by (unfold list_sum; cbn [map fold_right]; lia).
        exact (list_res_app R1 R2).
    Qed.

    Lemma lower_nary_rest_chain op l : okop op = true -> Forall (lw_chain lw) l ->
      forall k g ks en g', wf g -> lower_nary_rest lw op l k g = ((ks, en), g') ->
        list_res k g ks en g' (List.length l + list_sum (map blocks l)).
    Proof.
      intros OK. induction 1 as [|e t He Ht IH]; intros k g ks en g' W E; cbn [lower_nary_rest] in E.
      - inversion E; subst. apply list_res_nil; exact W.
      - destruct (lower_nary_rest lw op t k g) as [[kt endt] g1] eqn:E1.
        destruct (add_block g1 (BSimple [I op []] kt)) as [opb g2] eqn:E2.
        destruct (lw e (Some opb) g2) as [[s en0] g3] eqn:E3. inversion E; subst; clear E.
        pose proof (IH _ _ _ _ _ W E1) as R1.
        assert (G : Forall good [I op []]) by (constructor; [split; [exact OK|reflexivity]|constructor]).
        pose proof (list_res_one (one_res_block (frame_wf _ _ (proj1 R1)) E2 G)) as R2.
        pose proof (list_res_app R1 R2) as R12.
        pose proof (list_res_one (He _ _ _ _ _ (frame_wf _ _ (proj1 R12)) E3)) as R3.
        pose proof (list_res_app R12 R3) as R.
        destruct endt; cbv iota in R; cbn [or_some];
          (replace (List.length (e :: t) + list_sum (map blocks (e :: t)))
             with (List.length t + list_sum (map blocks t) + 1 + blocks e)
             by (unfold list_sum; cbn [List.length map fold_right]; lia)); exact R.
    Qed.
  End Helpers.

  Lemma forallb_Forall_chain (Q : expr -> Prop) (l : list expr) :
    Forall (fun e => straight e = true -> Q e) l -> forallb straight l = true -> Forall Q l.
  Proof.
    induction 1 as [|e t He Ht IH]; cbn [forallb]; intros H; [constructor|].
    apply andb_true_iff in H. destruct H as [H1 H2]. constructor; auto.
  Qed.

  Lemma ih_straight c (l : list expr) : l_sub_ret c = None ->
    Forall (fun e => straight e = true -> forall c, l_sub_ret c = None -> lw_chain (lower o c) e) l ->
    forallb straight l = true -> Forall (lw_chain (lower o c)) l.
  Proof.
    intros MC H. apply forallb_Forall_chain. eapply Forall_impl; [|exact H]. intros a Ha Sa. exact (Ha Sa c MC).
  Qed.

  (* an operation block with the chain of its arguments on top *)
  Lemma op_on_chain {k g ops opb g1 ks x g2 n} :
    wf g -> add_block g (BSimple ops k) = (opb, g1) -> Forall good ops -> list_res (Some opb) g1 ks x g2 n ->
    one_res k g (or_else ks opb) opb g2 (S n).
  Proof.
    intros W E G R2. pose proof (list_res_one (one_res_block W E G)) as R1.
    destruct (add_block_spec _ _ _ _ W E) as (_ & _ & P & Q).
    assert (Lt : g_next g < g_next g2) by (destruct R2 as (_ & _ & L & _); lia).
    destruct (one_res_list (list_res_app R1 R2) Lt) as (s & en & Ks & [= <-] & R).
    destruct R2 as (_ & _ & _ & K2 & _).
    replace (or_else ks opb) with s; [exact R|].
    destruct R as (_ & _ & _ & -> & _). subst ks. unfold top. rewrite Q.
    destruct (Nat.eqb_spec (S opb) (g_next g2)) as [<-|]; cbn [or_else]; lia.
  Qed.

  Theorem lower_straight e :
    straight e = true -> forall c, l_sub_ret c = None -> lw_chain (lower o c) e.
  Proof.
    induction e using expr_ind'; intros ST c MC k g s_ en_ g' W E; cbn [straight] in ST; try discriminate;
      cbn [lower] in E.
    - (* EOp *)
      apply andb_true_iff in ST. destruct ST as [ST A4].
      apply andb_true_iff in ST. destruct ST as [ST A3].
      apply andb_true_iff in ST. destruct ST as [A1 A2].
      pose proof (ih_straight _ _ MC H A4) as HA.
      destruct (add_block g (BSimple [I o0 imms] k)) as [opb g1] eqn:E1.
      destruct (lower_chain (lower o c) args (Some opb) g1) as [[ks x] g2] eqn:E2. injection E as <- <- <-.
      apply (lower_chain_chain _ _ HA _ _ _ _ _ (frame_wf _ _ (proj1 (add_block_spec _ _ _ _ W E1)))) in E2.
      refine (op_on_chain W E1 _ E2). constructor; [split; [exact A1|exact A3]|constructor].
    - (* ENary *)
      apply andb_true_iff in ST. destruct ST as [ST A3].
      apply andb_true_iff in ST. destruct ST as [A1 A2].
      destruct args as [|a1 rest]; [discriminate|].
      inversion H as [|? ? H1 HR]; subst.
      cbn [forallb] in A3. apply andb_true_iff in A3. destruct A3 as [B1 B2].
      pose proof (ih_straight _ _ MC HR B2) as HA.
      destruct (lower_nary_rest (lower o c) o0 rest k g) as [[krest endrest] g1] eqn:E1.
      destruct (lower o c a1 krest g1) as [[s1 e1] g2] eqn:E2. injection E as <- <- <-.
      apply (lower_nary_rest_chain _ _ _ A1 HA _ _ _ _ _ W) in E1.
      apply (H1 B1 c MC _ _ _ _ _ (frame_wf _ _ (proj1 E1))) in E2.
      replace (blocks (ENary o0 t (a1 :: rest))) with (List.length rest + list_sum (map blocks rest) + blocks a1)
        by (cbn [blocks]; unfold list_sum; cbn [List.length map fold_right]; lia).
      exact (one_on_chain E1 E2).
    - (* ESeq *)
      pose proof (ih_straight _ _ MC H ST) as HA.
      destruct (lower_chain (lower o c) es k g) as [[ks en0] g1] eqn:E1.
      destruct (add_block g1 (BSimple [] ks)) as [st g2] eqn:E2. injection E as <- <- <-.
      apply (lower_chain_chain _ _ HA _ _ _ _ _ W) in E1.
      replace (blocks (ESeq es)) with (list_sum (map blocks es) + 1) by (cbn [blocks]; lia).
      exact (one_on_chain E1 (one_res_block (frame_wf _ _ (proj1 E1)) E2 (Forall_nil _))).
    - (* EReturn *)
      destruct v as [x|]; [|discriminate].
      apply andb_true_iff in ST. destruct ST as [ST A3].
      apply andb_true_iff in ST. destruct ST as [A1 A2].
      rewrite MC in E.
      destruct (add_block g (BSimple [I O_return_ []] k)) as [opb g1] eqn:E1.
      destruct (lower o c x (Some opb) g1) as [[s0 xe] g2] eqn:E2. injection E as <- <- <-.
      apply (opt_all_some _ _ H A3 c MC _ _ _ _ _ (frame_wf _ _ (proj1 (add_block_spec _ _ _ _ W E1)))) in E2.
      refine (op_on_chain W E1 _ (list_res_one E2)).
      constructor; [split; [exact A1|reflexivity]|constructor].
    - (* EExit *)
      apply andb_true_iff in ST. destruct ST as [A1 A3].
      destruct (add_block g (BSimple [I O_return_ []] k)) as [opb g1] eqn:E1.
      destruct (lower o c e (Some opb) g1) as [[s0 xe] g2] eqn:E2. injection E as <- <- <-.
      apply (IHe A3 c MC _ _ _ _ _ (frame_wf _ _ (proj1 (add_block_spec _ _ _ _ W E1)))) in E2.
      refine (op_on_chain W E1 _ (list_res_one E2)).
      constructor; [split; [exact A1|reflexivity]|constructor].
  Qed.

  (* PyTeal's own checks accept the fragment (main routine, outside any loop) *)
  Lemma straight_check e : straight e = true -> check_expr o None false e = None.
  Proof.
    induction e using expr_ind'; intros ST; cbn [straight] in ST; try discriminate; cbn [check_expr].
    - apply andb_true_iff in ST. destruct ST as [ST A4].
      apply andb_true_iff in ST. destruct ST as [ST A3].
      apply andb_true_iff in ST. destruct ST as [A1 A2]. rewrite A2.
      apply first_err_none_iff. apply Forall_map.
      apply forallb_Forall_chain; [|exact A4]. exact H.
    - apply andb_true_iff in ST. destruct ST as [ST A3].
      apply first_err_none_iff. apply Forall_map.
      apply forallb_Forall_chain; [|exact A3]. exact H.
    - apply first_err_none_iff. apply Forall_map.
      apply forallb_Forall_chain; [|exact ST]. exact H.
    - destruct v as [x|]; [|discriminate].
      apply andb_true_iff in ST. destruct ST as [ST A3].
      apply andb_true_iff in ST. destruct ST as [A1 A2]. rewrite A2.
      inversion H as [|? Hx]; subst. apply Hx. exact A3.
    - apply andb_true_iff in ST. destruct ST as [A1 A3]. apply IHe. exact A3.
  Qed.

  Lemma no_continue_list b (l : list expr) :
    Forall (fun e => straight e = true -> has_bad_continue b e = false) l ->
    forallb straight l = true -> existsb (has_bad_continue b) l = false.
  Proof.
    induction 1 as [|a tl Ha Ht IH]; cbn [existsb forallb]; intros A; [reflexivity|].
    apply andb_true_iff in A. destruct A as [X Y]. rewrite (Ha X), (IH Y). reflexivity.
  Qed.

  Lemma straight_no_continue b e : straight e = true -> has_bad_continue b e = false.
  Proof.
    induction e using expr_ind'; intros ST; cbn [straight] in ST; try discriminate; cbn [has_bad_continue].
    - apply andb_true_iff in ST. exact (no_continue_list b _ H (proj2 ST)).
    - apply andb_true_iff in ST. exact (no_continue_list b _ H (proj2 ST)).
    - exact (no_continue_list b _ H ST).
    - destruct v as [x|]; [|discriminate].
      apply andb_true_iff in ST. exact (opt_all_some _ _ H (proj2 ST)).
    - apply andb_true_iff in ST. exact (IHe (proj2 ST)).
  Qed.
End Fragment.
