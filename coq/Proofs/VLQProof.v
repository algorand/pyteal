(* Proofs/VLQProof.v — round trip of the hand model Lit/VLQ.v for all integers. *)
From Coq Require Import ZArith List Bool Ascii String Lia.
From PV Require Import Lit.VLQ.
Import ListNotations.
Local Open Scope Z_scope.

Definition digits64 : list Z := map Z.of_nat (seq 0 64).
Definition digits32 : list Z := map Z.of_nat (seq 0 32).

Lemma in_digits : forall n d, 0 <= d < Z.of_nat n -> In d (map Z.of_nat (seq 0 n)).
Proof.
  intros n d H. rewrite <- (Z2Nat.id d) by lia.
  apply in_map. apply in_seq. lia.
Qed.

Lemma digit_char_val : forall d, 0 <= d < 64 -> b64_val (b64_char d) = Some d.
Proof.
  intros d H.
  assert (A : forallb (fun d => match b64_val (b64_char d) with Some x => x =? d | None => false end) digits64 = true)
    by (vm_compute; reflexivity).
  rewrite forallb_forall in A. specialize (A d (in_digits 64 d H)).
  destruct (b64_val (b64_char d)) as [x|]; [|discriminate].
  apply Z.eqb_eq in A. congruence.
Qed.

Lemma digit_bits : forall d, 0 <= d < 32 ->
  Z.land d 31 = d /\ Z.land d 32 = 0 /\ Z.land (d + 32) 31 = d /\ Z.land (d + 32) 32 = 32.
Proof.
  intros d H.
  assert (A : forallb (fun d => (Z.land d 31 =? d) && (Z.land d 32 =? 0) && (Z.land (d + 32) 31 =? d) && (Z.land (d + 32) 32 =? 32)) digits32 = true)
    by (vm_compute; reflexivity).
  rewrite forallb_forall in A. specialize (A d (in_digits 32 d H)).
  repeat (apply andb_prop in A; destruct A as [A ?]).
  repeat match goal with E : (_ =? _) = true |- _ => apply Z.eqb_eq in E end.
  auto.
Qed.

Lemma vlq_sign_nonneg : forall z, 0 <= vlq_sign z.
Proof. intros z. unfold vlq_sign. destruct (z <? 0); lia. Qed.

Lemma vlq_unsign_sign : forall z, vlq_unsign (vlq_sign z) = z.
Proof.
  intros z. unfold vlq_sign, vlq_unsign. set (b := if z <? 0 then 1 else 0).
  rewrite (Z.add_comm _ b), Z.odd_add_mul_2.
  replace (b + 2 * Z.abs z) with (b + Z.abs z * 2) by lia. rewrite Z.div_add by lia.
  subst b. destruct (Z.ltb_spec z 0); cbn; lia.
Qed.

Lemma div32_small : forall f n, 0 <= n < 2 ^ Z.of_nat (S f) -> 0 <= n / 32 < 2 ^ Z.of_nat f.
Proof.
  intros f n [H0 H1]. split.
  - apply Z.div_pos; lia.
  - rewrite Nat2Z.inj_succ, Z.pow_succ_r in H1 by lia.
    apply Z.div_lt_upper_bound; lia.
Qed.

Lemma vlq_digits_fuel_irrelevant : forall f1 f2 n,
  0 <= n < 2 ^ Z.of_nat f1 -> n < 2 ^ Z.of_nat f2 -> vlq_digits f1 n = vlq_digits f2 n.
Proof.
  induction f1 as [|a IH]; intros f2 n H1 H2.
  - cbn in H1. assert (n = 0) by lia. subst n. destruct f2; reflexivity.
  - destruct f2 as [|b].
    + cbn in H2. assert (n = 0) by lia. subst n. reflexivity.
    + cbn [vlq_digits]. destruct (n / 32 =? 0); [reflexivity|].
      f_equal. apply IH.
      * apply div32_small; exact H1.
      * apply (div32_small b n). lia.
Qed.

Lemma vlq_fuel_adequate : forall n, 0 <= n -> n < 2 ^ Z.of_nat (vlq_fuel n).
Proof.
  intros n H. unfold vlq_fuel.
  destruct (Z.eq_dec n 0) as [->|Hn].
  - cbn. lia.
  - rewrite Z2Nat.id by (pose proof (Z.log2_nonneg n); lia).
    replace (Z.log2 n + 1) with (Z.succ (Z.log2 n)) by lia.
    apply Z.log2_spec. lia.
Qed.

Lemma vlq_digits_range : forall f n, 0 <= n -> Forall (fun d => 0 <= d < 64) (vlq_digits f n).
Proof.
  induction f as [|f IH]; intros n H; cbn [vlq_digits].
  - constructor; [|constructor]. pose proof (Z.mod_pos_bound n 32). lia.
  - pose proof (Z.mod_pos_bound n 32).
    destruct (n / 32 =? 0).
    + constructor; [lia|constructor].
    + constructor; [lia|]. apply IH. apply Z.div_pos; lia.
Qed.

Lemma vlq_digits_nonempty : forall f n, vlq_digits f n <> [].
Proof. intros [|f] n; cbn [vlq_digits]; [discriminate|]. destruct (n / 32 =? 0); discriminate. Qed.

(* the decoder reads back one number, whatever follows *)
Lemma vlq_dec_digits : forall f n rest shift value,
  0 <= n < 2 ^ Z.of_nat f -> 0 <= shift ->
  vlq_dec (vlq_digits f n ++ rest) shift value = vlq_unsign (value + n * 2 ^ shift) :: vlq_dec rest 0 0.
Proof.
  induction f as [|f IH]; intros n rest shift value Hn Hs.
  - cbn in Hn. assert (n = 0) by lia. subst n.
    cbn [vlq_digits app vlq_dec]. change (0 mod 32) with 0. cbn [Z.land Z.eqb Z.mul]. reflexivity.
  - cbn [vlq_digits].
    pose proof (Z.mod_pos_bound n 32 ltac:(lia)) as Hm.
    destruct (digit_bits (n mod 32) Hm) as (B1 & B2 & B3 & B4).
    pose proof (Z.div_mod n 32 ltac:(lia)) as Hdm.
    destruct (Z.eqb_spec (n / 32) 0) as [Hq|Hq].
    + cbn [app vlq_dec]. rewrite B1, B2. cbn [Z.eqb].
      replace (n mod 32) with n by lia. reflexivity.
    + cbn [app vlq_dec]. rewrite B3, B4. cbn [Z.eqb].
      rewrite IH; [|apply div32_small; exact Hn|lia].
      f_equal. f_equal.
      rewrite Z.pow_add_r by lia. change (2 ^ 5) with 32.
      remember (n / 32) as q. remember (n mod 32) as r. remember (2 ^ shift) as p.
      rewrite Hdm. ring.
Qed.

Lemma vlq_dec_encode_digits : forall l, vlq_dec (vlq_encode_digits l) 0 0 = l.
Proof.
  induction l as [|z l IH]; [reflexivity|].
  unfold vlq_encode_digits in *. cbn [flat_map]. unfold vlq_encode_one at 1.
  rewrite vlq_dec_digits.
  - rewrite IH. f_equal. cbn [Z.pow]. rewrite Z.mul_1_r, Z.add_0_l. apply vlq_unsign_sign.
  - split; [apply vlq_sign_nonneg|]. apply vlq_fuel_adequate. apply vlq_sign_nonneg.
  - lia.
Qed.

Lemma vlq_encode_digits_range : forall l, Forall (fun d => 0 <= d < 64) (vlq_encode_digits l).
Proof.
  induction l as [|z l IH]; [constructor|].
  unfold vlq_encode_digits in *. cbn [flat_map]. apply Forall_app. split; [|exact IH].
  apply vlq_digits_range. apply vlq_sign_nonneg.
Qed.

Lemma vals_of_chars : forall ds, Forall (fun d => 0 <= d < 64) ds -> vals_of (map b64_char ds) = Some ds.
Proof.
  induction ds as [|d ds IH]; intros H; [reflexivity|].
  inversion H as [|? ? Hd Hds]; subst.
  cbn [map vals_of]. rewrite digit_char_val by exact Hd. rewrite IH by exact Hds. reflexivity.
Qed.

Lemma vlq_chars_roundtrip : forall l, vlq_decode_chars (vlq_encode_chars l) = Some l.
Proof.
  intros l. unfold vlq_decode_chars, vlq_encode_chars.
  rewrite vals_of_chars by apply vlq_encode_digits_range.
  rewrite vlq_dec_encode_digits. reflexivity.
Qed.

Lemma vlq_roundtrip_hand : forall l : list Z, vlq_decode (vlq_encode l) = Some l.
Proof.
  intros l. unfold vlq_decode, vlq_encode.
  rewrite list_ascii_of_string_of_list_ascii. apply vlq_chars_roundtrip.
Qed.

(* an encoded non-empty field list is a non-empty text over the alphabet *)
Lemma vlq_encode_chars_nonempty : forall l, l <> [] -> vlq_encode_chars l <> [].
Proof.
  intros [|z l] H; [congruence|].
  unfold vlq_encode_chars, vlq_encode_digits. cbn [flat_map]. unfold vlq_encode_one.
  destruct (vlq_digits (vlq_fuel (vlq_sign z)) (vlq_sign z)) eqn:E.
  - exfalso. exact (vlq_digits_nonempty _ _ E).
  - discriminate.
Qed.

Lemma b64_char_not_sep : forall d, 0 <= d < 64 ->
  b64_char d <> ","%char /\ b64_char d <> ";"%char.
Proof.
  intros d H.
  assert (A : forallb (fun d => negb (Ascii.eqb (b64_char d) ",") && negb (Ascii.eqb (b64_char d) ";")) digits64 = true)
    by (vm_compute; reflexivity).
  rewrite forallb_forall in A. specialize (A d (in_digits 64 d H)).
  apply andb_prop in A. destruct A as [A1 A2].
  apply negb_true_iff in A1, A2. apply Ascii.eqb_neq in A1, A2. auto.
Qed.

Lemma vlq_encode_chars_no_sep : forall l c, (c = ","%char \/ c = ";"%char) -> ~ In c (vlq_encode_chars l).
Proof.
  intros l c Hc Hin. unfold vlq_encode_chars in Hin. apply in_map_iff in Hin.
  destruct Hin as (d & Hd & Hin).
  pose proof (vlq_encode_digits_range l) as R. rewrite Forall_forall in R.
  destruct (b64_char_not_sep d (R d Hin)) as [N1 N2].
  destruct Hc; subst; congruence.
Qed.
