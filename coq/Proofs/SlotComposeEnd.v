(* Proofs/SlotComposeEnd.v — the end-to-end theorem of C01 for one routine WITH the slot assignment
   composed in: source semantics -> compile_one -> assign_slots (ASlot u |-> AInt (look u)) -> sortBlocks
   -> flattenBlocks, in the order compile_components runs them (without the optimiser).
     routine_end_to_end_rewritten : for any numbering [look]
     routine_end_to_end_slots     : for the numbering a successful [assign_slots] computes; the range
                                    hypothesis is discharged by [assign_look_in_range]
   Composed in CallX/SlotComposeEnd.v, for the semantics with a call oracle. *)
From Coq Require Import List Arith NArith String Bool Lia.
From PV Require Import Base.Bytes AVM.Syntax AVM.Machine Src.Expr Src.Denote
  Comp.Blocks Comp.Lower Comp.Passes Comp.GraphSem Comp.LinearSem Comp.SimCheck Comp.Compile
  Proofs.LowerFrame Proofs.LowerCorrect Proofs.LowerShape
  Proofs.NormalizeLowered Proofs.FlattenCorrect Proofs.EndToEndGlue Proofs.EndToEnd
  Proofs.SlotCompose Proofs.SlotComposeAssign Proofs.OracleTransfer.
From PV Require CallX.SlotComposeEnd.
Import ListNotations.

(* for ANY numbering: under agreement + range on the routine's slots *)
Theorem routine_end_to_end_rewritten o sub ast0 cr look order code :
  (match sub with Some r => r_deferred r | None => None end) = None ->
  compile_one o sub ast0 = COk cr ->
  head_loop (root_ast ast0) = false ->
  let cr' := rw_routine look cr in
  sort_blocks (cr_graph cr') (cr_start cr') (cr_end cr') = Some order ->
  flatten_blocks (cr_graph cr') order = Some code ->
  pos_of (cr_graph cr') order (cr_start cr') = 0 /\
  forall env, consistent env (routine_ctx o sub) ->
  slots_ok env look (routine_slots cr) ->
  forall fuel stk st h, halt_of (denote env fuel (root_ast ast0) stk st) = Some h ->
    lstar env code (LAt 0 stk st) h /\
    forall c2, lstar env code (LAt 0 stk st) c2 -> lfinal c2 = true -> c2 = h.
Proof.
  intros D E HL cr' HS HF.
  destruct (CallX.SlotComposeEnd.routine_end_to_end_rewritten o sub ast0 cr look order code D E HL HS HF) as [P Q].
  split; [exact P|]. intros env Hc Hok fuel stk st h Hh.
  apply lstar_unique_lift. exact (Q (lift env) Hc Hok fuel stk st h (halt_of_lift _ _ _ _ _ _ Hh)).
Qed.

(* for the numbering assign_slots computes: the routine is one of the routines handed to the assignment;
   its rewritten form is in the result; the only hypothesis left about the numbers is that requested ids
   are valid scratch numbers; the environment's variable numbering is the assignment *)
Theorem routine_end_to_end_slots o sub ast0 cr p crs crs' locals asg :
  (match sub with Some r => r_deferred r | None => None end) = None ->
  compile_one o sub ast0 = COk cr ->
  head_loop (root_ast ast0) = false ->
  In cr crs ->
  assign_slots p crs = COk (crs', locals, asg) ->
  requested_valid p (all_slots crs) ->
  let cr' := rw_routine (look_of asg) cr in
  In cr' crs' /\
  forall order code,
  sort_blocks (cr_graph cr') (cr_start cr') (cr_end cr') = Some order ->
  flatten_blocks (cr_graph cr') order = Some code ->
  pos_of (cr_graph cr') order (cr_start cr') = 0 /\
  forall env, consistent env (routine_ctx o sub) ->
  agree_on env (look_of asg) (routine_slots cr) ->
  forall fuel stk st h, halt_of (denote env fuel (root_ast ast0) stk st) = Some h ->
    lstar env code (LAt 0 stk st) h /\
    forall c2, lstar env code (LAt 0 stk st) c2 -> lfinal c2 = true -> c2 = h.
Proof.
  intros D E HL Hin HA HV cr'.
  destruct (CallX.SlotComposeEnd.routine_end_to_end_slots o sub ast0 cr p crs crs' locals asg D E HL Hin HA HV)
    as [P Q].
  split; [exact P|]. intros order code HS HF. destruct (Q order code HS HF) as [P0 T].
  split; [exact P0|]. intros env Hc Hag fuel stk st h Hh.
  apply lstar_unique_lift. exact (T (lift env) Hc Hag fuel stk st h (halt_of_lift _ _ _ _ _ _ Hh)).
Qed.
