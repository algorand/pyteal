(* Proofs/SlotsCells.v — C10: with an injective, in-range numbering every variable is its own
   scratch cell on the AVM of AVM/Machine.v: a load returns the value last stored to the SAME
   variable, whatever is stored to other variables in between, through load/store and through
   loads/stores (DynamicScratchVar) alike. *)
From Coq Require Import List NArith Bool Lia.
From PV Require Import Base.Bytes AVM.Syntax AVM.Ops AVM.Machine Gen.SlotConfig Comp.Slots Proofs.SlotsProof Proofs.ExecOpFacts.
Import ListNotations.
Local Open Scope N_scope.

(* one access to a variable of type V *)
Inductive action (V : Type) : Type :=
| Store (x : V) (v : value)        (* v is on the stack;  store <number of x> *)
| Load (x : V)                     (* load <number of x> *)
| StoreDyn (x : V) (v : value)     (* int <number of x> (ScratchIndex) below v on the stack;  stores *)
| LoadDyn (x : V).                 (* int <number of x> on the stack;  loads *)
Arguments Store {V}. Arguments Load {V}. Arguments StoreDyn {V}. Arguments LoadDyn {V}.

Definition var_of {V} (act : action V) : V :=
  match act with Store x _ | Load x | StoreDyn x _ | LoadDyn x => x end.

(* the machine: each action is executed by AVM/Machine.exec_op with the variable's slot number *)
Definition exec_action {V} (cx : ctx) (num : V -> N) (act : action V) (stk : list value) (st : mstate) : ores :=
  match act with
  | Store x v => exec_op cx O_store [IInt (num x)] (v :: stk) st
  | Load x => exec_op cx O_load [IInt (num x)] stk st
  | StoreDyn x v => exec_op cx O_stores [] (v :: VI (num x) :: stk) st
  | LoadDyn x => exec_op cx O_loads [] (VI (num x) :: stk) st
  end.

Fixpoint exec_actions {V} (cx : ctx) (num : V -> N) (acts : list (action V)) (stk : list value) (st : mstate) : ores :=
  match acts with
  | [] => OOk stk st
  | act :: t =>
      match exec_action cx num act stk st with
      | OOk stk' st' => exec_actions cx num t stk' st'
      | r => r
      end
  end.

(* the specification: variables are independent cells *)
Definition upd {V} (dec : forall x y : V, {x = y} + {x <> y}) (e : V -> value) (x : V) (v : value) : V -> value :=
  fun y => if dec y x then v else e y.

Fixpoint spec_run {V} (dec : forall x y : V, {x = y} + {x <> y}) (acts : list (action V))
         (e : V -> value) (out : list value) : (V -> value) * list value :=
  match acts with
  | [] => (e, out)
  | Store x v :: t => spec_run dec t (upd dec e x v) out
  | StoreDyn x v :: t => spec_run dec t (upd dec e x v) out
  | Load x :: t => spec_run dec t e (e x :: out)
  | LoadDyn x :: t => spec_run dec t e (e x :: out)
  end.

Lemma set_scratch_other st i v :
  s_global (set_scratch st i v) = s_global st /\ s_local (set_scratch st i v) = s_local st /\
  s_boxes (set_scratch st i v) = s_boxes st /\ s_trace (set_scratch st i v) = s_trace st.
Proof. unfold set_scratch. cbn. auto. Qed.

(* the value an action writes to its variable; a read writes none *)
Definition written {V} (act : action V) : option value :=
  match act with Store _ v | StoreDyn _ v => Some v | Load _ | LoadDyn _ => None end.

(* store and stores write the cell, load and loads read it *)
Lemma exec_action_cell {V} cx (num : V -> N) (act : action V) stk st : num (var_of act) < 256 ->
  exec_action cx num act stk st =
  match written act with
  | Some v => OOk stk (set_scratch st (num (var_of act)) v)
  | None => OOk (scratch_get (s_scratch st) (num (var_of act)) :: stk) st
  end.
Proof.
  intros H. apply N.ltb_lt in H.
  destruct act; cbn [var_of] in H; unfold exec_action, exec_op; cbn [exec_pure imms_to_args]; rewrite H; reflexivity.
Qed.

Lemma spec_run_cons {V} dec (act : action V) t e out :
  spec_run dec (act :: t) e out =
  match written act with
  | Some v => spec_run dec t (upd dec e (var_of act) v) out
  | None => spec_run dec t e (e (var_of act) :: out)
  end.
Proof. destruct act; reflexivity. Qed.

Lemma cells_independent_lemma : forall (V : Type) (dec : forall x y : V, {x = y} + {x <> y})
    (num : V -> N) (vars : list V) (cx : ctx) (acts : list (action V)) (stk : list value) (st : mstate) (e : V -> value),
  (forall x, In x vars -> num x < 256) ->
  (forall x y, In x vars -> In y vars -> num x = num y -> x = y) ->
  Forall (fun act => In (var_of act) vars) acts ->
  (forall x, In x vars -> scratch_get (s_scratch st) (num x) = e x) ->
  exists st',
    exec_actions cx num acts stk st = OOk (snd (spec_run dec acts e stk)) st' /\
    (forall x, In x vars -> scratch_get (s_scratch st') (num x) = fst (spec_run dec acts e stk) x) /\
    s_trace st' = s_trace st /\ s_global st' = s_global st /\ s_local st' = s_local st /\ s_boxes st' = s_boxes st.
Proof.
  intros V dec num vars cx acts. induction acts as [|act acts IH]; intros stk st e Hrange Hinj Hacts Hagree.
  - exists st. cbn. repeat split; auto.
  - inversion Hacts as [|? ? Hin Hrest]; subst.
    cbn [exec_actions]. rewrite (exec_action_cell cx num act stk st (Hrange _ Hin)), spec_run_cons.
    set (x := var_of act) in *. destruct (written act) as [v|].
    + destruct (IH stk (set_scratch st (num x) v) (upd dec e x v) Hrange Hinj Hrest) as [st' [H1 [H2 H3]]].
      { intros y Hy. rewrite scratch_get_set. unfold upd. destruct (dec y x) as [->|Hne].
        - rewrite N.eqb_refl. reflexivity.
        - destruct (N.eqb_spec (num y) (num x)) as [Heq|_]; [exfalso; apply Hne; apply Hinj; auto | apply Hagree; auto]. }
      exists st'. split; [exact H1|]. split; [exact H2|exact H3].
    + rewrite (Hagree x Hin). exact (IH (e x :: stk) st e Hrange Hinj Hrest Hagree).
Qed.

(* instantiated with the numbering the compiler model produces *)
Lemma cells_independent_assigned_lemma : forall inp order v asg, set_order inp order -> requested_ids_valid inp ->
  assign_in_order order inp v = Ok asg ->
  forall (cx : ctx) (acts : list (action slot)) (stk : list value) (st : mstate) (e : slot -> value),
  Forall (fun act => referenced inp (var_of act)) acts ->
  (forall s, referenced inp s -> scratch_get (s_scratch st) (number_of (r_map asg) s) = e s) ->
  exists st',
    exec_actions cx (number_of (r_map asg)) acts stk st = OOk (snd (spec_run slot_eq_dec acts e stk)) st' /\
    (forall s, referenced inp s -> scratch_get (s_scratch st') (number_of (r_map asg) s) = fst (spec_run slot_eq_dec acts e stk) s) /\
    s_trace st' = s_trace st.
Proof.
  intros inp order v asg Hord Hvalid H cx acts stk st e Hacts Hagree.
  pose proof (assign_total_lemma _ _ _ _ Hord H) as Htot.
  assert (Hnum : forall s, referenced inp s -> lookup (r_map asg) s = Some (number_of (r_map asg) s)).
  { intros s Hs. destruct (proj1 (Htot s) Hs) as [n Hn]. unfold number_of. rewrite Hn. reflexivity. }
  destruct (cells_independent_lemma slot slot_eq_dec (number_of (r_map asg)) (all_slots inp) cx acts stk st e) as [st' [H1 [H2 [H3 _]]]].
  - intros s Hs. apply all_slots_spec in Hs. pose proof (assign_in_range_lemma _ _ _ _ Hord Hvalid H s _ (Hnum s Hs)).
    pose proof num_slots_fits_avm. lia.
  - intros s1 s2 H1 H2 Heq. apply all_slots_spec in H1, H2.
    apply (assign_injective_lemma _ _ _ _ Hord H s1 s2 (number_of (r_map asg) s1)); [apply Hnum; auto|].
    rewrite Heq. apply Hnum; auto.
  - eapply Forall_impl; [|exact Hacts]. intros act Hact. apply all_slots_spec. exact Hact.
  - intros s Hs. apply Hagree. apply all_slots_spec. exact Hs.
  - exists st'. split; [exact H1|]. split; [|exact H3]. intros s Hs. apply H2. apply all_slots_spec. exact Hs.
Qed.
