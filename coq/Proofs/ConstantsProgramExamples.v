(* Proofs/ConstantsProgramExamples.v — C12 whole-program theorem: non-vacuity and necessity examples.
   ex_ops: a counting loop (three rounds) whose body uses five repeated integers (1000..4000 go to the block, 7 is
   the fifth and below 128: stays pushint), a repeated template integer (block entry 4: long form intc 4), a named
   constant, two byte strings each in two spellings, and a method selector.  The assembled form below is, line for
   line, what pyteal.compiler.constants.createConstantBlocks returns on /repo for the same ops. *)
From Coq Require Import List Arith NArith Ascii String Bool Lia.
From PV Require Import Base.Bytes Base.U64 Base.Sexp AVM.Syntax AVM.Ops AVM.Machine AVM.Parse
  Src.Expr Comp.Lower Comp.Compile
  Comp.Assemble Comp.Constants Comp.ConstantsSpec Proofs.C18Text Proofs.StageEText Proofs.ConstantsProof Proofs.ConstantsSim
  Proofs.ConstantsProgramMach Proofs.ConstantsProgramLink Proofs.ConstantsProgram
  Proofs.ConstantsProgramText Proofs.ConstantsProgramCompile.
Import ListNotations.
Local Open Scope string_scope.

Definition op (o : opc) (a : list arg) : comp := COp (mkI o a).
Definition sig_add : string := "add(uint64,uint64)uint64".
(* first four bytes of SHA-512/256 of the signature (computed with algosdk): fe6bdf69 *)
Definition sel_add : bytes := [ascii_of_N 254; ascii_of_N 107; ascii_of_N 223; ascii_of_N 105].
Definition ex_sig_hash : string -> bytes := fun _ => (sel_add ++ sel_add)%list.
Definition ex_msel : list (string * bytes) := [(sig_add, sel_add)].
Definition ex_sigma : string -> string := fun _ => "5000".

Definition ex_ops_gen (fee : arg) : list comp :=
  [ op O_int [AInt 0]; op O_store [AInt 0];
    CLabel "main_l1" None;
    op O_load [AInt 0]; op O_int [AInt 3]; op O_lt []; op O_bz [ALbl "main_l3"];
    op O_byte [AStr """ab"""]; op O_byte [AStr "0x6162"]; op O_eq []; op O_assert_ [];
    op O_byte [AStr """xyz"""]; op O_len []; op O_pop [];
    op O_byte [AStr "base64(eHl6)"]; op O_pop [];
    op O_method_signature [AStr """add(uint64,uint64)uint64"""]; op O_len []; op O_int [AInt 4]; op O_eq []; op O_assert_ [];
    op O_int [AInt 1000]; op O_int [AInt 2000]; op O_int [AInt 3000]; op O_int [AInt 4000];
    op O_int [AInt 7]; op O_int [fee];
    op O_pop []; op O_pop []; op O_pop []; op O_pop []; op O_pop []; op O_pop [];
    op O_int [AInt 1000]; op O_int [AInt 2000]; op O_int [AInt 3000]; op O_int [AInt 4000];
    op O_int [AInt 7]; op O_int [fee];
    op O_add []; op O_add []; op O_add []; op O_add []; op O_add [];
    op O_int [AInt 15007]; op O_eq []; op O_assert_ [];
    op O_load [AInt 0]; op O_int [AStr "pay"]; op O_add []; op O_store [AInt 0];
    op O_b [ALbl "main_l1"];
    CLabel "main_l3" None;
    op O_int [AInt 9]; op O_return_ [] ].
Definition ex_ops : list comp := ex_ops_gen (AStr "TMPL_FEE").
(* the same program without placeholder (for the text-level theorem) *)
Definition ex_ops_t : list comp := ex_ops_gen (AInt 5000).

Definition ex_cx : ctx := mkCtx true [] 0 [] [] 0.
Definition ex_st : mstate := init_state [] [] [].

Definition ex_out : list comp :=
  Eval vm_compute in match create_constant_blocks no_hash ex_sig_hash ex_ops with Some o => o | None => [] end.

Example ex_created : create_constant_blocks no_hash ex_sig_hash ex_ops = Some ex_out.
Proof. vm_compute. reflexivity. Qed.

Example ex_out_text :
  assemble_all ex_out =
  Some ["intcblock 1000 2000 3000 4000 TMPL_FEE"; "bytecblock 0x6162 0x78797a"; "pushint 0 // 0"; "store 0";
        "main_l1:"; "load 0"; "pushint 3 // 3"; "<"; "bz main_l3";
        "bytec_0 // ""ab"""; "bytec_0 // 0x6162"; "=="; "assert";
        "bytec_1 // ""xyz"""; "len"; "pop"; "bytec_1 // base64(eHl6)"; "pop";
        "pushbytes 0xfe6bdf69 // ""add(uint64,uint64)uint64"""; "len"; "pushint 4 // 4"; "=="; "assert";
        "intc_0 // 1000"; "intc_1 // 2000"; "intc_2 // 3000"; "intc_3 // 4000"; "pushint 7 // 7"; "intc 4 // TMPL_FEE";
        "pop"; "pop"; "pop"; "pop"; "pop"; "pop";
        "intc_0 // 1000"; "intc_1 // 2000"; "intc_2 // 3000"; "intc_3 // 4000"; "pushint 7 // 7"; "intc 4 // TMPL_FEE";
        "+"; "+"; "+"; "+"; "+"; "pushint 15007 // 15007"; "=="; "assert";
        "load 0"; "pushint 1 // pay"; "+"; "store 0"; "b main_l1"; "main_l3:"; "pushint 9 // 9"; "return"].
Proof. vm_compute. reflexivity. Qed.

Example ex_msel_consistent : msel_consistent ex_sig_hash ex_msel.
Proof.
  intros sg sel H. unfold ex_msel in H. cbn [alookup] in H.
  destruct (String.eqb sg sig_add); [|discriminate H]. injection H as <-. reflexivity.
Qed.

Example ex_input_ok : input_ok ex_sigma ex_msel ex_ops.
Proof.
  apply input_okb_sound. vm_compute. reflexivity.
Qed.

Example ex_no_block_ops : no_block_ops ex_ops = true. Proof. vm_compute. reflexivity. Qed.
Example ex_indexes_encodable : indexes_encodable ex_out = true. Proof. vm_compute. reflexivity. Qed.

Definition ex_P : program :=
  Eval vm_compute in match clink ex_sigma ex_msel 8 ex_ops with Some P => P | None => mkProg 0 [] [] end.
Definition ex_P' : program :=
  Eval vm_compute in match clink ex_sigma ex_msel 8 ex_out with Some P => P | None => mkProg 0 [] [] end.

Example ex_links : clink ex_sigma ex_msel 8 ex_ops = Some ex_P /\ clink ex_sigma ex_msel 8 ex_out = Some ex_P'.
Proof. split; vm_compute; reflexivity. Qed.

(* the theorem applies: two block lines, then lock step; for EVERY fuel k, context and initial state the runs agree *)
Example ex_program_equiv :
  forall cx st k,
    fst (run (k + 2) cx ex_P' (init_mach st)) = fst (run k cx ex_P (init_mach st)) /\
    m_stack (snd (run (k + 2) cx ex_P' (init_mach st))) = m_stack (snd (run k cx ex_P (init_mach st))) /\
    m_st (snd (run (k + 2) cx ex_P' (init_mach st))) = m_st (snd (run k cx ex_P (init_mach st))) /\
    m_pc (snd (run (k + 2) cx ex_P' (init_mach st))) = m_pc (snd (run k cx ex_P (init_mach st))) + 2.
Proof.
  destruct ex_links as [L0 L1].
  destruct (constants_program_equiv no_hash ex_sig_hash ex_sigma ex_msel ex_msel_consistent ex_ops ex_out 8 ex_P ex_P'
              ex_created ex_input_ok ex_no_block_ops ex_indexes_encodable L0 L1)
    as (pro & body & ib & bb & Eo & Hb & Hf & _ & _ & _ & _ & Hrun).
  exact (run_sim_visible _ _ _ _ _ 2 ib bb _ _ Eo Hf eq_refl Hrun).
Qed.

(* the two programs really run to the end: three rounds of the loop, approve *)
Example ex_runs :
  fst (run 1000 ex_cx ex_P (init_mach ex_st)) = VApprove /\
  fst (run 1000 ex_cx ex_P' (init_mach ex_st)) = VApprove /\
  List.length (pr_code ex_P') = (List.length (pr_code ex_P) + 2)%nat /\
  label_pc ex_P "main_l1" = Some 2%nat /\ label_pc ex_P' "main_l1" = Some 4%nat.
Proof. repeat split; vm_compute; reflexivity. Qed.

(* NECESSITY of [no_block_ops]: a pseudo-op program that itself contains a block opcode is not preserved — the
   block the compiler adds gives the stray intc_0 a value.  int 7000; int 7000; ==; pop; intc_0; return *)
Definition stray_ops : list comp :=
  [op O_int [AInt 7000]; op O_int [AInt 7000]; op O_eq []; op O_pop []; op O_intc_0 []; op O_return_ []].

Example program_equiv_needs_no_block_ops :
  exists out P P',
    create_constant_blocks no_hash no_sig stray_ops = Some out /\
    input_ok id_sigma [] stray_ops /\ indexes_encodable out = true /\
    no_block_ops stray_ops = false /\
    clink id_sigma [] 8 stray_ops = Some P /\ clink id_sigma [] 8 out = Some P' /\
    fst (run 100 ex_cx P (init_mach ex_st)) = VFail /\
    fst (run 100 ex_cx P' (init_mach ex_st)) = VApprove.
Proof.
  eexists _, _, _. split; [vm_compute; reflexivity|]. split.
  { apply input_okb_sound. vm_compute. reflexivity. }
  repeat split; vm_compute; reflexivity.
Qed.

(* the excluded template case at program level: `addr TMPL_A` instantiated by an address links as a pseudo-op
   program, while the output of createConstantBlocks (pushbytes TMPL_A) does not link at all — input_ok
   (no_addr_template_site) is what keeps this case out of the theorem *)
Example addr_template_program_unlinkable :
  exists out P,
    create_constant_blocks no_hash no_sig (tmpl_addr_ops ++ [op O_pop []; op O_int [AInt 1]]) = Some out /\
    clink (fun _ => zero_address) [] 8 (tmpl_addr_ops ++ [op O_pop []; op O_int [AInt 1]]) = Some P /\
    fst (run 100 ex_cx P (init_mach ex_st)) = VApprove /\
    clink (fun _ => zero_address) [] 8 out = None.
Proof. eexists _, _. repeat split; vm_compute; reflexivity. Qed.

(* the refuted index case is outside the theorem: its witness fails [indexes_encodable] *)
Example refuted_case_excluded :
  exists out, create_constant_blocks no_hash no_sig (witness_ints 257) = Some out /\ indexes_encodable out = false.
Proof.
  destruct witness_257_index as (out & i & E & Hin & _ & Hk).
  exists out. split; [exact E|]. now apply (encodable_excludes_refuted out i 256).
Qed.

(* text-level theorem on the placeholder-free variant of the example: every hypothesis holds by computation *)
Definition ex_out_t : list comp :=
  Eval vm_compute in match create_constant_blocks no_hash ex_sig_hash ex_ops_t with Some o => o | None => [] end.
Definition ex_lines_t : list string :=
  Eval vm_compute in match assemble_all (CPragma 8 :: ex_ops_t) with Some l => l | None => [] end.
Definition ex_Pt : program :=
  Eval vm_compute in match parse_program ex_msel (program_text ex_lines_t) with Some P => P | None => mkProg 0 [] [] end.

Example ex_text_hyps :
  create_constant_blocks no_hash ex_sig_hash ex_ops_t = Some ex_out_t /\
  printable ex_msel ex_ops_t = true /\ single_tok ex_ops_t = true /\
  no_block_ops ex_ops_t = true /\ indexes_encodable ex_out_t = true /\
  assemble_all (CPragma 8 :: ex_ops_t) = Some ex_lines_t /\
  parse_program ex_msel (program_text ex_lines_t) = Some ex_Pt.
Proof. repeat split; vm_compute; reflexivity. Qed.

Example ex_input_ok_t : input_ok id_sigma ex_msel ex_ops_t.
Proof.
  apply input_okb_sound. vm_compute. reflexivity.
Qed.

Example ex_text_equiv :
  exists lines' P',
    assemble_all (CPragma 8 :: ex_out_t) = Some lines' /\
    parse_program ex_msel (program_text lines') = Some P' /\
    nth_error lines' 1 = Some "intcblock 1000 2000 3000 4000 5000" /\
    nth_error lines' 29 = Some "intc 4 // 5000" /\
    forall cx st k, fst (run (k + 2) cx P' (init_mach st)) = fst (run k cx ex_Pt (init_mach st)) /\
                    m_stack (snd (run (k + 2) cx P' (init_mach st))) = m_stack (snd (run k cx ex_Pt (init_mach st))) /\
                    m_st (snd (run (k + 2) cx P' (init_mach st))) = m_st (snd (run k cx ex_Pt (init_mach st))).
Proof.
  destruct ex_text_hyps as (Hc & Hp & Hs & Hnb & Hie & A & HP).
  destruct (constants_text_equiv no_hash ex_sig_hash ex_msel ex_msel_consistent 8 ex_ops_t ex_out_t ex_lines_t ex_Pt
              Hc Hp Hs ex_input_ok_t Hnb Hie A HP)
    as (lines' & P' & A' & HP' & pro & body & ib & bb & Eo & _ & Hf & _ & _ & _ & _ & Hrun).
  exists lines', P'. split; [exact A'|]. split; [exact HP'|].
  assert (El : Some lines' = assemble_all (CPragma 8 :: ex_out_t)) by (now rewrite A').
  vm_compute in El. injection El as ->. split; [reflexivity|]. split; [reflexivity|].
  intros cx st k. destruct (run_sim_visible _ _ _ _ _ 2 ib bb _ _ Eo Hf eq_refl Hrun cx st k) as (R1 & R2 & R3 & _).
  auto.
Qed.

Definition s_int (n : N) : expr := EOp O_int [AInt n] TUint [].
Definition s_ld (u : N) : expr := EOp O_load [ASlot u] TUint [].
Definition s_st (u : N) (e : expr) : expr := EOp O_store [ASlot u] TNone [e].
(* Bytes('a;b // "q"\n'): the literal echo after `//` contains a semicolon, a comment marker and escaped quotes *)
Definition cc_lit : expr := EOp O_byte [AStr """a;b // \""q\""\n"""] TBytes [].
Definition cc_opts : copts := mkOpts 6 true false false (fun _ => 0%N) (fun _ _ => 0%N).

(* acc := 0; i := 0; while i < 3 { acc := acc + len(lit) + len(lit) + 1000; i := i + 1 };
   return acc == 1000 + 1000 + 1000 + 66 *)
Definition cc_ast : expr :=
  ESeq [ s_st 0 (s_int 0);
         s_st 300 (s_int 0);
         EWhile (EOp O_lt [] TUint [s_ld 300; s_int 3])
                (ESeq [ s_st 0 (ENary O_add TUint [s_ld 0; EOp O_len [] TUint [cc_lit]; EOp O_len [] TUint [cc_lit]; s_int 1000]);
                        s_st 300 (ENary O_add TUint [s_ld 300; s_int 1]) ]);
         EReturn (Some (EOp O_eq [] TUint [s_ld 0; ENary O_add TUint [s_int 1000; s_int 1000; s_int 1000; s_int 66]])) ].
Definition cc_prog : prog := mkProgram cc_ast [] [(0%N, (7%N, true))].

Definition cc_comps : list comp :=
  Eval vm_compute in match compile_components cc_opts opc_modes cc_prog with COk (_ :: l) => l | _ => [] end.
Definition cc_out : list comp :=
  Eval vm_compute in match create_constant_blocks no_hash no_sig cc_comps with Some o => o | None => [] end.
Definition cc_lines : list string :=
  Eval vm_compute in match compile_model cc_opts opc_modes cc_prog with COk l => l | _ => [] end.
Definition cc_P : program :=
  Eval vm_compute in match parse_program [] (program_text cc_lines) with Some P => P | None => mkProg 0 [] [] end.

Lemma cc_components : compile_components cc_opts opc_modes cc_prog = COk (CPragma 6 :: cc_comps).
Proof. vm_compute. reflexivity. Qed.

(* both texts are, line for line, what compileTeal(..., version=6, assembleConstants=False/True) returns on /repo *)
Example cc_texts :
  compile_model cc_opts opc_modes cc_prog =
  COk ["#pragma version 6"; "int 0"; "store 7"; "int 0"; "store 0"; "main_l1:"; "load 0"; "int 3"; "<"; "bz main_l3";
       "load 7"; "byte ""a;b // \""q\""\n"""; "len"; "+"; "byte ""a;b // \""q\""\n"""; "len"; "+"; "int 1000"; "+";
       "store 7"; "load 0"; "int 1"; "+"; "store 0"; "b main_l1"; "main_l3:"; "load 7"; "int 1000"; "int 1000"; "+";
       "int 1000"; "+"; "int 66"; "+"; "=="; "return"] /\
  compile_model_constants no_hash no_sig cc_opts opc_modes cc_prog =
  COk ["#pragma version 6"; "intcblock 1000 0"; "bytecblock 0x613b62202f2f202271220a"; "intc_1 // 0"; "store 7";
       "intc_1 // 0"; "store 0"; "main_l1:"; "load 0"; "pushint 3 // 3"; "<"; "bz main_l3"; "load 7";
       "bytec_0 // ""a;b // \""q\""\n"""; "len"; "+"; "bytec_0 // ""a;b // \""q\""\n"""; "len"; "+";
       "intc_0 // 1000"; "+"; "store 7"; "load 0"; "pushint 1 // 1"; "+"; "store 0"; "b main_l1"; "main_l3:"; "load 7";
       "intc_0 // 1000"; "intc_0 // 1000"; "+"; "intc_0 // 1000"; "+"; "pushint 66 // 66"; "+"; "=="; "return"].
Proof. unfold compile_model, compile_model_constants. rewrite cc_components. split; vm_compute; reflexivity. Qed.

Example cc_hyps :
  compile_model cc_opts opc_modes cc_prog = COk cc_lines /\
  compile_components cc_opts opc_modes cc_prog = COk (CPragma (o_version cc_opts) :: cc_comps) /\
  (assemble_constants_min_version <= o_version cc_opts)%N /\
  create_constant_blocks no_hash no_sig cc_comps = Some cc_out /\
  printable [] cc_comps = true /\ single_tok cc_comps = true /\
  no_block_ops cc_comps = true /\ indexes_encodable cc_out = true /\
  parse_program [] (program_text cc_lines) = Some cc_P.
Proof.
  split; [unfold compile_model; rewrite cc_components; vm_compute; reflexivity|]. split; [exact cc_components|].
  repeat split; try (vm_compute; reflexivity). vm_compute. discriminate.
Qed.

Example cc_input_ok : input_ok id_sigma [] cc_comps.
Proof.
  apply input_okb_sound. vm_compute. reflexivity.
Qed.

Example cc_text_equiv :
  exists lines' P',
    compile_model_constants no_hash no_sig cc_opts opc_modes cc_prog = COk lines' /\
    parse_program [] (program_text lines') = Some P' /\
    fst (run 1000 ex_cx cc_P (init_mach ex_st)) = VApprove /\
    fst (run 1000 ex_cx P' (init_mach ex_st)) = VApprove /\
    forall cx st k, fst (run (k + 2) cx P' (init_mach st)) = fst (run k cx cc_P (init_mach st)) /\
                    m_stack (snd (run (k + 2) cx P' (init_mach st))) = m_stack (snd (run k cx cc_P (init_mach st))) /\
                    m_st (snd (run (k + 2) cx P' (init_mach st))) = m_st (snd (run k cx cc_P (init_mach st))).
Proof.
  destruct cc_hyps as (Hm & Hcc & Hv & Hc & Hp & Hs & Hnb & Hie & HP).
  destruct (constants_compiled_text_equiv no_hash no_sig [] example_msel_consistent cc_opts opc_modes cc_prog
              cc_lines cc_comps cc_out cc_P Hm Hcc Hv Hc Hp Hs cc_input_ok Hnb Hie HP)
    as (lines' & P' & Hm' & HP' & pro & body & ib & bb & Eo & _ & Hf & _ & _ & _ & Hrun).
  exists lines', P'. split; [exact Hm'|]. split; [exact HP'|].
  pose proof (run_sim_visible _ _ _ _ _ 2 ib bb _ _ Eo Hf eq_refl Hrun) as Hvis.
  (* the second run is the first one, two steps later *)
  split; [vm_compute; reflexivity|]. split; [change 1000 with (998 + 2); rewrite (proj1 (Hvis ex_cx ex_st 998)); vm_compute; reflexivity|].
  intros cx st k. destruct (Hvis cx st k) as (R1 & R2 & R3 & _). auto.
Qed.
