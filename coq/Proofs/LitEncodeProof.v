(* Proofs/LitEncodeProof.v — C13: the canonical RFC 4648 spelling of ANY byte string is accepted
   by PyTeal's validators and decodes (specification and assembler) to that byte string. *)
From Coq Require Import List Arith NArith Ascii String Bool Lia.
From PV Require Import AVM.Parse Lit.BaseN Lit.RFC4648 Proofs.TextFacts Proofs.LitArith Proofs.LitBaseNProof.
Import ListNotations.
Local Open Scope N_scope.

Lemma v64_c64 v : v < 64 -> v64 (c64 v) = Some v.
Proof.
  revert v. apply (below_cases _ 64). intros k Hk.
  do 64 (destruct k as [|k]; [reflexivity|]). lia.
Qed.

Lemma v32_c32 v : v < 32 -> v32 (c32 v) = Some v.
Proof.
  revert v. apply (below_cases _ 32). intros k Hk.
  do 32 (destruct k as [|k]; [reflexivity|]). lia.
Qed.

Lemma byte_of_ascii c : byte_of (N_of_ascii c) = c.
Proof. apply ascii_N_embedding. Qed.
Lemma ascii_lt c : N_of_ascii c < 256.
Proof. apply N_ascii_bounded. Qed.

(* the characters of digits read back as the digits *)
Lemma vals_of_digits v (chr : N -> ascii) B : (forall x, x < B -> v (chr x) = Some x) ->
  forall ds, Forall (fun x => x < B) ds -> digit_vals v (map chr ds) = Some ds.
Proof. intros H ds. induction 1 as [|d ds Hd _ IH]; [reflexivity|]. cbn [map digit_vals]. now rewrite H, IH. Qed.

(* Every case below has the same parts: the digits of the group are below the alphabet size, so
   their characters read back as them and the specification's decoder returns what [decode_bits]
   makes of the digits; and that is the bytes ([decode_bits_bytes], no bits dropped: r = 0). *)

Lemma b64_digits_final ds bs : Forall (fun d => d < 64) ds -> In (List.length ds) [2; 3]%nat ->
  decode_bits 6 ds = bs -> b64_decode (map c64 ds ++ repeat pad (4 - List.length ds)) = Some bs.
Proof.
  intros B K <-. rewrite <- (map_length c64 ds) in *.
  apply b64_decode_final; [exact (vals_of_digits _ _ 64 v64_c64 ds B) | exact K].
Qed.

Lemma b64_digits_group ds bs l : Forall (fun d => d < 64) ds -> List.length ds = 4%nat ->
  decode_bits 6 ds = bs -> b64_decode (map c64 ds ++ l) = option_map (app bs) (b64_decode l).
Proof.
  intros B K <-. apply b64_decode_group; [now rewrite map_length | exact (vals_of_digits _ _ 64 v64_c64 ds B)].
Qed.

Lemma b64_decode_encode b : b64_decode (b64_encode b) = Some b.
Proof.
  induction b as [b L | g l G IH] using (chunk_ind 2).
  - destruct b as [|x [|y [|z b]]]; [reflexivity | | | cbn in L; lia]; cbn [b64_encode].
    + pose proof (ascii_lt x). divmod (N_of_ascii x) 4.
      apply (b64_digits_final [q; r * 16]); [repeat constructor; lia | cbn; tauto | group_bytes 6 4 0; lia].
    + pose proof (ascii_lt x). pose proof (ascii_lt y). divmod (N_of_ascii x) 4. divmod (N_of_ascii y) 16.
      apply (b64_digits_final [q; r * 16 + q0; r0 * 4]); [repeat constructor; lia | cbn; tauto | group_bytes 6 2 0; lia].
  - destruct g as [|x [|y [|z [|]]]]; try discriminate G. cbn [app b64_encode]. unfold e64_3.
    pose proof (ascii_lt x). pose proof (ascii_lt y). pose proof (ascii_lt z).
    divmod (N_of_ascii x) 4. divmod (N_of_ascii y) 16. divmod (N_of_ascii z) 64.
    rewrite (b64_digits_group [q; r * 16 + q0; r0 * 4 + q1; r1] [x; y; z]), IH;
      [reflexivity | repeat constructor; lia | reflexivity | group_bytes 6 0 0; lia].
Qed.

(* every byte string has a spelling PyTeal accepts and the assembler reads back *)
Lemma base64_encode_accepted b :
  valid_base64_l (b64_encode b) = true /\ decode_base64 (string_of_list_ascii (b64_encode b)) = Some b.
Proof.
  split.
  - now rewrite valid64_spec, b64_decode_encode.
  - apply b64_asm_spec, b64_decode_encode.
Qed.

Lemma b32_digits_final ds bs (padded : bool) :
  Forall (fun d => d < 32) ds -> In (List.length ds) [2; 4; 5; 7]%nat -> decode_bits 5 ds = bs ->
  b32_decode (map c32 ds ++ if padded then repeat pad (8 - List.length ds) else []) = Some bs.
Proof.
  intros B K <-. rewrite <- (map_length c32 ds) in *.
  apply b32_decode_final; [exact (vals_of_digits _ _ 32 v32_c32 ds B) | exact K].
Qed.

Lemma b32_digits_group ds bs l : Forall (fun d => d < 32) ds -> List.length ds = 8%nat ->
  decode_bits 5 ds = bs -> b32_decode (map c32 ds ++ l) = option_map (app bs) (b32_decode l).
Proof.
  intros B K <-. rewrite b32_decode_group by now rewrite map_length.
  now rewrite (vals_of_digits _ _ 32 v32_c32 ds B).
Qed.

(* the middle digit of the second and of the fourth byte, with names for [divmod] *)
Lemma div_div_2_32 x : x / 64 = x / 2 / 32.
Proof. rewrite N.div_div by discriminate. reflexivity. Qed.
Lemma div_div_4_32 x : x / 128 = x / 4 / 32.
Proof. rewrite N.div_div by discriminate. reflexivity. Qed.

Lemma b32_decode_encode p b : b32_decode (b32_encode p b) = Some b.
Proof.
  induction b as [b L | g l G IH] using (chunk_ind 4).
  - destruct b as [|x1 [|x2 [|x3 [|x4 [|x5 b]]]]]; [reflexivity | | | | | cbn in L; lia];
      cbn [b32_encode]; unfold e32_5; cbn [firstn]; rewrite ?N.div_0_l by discriminate.
    + pose proof (ascii_lt x1). divmod (N_of_ascii x1) 8.
      apply (b32_digits_final [q; r * 4 + 0]); [repeat constructor; lia | cbn; tauto | group_bytes 5 2 0; lia].
    + pose proof (ascii_lt x1). pose proof (ascii_lt x2). rewrite div_div_2_32.
      divmod (N_of_ascii x1) 8. divmod (N_of_ascii x2) 2. divmod q0 32.
      apply (b32_digits_final [q; r * 4 + q1; r1; r0 * 16 + 0]);
        [repeat constructor; lia | cbn; tauto | group_bytes 5 4 0; lia].
    + pose proof (ascii_lt x1). pose proof (ascii_lt x2). pose proof (ascii_lt x3). rewrite div_div_2_32.
      divmod (N_of_ascii x1) 8. divmod (N_of_ascii x2) 2. divmod q0 32. divmod (N_of_ascii x3) 16.
      apply (b32_digits_final [q; r * 4 + q1; r1; r0 * 16 + q2; r2 * 2 + 0]);
        [repeat constructor; lia | cbn; tauto | group_bytes 5 1 0; lia].
    + pose proof (ascii_lt x1). pose proof (ascii_lt x2). pose proof (ascii_lt x3). pose proof (ascii_lt x4).
      rewrite div_div_2_32, div_div_4_32.
      divmod (N_of_ascii x1) 8. divmod (N_of_ascii x2) 2. divmod q0 32. divmod (N_of_ascii x3) 16.
      divmod (N_of_ascii x4) 4. divmod q3 32.
      apply (b32_digits_final [q; r * 4 + q1; r1; r0 * 16 + q2; r2 * 2 + q4; r4; r3 * 8 + 0]);
        [repeat constructor; lia | cbn; tauto | group_bytes 5 3 0; lia].
  - destruct g as [|x1 [|x2 [|x3 [|x4 [|x5 [|]]]]]]; try discriminate G. cbn [app b32_encode]. unfold e32_5.
    pose proof (ascii_lt x1). pose proof (ascii_lt x2). pose proof (ascii_lt x3). pose proof (ascii_lt x4).
    pose proof (ascii_lt x5). rewrite div_div_2_32, div_div_4_32.
    divmod (N_of_ascii x1) 8. divmod (N_of_ascii x2) 2. divmod q0 32. divmod (N_of_ascii x3) 16.
    divmod (N_of_ascii x4) 4. divmod q3 32. divmod (N_of_ascii x5) 32.
    rewrite (b32_digits_group [q; r * 4 + q1; r1; r0 * 16 + q2; r2 * 2 + q4; r4; r3 * 8 + q5; r5] [x1; x2; x3; x4; x5]), IH;
      [reflexivity | repeat constructor; lia | reflexivity | group_bytes 5 0 0; lia].
Qed.

Lemma base32_encode_accepted p b :
  valid_base32_l (b32_encode p b) = true /\ decode_base32 (string_of_list_ascii (b32_encode p b)) = Some b.
Proof.
  split.
  - now rewrite valid32_spec, b32_decode_encode.
  - apply b32_asm_spec, b32_decode_encode.
Qed.
