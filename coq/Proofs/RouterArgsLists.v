(* Proofs/RouterArgsLists.v — list facts for the C09 and C14 proofs (positions under firstn / skipn /
   append / indexed map / filter, pointwise characterisation of Forall2, fixpoints that map a partial
   function over a list, association lists with distinct keys). *)
From Coq Require Import List Arith Bool Lia.
From PV Require Import Router.Args Proofs.BytesFacts.
Import ListNotations.

Lemma nth_error_firstn_lt : forall {A} (l : list A) n j, j < n -> nth_error (firstn n l) j = nth_error l j.
Proof.
  intros A l. induction l as [| x r IH]; intros n j Hj.
  - rewrite firstn_nil. reflexivity.
  - destruct n as [| n]; [lia |]. destruct j as [| j]; cbn; [reflexivity |]. apply IH. lia.
Qed.

Lemma nth_error_skipn_add : forall {A} (l : list A) n j, nth_error (skipn n l) j = nth_error l (n + j).
Proof.
  intros A l. induction l as [| x r IH]; intros n j.
  - rewrite skipn_nil. destruct j, n; reflexivity.
  - destruct n as [| n]; cbn; [reflexivity |]. apply IH.
Qed.

Lemma mapi_from_length : forall {A B} (f : nat -> A -> B) l k, length (mapi_from k f l) = length l.
Proof. intros A B f l. induction l as [| x r IH]; intro k; cbn; [reflexivity |]. now rewrite IH. Qed.

Lemma nth_error_mapi_from : forall {A B} (f : nat -> A -> B) l k j,
  nth_error (mapi_from k f l) j = option_map (f (k + j)) (nth_error l j).
Proof.
  intros A B f l. induction l as [| x r IH]; intros k j.
  - destruct j; reflexivity.
  - destruct j as [| j]; cbn.
    + now rewrite Nat.add_0_r.
    + rewrite IH. now replace (S k + j) with (k + S j) by lia.
Qed.

Lemma Forall2_nth_l : forall {A B} (R : A -> B -> Prop) l1 l2 j a,
  Forall2 R l1 l2 -> nth_error l1 j = Some a -> exists b, nth_error l2 j = Some b /\ R a b.
Proof.
  intros A B R l1 l2 j a H Hj. destruct (Forall2_split _ _ _ _ _ H Hj) as (b & Hb & Hr & _). eauto.
Qed.

Lemma Forall2_of_nth : forall {A B} (R : A -> B -> Prop) l1 l2,
  length l1 = length l2 ->
  (forall j a b, nth_error l1 j = Some a -> nth_error l2 j = Some b -> R a b) ->
  Forall2 R l1 l2.
Proof.
  intros A B R l1. induction l1 as [| x r IH]; intros l2 Hlen H.
  - destruct l2; [constructor | discriminate].
  - destruct l2 as [| y r2]; [discriminate |]. constructor.
    + apply (H 0); reflexivity.
    + apply IH; [cbn in Hlen; lia |]. intros j a b Ha Hb. apply (H (S j)); assumption.
Qed.

Lemma Forall2_firstn : forall {A B} (R : A -> B -> Prop) l1 l2 n,
  Forall2 R l1 l2 -> Forall2 R (firstn n l1) (firstn n l2).
Proof.
  intros A B R l1 l2 n H. revert n. induction H as [| x y r1 r2 Hxy Hr IH]; intro n.
  - rewrite !firstn_nil. constructor.
  - destruct n; cbn; constructor; auto.
Qed.

Lemma Forall2_skipn : forall {A B} (R : A -> B -> Prop) l1 l2 n,
  Forall2 R l1 l2 -> Forall2 R (skipn n l1) (skipn n l2).
Proof.
  intros A B R l1 l2 n H. revert n. induction H as [| x y r1 r2 Hxy Hr IH]; intro n.
  - rewrite !skipn_nil. constructor.
  - destruct n; cbn; [constructor; auto | apply IH].
Qed.

Lemma Forall2_len : forall {A B} (R : A -> B -> Prop) l1 l2, Forall2 R l1 l2 -> length l1 = length l2.
Proof. intros A B R l1 l2 H. induction H; cbn; congruence. Qed.

(* splitting a pointwise "some c is related to both" into a list of such c *)
Lemma Forall2_exists_mid : forall {A B C} (P : B -> C -> Prop) (Q : A -> C -> Prop) la lb,
  Forall2 (fun a b => exists c, P b c /\ Q a c) la lb -> exists lc, Forall2 P lb lc /\ Forall2 Q la lc.
Proof.
  intros A B C P Q la lb H. induction H as [| a b ra rb [c [Hp Hq]] _ [lc [IHp IHq]]].
  - exists []. split; constructor.
  - exists (c :: lc). split; constructor; assumption.
Qed.

(* a fixpoint that maps a partial function over a list and fails as soon as one element does *)
Lemma traverse_Forall2 : forall {A B} (f : A -> option B) (go : list A -> option (list B)),
  go [] = Some [] ->
  (forall x r, go (x :: r) = match f x, go r with Some y, Some ys => Some (y :: ys) | _, _ => None end) ->
  forall l ys, go l = Some ys <-> Forall2 (fun x y => f x = Some y) l ys.
Proof.
  intros A B f go Hnil Hcons l. induction l as [| x r IH]; intro ys.
  - rewrite Hnil. split; intro H; inversion H; [constructor | reflexivity].
  - rewrite Hcons. split; intro H.
    + destruct (f x) as [y |] eqn:E; [| discriminate H]. destruct (go r) as [ys' |]; [| discriminate H].
      inversion H; subst. constructor; [exact E | now apply IH].
    + inversion H as [| ? y ? ys' E Hr]; subst. apply IH in Hr. now rewrite E, Hr.
Qed.

Lemma filter_map_fst : forall {A B} (p : A -> bool) (l : list (A * B)),
  filter p (map fst l) = map fst (filter (fun x => p (fst x)) l).
Proof.
  intros A B p l. induction l as [| [a b] r IH]; cbn; [reflexivity |].
  destruct (p a); cbn; now rewrite IH.
Qed.

Lemma map_snd_combine : forall {A B} (l1 : list A) (l2 : list B),
  length l1 = length l2 -> map snd (combine l1 l2) = l2.
Proof.
  intros A B l1. induction l1 as [| x r IH]; intros l2 H.
  - destruct l2; [reflexivity | discriminate].
  - destruct l2 as [| y r2]; [discriminate |]. cbn. f_equal. apply IH. cbn in H. lia.
Qed.

Lemma cell_get_in : forall (cs : cells) k v,
  NoDup (map fst cs) -> In (k, v) cs -> cell_get cs k = Some v.
Proof.
  intros cs. induction cs as [| [k' v'] r IH]; intros k v Hnd Hin; [contradiction |].
  cbn in *. inversion Hnd as [| ? ? Hnot Hnd']; subst.
  destruct Hin as [Heq | Hin].
  - inversion Heq; subst. now rewrite Nat.eqb_refl.
  - destruct (Nat.eqb_spec k k') as [-> | _].
    + exfalso. apply Hnot. change k' with (fst (k', v)). now apply in_map.
    + now apply IH.
Qed.

Lemma NoDup_app_intro : forall {A} (l1 l2 : list A),
  NoDup l1 -> NoDup l2 -> (forall x, In x l1 -> In x l2 -> False) -> NoDup (l1 ++ l2).
Proof.
  intros A l1. induction l1 as [| x r IH]; intros l2 H1 H2 Hd; [assumption |].
  inversion H1 as [| ? ? Hnot H1']; subst. cbn. constructor.
  - intro Hin. apply in_app_or in Hin. destruct Hin as [Hin | Hin]; [now apply Hnot |].
    apply (Hd x); [now left | assumption].
  - apply IH; [assumption | assumption |]. intros y Hy1 Hy2. apply (Hd y); [now right | assumption].
Qed.

Lemma mapi_from_ext : forall {A B} (f g : nat -> A -> B) l k,
  (forall j x, f j x = g j x) -> mapi_from k f l = mapi_from k g l.
Proof.
  intros A B f g l. induction l as [| x r IH]; intros k H; cbn; [reflexivity |]. rewrite H. f_equal. now apply IH.
Qed.

Lemma mapi_from_shift : forall {A B} (f : nat -> A -> B) l k,
  mapi_from (S k) f l = mapi_from k (fun j => f (S j)) l.
Proof.
  intros A B f l. induction l as [| x r IH]; intro k; cbn; [reflexivity |]. f_equal. apply IH.
Qed.
