(* Proofs/RouterArgsCells.v — C09: the storage view of the glue.  Executing the decoding steps of either
   flavour (scratch slots / frame cells of the caster subroutine) and then reading the argument cells in
   declaration order yields exactly what the binding plan evaluates to: distinct parameters have distinct
   cells, none of them is the cell of the tuple instance, and the tuple is stored before it is de-tupled.
   No decoding step writes the output cell; [out_cell_fresh] only records that it is none of the others. *)
From Coq Require Import List Arith NArith Ascii Bool Lia.
From PV Require Import Base.Bytes ABI.Types ABI.Spec Gen.Tables Router.Args
  Proofs.RouterArgsLists Proofs.RouterArgsProof Proofs.RouterArgsGlue.
Import ListNotations.

Lemma in_combine_seq : forall {A} (l : list A) k i x,
  In (i, x) (combine (seq k (length l)) l) <-> (k <= i /\ nth_error l (i - k) = Some x).
Proof.
  intros A l. induction l as [| y r IH]; intros k i x; cbn [length seq combine].
  - split; [intros [] | intros [_ H]; destruct (i - k); discriminate].
  - cbn [In]. rewrite IH. split.
    + intros [E | [Hk Hn]].
      * inversion E; subst. split; [lia |]. now rewrite Nat.sub_diag.
      * split; [lia |]. replace (i - k) with (S (i - S k)) by lia. exact Hn.
    + intros [Hk Hn]. destruct (Nat.eq_dec i k) as [-> | Hne].
      * left. rewrite Nat.sub_diag in Hn. cbn in Hn. now inversion Hn.
      * right. split; [lia |]. replace (i - k) with (S (i - S k)) in Hn by lia. exact Hn.
Qed.

Lemma in_indexed : forall {A} (l : list A) i x, In (i, x) (indexed l) <-> nth_error l i = Some x.
Proof.
  intros A l i x. unfold indexed. rewrite in_combine_seq. rewrite Nat.sub_0_r. split; [tauto | intro; split; [lia | assumption]].
Qed.

(* splice keeps the elements of its sub-lists *)
Lemma splice_In_A : forall {A} tys (LA LT : list A) b,
  length LA = length (filter not_txn_ty tys) -> length LT = length (filter is_txn_ty tys) ->
  In b LA -> In b (splice tys LA LT).
Proof.
  intros A tys. induction tys as [| t r IH]; intros LA LT b HA HT Hin.
  - destruct LA; [contradiction | discriminate].
  - cbn [filter] in HA, HT. unfold not_txn_ty in HA at 1. cbn [splice].
    destruct (is_txn_ty t); cbn [negb] in HA.
    + destruct LT as [| x LT']; [discriminate |]. right. apply IH; auto.
    + destruct LA as [| x LA']; [discriminate |]. destruct Hin as [-> | Hin]; [now left | right; apply IH; auto].
Qed.

Lemma binding_plan_length : forall tys, length (binding_plan tys) = length tys.
Proof. intro tys. symmetry. eapply Forall2_len. apply binding_plan_shape. Qed.

Definition tuple_slot (tys : list ty) : nat := length (firstn (CUTOFF - 1) (filter not_txn_ty tys)) + 1.

Definition binding_wf (tslot : nat) (tt : list ty) (b : binding) : Prop :=
  match b with
  | BVal (SArg _) (TRef _) => False
  | BVal (SMember s ts _) t => s = tslot /\ ts = tt /\ tt <> [] /\ match t with TRef _ => False | _ => True end
  | BRef (SMember s ts _) _ => s = tslot /\ ts = tt /\ tt <> []
  | _ => True
  end.

Lemma app_bindings_wf : forall apps,
  Forall (binding_wf (length (firstn (CUTOFF - 1) apps) + 1)
                     (if CUTOFF <? length apps then skipn (CUTOFF - 1) apps else []))
         (app_bindings apps).
Proof.
  intro apps. apply app_bindings_Forall. intros j t Et.
  unfold app_source. change CUTOFF with 15. change (15 - 1) with 14.
  destruct (length apps <=? 15) eqn:C; cbn [orb].
  - destruct t; cbn; exact I.
  - apply Nat.leb_gt in C. destruct (j <? 14); [destruct t; cbn; exact I |].
    replace (15 <? length apps) with true by (symmetry; apply Nat.ltb_lt; lia).
    rewrite firstn_length_le by lia.
    assert (Hne : skipn 14 apps <> []).
    { intro E. pose proof (skipn_length 14 apps) as L. rewrite E in L. cbn in L. lia. }
    destruct t; cbn; repeat split; auto.
Qed.

Lemma txn_bindings_wf : forall tslot tt txns, Forall (binding_wf tslot tt) (txn_bindings txns).
Proof.
  intros tslot tt txns. apply txn_bindings_Forall. intros j t _. exact I.
Qed.

Lemma binding_plan_wf : forall tys, Forall (binding_wf (tuple_slot tys) (tupled_types tys)) (binding_plan tys).
Proof.
  intro tys. unfold binding_plan, tuple_slot, tupled_types.
  apply splice_Forall; [apply app_bindings_wf | apply txn_bindings_wf].
Qed.

(* when something is tupled, the plan does contain a member binding *)
Lemma binding_plan_has_member : forall tys,
  tupled_types tys <> [] -> exists b, In b (binding_plan tys) /\ is_member b = true.
Proof.
  intros tys H. unfold tupled_types in H. set (apps := filter not_txn_ty tys) in *.
  destruct (CUTOFF <? length apps) eqn:C; [| now contradiction H].
  change CUTOFF with 15 in *. change (15 - 1) with 14 in *. apply Nat.ltb_lt in C.
  destruct (nth_error apps 14) as [t |] eqn:Et; [| apply nth_error_None in Et; lia].
  pose proof (app_bindings_nth _ _ _ Et) as Hb.
  exists (mk_binding (app_source apps 14) t). split.
  - unfold binding_plan. apply splice_In_A.
    + apply app_bindings_length.
    + unfold txn_bindings. apply mapi_from_length.
    + fold apps. eapply nth_error_In; eauto.
  - unfold app_source. replace (length apps <=? 15) with false by (symmetry; apply Nat.leb_gt; lia).
    cbn. destruct t; reflexivity.
Qed.

Lemma arg_cell_inj : forall fl ho i j, arg_cell fl ho i = arg_cell fl ho j -> i = j.
Proof. intros fl ho i j. unfold arg_cell. destruct fl; [auto | destruct ho; lia]. Qed.

Lemma arg_cell_not_tuple : forall fl ho n i, i < n -> arg_cell fl ho i <> tuple_cell fl ho n.
Proof. intros fl ho n i H. unfold arg_cell, tuple_cell. destruct fl; [lia | destruct ho; lia]. Qed.

Lemma out_cell_fresh : forall fl n i, i < n -> arg_cell fl true i <> out_cell fl n /\ tuple_cell fl true n <> out_cell fl n.
Proof. intros fl n i H. unfold arg_cell, tuple_cell, out_cell. destruct fl; lia. Qed.

Lemma cell_get_set_other : forall cs c v c', c' <> c -> cell_get (cell_set cs c v) c' = cell_get cs c'.
Proof.
  intros cs c v c' H. unfold cell_set. cbn [cell_get]. destruct (Nat.eqb_spec c' c); [contradiction | reflexivity].
Qed.

Section Cells.
  Variable member : list ty -> nat -> bytes -> option bytes.
  Variables (args : list bytes) (group : list gtx) (gi : nat).
  Variables (cell : nat -> nat) (tc tslot : nat) (tt : list ty).
  Variable rv : nat -> bound.            (* what parameter number i is bound to *)
  Variable IP : list (nat * binding).    (* the plan, each binding with its parameter number *)
  Hypothesis cell_inj : forall i j, cell i = cell j -> i = j.
  Hypothesis Hev : forall ib, In ib IP -> eval_binding member args group gi (snd ib) = Some (rv (fst ib)).
  Hypothesis Hwf : forall ib, In ib IP -> binding_wf tslot tt (snd ib).
  Hypothesis Hne : forall ib, In ib IP -> cell (fst ib) <> tc.

  (* the cell of parameter i holds what the plan binds it to *)
  Definition holds (cs : cells) (i : nat) : Prop := cell_get cs (cell i) = Some (CBound (rv i)).

  Lemma exec_gsteps_app : forall cs l1 l2,
    exec_gsteps member args group gi cs (l1 ++ l2) =
    match exec_gsteps member args group gi cs l1 with
    | Some cs' => exec_gsteps member args group gi cs' l2
    | None => None
    end.
  Proof.
    intros cs l1. revert cs. induction l1 as [| g r IH]; intros cs l2; [reflexivity |].
    cbn [app exec_gsteps]. destruct (exec_gstep member args group gi cs g); [apply IH | reflexivity].
  Qed.

  (* writing parameter i's cell keeps every cell that held its value: distinct parameters have distinct cells *)
  Lemma holds_set : forall cs i j, j = i \/ holds cs j -> holds (cell_set cs (cell i) (CBound (rv i))) j.
  Proof.
    intros cs i j H. unfold holds, cell_set. cbn [cell_get]. destruct (Nat.eqb_spec (cell j) (cell i)) as [E | E].
    - apply cell_inj in E. now subst.
    - destruct H as [-> | H]; [contradiction | exact H].
  Qed.

  (* one step writes its own parameter's cell with the plan's value *)
  Lemma exec_step : forall i b cs,
    In (i, b) IP ->
    (is_member b = true -> exists tb, cell_get cs tc = Some (CTuple tb) /\ nth_error args tslot = Some tb) ->
    exec_gstep member args group gi cs (step_of cell tc (i, b)) = Some (cell_set cs (cell i) (CBound (rv i))).
  Proof.
    intros i b cs Hin Htup. pose proof (Hev _ Hin) as E. pose proof (Hwf _ Hin) as W. cbn [fst snd] in E, W.
    unfold step_of. cbn [fst snd].
    destruct b as [[slot | s ts j] t | [slot | s ts j] k | back k]; cbn [exec_gstep eval_binding read_source is_member] in *.
    - destruct (nth_error args slot) as [bs |]; [| discriminate E]. cbn [option_map] in E. inversion E as [Hr].
      destruct t; cbn [as_bound option_map binding_wf] in *; try reflexivity; contradiction.
    - destruct W as [-> [-> [_ Ht]]]. destruct (Htup eq_refl) as [tb [Hc Hn]].
      rewrite Hc. rewrite Hn in E. destruct (member (map wire_ty tt) j tb) as [mb |]; [| discriminate E].
      cbn [option_map] in E. inversion E as [Hr]. destruct t; cbn [as_bound option_map] in *; try reflexivity; contradiction.
    - destruct (nth_error args slot) as [bs |]; [| discriminate E]. cbn [as_bound].
      destruct bs as [| c [| c' bs']]; try discriminate E. inversion E as [Hr]. reflexivity.
    - destruct W as [-> [-> _]]. destruct (Htup eq_refl) as [tb [Hc Hn]].
      rewrite Hc. rewrite Hn in E. destruct (member (map wire_ty tt) j tb) as [mb |]; [| discriminate E].
      cbn [as_bound]. destruct mb as [| c [| c' bs']]; try discriminate E. inversion E as [Hr]. reflexivity.
    - rewrite E. reflexivity.
  Qed.

  (* one phase: it gets through, the cells it writes hold the plan's values, the cells that held them
     still do, and the tuple cell is not touched *)
  Lemma exec_phase : forall (L : list (nat * binding)) cs,
    incl L IP ->
    ((exists ib, In ib L /\ is_member (snd ib) = true) ->
       exists tb, cell_get cs tc = Some (CTuple tb) /\ nth_error args tslot = Some tb) ->
    exists cs', exec_gsteps member args group gi cs (map (step_of cell tc) L) = Some cs' /\
                (forall i, In i (map fst L) \/ holds cs i -> holds cs' i) /\
                cell_get cs' tc = cell_get cs tc.
  Proof.
    intro L. induction L as [| [i b] r IH]; intros cs Hin Htup.
    - exists cs. split; [reflexivity |]. split; [intros i [[] | H]; exact H | reflexivity].
    - assert (HinI : In (i, b) IP) by (apply Hin; now left).
      assert (Htc : cell_get (cell_set cs (cell i) (CBound (rv i))) tc = cell_get cs tc).
      { apply cell_get_set_other. intro E. exact (Hne _ HinI (eq_sym E)). }
      cbn [map exec_gsteps]. rewrite (exec_step i b cs HinI).
      2: { intro Hm. apply Htup. exists (i, b). split; [now left | exact Hm]. }
      destruct (IH (cell_set cs (cell i) (CBound (rv i)))) as [cs' [E [Hh Ht]]].
      + intros ib H. apply Hin. now right.
      + intros [ib [H Hm]]. rewrite Htc. apply Htup. exists ib. split; [now right | exact Hm].
      + exists cs'. split; [exact E |]. split; [| now rewrite Ht].
        intros j Hj. apply Hh. cbn [map fst In] in Hj.
        destruct Hj as [[<- | Hj] | Hj]; [right; apply holds_set; now left | now left | right; apply holds_set; now right].
  Qed.
End Cells.

Lemma map_nth_seq : forall {A} (l : list A) d, map (fun i => nth i l d) (seq 0 (length l)) = l.
Proof.
  intros A l d. induction l as [| x r IH]; [reflexivity |]. cbn [length seq map nth]. f_equal.
  rewrite <- seq_shift, map_map. exact IH.
Qed.

Lemma read_args_all : forall (cs : cells) (cell : nat -> nat) (rv : nat -> bound) idxs,
  (forall i, In i idxs -> holds cell rv cs i) ->
  read_args cs (map cell idxs) = Some (map rv idxs).
Proof.
  intros cs cell rv idxs. induction idxs as [| i r IH]; intro H; [reflexivity |].
  cbn [map read_args]. rewrite (H i (or_introl eq_refl)). rewrite IH; [reflexivity |]. intros j Hj. apply H. now right.
Qed.

Lemma kind_partition : forall b, (is_alone b = true /\ is_txnb b = false /\ is_member b = false) \/
                                 (is_alone b = false /\ is_txnb b = true /\ is_member b = false) \/
                                 (is_alone b = false /\ is_txnb b = false /\ is_member b = true).
Proof. intros [[?|? ? ?] ?|[?|? ? ?] ?|? ?]; cbn; tauto. Qed.

(* the storage view agrees with the plan, for both flavours and with or without an output cell *)
Theorem glue_equiv_main : forall member fl ho tys args group gi bounds,
  eval_all member args group gi (binding_plan tys) = Some bounds ->
  exists cs, exec_gsteps member args group gi [] (decode_steps fl ho tys) = Some cs /\
             read_args cs (map (arg_cell fl ho) (seq 0 (length tys))) = Some bounds.
Proof.
  intros member fl ho tys args group gi bounds He.
  set (plan := binding_plan tys) in *. set (n := length tys).
  assert (Hpl : length plan = n) by apply binding_plan_length.
  assert (Hbl : length bounds = n) by (rewrite (eval_all_length _ _ _ _ _ _ He); exact Hpl).
  set (rv := fun i => nth i bounds (RBytes [])).
  set (cell := arg_cell fl ho). set (tc := tuple_cell fl ho n).
  set (tslot := tuple_slot tys). set (tt := tupled_types tys).
  set (IP := indexed plan).
  assert (Hev : forall ib, In ib IP -> eval_binding member args group gi (snd ib) = Some (rv (fst ib))).
  { intros [i b] Hin. apply in_indexed in Hin. destruct (eval_all_nth _ _ _ _ _ _ _ _ He Hin) as [r [Hr Er]].
    cbn [fst snd]. rewrite Er. f_equal. unfold rv. symmetry. now apply nth_error_nth. }
  assert (Hwf : forall ib, In ib IP -> binding_wf tslot tt (snd ib)).
  { intros [i b] Hin. apply in_indexed in Hin. pose proof (binding_plan_wf tys) as F. rewrite Forall_forall in F.
    apply F. eapply nth_error_In; eauto. }
  assert (Hne : forall ib, In ib IP -> cell (fst ib) <> tc).
  { intros [i b] Hin. apply in_indexed in Hin. apply arg_cell_not_tuple. cbn [fst]. rewrite <- Hpl.
    apply nth_error_Some. congruence. }
  pose proof (exec_phase member args group gi cell tc tslot tt rv IP (arg_cell_inj fl ho) Hev Hwf Hne) as Phase.
  assert (Hsub : forall p, incl (filter p IP) IP) by (intros p ib H; now apply filter_In in H).
  unfold decode_steps. fold plan n cell tc tt IP.
  (* phase 1: the arguments that stay alone *)
  destruct (Phase _ [] (Hsub (fun ib => is_alone (snd ib)))) as [cs1 [E1 [H1 _]]].
  { intros [ib [Hin Hm]]. apply filter_In in Hin. destruct Hin as [_ Ha].
    destruct (kind_partition (snd ib)) as [[? [? ?]] | [[? [? ?]] | [? [? ?]]]]; congruence. }
  rewrite exec_gsteps_app, E1.
  (* the tuple instance: stored when something is tupled, and then application argument tslot exists *)
  assert (E2 : exists cs2,
            exec_gsteps member args group gi cs1
              match tt with [] => [] | _ :: _ => [GDecodeTuple tc (length (firstn (CUTOFF - 1) (filter not_txn_ty tys)) + 1) tt] end
            = Some cs2 /\
            (forall i, i < n -> holds cell rv cs1 i -> holds cell rv cs2 i) /\
            (tt <> [] -> exists tb, cell_get cs2 tc = Some (CTuple tb) /\ nth_error args tslot = Some tb)).
  { destruct tt as [| t0 tr] eqn:Ett; [exists cs1; split; [reflexivity | split; [auto | congruence]] |].
    destruct (binding_plan_has_member tys) as [b [Hin Hm]]; [fold tt; congruence |].
    apply In_nth_error in Hin. destruct Hin as [i Hi]. apply in_indexed in Hi.
    pose proof (Hev _ Hi) as E. pose proof (Hwf _ Hi) as W. cbn [fst snd] in E, W.
    assert (Htb : exists tb, nth_error args tslot = Some tb).
    { destruct b as [[slot | s ts j] t | [slot | s ts j] k | back k]; try discriminate Hm;
        cbn [eval_binding read_source binding_wf] in E, W; destruct W as [-> _];
        (destruct (nth_error args tslot) as [tb |]; [eauto | discriminate E]). }
    destruct Htb as [tb Htb]. exists (cell_set cs1 tc (CTuple tb)).
    split; [| split].
    - cbn [exec_gsteps exec_gstep]. fold (tuple_slot tys). fold tslot. now rewrite Htb.
    - intros j Hj Hh. unfold holds. rewrite cell_get_set_other; [exact Hh | now apply arg_cell_not_tuple].
    - intros _. exists tb. split; [| exact Htb]. unfold cell_set. cbn [cell_get]. now rewrite Nat.eqb_refl. }
  destruct E2 as [cs2 [E2 [K2 T2]]]. cbv beta iota. rewrite exec_gsteps_app, E2.
  (* phases 2 and 3: the transaction parameters, then de-tupling from the tuple cell *)
  rewrite <- map_app.
  destruct (Phase _ cs2 (incl_app (Hsub (fun ib => is_txnb (snd ib))) (Hsub (fun ib => is_member (snd ib)))))
    as [cs3 [E3 [H3 _]]].
  { intros [[i b] [Hin Hm]]. apply T2.
    assert (W : binding_wf tslot tt b) by (apply in_app_or in Hin; destruct Hin as [Hin | Hin]; exact (Hwf _ (Hsub _ _ Hin))).
    destruct b as [[slot | s ts j] t | [slot | s ts j] k | back k]; try discriminate Hm; cbn [binding_wf] in W; tauto. }
  exists cs3. split; [exact E3 |].
  (* reading the argument cells: every parameter was written in one of the phases *)
  rewrite (read_args_all cs3 cell rv).
  - f_equal. unfold rv. rewrite <- Hbl. apply map_nth_seq.
  - intros i Hi. apply in_seq in Hi.
    destruct (nth_error plan i) as [b |] eqn:Eb; [| apply nth_error_None in Eb; lia].
    apply in_indexed in Eb. fold IP in Eb. apply H3.
    destruct (kind_partition b) as [[Hk _] | [[_ [Hk _]] | [_ [_ Hk]]]].
    + right. apply K2; [lia |]. apply H1. left. apply (in_map fst _ (i, b)), filter_In. now split.
    + left. apply (in_map fst _ (i, b)), in_or_app. left. apply filter_In. now split.
    + left. apply (in_map fst _ (i, b)), in_or_app. right. apply filter_In. now split.
Qed.

(* the same, as a statement about the handler's arguments *)
Theorem glue_bounds_plan_main : forall member fl s args group gi bounds,
  eval_all member args group gi (binding_plan (s_params s)) = Some bounds ->
  glue_bounds member fl s args group gi = Some bounds.
Proof.
  intros member fl s args group gi bounds He. unfold glue_bounds.
  destruct (glue_equiv_main member fl (match s_ret s with Some _ => true | None => false end) (s_params s) args group gi bounds He)
    as [cs [E R]].
  rewrite E. exact R.
Qed.

(* End to end on the model: a call made by the ARC-4 client, anywhere in a group, run through the glue of
   either flavour: the result is that of the handler on arguments bound as the caller passed them; the call is
   approved iff the handler succeeds (and produces a value of the declared type); its log is the
   handler's log followed, for a non-void method, by exactly one entry: return prefix ++ encoding. *)
Theorem routed_call_main :
  forall (member : list ty -> nat -> bytes -> option bytes),
    (forall ts vs bs j t v,
        arc4_encode (TTuple None ts) (VList vs) = Some bs ->
        nth_error ts j = Some t -> nth_error vs j = Some v ->
        member ts j bs = arc4_encode t v) ->
  forall fl sel sender app_id s args c before me after (h : handler),
    client_encode sel sender app_id s args = Some c ->
    exists bounds,
      args_ok sender app_id c (group_of before c me after) (length before) 0 (combine (s_params s) args) bounds /\
      run_glue member fl s h (c_args c) (group_of before c me after) (group_index_of before c) =
        match h bounds with
        | None => Failed
        | Some (logs, res) =>
            match s_ret s with
            | None => Approved logs
            | Some t =>
                match res with
                | Some r => match arc4_encode t r with
                            | Some e => Approved (logs ++ [return_prefix ++ e])
                            | None => Failed
                            end
                | None => Failed
                end
            end
        end.
Proof.
  intros member Hm fl sel sender app_id s args c before me after h Hc.
  destruct (arg_binding_main member Hm sel sender app_id s args c before me after Hc) as [bounds [He [Hok _]]].
  exists bounds. split; [exact Hok |].
  pose proof (glue_bounds_plan_main member fl s _ _ _ _ He) as Hb. unfold glue_bounds in Hb. unfold run_glue.
  destruct (exec_gsteps member (c_args c) (group_of before c me after) (group_index_of before c) []
              (decode_steps fl (match s_ret s with Some _ => true | None => false end) (s_params s))) as [cs |]; [| discriminate Hb].
  rewrite Hb. destruct (h bounds) as [[logs res] |]; [| reflexivity].
  destruct (s_ret s) as [t |]; [| reflexivity]. destruct res as [r |]; [| reflexivity].
  unfold method_return. destruct (arc4_encode t r); reflexivity.
Qed.
