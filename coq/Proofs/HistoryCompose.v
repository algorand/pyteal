(* Proofs/HistoryCompose.v — history independence of the id-dependent stages (property C11):
   shift lemma (HistoryEvents) + rename invariance (HistoryAssign). *)
From Coq Require Import NArith List Bool.
From PV Require Import Hist.Events Hist.Assign Proofs.HistoryEvents Proofs.HistoryAssign.
Import ListNotations.
Local Open Scope N_scope.

Definition addN (d : N) : N -> N := fun i => i + d.

Lemma addN_mono d : strictly_monotone (addN d).
Proof. exact (shift_strictly_monotone d). Qed.

(* reading objects off a shifted trace *)
Lemma slot_at_shift a b tr pos :
  slot_at (map (shift_item a b) tr) pos = option_map (rename_slot (addN a)) (slot_at tr pos).
Proof.
  unfold slot_at. rewrite nth_error_map. destruct (nth_error tr pos) as [[i|n|t|i]|]; reflexivity.
Qed.

Lemma sub_at_shift a b tr pos :
  sub_at (map (shift_item a b) tr) pos = option_map (rename_sub (addN b)) (sub_at tr pos).
Proof.
  unfold sub_at. rewrite nth_error_map. destruct (nth_error tr pos) as [[i|n|t|i]|]; reflexivity.
Qed.

Lemma pick_map {A} [f g : nat -> option A] [h : A -> A] :
  (forall p, g p = option_map h (f p)) -> forall ps, pick g ps = map h (pick f ps).
Proof.
  intros H ps. induction ps as [|p t IH]; cbn; [reflexivity|].
  rewrite H. destruct (f p); cbn; [f_equal|]; exact IH.
Qed.

Definition is_sub_pos (tr : list titem) (oid : N) : Prop :=
  exists i, nth_error tr (N.to_nat oid) = Some (TSub i).

Lemma sub_key_shift a b tr oid :
  is_sub_pos tr oid -> sub_key (map (shift_item a b) tr) oid = sub_key tr oid + b.
Proof. intros [i H]. unfold sub_key. rewrite nth_error_map, H. reflexivity. Qed.

Definition calls_are_subs (p : program) (tr : list titem) : Prop :=
  forall n c, In c (p_calls p n) -> is_sub_pos tr c.

(* the view of a program does not depend on the starting counters *)
Lemma compile_view_shift (m : mode) (p : program) (a b : N) (g : gst) :
  calls_are_subs p (r_tr (run_evs m (p_events p) g)) ->
  same_view (compile_view m p (shift_st a b g)) (compile_view m p g).
Proof.
  intros Hcalls. unfold compile_view. rewrite run_evs_shift. cbn [shift_res r_tr].
  set (tr := r_tr (run_evs m (p_events p) g)) in *.
  rewrite (pick_map (slot_at_shift a b tr)), (pick_map (sub_at_shift a b tr)).
  destruct (assign_rename_invariant_proof (addN a) (pick (slot_at tr) (p_slots p)) (addN_mono a)) as [Hfail [Hfw Hbw]].
  unfold same_view. cbn [v_slots v_labels v_order]. repeat split.
  - exact Hfail.
  - intros [o' [Hoid Hasg]]. destruct (Hbw o' k Hasg) as [o [_ ->]].
    exists o. split; [rewrite <- Hoid; symmetry; apply rename_slot_oid | apply Hfw; exact Hasg].
  - intros [o [Hoid Hasg]]. exists (rename_slot (addN a) o).
    split; [rewrite rename_slot_oid; exact Hoid | apply Hfw; exact Hasg].
  - rewrite (resolve_rename_invariant_proof (addN b)) by apply addN_mono.
    rewrite map_map. apply map_ext. intros [s k]. reflexivity.
  - apply (corder_ext (is_sub_pos tr)).
    + exact Hcalls.
    + intros x y Hx Hy. rewrite !sub_key_shift by assumption. apply (mono_leb (addN b) (addN_mono b)).
Qed.

Theorem compile_history_independent_proof (m : mode) (h : list evs) (p : program) :
  let g := run_history m h init_gst in
  g_marker g = None ->
  calls_are_subs p (r_tr (run_evs m (p_events p) init_gst)) ->
  same_view (compile_view m p g) (compile_view m p init_gst).
Proof.
  intros g Hm Hc. subst g. rewrite (history_is_shift m h Hm). apply compile_view_shift, Hc.
Qed.

Theorem compile_history_independent_fixed_proof (h : list evs) (p : program) :
  calls_are_subs p (r_tr (run_evs Fixed (p_events p) init_gst)) ->
  same_view (compile_view Fixed p (run_history Fixed h init_gst)) (compile_view Fixed p init_gst).
Proof.
  intros Hc. apply compile_history_independent_proof; [|exact Hc].
  apply history_marker_fixed. reflexivity.
Qed.
