(* Proofs/ConstantsProgramLink.v — C12, whole program: from component lists to programs.
   [cstmts_of sigma msel code]: the statements the assembler reads from a component list, op by op through
   ConstantsSpec.parsed_of (token level, placeholders instantiated by sigma, everything after a "//"
   argument is comment); a comment op is a comment line (no statement).
   [clink sigma msel ver code] = AVM.Parse.build_prog on these statements (the assembler's own label
   resolution; [ver] = the version in force before the first statement, 1 for a bare text).
   Facts: what build_prog does to two statement lists related instruction-wise, the second preceded by k
   block instructions: codes related position-wise, every label target moved by k, same version;
   the statements of createConstantBlocks' output are so related to the statements of its input. *)
From Coq Require Import List Arith NArith Ascii String Bool Lia.
From PV Require Import Base.Bytes Base.U64 Base.Sexp AVM.Syntax AVM.Ops AVM.Machine AVM.Parse
  Comp.Constants Comp.ConstantsSpec Proofs.TextFacts Proofs.ConstantsProof Proofs.ConstantsSim
  Proofs.ConstantsProgramMach.
Import ListNotations.
Local Open Scope string_scope.

Definition comment_op (o : opc) : bool := match o with O_comment => true | _ => false end.

Lemma parse_stmt_instr_op msel hd args p :
  parse_stmt msel (hd :: args) = Some (Some (SInstr p)) -> parse_opc hd = Some (p_op p).
Proof.
  unfold parse_stmt.
  destruct (String.eqb hd "#pragma").
  { destruct args as [|k [|v [|? ?]]]; try discriminate.
    destruct (String.eqb k "version"); [destruct (N_of_dec v); discriminate|].
    destruct (String.eqb k "typetrack"); discriminate. }
  destruct (ends_with_colon hd); [destruct args; discriminate|].
  destruct (parse_opc hd) as [o|]; [|discriminate].
  intros H. f_equal.
  destruct o; cbv beta iota zeta in H; try (injection H as <-; reflexivity).
  all: repeat match type of H with context [match ?x with _ => _ end] => destruct x; try discriminate H end.
  all: injection H as <-; reflexivity.
Qed.

Lemma parse_opc_comment : parse_opc "//" = Some O_comment \/ parse_opc "//" = None.
Proof. vm_compute. auto. Qed.

Section Link.
Variable sigma : string -> string.
Variable msel : list (string * bytes).

Lemma parsed_of_opc i p : parsed_of sigma msel i = Some p -> parse_opc (opc_name (i_op i)) = Some (p_op p).
Proof.
  unfold parsed_of. destruct (arg_tokens sigma (i_args i)) as [ts|]; [|discriminate].
  destruct (parse_stmt msel (opc_name (i_op i) :: ts)) as [[[q|l|v]|]|] eqn:E; try discriminate.
  intros H. injection H as <-. exact (parse_stmt_instr_op _ _ _ _ E).
Qed.

Lemma parsed_of_op i p : parsed_of sigma msel i = Some p -> comment_op (i_op i) = false -> p_op p = i_op i.
Proof.
  intros H C. apply parsed_of_opc in H. rewrite parse_opc_name in H by (intros E; now rewrite E in C). now injection H.
Qed.

Lemma parsed_of_comment i p : parsed_of sigma msel i = Some p -> comment_op (i_op i) = true -> p_op p = O_comment.
Proof.
  intros H C. apply parsed_of_opc in H. destruct (i_op i); try discriminate C.
  change (opc_name O_comment) with "//" in H.
  destruct parse_opc_comment as [E|E]; rewrite E in H; [now injection H|discriminate H].
Qed.

Definition cstmt_of (c : comp) : option (list stmt) :=
  match c with
  | COp i =>
      if comment_op (i_op i) then Some []
      else option_map (fun p => [SInstr p]) (parsed_of sigma msel i)
  | CLabel l _ => Some [SLabel l]
  | CPragma v => Some [SPragma v]
  end.

Fixpoint cstmts_of (code : list comp) : option (list stmt) :=
  match code with
  | [] => Some []
  | c :: t => match cstmt_of c, cstmts_of t with Some x, Some r => Some (x ++ r)%list | _, _ => None end
  end.

Definition clink (ver : N) (code : list comp) : option program :=
  match cstmts_of code with
  | Some ss => build_prog ss 0 ver [] []
  | None => None
  end.

Lemma cstmts_of_app a : forall b ss, cstmts_of (a ++ b) = Some ss ->
  exists sa sb, cstmts_of a = Some sa /\ cstmts_of b = Some sb /\ ss = (sa ++ sb)%list.
Proof.
  induction a as [|c t IH]; intros b ss H.
  - exists [], ss. repeat split. exact H.
  - cbn [app cstmts_of] in H |- *.
    destruct (cstmt_of c) as [x|]; [|discriminate H].
    destruct (cstmts_of (t ++ b)) as [r|] eqn:E; [|discriminate H]. injection H as <-.
    destruct (IH b r E) as (sa & sb & -> & Hb & ->).
    exists (x ++ sa)%list, sb. repeat split; [exact Hb|now rewrite app_assoc].
Qed.

Lemma cstmts_of_app_some a b sa sb : cstmts_of a = Some sa -> cstmts_of b = Some sb ->
  cstmts_of (a ++ b) = Some (sa ++ sb)%list.
Proof.
  revert sa. induction a as [|c t IH]; intros sa Ha Hb.
  - injection Ha as <-. exact Hb.
  - cbn [app cstmts_of] in Ha |- *.
    destruct (cstmt_of c) as [x|]; [|discriminate Ha].
    destruct (cstmts_of t) as [r|]; [|discriminate Ha]. injection Ha as <-.
    rewrite (IH r eq_refl Hb). now rewrite app_assoc.
Qed.
End Link.

Definition shift_labels (n : nat) (l : list (string * nat)) : list (string * nat) :=
  map (fun lp => (fst lp, snd lp + n)) l.

Lemma alookup_shift n l : forall labels,
  alookup String.eqb l (shift_labels n labels) = option_map (fun t => t + n) (alookup String.eqb l labels).
Proof.
  induction labels as [|[l' p] t IH]; [reflexivity|].
  cbn [shift_labels map alookup fst snd]. destruct (String.eqb l l'); [reflexivity|exact IH].
Qed.

(* k instructions in front of a statement list *)
Lemma build_prefix : forall (l : list pinstr) ss pc ver acc labels,
  build_prog (map SInstr l ++ ss) pc ver acc labels = build_prog ss (pc + List.length l) ver (rev l ++ acc) labels.
Proof.
  induction l as [|p t IH]; intros ss pc ver acc labels.
  - cbn. now rewrite Nat.add_0_r.
  - cbn [map app build_prog List.length rev]. rewrite IH. rewrite <- app_assoc. cbn [app].
    f_equal. lia.
Qed.

Inductive srel (ib : list N) (bb : list bytes) : stmt -> stmt -> Prop :=
| sr_instr p p' : irel ib bb p p' -> srel ib bb (SInstr p) (SInstr p')
| sr_label l : srel ib bb (SLabel l) (SLabel l)
| sr_pragma v : srel ib bb (SPragma v) (SPragma v).

(* the second list links whenever the first does, to a related program *)
Lemma build_rel ib bb ss ss' : Forall2 (srel ib bb) ss ss' ->
  forall pc ver acc labels n acc' P,
    build_prog ss pc ver acc labels = Some P ->
    exists P', build_prog ss' (pc + n) ver acc' (shift_labels n labels) = Some P' /\
      exists c c', pr_code P = (rev acc ++ c)%list /\ pr_code P' = (rev acc' ++ c')%list /\
                   Forall2 (irel ib bb) c c' /\
                   pr_labels P' = shift_labels n (pr_labels P) /\ pr_version P' = pr_version P.
Proof.
  induction 1 as [|s s' ss ss' Hs _ IH]; intros pc ver acc labels n acc' P B.
  - cbn [build_prog] in B |- *. injection B as <-. eexists. split; [reflexivity|]. cbn [pr_code pr_labels pr_version].
    exists [], []. rewrite !app_nil_r. repeat split. constructor.
  - destruct Hs as [p p' Hp|l|v]; cbn [build_prog] in B |- *.
    + change (S (pc + n)) with (S pc + n).
      destruct (IH _ _ _ _ n (p' :: acc') _ B) as (P' & B' & c & c' & C & C' & F & L & V).
      exists P'. split; [exact B'|]. exists (p :: c), (p' :: c'). cbn [rev] in C, C'. rewrite <- app_assoc in C, C'.
      repeat split; try assumption. constructor; assumption.
    + rewrite alookup_shift.
      destruct (alookup String.eqb l labels) as [x|]; [discriminate B|]. cbn [option_map].
      change ((l, pc + n) :: shift_labels n labels) with (shift_labels n ((l, pc) :: labels)).
      exact (IH _ _ _ _ _ _ _ B).
    + exact (IH _ _ _ _ _ _ _ B).
Qed.

(* the pseudo-op program contains no constant-block opcode of its own *)
Definition no_block_site (c : comp) : bool :=
  match c with COp i => negb (is_block_op (i_op i)) | _ => true end.
Definition no_block_ops (ops : list comp) : bool := forallb no_block_site ops.

(* every long-form index fits the one-byte immediate of intc / bytec *)
Definition index_encodable_site (c : comp) : bool :=
  match c with
  | COp i => match long_index i with Some k => (k <=? 255)%N | None => true end
  | _ => true
  end.
Definition indexes_encodable (out : list comp) : bool := forallb index_encodable_site out.

(* it is the negation of the refuted statement's witness condition *)
Lemma encodable_excludes_refuted out i k :
  In (COp i) out -> long_index i = Some k -> (255 < k)%N -> indexes_encodable out = false.
Proof.
  intros Hin Hk Hlt. destruct (indexes_encodable out) eqn:E; [|reflexivity].
  unfold indexes_encodable in E. rewrite forallb_forall in E. specialize (E _ Hin).
  cbn [index_encodable_site] in E. rewrite Hk in E. apply N.leb_le in E. lia.
Qed.

Section Sites.
Variable sigma : string -> string.
Variable msel : list (string * bytes).

Lemma const_not_comment i : is_const_instr i = true -> comment_op (i_op i) = false.
Proof. destruct i as [o args]. intros H. destruct (const_ops _ _ H) as [->|[->|[->| ->]]]; reflexivity. Qed.

Lemma load_value_comment ib bb p : p_op p = O_comment -> load_value ib bb p = None.
Proof. destruct p as [o im]. cbn [p_op]. intros ->. reflexivity. Qed.

Lemma site_stmts ib bb c c' :
  site_ok sigma msel ib bb c c' -> well_formed_site sigma msel c -> no_block_site c = true ->
  forall x, cstmt_of sigma msel c = Some x ->
  exists x', cstmt_of sigma msel c' = Some x' /\ Forall2 (srel ib bb) x x'.
Proof.
  intros Hs Hw Hnb x Hx.
  destruct c as [i|l cm|pv]; cbn [site_ok] in Hs.
  2:{ subst c'. cbn [cstmt_of] in Hx |- *. injection Hx as <-. eexists. split; [reflexivity|]. repeat constructor. }
  2:{ subst c'. cbn [cstmt_of] in Hx |- *. injection Hx as <-. eexists. split; [reflexivity|]. repeat constructor. }
  destruct (is_const_instr i) eqn:Hci.
  - destruct Hs as (i' & p' & -> & Hp' & Hfit & Hl).
    cbn [well_formed_site] in Hw. specialize (Hw Hci).
    destruct (denote sigma msel i) as [v|] eqn:Hd; [|congruence].
    destruct (denote_parsed sigma msel i v Hci Hd) as (p0 & Hp0 & Hfit0 & Hl0).
    cbn [cstmt_of] in Hx |- *. rewrite (const_not_comment i Hci), Hp0 in Hx. injection Hx as <-.
    specialize (Hl v eq_refl).
    destruct (comment_op (i_op i')) eqn:Hc'.
    { rewrite (load_value_comment _ _ _ (parsed_of_comment sigma msel i' p' Hp' Hc')) in Hl. discriminate Hl. }
    rewrite Hp'. eexists. split; [reflexivity|]. constructor; [|constructor]. constructor.
    right. exists v. repeat split; assumption.
  - subst c'. exists x. split; [exact Hx|]. cbn [cstmt_of] in Hx.
    destruct (comment_op (i_op i)) eqn:Hc; [injection Hx as <-; constructor|].
    destruct (parsed_of sigma msel i) as [p|] eqn:Hp; [|discriminate Hx]. injection Hx as <-.
    constructor; [|constructor]. constructor. left. split; [reflexivity|].
    rewrite (parsed_of_op sigma msel i p Hp Hc). cbn [no_block_site] in Hnb. now apply negb_true_iff in Hnb.
Qed.

Lemma cstmts_rel ib bb ops body :
  Forall2 (site_ok sigma msel ib bb) ops body -> input_ok sigma msel ops -> no_block_ops ops = true ->
  forall ss, cstmts_of sigma msel ops = Some ss ->
  exists sb, cstmts_of sigma msel body = Some sb /\ Forall2 (srel ib bb) ss sb.
Proof.
  induction 1 as [|c c' ops body Hs _ IH]; intros Hok Hnb ss Hss.
  - cbn [cstmts_of] in Hss |- *. injection Hss as <-. exists []. split; [reflexivity|constructor].
  - unfold input_ok in Hok. inversion Hok as [|? ? (Hw & _ & _) Hok']; subst.
    cbn [no_block_ops forallb] in Hnb. apply andb_true_iff in Hnb as [Hnb1 Hnb2].
    cbn [cstmts_of] in Hss |- *.
    destruct (cstmt_of sigma msel c) as [x|] eqn:Ex; [|discriminate Hss].
    destruct (cstmts_of sigma msel ops) as [r|] eqn:Er; [|discriminate Hss]. injection Hss as <-.
    destruct (site_stmts ib bb c c' Hs Hw Hnb1 x Ex) as (x' & Ex' & Fx).
    destruct (IH Hok' Hnb2 r eq_refl) as (sb & Eb & Fb).
    rewrite Ex', Eb. eexists. split; [reflexivity|]. apply Forall2_app; assumption.
Qed.

(* the emitted block lines *)
Lemma pro_stmts pro :
  Forall (fun c => exists i, c = COp i /\ (i_op i = O_intcblock \/ i_op i = O_bytecblock)) pro ->
  forall ib0 bb0 r, blocks_after sigma msel pro ib0 bb0 = Some r ->
  exists l, cstmts_of sigma msel pro = Some (map SInstr l) /\ blocks_of l ib0 bb0 = Some r /\
            List.length l = List.length pro.
Proof.
  induction 1 as [|c pro (i & -> & Ho) _ IH]; intros ib0 bb0 r Hb.
  - exists []. cbn in Hb |- *. repeat split. exact Hb.
  - cbn [blocks_after] in Hb.
    destruct (parsed_of sigma msel i) as [p|] eqn:Hp; [|discriminate Hb].
    assert (Hc : comment_op (i_op i) = false) by (destruct Ho as [-> | ->]; reflexivity).
    cbn [cstmts_of cstmt_of]. rewrite Hc, Hp. cbn [option_map].
    pose proof (parsed_of_op sigma msel i p Hp Hc) as Eo.
    destruct Ho as [Ho|Ho]; rewrite Ho in Eo; rewrite Eo in Hb.
    + destruct (imm_ints (p_imms p)) as [ns|] eqn:Ei; [|discriminate Hb].
      destruct (IH _ _ _ Hb) as (l & -> & Hl & Hlen).
      exists (p :: l). cbn [map app blocks_of List.length]. rewrite Eo, Ei, Hlen. repeat split. exact Hl.
    + destruct (imm_bytes (p_imms p)) as [bs|] eqn:Ei; [|discriminate Hb].
      destruct (IH _ _ _ Hb) as (l & -> & Hl & Hlen).
      exists (p :: l). cbn [map app blocks_of List.length]. rewrite Eo, Ei, Hlen. repeat split. exact Hl.
Qed.
End Sites.
