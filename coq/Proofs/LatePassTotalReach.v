(* Proofs/LatePassTotalReach.v — two facts about the graph that lowering produces, needed for the
   totality of the passes AFTER compile_one (Props/C20_late.v):

     fill   every id that [lower] allocates is DEFINED when it returns (the ids reserved for the branch
            blocks of loops are defined before the loop's lowering returns): together with closedness
            (Proofs/LowerShape.v) every edge of a lowered routine graph points to a defined block, which
            is what flattenBlocks needs;
     hits   from the START block of a lowered fragment one reaches — along outgoing edges — its END
            block (which is a simple block continuing with the continuation k), or the break / continue
            target of the enclosing loop.  For a whole routine (no enclosing loop) the end block is
            reachable from the start block, which is what sortBlocks needs ("End block not present"
            is never raised).

   [hits] is NOT unconditional: Break/Continue outside a loop and Continue in a loop header are
   lowered to blocks without successor (excluded by compile_one's checks, as in
   Proofs/EndToEndExits.v), and a Cond WITHOUT ARMS is lowered to a bare [err] block from which the
   end block cannot be reached (PyTeal's constructor rejects Cond(); [check_expr] does not model
   constructors).  The latter is the predicate [nec] ("no empty Cond") below; it is necessary
   (Proofs/LatePassTotalExamples.v, [sort_needs_cond_arms]).  An instance of the traversal of
   Proofs/LowerFrame.v. *)
From Coq Require Import List Arith NArith String Bool Lia.
From PV Require Import Base.Bytes AVM.Syntax Src.Expr Comp.Blocks Comp.WideRatio Comp.Lower Comp.Passes
  Proofs.LowerFrame Proofs.EndToEndExits Proofs.NormalizeGraph Proofs.SortCorrect.
Import ListNotations.

(* no Cond without arms, anywhere in the recipe *)
Fixpoint nec (e : expr) {struct e} : bool :=
  match e with
  | EOp _ _ _ args | ENary _ _ args | ESeq args | EMulti _ _ args _ | ECall _ _ args => forallb nec args
  | EIf c th el => nec c && nec th && match el with Some x => nec x | None => true end
  | ECond arms =>
      match arms with [] => false | _ :: _ => true end &&
      forallb (fun a => nec (fst a) && nec (snd a)) arms
  | EWhile c b => nec c && nec b
  | EFor i c s b => nec i && nec c && nec s && nec b
  | EAssert conds _ => forallb nec conds
  | EReturn (Some v) | EExit v => nec v
  | EReturn None | EBreak | EContinue | EParam _ => true
  | EWide ns ds => forallb nec ns && forallb nec ds
  end.

Lemma forallb_Forall {A} (f : A -> bool) l : forallb f l = true -> Forall (fun a => f a = true) l.
Proof. intros H. apply Forall_forall. apply forallb_forall. exact H. Qed.

Definition gext (g g' : graph) : Prop := forall i b, g_blk g i = Some b -> g_blk g' i = Some b.

Lemma gext_refl g : gext g g.
Proof. intros i b E. exact E. Qed.

Lemma gext_trans a b c : gext a b -> gext b c -> gext a c.
Proof. intros H1 H2 i x E. apply H2, H1, E. Qed.

Lemma frame_gext g g' : wf g -> frame g g' -> gext g g'.
Proof. intros W F i b E. exact (frame_keeps _ _ _ _ F W E). Qed.

(* the reachability of Comp/SimCheck.v and that of Proofs/SortCorrect.v are one relation *)
Lemma reach_sort_simcheck g a b : reach g a b <-> SimCheck.reach g a b.
Proof. split; induction 1; econstructor; eassumption. Qed.

Lemma reach_trans g a b c : reach g a b -> reach g b c -> reach g a c.
Proof. intros H1 H2. apply reach_sort_simcheck. apply reach_sort_simcheck in H1, H2. exact (NormalizeGraph.reach_trans _ _ _ _ H1 H2). Qed.

Lemma reach_edge g a b : In b (out_of g a) -> reach g a b.
Proof. intros H. eapply reach_step; [apply reach_refl|exact H]. Qed.

Lemma reach_mono g g' a b :
  (forall p x, In x (out_of g p) -> In x (out_of g' p)) -> reach g a b -> reach g' a b.
Proof. intros H R. apply reach_sort_simcheck. apply reach_sort_simcheck in R. exact (NormalizeGraph.reach_mono _ _ _ _ H R). Qed.

Lemma gext_reach g g' a b : gext g g' -> reach g a b -> reach g' a b.
Proof.
  intros H. apply reach_mono. intros p x I. unfold out_of in *.
  destruct (g_blk g p) as [bb|] eqn:E; [rewrite (H p bb E); exact I|destruct I].
Qed.

Lemma edge_simple g i ops n : g_blk g i = Some (BSimple ops (Some n)) -> reach g i n.
Proof. intros E. apply reach_edge. unfold out_of. rewrite E. left. reflexivity. Qed.

Lemma edge_cond_t g i ops t f : g_blk g i = Some (BCond ops (Some t) (Some f)) -> reach g i t.
Proof. intros E. apply reach_edge. unfold out_of. rewrite E. left. reflexivity. Qed.

Lemma edge_cond_f g i ops t f : g_blk g i = Some (BCond ops (Some t) (Some f)) -> reach g i f.
Proof. intros E. apply reach_edge. unfold out_of. rewrite E. right. left. reflexivity. Qed.

Lemma define_gext g i b : g_blk g i = None -> gext g (define g i b).
Proof.
  intros N j x E. unfold define. cbn [g_blk]. unfold upd.
  destruct (Nat.eqb_spec j i) as [Q|Q]; [subst; congruence|exact E].
Qed.

(* every allocated id is defined *)
Definition fill (g g' : graph) : Prop :=
  forall j, g_next g <= j -> j < g_next g' -> g_blk g' j <> None.

Lemma fill_refl g : fill g g.
Proof. intros j H1 H2. lia. Qed.

Lemma fill_trans g a b : fill g a -> frame a b -> fill a b -> fill g b.
Proof.
  intros H1 (_ & K & _) H2 j L1 L2.
  destruct (Nat.lt_ge_cases j (g_next a)) as [L|L]; [rewrite K by exact L; apply H1; assumption|].
  apply H2; assumption.
Qed.

Lemma add_block_fill g b i g1 : wf g -> add_block g b = (i, g1) ->
  fill g g1 /\ frame g g1 /\ g_blk g1 i = Some b /\ i = g_next g /\ g_next g1 = S i.
Proof.
  intros W E. destruct (add_block_spec _ _ _ _ W E) as (F & Bi & Ii & Ni).
  split; [|auto]. intros j L1 L2. assert (j = i) by lia. subst j. rewrite Bi. discriminate.
Qed.

(* from the start of a fragment one reaches its end block or a loop target *)
Definition hits (c : lctx) (g' : graph) (s en : id) (k : option id) : Prop :=
  (reach g' s en /\ exists ops, g_blk g' en = Some (BSimple ops k)) \/
  (exists b, (l_brk c = Some b \/ l_cont c = Some b) /\ reach g' s b).

Lemma gext_hits c g g' s en k : gext g g' -> hits c g s en k -> hits c g' s en k.
Proof.
  intros H [[R (ops & E)]|(b & Hb & R)].
  - left. split; [eapply gext_reach; eauto|exists ops; apply H; exact E].
  - right. exists b. split; [exact Hb|eapply gext_reach; eauto].
Qed.

Lemma hits_pre c g s0 s en k : reach g s0 s -> hits c g s en k -> hits c g s0 en k.
Proof.
  intros R0 [[R E]|(b & Hb & R)].
  - left. split; [eapply reach_trans; eauto|exact E].
  - right. exists b. split; [exact Hb|eapply reach_trans; eauto].
Qed.

Lemma hits_block c g b ops k : g_blk g b = Some (BSimple ops k) -> hits c g b b k.
Proof. intros E. left. split; [apply reach_refl|eauto]. Qed.

Lemma hits_seq c g s1 e1 s2 e2 k : hits c g s1 e1 (Some s2) -> hits c g s2 e2 k -> hits c g s1 e2 k.
Proof.
  intros [[R (ops & E)]|(b & Hb & R)] H.
  - apply (hits_pre c g s1 s2); [|exact H]. eapply reach_trans; [exact R|eapply edge_simple; exact E].
  - right. exists b. split; assumption.
Qed.

Definition rpost (c : lctx) (g : graph) (k : option id) (s en : id) (g' : graph) : Prop :=
  fill g g' /\ hits c g' s en k.

Lemma nec_subs e : nec e = true -> Forall (fun x => nec x = true) (subs e).
Proof.
  destruct e as [? ? ? l|? ? l|l|c t el|arms|c b|i c s b| | |l ?|v|v|? ? l ?|? ? l|ns ds|?];
    cbn [nec subs]; intros H; try (apply forallb_Forall; exact H); try (constructor; fail).
  - apply andb_prop in H as [H H3]. apply andb_prop in H as [H1 H2].
    constructor; [exact H1|constructor; [exact H2|]]. destruct el; [constructor; [exact H3|constructor]|constructor].
  - apply andb_prop in H as [_ H]. induction arms as [|a r IH]; cbn [flat_map forallb app] in *; [constructor|].
    apply andb_prop in H as [Ha Hr]. apply andb_prop in Ha as [A1 A2].
    constructor; [exact A1|constructor; [exact A2|exact (IH Hr)]].
  - destruct v; [constructor; [exact H|constructor]|constructor].
  - constructor; [exact H|constructor].
  - apply andb_prop in H as [H1 H2]. apply Forall_app. split; apply forallb_Forall; assumption.
Qed.

Lemma nec_while c b : nec (EWhile c b) = true -> nec c = true /\ nec b = true.
Proof. apply andb_prop. Qed.

Lemma nec_for i c s b : nec (EFor i c s b) = true -> nec i = true /\ nec c = true /\ nec s = true /\ nec b = true.
Proof.
  cbn [nec]. intros H. apply andb_prop in H as [H H4]. apply andb_prop in H as [H H3].
  apply andb_prop in H as [H1 H2]. auto.
Qed.

(* in a loop header, a fragment whose continuation leads to the loop's end block leads there itself
   (by falling through, or through a Break) *)
Lemma loop_exit g g' sr (en0 : id) pm s e (x : id) :
  hits (mkL sr (Some en0) None pm) g s e (Some x) -> gext g g' ->
  reach g' x en0 -> reach g' s en0.
Proof.
  intros [[R (ops & E)]|(b & [Hb|Hb] & R)] X Rx; cbn [l_brk l_cont] in *.
  - eapply reach_trans; [eapply gext_reach; [exact X|exact R]|].
    eapply reach_trans; [eapply edge_simple; apply X; exact E|exact Rx].
  - injection Hb as Hb. subst b. eapply gext_reach; eauto.
  - discriminate Hb.
Qed.

Lemma rpost_loop c k g en g1 br g2 cs ce g3 g5 s ie g4 ds :
  let c1 := mkL (l_sub_ret c) (Some en) None (l_param c) in
  wf g -> add_block g (BSimple [] k) = (en, g1) -> reserve g1 = (br, g2) ->
  frame g2 g3 -> rpost c1 g2 (Some br) cs ce g3 ->
  frame g3 g5 -> fill g3 g5 ->
  frame g5 g4 -> (s = cs /\ g4 = g5 \/ rpost c1 g5 (Some cs) s ie g4) ->
  rpost c g k s en (define g4 br (BCond [] (Some ds) (Some en))).
Proof.
  intros c1 W E1 E2 F3 [L3 H3] F5 L5 F4 H4.
  destruct (add_block_fill _ _ _ _ W E1) as (L1 & F1 & B1 & I1 & N1). pose proof (frame_wf _ _ F1) as W1.
  destruct (reserve_spec _ _ _ W1 E2) as (F2 & U2 & I2 & N2). pose proof (frame_wf _ _ F2) as W2.
  assert (F34 : frame g3 g4) by (eapply frame_trans; eauto).
  assert (F24 : frame g2 g4) by (eapply frame_trans; eauto).
  assert (L24 : fill g2 g4).
  { apply (fill_trans _ g5); [exact (fill_trans _ _ _ L3 F5 L5)|exact F4|].
    destruct H4 as [[_ ->]|[L4 _]]; [apply fill_refl|exact L4]. }
  assert (Lbr : br < g_next g4) by (destruct F24 as (L & _); lia).
  destruct (define_spec g4 br (BCond [] (Some ds) (Some en)) (frame_wf _ _ F24) Lbr) as (_ & Nd & Bd & Bo).
  assert (U4 : g_blk g4 br = None) by (destruct F24 as (_ & K & _); rewrite K by lia; exact U2).
  pose proof (define_gext g4 br (BCond [] (Some ds) (Some en)) U4) as Xd.
  pose proof (frame_keeps _ _ _ _ F24 W2 (frame_keeps _ _ _ _ F2 W1 B1)) as B4.
  split.
  - intros j J1 J2. rewrite Nd in J2.
    destruct (Nat.eq_dec j br) as [Q|Q]; [subst j; rewrite Bd; discriminate|]. rewrite (Bo j Q).
    destruct (Nat.eq_dec j en) as [Q0|Q0]; [subst j; rewrite B4; discriminate|]. apply L24; lia.
  - left. split; [|exists []; apply Xd; exact B4].
    assert (Rc : reach (define g4 br (BCond [] (Some ds) (Some en))) cs en).
    { eapply loop_exit; [exact H3| |exact (edge_cond_f _ _ _ _ _ Bd)].
      eapply gext_trans; [apply frame_gext; [exact (frame_wf _ _ F3)|exact F34]|exact Xd]. }
    destruct H4 as [[-> _]|[_ H6]]; [exact Rc|exact (loop_exit _ _ _ _ _ _ _ _ H6 Xd Rc)].
Qed.

Definition okr (o : copts) (c : lctx) (il pb : bool) (e : expr) : Prop :=
  okp o c il pb e /\ nec e = true.

Lemma reach_rules c : frag_rules (rpost c) fill (nec (ECond []) = true).
Proof.
  constructor.
  - intros g ops k b g' W E. destruct (add_block_fill _ _ _ _ W E) as (L & _ & B & _).
    split; [exact L|exact (hits_block _ _ _ _ _ B)].
  - intros g k s2 e2 g1 s1 e1 g2 _ F1 F2 [L1 H1] [L2 H2]. split; [exact (fill_trans _ _ _ L1 F2 L2)|].
    exact (hits_seq _ _ _ _ _ _ _ H2 (gext_hits _ _ _ _ _ _ (frame_gext _ _ (frame_wf _ _ F1) F2) H1)).
  - intros g k s en g1 g2 _ F1 F2 [L1 H1] L2. split; [exact (fill_trans _ _ _ L1 F2 L2)|].
    exact (gext_hits _ _ _ _ _ _ (frame_gext _ _ (frame_wf _ _ F1) F2) H1).
  - intros g k s en g1 ops f br g2 _ F1 [L1 H1] E.
    destruct (add_block_fill _ _ _ _ (frame_wf _ _ F1) E) as (L2 & F2 & B & _).
    split; [exact (fill_trans _ _ _ L1 F2 L2)|]. apply (hits_pre _ _ _ s); [exact (edge_cond_t _ _ _ _ _ B)|].
    exact (gext_hits _ _ _ _ _ _ (frame_gext _ _ (frame_wf _ _ F1) F2) H1).
  - intros X. discriminate X.
  - intros g. apply fill_refl.
  - intros a b d _ _ F L1 L2. exact (fill_trans _ _ _ L1 F L2).
  - intros g k0 s en g' _ _ [L _]. exact L.
  - intros g i g' W E. apply (add_block_fill _ _ _ _ W E).
  - intros g ops t f i g' W E. apply (add_block_fill _ _ _ _ W E).
Qed.

Theorem lower_reach o e : forall c il pb, ctl c il pb -> okr o c il pb e ->
  forall k g s en g', wf g -> lower o c e k g = ((s, en), g') -> rpost c g k s en g'.
Proof.
  intros c il pb Ct [Ok Hn] k g s en g' W E.
  refine (proj2 (lower_inv o (okx o (fun x => nec x = true)) (fun t => t <> None) (nec (ECond []) = true)
                   rpost fill (okx_rules o _ nec_subs nec_while nec_for) reach_rules _ rpost_loop
                   e c il pb (conj Ct (conj Ok Hn)) k g s en g' E W)).
  (* Break, Continue *)
  intros c0 g0 k0 t b g1 W0 At T E0. destruct (add_block_fill _ _ _ _ W0 E0) as (L & _ & B & _).
  split; [exact L|]. destruct t as [x|]; [|destruct (T eq_refl)].
  right. exists x. split; [destruct At as [A|A]; [left|right]; symmetry; exact A|exact (edge_simple _ _ _ _ B)].
Qed.

Theorem lower_root_reach o c e s en g0 :
  l_brk c = None -> l_cont c = None ->
  check_expr o (l_sub_ret c) false e = None -> has_bad_continue false e = false -> nec e = true ->
  lower o c e None empty_graph = ((s, en), g0) ->
  reach g0 s en /\ (forall j, j < g_next g0 -> g_blk g0 j <> None).
Proof.
  intros B C Ck Hb Hn E.
  assert (Ct : ctl c false false) by (split; intros Q; discriminate Q).
  destruct (lower_reach o e c false false Ct (conj (conj Ck Hb) Hn) None empty_graph s en g0 wf_empty E) as [L H].
  split.
  - destruct H as [[R _]|(b & [Q|Q] & _)]; [exact R|congruence|congruence].
  - intros j Hj. apply L; [cbn; lia|exact Hj].
Qed.
