(* Proofs/StackSigProof.v — the stack signatures of AVM/StackSig.v are a sound abstraction of
   Machine.exec_op: when the abstract transformer accepts an abstract stack describing the top part of
   the concrete stack and the opcode succeeds, the cells below that part are untouched and the new top
   part has the predicted types.  What is read off the opcode table itself (the shape of a successful run
   against its signature) is Proofs/ExecOpFacts.exec_op_ok_spec; here it is lifted to abstract stacks. *)
From Coq Require Import List Arith NArith Ascii String Bool Lia.
From PV Require Import Base.Bytes AVM.Syntax AVM.Ops AVM.Machine AVM.StackSig Proofs.ExecOpFacts.
Import ListNotations.

Definition stack_has (vs : list value) (ts : list ty) : Prop := Forall2 has_ty vs ts.

Lemma ty_eqb_eq : forall a b, ty_eqb a b = true <-> a = b.
Proof. destruct a, b; cbn; split; intro H; try reflexivity; try discriminate. Qed.

Lemma ty_le_refl : forall a, ty_le a a = true.
Proof. destruct a; reflexivity. Qed.

Lemma ty_le_trans : forall a b c, ty_le a b = true -> ty_le b c = true -> ty_le a c = true.
Proof. destruct a, b, c; cbn; intros; try reflexivity; try discriminate. Qed.

Lemma has_ty_VI : forall n t, has_ty (VI n) t <-> ty_le TU t = true.
Proof. intros. unfold has_ty. cbn. tauto. Qed.
Lemma has_ty_VB : forall b t, has_ty (VB b) t <-> ty_le TB t = true.
Proof. intros. unfold has_ty. cbn. tauto. Qed.

Lemma has_ty_le : forall v a b, has_ty v a -> ty_le a b = true -> has_ty v b.
Proof. intros v a b H L. unfold has_ty in *. eapply ty_le_trans; eauto. Qed.

Lemma has_ty_join_l : forall v a b, has_ty v a -> has_ty v (ty_join a b).
Proof. intros v a b H. unfold has_ty in *. destruct (tag v), a, b; cbn in *; auto. Qed.
Lemma has_ty_join_r : forall v a b, has_ty v b -> has_ty v (ty_join a b).
Proof. intros v a b H. unfold has_ty in *. destruct (tag v), a, b; cbn in *; auto. Qed.

Lemma has_ty_tag : forall v, has_ty v (tag v).
Proof. intro v. unfold has_ty. apply ty_le_refl. Qed.

Lemma Forall2_length {A B} {R : A -> B -> Prop} {l l'} : Forall2 R l l' -> List.length l = List.length l'.
Proof. intros F. induction F; cbn; auto. Qed.

Lemma stack_has_tags : forall vs, stack_has vs (map tag vs).
Proof. induction vs; cbn; constructor; auto using has_ty_tag. Qed.

Lemma stack_has_TA : forall vs ts, List.length vs = List.length ts -> (forall t, In t ts -> t = TA) -> stack_has vs ts.
Proof.
  induction vs as [|v vs IH]; intros [|t ts] L H; cbn in *; try discriminate; constructor.
  - rewrite (H t); auto using has_ty_TA.
  - apply IH; auto.
Qed.

Lemma accepts_strict_has : forall v c r, has_ty v c -> accepts true c r = true -> has_ty v r.
Proof.
  intros v c r H A. destruct r; cbn in A; try apply has_ty_TA;
    rewrite orb_false_r in A; apply ty_eqb_eq in A; subst; assumption.
Qed.

Lemma accepts_strict_lax : forall c r, accepts true c r = true -> accepts false c r = true.
Proof. intros c r H. destruct r; cbn in *; auto; rewrite orb_false_r in H; rewrite H; reflexivity. Qed.

Lemma accepts_tag : forall v r b, accepts b (tag v) r = accepts true (tag v) r.
Proof. intros v r b. destruct v, r, b; reflexivity. Qed.

Lemma take_ops_split : forall strict req s rest,
  take_ops strict req s = Some rest ->
  exists pre, s = pre ++ rest /\ List.length pre = List.length req.
Proof.
  induction req as [|r req IH]; intros s rest H; cbn in H.
  - inversion H; subst. exists []. auto.
  - destruct s as [|c s]; try discriminate.
    destruct (accepts strict c r); try discriminate.
    destruct (IH _ _ H) as [pre [E L]]. exists (c :: pre). cbn. subst. auto.
Qed.

Lemma take_ops_strict_lax : forall req s rest, take_ops true req s = Some rest -> take_ops false req s = Some rest.
Proof.
  induction req as [|r req IH]; intros s rest H; cbn in *; auto.
  destruct s as [|c s]; try discriminate.
  destruct (accepts true c r) eqn:A; try discriminate.
  rewrite (accepts_strict_lax _ _ A). auto.
Qed.

Lemma take_ops_concrete : forall req abs rest vs,
  take_ops true req abs = Some rest -> stack_has vs abs ->
  exists rest', take_ops true req (map tag vs) = Some rest'.
Proof.
  induction req as [|r req IH]; intros abs rest vs H S; cbn in *.
  - eauto.
  - destruct abs as [|c abs]; try discriminate.
    inversion S as [|v c' vs' abs' Hv S']; subst. cbn.
    destruct (accepts true c r) eqn:A; try discriminate.
    assert (accepts true (tag v) r = true) as ->.
    { destruct r; cbn in *; auto; rewrite orb_false_r in *; apply ty_eqb_eq in A; subst;
        unfold has_ty in Hv; destruct (tag v); cbn in *; auto; discriminate. }
    eapply IH; eauto.
Qed.

(* two partial results related: both defined and related, or both undefined *)
Definition opt_rel {A B} (R : A -> B -> Prop) (x : option A) (y : option B) : Prop :=
  match x, y with
  | Some a, Some b => R a b
  | None, None => True
  | _, _ => False
  end.

Lemma Forall2_map_graph {A B} (f : A -> B) l : Forall2 (fun a b => b = f a) l (map f l).
Proof. induction l; cbn [map]; constructor; auto. Qed.

Section ListRel.
  Context {A B : Type} (R : A -> B -> Prop).

  Lemma nth_error_F2 l l' n : Forall2 R l l' -> opt_rel R (nth_error l n) (nth_error l' n).
  Proof. intros F. revert n. induction F as [|h h' q q' Hh Hq IH]; intros [|n]; cbn; auto. Qed.

  Lemma insert_at_F2 n a a' r r' :
    Forall2 R r r' -> R a a' -> opt_rel (Forall2 R) (insert_at n a r) (insert_at n a' r').
  Proof.
    intros F Ha. revert r r' F. induction n as [|n IH]; intros r r' F; cbn [insert_at].
    - cbn. auto.
    - destruct F as [|h h' t t' Hh Ht]; [exact I|]. specialize (IH _ _ Ht).
      destruct (insert_at n a t), (insert_at n a' t'); cbn in *; auto.
  Qed.

  Lemma remove_at_F2 n r r' : Forall2 R r r' ->
    opt_rel (fun p p' => R (fst p) (fst p') /\ Forall2 R (snd p) (snd p')) (remove_at n r) (remove_at n r').
  Proof.
    intros F. revert n. induction F as [|h h' t t' Hh Ht IH]; intros [|n]; cbn; auto.
    specialize (IH n). destruct (remove_at n t) as [[x q]|], (remove_at n t') as [[x' q']|]; cbn in *; try exact IH.
    destruct IH; auto.
  Qed.

  Lemma list_update_F2 : forall l l' i x x',
    Forall2 R l l' -> R x x' -> Forall2 R (list_update l i x) (list_update l' i x').
  Proof.
    intros l l' i x x' F. revert i. induction F as [|h h' t t' Hh Ht IH]; intros i Hx; cbn.
    - constructor.
    - destruct i; constructor; auto.
  Qed.

  Lemma skipn_F2 : forall n l l', Forall2 R l l' -> Forall2 R (skipn n l) (skipn n l').
  Proof.
    induction n; intros l l' F; cbn; auto. destruct F; auto.
  Qed.

  Lemma firstn_F2 : forall n l l', Forall2 R l l' -> Forall2 R (firstn n l) (firstn n l').
  Proof.
    induction n; intros l l' F; cbn; auto. destruct F; auto.
  Qed.

  Lemma rev_F2 : forall l l', Forall2 R l l' -> Forall2 R (rev l) (rev l').
  Proof.
    intros l l' F. induction F; cbn; auto. apply Forall2_app; auto.
  Qed.

  Lemma repeat_F2 : forall n a a', R a a' -> Forall2 R (repeat a n) (repeat a' n).
  Proof. induction n; intros; cbn; auto. Qed.

  Lemma rearrange_F2 sd s l : Forall2 R s l -> opt_rel (Forall2 R) (rearrange sd s) (rearrange sd l).
  Proof.
    intros F. destruct sd; cbn [rearrange]; try exact I.
    - (* dup *) destruct F; cbn; auto.
    - (* dup2 *) destruct F as [|? ? ? ? ? [|? ? ? ? ? F]]; cbn; auto 6.
    - (* swap *) destruct F as [|? ? ? ? ? [|? ? ? ? ? F]]; cbn; auto.
    - (* dig *)
      pose proof (nth_error_F2 _ _ n F) as K. destruct (nth_error s n), (nth_error l n); cbn in *; auto.
    - (* cover *) destruct F as [|a a' r r' Ha F]; [exact I|]. exact (insert_at_F2 n _ _ _ _ F Ha).
    - (* uncover *)
      pose proof (remove_at_F2 n _ _ F) as K.
      destruct (remove_at n s) as [[x q]|], (remove_at n l) as [[x' q']|]; cbn in *; try exact K.
      destruct K; auto.
    - (* bury *)
      destruct F as [|a a' r r' Ha F]; [exact I|]. destruct n as [|k]; [exact I|]. rewrite (Forall2_length F).
      destruct (S k <=? List.length r')%nat; [apply list_update_F2; assumption | exact I].
    - (* popn *)
      rewrite (Forall2_length F). destruct (n <=? List.length l)%nat; [apply skipn_F2; exact F | exact I].
    - (* dupn *)
      destruct F as [|a a' r r' Ha F]; [exact I|]. unfold opt_rel.
      apply Forall2_app; [apply repeat_F2; exact Ha | constructor; assumption].
  Qed.
End ListRel.

Lemma sig_of_inv : forall o imms,
  match sig_of o imms with
  | SEq => o = O_eq \/ o = O_neq
  | SSetbit => o = O_setbit
  | SSelect => o = O_select
  | SCtl => ctl_op o = true
  | SFix _ _ | SUnknown => True
  | _ => rearr_op o = true
  end.
Proof.
  intros o imms. destruct o; cbv beta iota delta [sig_of]; auto.
  all: try (unfold imm_nat; destruct imms as [|[n|?|?] [|? ?]]; try exact I;
            destruct (n <=? 255)%N; [reflexivity | exact I]).
  all: destruct imms as [|[?|?|?] [|[?|?|?] [|[?|?|?] [|? ?]]]]; exact I.
Qed.

Ltac inv_F2 :=
  repeat match goal with
  | H : stack_has _ (_ :: _) |- _ => inversion H; subst; clear H
  | H : Forall2 has_ty _ (_ :: _) |- _ => inversion H; subst; clear H
  end.

Lemma exec_op_sound : forall cx o imms strict abs abs' cur below st stk' st',
  ctx_typed cx ->
  sig_apply strict (sig_of o imms) abs = Some abs' ->
  stack_has cur abs ->
  exec_op cx o imms (cur ++ below) st = OOk stk' st' ->
  exists cur', stk' = cur' ++ below /\ stack_has cur' abs'.
Proof.
  intros cx o imms strict abs abs' cur below st stk' st' CT Hs SH H.
  pose proof (sig_of_inv o imms) as Io.
  destruct (rearranging (sig_of o imms)) eqn:Hr.
  - (* the same rearrangement of [abs], of [cur] and of the whole stack *)
    rewrite sig_apply_rearrange in Hs by exact Hr.
    assert (rearr_op o = true) as Ho by (destruct (sig_of o imms); try discriminate Hr; exact Io).
    rewrite exec_op_rearrange in H by exact Ho.
    destruct (rearr_of_sig o imms) as [E | [E _]]; [|rewrite E in Hr; discriminate Hr]. rewrite E in H.
    pose proof (rearrange_F2 has_ty (sig_of o imms) _ _ SH) as K. rewrite Hs in K.
    destruct (rearrange (sig_of o imms) cur) as [cur'|] eqn:Ec; [|contradiction K].
    rewrite (rearrange_app _ _ _ below Ec) in H. injection H as <- <-.
    exists cur'. split; [reflexivity | exact K].
  - destruct (sig_of o imms) eqn:Hsig; try discriminate Hr; cbn [sig_apply] in Hs; try discriminate Hs.
    + (* SFix: the signature's cells are a prefix of [cur] *)
      destruct (take_ops strict pops abs) as [rest|] eqn:T; try discriminate Hs. injection Hs as <-.
      destruct (take_ops_split _ _ _ _ T) as [pre [-> L]].
      apply Forall2_app_inv_r in SH. destruct SH as [c1 [c2 [S1 [S2 ->]]]].
      destruct (proj1 (proj2 (exec_op_ok_spec _ _ _ _ _ _ _ H)) _ _ CT Hsig) as [K1 [K2 K3]].
      pose proof (Forall2_length S1) as L1.
      rewrite <- app_assoc in K1. rewrite skipn_app_le in K1 by lia.
      rewrite (skipn_all2 c1) in K1 by lia. cbn [app] in K1.
      exists (firstn (List.length pushes) stk' ++ c2). split.
      * rewrite <- app_assoc, <- K1. symmetry. apply firstn_skipn.
      * apply Forall2_app; assumption.
    + (* SEq *)
      destruct abs as [|a [|b r]]; try discriminate Hs.
      destruct (ty_compat2 strict a b); try discriminate Hs. injection Hs as <-. inv_F2.
      destruct Io as [-> | ->]; cbv beta iota zeta delta [exec_op exec_pure okbool] in H; cbn [app] in H;
        break_all H; injection H as <- <-; eexists (_ :: _);
        (split; [reflexivity | constructor; [reflexivity | assumption]]).
    + (* SSetbit *)
      subst o. destruct abs as [|a [|b [|c r]]]; try discriminate Hs.
      destruct (accepts strict a TU && accepts strict b TU); try discriminate Hs. injection Hs as <-. inv_F2.
      cbv beta iota zeta delta [exec_op exec_pure okbool] in H; cbn [app] in H.
      break_all H; injection H as <- <-; eexists (_ :: _); (split; [reflexivity | constructor; [ | assumption]]).
      all: match goal with Ht : has_ty _ ?t |- has_ty _ ?t => exact Ht end.
    + (* SSelect *)
      subst o. destruct abs as [|a [|b [|c r]]]; try discriminate Hs.
      destruct (accepts strict a TU); try discriminate Hs. injection Hs as <-. inv_F2.
      cbv beta iota zeta delta [exec_op exec_pure okbool] in H; cbn [app] in H.
      break_all H; injection H as <- <-; eexists (_ :: _); (split; [reflexivity | constructor; [ | assumption]]).
      all: auto using has_ty_join_l, has_ty_join_r.
Qed.

Lemma sig_ctl_op : forall o imms, sig_of o imms = SCtl -> ctl_op o = true.
Proof. intros o imms Hs. pose proof (sig_of_inv o imms) as I. rewrite Hs in I. exact I. Qed.

(* acceptance depends only on the shape: transport along a relation on cells *)
Section Transport.
  Variables s1 s2 : bool.
  Variable R : ty -> ty -> Prop.
  Hypothesis Racc : forall c c' r, R c c' -> accepts s1 c r = true -> accepts s2 c' r = true.
  Hypothesis Rcompat : forall a a' b b', R a a' -> R b b' -> ty_compat2 s1 a b = true -> ty_compat2 s2 a' b' = true.

  Lemma take_ops_transport : forall req abs rest l ext,
    take_ops s1 req abs = Some rest -> Forall2 R abs l ->
    exists rest', take_ops s2 req (l ++ ext) = Some rest'.
  Proof.
    induction req as [|r req IH]; intros abs rest l ext H F; cbn in *.
    - eauto.
    - destruct abs as [|c abs]; try discriminate. inversion F as [|c0 c' abs0 l' Hc Hl]; subst. cbn.
      destruct (accepts s1 c r) eqn:A; try discriminate.
      rewrite (Racc _ _ _ Hc A). eapply IH; eauto.
  Qed.

  Lemma sig_apply_transport : forall sd abs abs' l ext,
    sig_apply s1 sd abs = Some abs' -> Forall2 R abs l ->
    exists r, sig_apply s2 sd (l ++ ext) = Some r.
  Proof.
    intros sd abs abs' l ext H F. destruct (rearranging sd) eqn:Hr.
    - rewrite sig_apply_rearrange in * by exact Hr.
      pose proof (rearrange_F2 R sd _ _ F) as K. rewrite H in K.
      destruct (rearrange sd l) as [l'|] eqn:El; [|contradiction K].
      rewrite (rearrange_app _ _ _ ext El). eauto.
    - destruct sd; try discriminate Hr; cbn [sig_apply] in *; try discriminate H.
      + destruct (take_ops s1 pops abs) as [rest|] eqn:T; try discriminate.
        destruct (take_ops_transport _ _ _ _ ext T F) as [rest' E]. rewrite E. eauto.
      + (* SEq *)
        destruct F as [|a a' ? ? Ha [|b b' ? ? Hb F]]; try discriminate. cbn [app].
        destruct (ty_compat2 s1 a b) eqn:C; try discriminate. rewrite (Rcompat _ _ _ _ Ha Hb C). eauto.
      + (* SSetbit *)
        destruct F as [|a a' ? ? Ha [|b b' ? ? Hb [|c c' ? ? Hc F]]]; try discriminate. cbn [app].
        destruct (accepts s1 a TU) eqn:A1; try discriminate. destruct (accepts s1 b TU) eqn:A2; try discriminate.
        rewrite (Racc _ _ _ Ha A1), (Racc _ _ _ Hb A2). cbn [andb]. eauto.
      + (* SSelect *)
        destruct F as [|a a' ? ? Ha [|b b' ? ? Hb [|c c' ? ? Hc F]]]; try discriminate. cbn [app].
        destruct (accepts s1 a TU) eqn:A1; try discriminate. rewrite (Racc _ _ _ Ha A1). eauto.
  Qed.

  Lemma sig_apply_transport_map : forall sd abs abs' (f : value -> ty) cur below,
    sig_apply s1 sd abs = Some abs' -> stack_has cur abs -> (forall v t, has_ty v t -> R t (f v)) ->
    exists r, sig_apply s2 sd (map f (cur ++ below)) = Some r.
  Proof.
    intros sd abs abs' f cur below H S Hf. rewrite map_app. eapply sig_apply_transport; [exact H|].
    clear H. induction S; cbn [map]; constructor; auto.
  Qed.
End Transport.

(* the routine's own cells suffice (no underflow into the caller's cells) *)
Definition enough_cells (sd : sigd) (own : list value) : bool :=
  match sig_apply false sd (map (fun _ => TA) own) with Some _ => true | None => false end.

Lemma lax_accept_enough_app : forall sd abs abs' cur below,
  sig_apply false sd abs = Some abs' -> stack_has cur abs -> enough_cells sd (cur ++ below) = true.
Proof.
  intros sd abs abs' cur below H S. unfold enough_cells.
  destruct (sig_apply_transport_map false false (fun _ t => t = TA)) with (3 := H) (4 := S)
    (f := fun _ : value => TA) (below := below) as [r ->]; auto.
  - intros c c' r -> _. destruct r; reflexivity.
  - intros a a' b b' -> -> _. reflexivity.
Qed.

Lemma lax_accept_enough : forall sd abs abs' cur,
  sig_apply false sd abs = Some abs' -> stack_has cur abs -> enough_cells sd cur = true.
Proof. intros sd abs abs' cur H S. rewrite <- (app_nil_r cur). eapply lax_accept_enough_app; eauto. Qed.

(* strict acceptance of the annotation gives concrete operands of the right types, whatever lies below *)
Lemma strict_accept_operands : forall sd abs abs' cur below,
  sig_apply true sd abs = Some abs' -> stack_has cur abs -> operands_ok sd (cur ++ below) = true.
Proof.
  intros sd abs abs' cur below H S. unfold operands_ok.
  destruct (sig_apply_transport_map true true (fun c t => t <> TA /\ ty_le t c = true)) with (3 := H) (4 := S)
    (f := tag) (below := below) as [r ->]; auto.
  - intros c c' r [N L] A. destruct r; cbn in *; auto; rewrite orb_false_r in *;
      apply ty_eqb_eq in A; subst; destruct c'; cbn in *; try discriminate; try reflexivity; congruence.
  - intros a a' b b' [Na La] [Nb Lb] C. cbn in *. apply andb_true_iff in C. destruct C as [C1 C2].
    apply ty_eqb_eq in C1. subst b.
    destruct a, a', b'; cbn in *; try discriminate; try reflexivity; congruence.
  - intros v t Hv. split; [destruct v; discriminate | exact Hv].
Qed.

(* the signatures are not stricter than the machine: an opcode that succeeds had its operands.
   (itxn_field is excepted: the machine accepts any value, the signature wants the field's type;
    one-byte immediates are assumed to be bytes) *)
Lemma sig_necessary : forall cx o imms stk st stk' st',
  exec_op cx o imms stk st = OOk stk' st' -> o <> O_itxn_field ->
  (forall n, imms = [IInt n] -> (n <= 255)%N) ->
  operands_ok (sig_of o imms) stk = true.
Proof.
  intros cx o imms stk st stk' st' H N I8.
  destruct (rearr_op o) eqn:D; [|exact (proj2 (proj2 (exec_op_ok_spec _ _ _ _ _ _ _ H)) N D)].
  rewrite exec_op_rearrange in H by exact D.
  destruct (rearr_of_sig o imms) as [E | [_ [n [-> L]]]]; [|specialize (I8 _ eq_refl); lia]. rewrite E in H.
  destruct (rearrange (sig_of o imms) stk) as [s|] eqn:Es; [|discriminate H].
  unfold operands_ok. rewrite sig_apply_rearrange by exact (rearrange_rearranging _ _ _ Es).
  pose proof (rearrange_F2 _ (sig_of o imms) _ _ (Forall2_map_graph tag stk)) as K. rewrite Es in K.
  destruct (rearrange (sig_of o imms) (map tag stk)); [reflexivity | contradiction K].
Qed.
