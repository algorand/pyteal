(* Proofs/ABIEncodeBool.v — _encode_bool_sequence (SetBit one by one into a zeroed byte string) produces the
   ARC-4 packing of a run of bools (first bool = most significant bit, zero padding on the right): the two byte
   strings have the same length and the same bits. *)
From Coq Require Import List Arith NArith Ascii String Bool Lia.
From PV Require Import Base.Bytes Base.U64 AVM.Ops ABI.Types ABI.Spec ABI.Encode
  Proofs.ABISpecProof Proofs.ABIIndexBits Proofs.ABIEncodeOps Proofs.ABIEncodeDescr.
Import ListNotations.
Local Open Scope N_scope.

(* the loop of SetBit writes bits i, i+1, ... *)
Lemma bool_seq_set_spec : forall bs acc i, (i + List.length bs <= 8 * List.length acc)%nat ->
    exists acc', bool_seq_set acc (N.of_nat i) (map b2N bs) = Some acc' /\ List.length acc' = List.length acc /\
                 forall j, bit_at acc' j =
                           if (i <=? j)%nat && (j <? i + List.length bs)%nat then Some (nth (j - i) bs false) else bit_at acc j.
Proof.
  induction bs as [|b r IH]; intros acc i H.
  - exists acc. split; [reflexivity|]. split; [reflexivity|]. intro j. cbn [List.length].
    destruct (Nat.leb_spec i j), (Nat.ltb_spec j (i + 0)); cbn [andb]; try reflexivity; lia.
  - cbn [List.length] in H. cbn [map bool_seq_set]. unfold x_setbit.
    replace (b2N b <=? 1) with true by (destruct b; reflexivity).
    destruct (set_bit_bytes_spec acc i b ltac:(lia)) as (a1 & -> & L1 & B1). cbn [obind].
    replace (N.of_nat i + 1) with (N.of_nat (S i)) by lia.
    destruct (IH a1 (S i) ltac:(lia)) as (a2 & -> & L2 & B2).
    exists a2. split; [reflexivity|]. split; [congruence|]. intro j. rewrite B2, B1. cbn [List.length].
    destruct (Nat.eqb_spec j i) as [->|Hne].
    + replace (S i <=? i)%nat with false by (symmetry; apply Nat.leb_gt; lia). rewrite Nat.leb_refl. cbn [andb].
      replace (i <? i + S (List.length r))%nat with true by (symmetry; apply Nat.ltb_lt; lia).
      rewrite Nat.sub_diag. reflexivity.
    + destruct (Nat.leb_spec (S i) j), (Nat.leb_spec i j), (Nat.ltb_spec j (S i + List.length r)),
        (Nat.ltb_spec j (i + S (List.length r))); cbn [andb]; try reflexivity; try lia.
      replace (j - i)%nat with (S (j - S i)) by lia. reflexivity.
Qed.

Theorem bool_pack_correct : forall bs, encode_bool_sequence (map b2N bs) = Some (pack_bools bs).
Proof.
  intro bs. unfold encode_bool_sequence, bzero. rewrite map_length, bool_sequence_length_spec.
  pose proof (bool_seq_len_bounds (N.of_nat (List.length bs))) as HL.
  pose proof (pack_bools_len bs) as Hpl. unfold blen, pack_bools in Hpl.
  remember (N.to_nat (bool_seq_len (N.of_nat (List.length bs)))) as L eqn:EL.
  destruct (bool_seq_set_spec bs (repeat zero L) 0) as (acc & Hacc & La & Ba); [rewrite repeat_length; lia|].
  change (N.of_nat 0) with 0 in Hacc. rewrite Hacc. rewrite repeat_length in La.
  f_equal. apply bytes_bit_ext; [unfold pack_bools; lia|].
  intros j Hj. rewrite Ba, pack_bools_bit by (unfold pack_bools; lia). cbn [Nat.leb andb Nat.add]. rewrite Nat.sub_0_r.
  destruct (Nat.ltb_spec j (List.length bs)); [reflexivity|].
  rewrite bit_at_zeros, nth_overflow by lia. reflexivity.
Qed.

(* a cell that does not hold 0 or 1 makes SetBit fail *)
Lemma bool_seq_set_bad : forall vs acc i, existsb (fun v => 1 <? v) vs = true -> bool_seq_set acc i vs = None.
Proof.
  induction vs as [|v r IH]; intros acc i H; [discriminate|].
  simpl in H. cbn [bool_seq_set]. unfold x_setbit.
  destruct (N.leb_spec v 1) as [Hv|Hv].
  - assert (Hf : (1 <? v) = false) by (apply N.ltb_ge; lia). rewrite Hf in H. simpl in H.
    destruct (set_bit_bytes acc i v); [|reflexivity]. simpl. apply IH. exact H.
  - reflexivity.
Qed.

(* Bool.encode of a lone bool *)
Lemma bool_encode_correct : forall b, bool_encode (b2N b) = Some [n2b (if b then 128 else 0)].
Proof. destruct b; reflexivity. Qed.

(* Bool.set(Expr): Not(Not(n)) is 1 for every non-zero n *)
Lemma bool_set_expr_correct : forall n, bool_set_expr n = b2N (negb (n =? 0)).
Proof. intro n. unfold bool_set_expr, x_not. destruct (n =? 0); reflexivity. Qed.
