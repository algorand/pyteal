(* Proofs/ItxnCorrect.v — C14: the argument loop of InnerTxnBuilder.MethodCall (what every accepted argument
   contributes to the accumulators, by induction over the argument list with the three foreign-array
   counters generalised), and the recorded inner group against the ARC-4 client convention ([valid_call] of
   Router/Itxn.v): correctness up to 15 non-transaction arguments, the type gate, the index rules, and the
   refutation beyond 15 (no tuple packing). *)
From Coq Require Import List Arith NArith Ascii String Bool Lia.
From PV Require Import Base.Bytes Base.Sexp AVM.Syntax ABI.Types ABI.Spec ABI.Layout ABI.Descr ABI.Assignable
  Router.Args Proofs.BytesFacts Proofs.ABITypesProof Proofs.AssignableProof Proofs.RouterArgsLists Proofs.RouterArgsProof
  Router.Itxn Proofs.ItxnWalk.
Import ListNotations.
Local Open Scope string_scope.
Local Open Scope list_scope.

Definition foreign_of (k : ref_kind) (st : acc) : list value :=
  match k with RAccount => a_accts st | RAsset => a_assets st | RApplication => a_apps st end.

Definition pyteal_index (k : ref_kind) (before : nat) : nat :=
  match k with RAsset => before | _ => S before end.

Definition array_name (k : ref_kind) : string :=
  match k with RAccount => "Accounts" | RAsset => "Assets" | RApplication => "Applications" end.

Fixpoint kaccts (ps : list (ty * karg)) : list bytes :=
  match ps with
  | [] => []
  | (_, KAccount a) :: r => a :: kaccts r
  | _ :: r => kaccts r
  end.
Fixpoint kassets (ps : list (ty * karg)) : list N :=
  match ps with
  | [] => []
  | (_, KAsset n) :: r => n :: kassets r
  | _ :: r => kassets r
  end.
Fixpoint kapps (ps : list (ty * karg)) : list N :=
  match ps with
  | [] => []
  | (_, KApp n) :: r => n :: kapps r
  | _ :: r => kapps r
  end.

(* the reference arguments of kind k, as PyTeal records them *)
Definition krefs (k : ref_kind) (pks : list (ty * karg)) : list value :=
  match k with
  | RAccount => map VB (kaccts pks)
  | RAsset => map VI (kassets pks)
  | RApplication => map VI (kapps pks)
  end.

Definition karg_ref (a : karg) : option (ref_kind * value) :=
  match a with
  | KAccount x => Some (RAccount, VB x)
  | KAsset n => Some (RAsset, VI n)
  | KApp n => Some (RApplication, VI n)
  | KVal _ | KTxn _ => None
  end.

Lemma krefs_cons : forall k t a r,
  krefs k ((t, a) :: r) =
  match karg_ref a with
  | Some (k', v) => if ref_kind_eqb k' k then v :: krefs k r else krefs k r
  | None => krefs k r
  end.
Proof. intros k t a r. destruct a, k; reflexivity. Qed.

Definition kinds_fit (pks : list (ty * karg)) : bool := forallb (fun p => kind_fits (fst p) (snd p)) pks.

(* the indices PyTeal assigns, as a function of the parameter types and the three counters *)
Fixpoint ref_idxs (na nb nc : nat) (ps : list ty) : list N :=
  match ps with
  | [] => []
  | TRef RAccount :: r => N.of_nat (pyteal_index RAccount na) :: ref_idxs (S na) nb nc r
  | TRef RApplication :: r => N.of_nat (pyteal_index RApplication nb) :: ref_idxs na (S nb) nc r
  | TRef RAsset :: r => N.of_nat (pyteal_index RAsset nc) :: ref_idxs na nb (S nc) r
  | _ :: r => ref_idxs na nb nc r
  end.

Definition idxs_from (st : acc) : list ty -> list N :=
  ref_idxs (List.length (foreign_of RAccount st)) (List.length (foreign_of RApplication st))
           (List.length (foreign_of RAsset st)).

Lemma ref_idxs_plain : forall t r na nb nc,
  is_ref_ty t = false -> ref_idxs na nb nc (t :: r) = ref_idxs na nb nc r.
Proof. intros t r na nb nc H. destruct t; try reflexivity; discriminate. Qed.

Lemma idxs_from_ref : forall k v st st1 ps,
  (forall k', foreign_of k' st1 = foreign_of k' st ++ if ref_kind_eqb k k' then [v] else []) ->
  idxs_from st (TRef k :: ps) = N.of_nat (pyteal_index k (List.length (foreign_of k st))) :: idxs_from st1 ps.
Proof.
  intros k v st st1 ps H. unfold idxs_from. rewrite !H.
  destruct k; cbn [ref_idxs ref_kind_eqb]; rewrite ?app_nil_r, app_length, Nat.add_1_r; reflexivity.
Qed.

(* one accepted argument: which accumulators grow, by what *)
Definition grows (st st' : acc) (dargs daccts dapps dassets : list value) : Prop :=
  a_args st' = a_args st ++ dargs /\ a_accts st' = a_accts st ++ daccts /\
  a_apps st' = a_apps st ++ dapps /\ a_assets st' = a_assets st ++ dassets.

Lemma step_ref_grows : forall k a st st',
  step (TRef k) a st = Ok st' ->
  exists v, ref_value k a = Ok v /\
    (pyteal_index k (List.length (foreign_of k st)) < 256)%nat /\
    a_args st' = a_args st ++ [VB [n2b (N.of_nat (pyteal_index k (List.length (foreign_of k st))))]] /\
    a_txns st' = a_txns st /\
    forall k', foreign_of k' st' = foreign_of k' st ++ if ref_kind_eqb k k' then [v] else [].
Proof.
  intros k a st st' H. cbn [step] in H.
  (* the value, then the index byte; for an asset the index is taken first, before the append *)
  destruct k; cbn [step_ref] in H;
    [ apply rbind_ok in H; destruct H as [v [Hv H]]; apply rbind_ok in H; destruct H as [b [Hb H]]
    | apply rbind_ok in H; destruct H as [b [Hb H]]; apply rbind_ok in H; destruct H as [v [Hv H]]
    | apply rbind_ok in H; destruct H as [v [Hv H]]; apply rbind_ok in H; destruct H as [b [Hb H]] ];
    apply index_byte_ok in Hb; destruct Hb as [Hlt ->]; inversion H; subst st'; clear H;
    exists v; cbn [foreign_of pyteal_index a_args a_txns a_accts a_apps a_assets];
    rewrite ?app_length, ?Nat.add_1_r in Hlt |- *;
    repeat split; try assumption; intros []; cbn [foreign_of ref_kind_eqb a_accts a_apps a_assets];
    now rewrite ?app_nil_r.
Qed.

Lemma step_plain_grows : forall t a st st',
  is_txn_ty t = false -> is_ref_ty t = false -> step t a st = Ok st' -> exists x, st' = push_arg st x.
Proof.
  intros t a st st' H1 H2 H. rewrite step_plain_eq in H by assumption.
  destruct a as [e|sp v|k rv|fs|]; cbn [step_plain] in H; try discriminate.
  - destruct (require_ok (x_type e) T_bytes); [|discriminate]. inversion H. eauto.
  - destruct (assignable sp t); [|discriminate]. destruct (arc4_encode sp v); [|discriminate].
    inversion H. eauto.
  - destruct (assignable (TRef k) t); discriminate.
Qed.

(* an ABI instance is accepted for a plain parameter only, and only if its type is assignable *)
Lemma step_abi_accepts : forall t a v st st',
  step t (IAbi a v) st = Ok st' ->
  is_txn_ty t = false /\ is_ref_ty t = false /\ assignable a t = true /\
  exists bs, arc4_encode a v = Some bs /\ st' = push_arg st (VB bs).
Proof.
  intros t a v st st' H.
  destruct (is_txn_ty t) eqn:Et; [destruct t; discriminate |].
  destruct (is_ref_ty t) eqn:Er.
  { destruct t as [| | | | | | | | | | |k]; try discriminate Er.
    destruct (step_ref_grows _ _ _ _ H) as [x [Hx _]]. discriminate Hx. }
  rewrite step_plain_eq in H by assumption. cbn [step_plain] in H.
  destruct (assignable a t); [|discriminate]. destruct (arc4_encode a v) as [bs|]; [|discriminate].
  inversion H. eauto 6.
Qed.

Lemma step_txn_grows : forall k a st st',
  step (TTxn k) a st = Ok st' -> a_args st' = a_args st /\ forall k', foreign_of k' st' = foreign_of k' st.
Proof.
  intros k a st st' H. cbn [step] in H.
  destruct (step_txn_inv _ _ _ _ H) as [fs [name [a_spec [x [_ [_ [_ [_ [_ ->]]]]]]]]].
  split; [reflexivity|]. intros []; reflexivity.
Qed.

(* what one accepted run of the loop appends to the accumulators *)
Definition walk_result (st st' : acc) (ps : list ty) (ks : list karg) : Prop :=
  exists w encs,
    wire (combine ps ks) (idxs_from st ps) = Some w /\
    enc_each w = Some encs /\
    a_args st' = a_args st ++ map VB encs /\
    a_txns st' = a_txns st ++ ktxns (combine ps ks) /\
    (forall k, foreign_of k st' = foreign_of k st ++ krefs k (combine ps ks)) /\
    kinds_fit (combine ps ks) = true.

Lemma walk_result_nil : forall st, walk_result st st [] [].
Proof.
  intros st. exists [], []. cbn. rewrite !app_nil_r. repeat split. intros []; cbn; now rewrite app_nil_r.
Qed.

Lemma wr_cons_plain : forall t v bs st st' ps ks,
  is_txn_ty t = false -> is_ref_ty t = false -> arc4_encode t v = Some bs ->
  walk_result (push_arg st (VB bs)) st' ps ks ->
  walk_result st st' (t :: ps) (KVal v :: ks).
Proof.
  intros t v bs st st' ps ks H1 H2 He [w [encs [Hw [Hen [Ha [Ht [Hf Hk]]]]]]].
  exists ((t, v) :: w), (bs :: encs).
  cbn [combine]. rewrite wire_plain by assumption.
  unfold idxs_from in *. cbn [foreign_of push_arg a_accts a_apps a_assets] in Hw |- *.
  rewrite ref_idxs_plain by exact H2. rewrite Hw.
  repeat split; try assumption.
  - cbn. rewrite He, Hen. reflexivity.
  - rewrite Ha. cbn [push_arg a_args]. rewrite <- app_assoc. reflexivity.
  - unfold kinds_fit. cbn [forallb fst snd]. rewrite kind_fits_plain by assumption. exact Hk.
Qed.

Lemma wr_cons_txn : forall k x st st' ps ks,
  ktxn_type_ok k x = true ->
  walk_result (mkAcc (a_txns st ++ [x]) (a_accts st) (a_apps st) (a_assets st) (a_args st)) st' ps ks ->
  walk_result st st' (TTxn k :: ps) (KTxn x :: ks).
Proof.
  intros k x st st' ps ks Hok [w [encs [Hw [Hen [Ha [Ht [Hf Hk]]]]]]].
  exists w, encs. cbn [combine]. cbn [wire kind_fits]. rewrite Hok. cbn [negb].
  repeat split; try assumption.
  - rewrite Ht. cbn [a_txns ktxns]. rewrite <- app_assoc. reflexivity.
  - unfold kinds_fit. cbn [forallb fst snd kind_fits]. rewrite Hok. exact Hk.
Qed.

Lemma wr_cons_ref : forall k a ka st st1 st' ps ks,
  step (TRef k) a st = Ok st1 ->
  (forall v, ref_value k a = Ok v -> karg_ref ka = Some (k, v)) ->
  walk_result st1 st' ps ks ->
  walk_result st st' (TRef k :: ps) (ka :: ks).
Proof.
  intros k a ka st st1 st' ps ks Hs Hka [w [encs [Hw [Hen [Ha [Ht [Hf Hk]]]]]]].
  destruct (step_ref_grows _ _ _ _ Hs) as [v [Hv [Hlt [Ha1 [Ht1 Hf1]]]]].
  specialize (Hka v Hv).
  assert (Hfit : kind_fits (TRef k) ka = true /\ ktxns ((TRef k, ka) :: combine ps ks) = ktxns (combine ps ks))
    by (destruct ka; inversion Hka; split; reflexivity).
  destruct Hfit as [Hfit Hkt].
  set (i := pyteal_index k (List.length (foreign_of k st))) in *.
  exists ((TUint 8, VUint (N.of_nat i)) :: w), ([n2b (N.of_nat i)] :: encs).
  cbn [combine]. rewrite (idxs_from_ref k v st st1 ps Hf1). fold i. cbn [wire]. rewrite Hfit. cbn [negb]. rewrite Hw.
  split; [reflexivity |]. split.
  { cbn [enc_each]. rewrite uint8_enc, Hen.
    replace (N.of_nat i <? 256)%N with true by (symmetry; apply N.ltb_lt; lia). reflexivity. }
  split; [now rewrite Ha, Ha1, <- app_assoc |].
  split; [now rewrite Ht, Ht1, Hkt |]. split.
  - intro k'. rewrite Hf, Hf1, krefs_cons, Hka, <- app_assoc. now destruct (ref_kind_eqb k k').
  - unfold kinds_fit. cbn [forallb fst snd]. now rewrite Hfit.
Qed.

(* for a reference parameter, the value MethodCall appends is the address / id the argument denotes *)
Lemma denotes1_ref : forall t a ka, denotes1 t a ka ->
  forall k v, t = TRef k -> ref_value k a = Ok v -> karg_ref ka = Some (k, v).
Proof.
  intros t a ka H k v Et Hv.
  destruct H; inversion Et; subst; try discriminate; cbn in Hv;
    try destruct (require_ok _ _); inversion Hv; cbn [karg_ref]; congruence.
Qed.

Lemma walk_denotes : forall ps args ks,
  denotes ps args ks -> forall st st', walk ps args st = Ok st' -> walk_result st st' ps ks.
Proof.
  induction 1 as [|t a k ts args ks H1 Hrest IH]; intros st st' Hw.
  - cbn in Hw. inversion Hw. apply walk_result_nil.
  - cbn [walk] in Hw. apply rbind_ok in Hw. destruct Hw as [st1 [Hs Hw]].
    specialize (IH st1 st' Hw). pose proof (denotes1_ref _ _ _ H1) as Hr.
    destruct H1 as [t a v Ht Hnr | t e bs v Ht Hnr Hv He | | | | | | | k fs x Hx Hnd].
    3-8: exact (wr_cons_ref _ _ _ _ _ _ _ _ Hs (fun v => Hr _ v eq_refl) IH).
    + destruct (step_abi_accepts _ _ _ _ _ Hs) as [_ [_ [Has [bs [He ->]]]]].
      destruct (admitted_bytes_valid_for_target a t v bs Has He) as [He' _].
      eapply wr_cons_plain; eassumption.
    + rewrite step_plain_eq in Hs by assumption. cbn [step_plain] in Hs.
      destruct (require_ok (x_type e) T_bytes); [|discriminate]. inversion Hs. subst st1.
      rewrite Hv in IH. eapply wr_cons_plain; eassumption.
    + cbn [step] in Hs. destruct (step_txn_ok _ _ _ _ Hs Hnd) as [x' [Hx' [Hok ->]]].
      rewrite Hx in Hx'. inversion Hx'. subst x'. apply wr_cons_txn; assumption.
Qed.

(* Accounts and Applications have an implicit entry 0, the sender / the called application: appended
   entries count from 1.  [resolve_account] and [resolve_app] are both of this form. *)
Lemma nth_after_implicit : forall {A} (x0 : A) l0 x rest,
  (if N.eqb (N.of_nat (S (List.length l0))) 0 then Some x0
   else nth_error (l0 ++ x :: rest) (N.to_nat (N.of_nat (S (List.length l0))) - 1)) = Some x.
Proof.
  intros A x0 l0 x rest. destruct (N.eqb_spec (N.of_nat (S (List.length l0))) 0) as [H|_]; [lia |].
  rewrite to_nat_of_nat_S_sub, nth_error_app2, Nat.sub_diag by lia. reflexivity.
Qed.

Lemma resolve_asset_before : forall C0 x rest,
  resolve_asset (C0 ++ x :: rest) (N.of_nat (List.length C0)) = Some x.
Proof.
  intros C0 x rest. unfold resolve_asset. rewrite Nat2N.id, nth_error_app2, Nat.sub_diag by lia. reflexivity.
Qed.

(* every index PyTeal assigns resolves, for the callee, to the argument that was passed *)
Lemma refs_resolve_idxs : forall sender callee c pks A0 B0 C0 sA sB sC,
  kinds_fit pks = true ->
  ic_accounts c = A0 ++ kaccts pks ++ sA ->
  ic_apps c = B0 ++ kapps pks ++ sB ->
  ic_assets c = C0 ++ kassets pks ++ sC ->
  refs_resolve sender callee c pks (ref_idxs (List.length A0) (List.length B0) (List.length C0) (map fst pks)).
Proof.
  intros sender callee c pks. induction pks as [|[t a] r IH]; intros A0 B0 C0 sA sB sC Hk Ha Hb Hc.
  - exact I.
  - unfold kinds_fit in Hk. cbn [forallb fst snd] in Hk. apply andb_true_iff in Hk. destruct Hk as [Hk1 Hk].
    destruct t as [| | | | | | | | | | |k]; try destruct k; destruct a; try discriminate Hk1;
      cbn [map fst ref_idxs pyteal_index refs_resolve kaccts kapps kassets] in *;
      try (eapply IH; eassumption).
    + split; [rewrite Ha; exact (nth_after_implicit sender A0 _ _) |].
      rewrite <- (last_length A0 a). apply (IH _ _ _ sA sB sC); try assumption. now rewrite Ha, <- app_assoc.
    + split; [rewrite Hc; apply resolve_asset_before |].
      rewrite <- (last_length C0 id). apply (IH _ _ _ sA sB sC); try assumption. now rewrite Hc, <- app_assoc.
    + split; [rewrite Hb; exact (nth_after_implicit callee B0 _ _) |].
      rewrite <- (last_length B0 id). apply (IH _ _ _ sA sB sC); try assumption. now rewrite Hb, <- app_assoc.
Qed.

Lemma all_bytes_app : forall l rest, all_bytes (map VB l ++ rest) = option_map (app l) (all_bytes rest).
Proof.
  induction l as [|b r IH]; intro rest; cbn; [|rewrite IH]; now destruct (all_bytes rest).
Qed.

Lemma all_uints_app : forall l rest, all_uints_v (map VI l ++ rest) = option_map (app l) (all_uints_v rest).
Proof.
  induction l as [|b r IH]; intro rest; cbn; [|rewrite IH]; now destruct (all_uints_v rest).
Qed.

Lemma all_bytes_map : forall l, all_bytes (map VB l) = Some l.
Proof. intro l. rewrite <- (app_nil_r (map VB l)), all_bytes_app. cbn. now rewrite app_nil_r. Qed.

Lemma all_uints_map : forall l, all_uints_v (map VI l) = Some l.
Proof. intro l. rewrite <- (app_nil_r (map VI l)), all_uints_app. cbn. now rewrite app_nil_r. Qed.

Definition id_fields (idf : itx) : Prop := idf = [] \/ exists v, idf = [("ApplicationID", v)].

Lemma method_call_inv : forall sel s app_id args extra grp,
  method_call sel s app_id args extra = Ok grp ->
  exists idf st ex,
    id_fields idf /\
    List.length args = List.length (s_params s) /\
    walk (s_params s) args acc0 = Ok st /\
    set_fields extra = Ok ex /\
    grp = a_txns st ++ [app_call_fields sel s idf st ++ ex].
Proof.
  intros sel s app_id args extra grp H. unfold method_call in H.
  apply rbind_ok in H. destruct H as [idf [Hid H]].
  destruct (negb (sig_in_domain s)); [discriminate|].
  destruct (negb (sdk_parses s)); [discriminate|].
  destruct (negb (pyteal_supports s)); [discriminate|].
  destruct (Nat.eqb_spec (List.length args) (List.length (s_params s))) as [Hlen|]; [|discriminate].
  cbn [negb] in H.
  apply rbind_ok in H. destruct H as [st [Hw H]].
  apply rbind_ok in H. destruct H as [ex [Hex H]]. inversion H.
  exists idf, st, ex. repeat split; try assumption.
  destruct app_id as [|e|]; cbn in Hid.
  - inversion Hid. left. reflexivity.
  - destruct (require_ok (x_type e) T_uint); [|discriminate]. inversion Hid. right. eexists. reflexivity.
  - discriminate.
Qed.

(* a key that a condition on extra_fields rules out is not among the fields SetFields records for them *)
Lemma extra_absent : forall (q : string * fval -> bool) extra ex f,
  forallb q extra = true -> set_fields extra = Ok ex -> (forall v, q (f, v) = false) ->
  Forall (fun kv => fst kv <> f) ex.
Proof.
  intros q extra ex f Hq Hset Hf. apply set_fields_keys in Hset. eapply Forall_impl; [|exact Hset].
  intros kv Hin Heq. cbn beta in Hin. apply in_map_iff in Hin. destruct Hin as [[f' v] [E Hin]].
  rewrite forallb_forall in Hq. specialize (Hq _ Hin). cbn in E. rewrite E, Heq, Hf in Hq. discriminate.
Qed.

Lemma id_fields_absent : forall idf f, id_fields idf -> f <> "ApplicationID" -> Forall (fun kv => fst kv <> f) idf.
Proof.
  intros idf f [->|[v ->]] Hf; repeat constructor. cbn. congruence.
Qed.

Lemma fields_of_absent : forall f g vs, f <> g -> Forall (fun kv => fst kv <> f) (fields_of g vs).
Proof.
  intros f g vs H. unfold fields_of. apply Forall_forall. intros kv Hin.
  apply in_map_iff in Hin. destruct Hin as [y [Hy _]]. subst kv. cbn. congruence.
Qed.

Lemma arr_of_call : forall sel s idf st ex f,
  id_fields idf -> f <> "TypeEnum" -> f <> "ApplicationID" ->
  arr_of f (app_call_fields sel s idf st ++ ex) =
    (if String.eqb "Accounts" f then a_accts st else []) ++
    (if String.eqb "Applications" f then a_apps st else []) ++
    (if String.eqb "Assets" f then a_assets st else []) ++
    (if String.eqb "ApplicationArgs" f then VB (sel (arc4_sig_str s)) :: a_args st else []) ++ arr_of f ex.
Proof.
  intros sel s idf st ex f Hid H1 H2. unfold app_call_fields.
  rewrite !arr_of_app, !arr_of_fields, (arr_of_absent f idf) by (apply id_fields_absent; assumption).
  rewrite (arr_of_absent f [("TypeEnum", VI 6)]) by (repeat constructor; cbn; congruence).
  rewrite <- !app_assoc. reflexivity.
Qed.

Lemma call_foreign : forall sel s idf st ex k,
  id_fields idf ->
  arr_of (array_name k) (app_call_fields sel s idf st ++ ex) = foreign_of k st ++ arr_of (array_name k) ex.
Proof.
  intros sel s idf st ex k Hid. rewrite arr_of_call by (exact Hid || (destruct k; discriminate)).
  destruct k; reflexivity.
Qed.

Lemma call_args : forall sel s idf st ex,
  id_fields idf ->
  arr_of "ApplicationArgs" (app_call_fields sel s idf st ++ ex)
  = (VB (sel (arc4_sig_str s)) :: a_args st) ++ arr_of "ApplicationArgs" ex.
Proof. intros sel s idf st ex Hid. now rewrite arr_of_call by (exact Hid || discriminate). Qed.

Lemma call_type_enum : forall sel s idf st ex,
  id_fields idf -> Forall (fun kv => fst kv <> "TypeEnum") ex ->
  last_field "TypeEnum" (app_call_fields sel s idf st ++ ex) = Some (VI 6).
Proof.
  intros sel s idf st ex Hid Hex. unfold app_call_fields.
  rewrite <- !app_assoc. rewrite last_field_app.
  rewrite last_field_absent; [reflexivity|].
  repeat (apply Forall_app; split); try exact Hex;
    try (apply fields_of_absent; discriminate).
  apply id_fields_absent; [exact Hid | discriminate].
Qed.

(* the recorded group, for any number of arguments: the transaction arguments, then one application call
   carrying the selector, one encoding per non-transaction argument and, per kind, the reference arguments
   followed by what extra_fields adds *)
Lemma method_call_recorded : forall sel s app_id args extra grp ks,
  method_call sel s app_id args extra = Ok grp -> denotes (s_params s) args ks -> extra_ok extra = true ->
  let pks := combine (s_params s) ks in
  exists calltx ex w encs,
    grp = ktxns pks ++ [calltx] /\ last_field "TypeEnum" calltx = Some (VI 6) /\
    set_fields extra = Ok ex /\
    wire pks (ref_idxs 0 0 0 (s_params s)) = Some w /\ enc_each w = Some encs /\ kinds_fit pks = true /\
    arr_of "ApplicationArgs" calltx = map VB (sel (arc4_sig_str s) :: encs) /\
    arr_of "Accounts" calltx = map VB (kaccts pks) ++ arr_of "Accounts" ex /\
    arr_of "Assets" calltx = map VI (kassets pks) ++ arr_of "Assets" ex /\
    arr_of "Applications" calltx = map VI (kapps pks) ++ arr_of "Applications" ex.
Proof.
  intros sel s app_id args extra grp ks Hmc Hden Hex pks.
  destruct (method_call_inv _ _ _ _ _ _ Hmc) as [idf [st [ex [Hid [_ [Hw [Hset ->]]]]]]].
  destruct (walk_denotes _ _ _ Hden _ _ Hw) as [w [encs [Hwire [Henc [Ha [Ht [Hf Hk]]]]]]].
  assert (HF : forall k, arr_of (array_name k) (app_call_fields sel s idf st ++ ex)
                         = krefs k pks ++ arr_of (array_name k) ex).
  { intro k. rewrite call_foreign, Hf by exact Hid. now destruct k. }
  exists (app_call_fields sel s idf st ++ ex), ex, w, encs.
  split; [now rewrite Ht |].
  split; [apply call_type_enum; [exact Hid | apply (extra_absent _ _ _ _ Hex Hset); reflexivity] |].
  repeat split; try assumption; [| exact (HF RAccount) | exact (HF RAsset) | exact (HF RApplication)].
  rewrite call_args, Ha, (arr_of_absent _ ex) by (exact Hid || (apply (extra_absent _ _ _ _ Hex Hset); reflexivity)).
  apply app_nil_r.
Qed.

(* what MethodCall records, for any number of arguments: everything the client convention asks for
   except the packing — one application argument per non-transaction argument, always *)
Lemma method_call_marshals :
  forall (selector_of : string -> bytes) (s : msig) (app_id : aid) (args : list iarg) (extra : fdict)
         (grp : list itx) (ks : list karg) (sender : bytes) (callee : N),
    method_call selector_of s app_id args extra = Ok grp ->
    denotes (s_params s) args ks ->
    extra_ok extra = true ->
    let pks := combine (s_params s) ks in
    exists calltx,
      grp = ktxns pks ++ [calltx] /\
      last_field "TypeEnum" calltx = Some (VI 6) /\
      forall c, observe (ktxns pks) calltx = Some c ->
        exists idxs w encs,
          wire pks idxs = Some w /\ refs_resolve sender callee c pks idxs /\ enc_each w = Some encs /\
          ic_args c = selector_of (arc4_sig_str s) :: encs /\ ic_txns c = ktxns pks /\
          List.length encs = count_nontxn (s_params s).
Proof.
  intros sel s app_id args extra grp ks sender callee Hmc Hden Hex pks.
  destruct (method_call_recorded _ _ _ _ _ _ _ Hmc Hden Hex)
    as [calltx [ex [w [encs [Hg [Hte [_ [Hwire [Henc [Hk [A1 [A2 [A3 A4]]]]]]]]]]]]].
  exists calltx. split; [exact Hg |]. split; [exact Hte |].
  intros c Hobs. unfold observe in Hobs.
  rewrite A1, A2, A3, A4, all_bytes_map, all_bytes_app, !all_uints_app in Hobs.
  destruct (all_bytes (arr_of "Accounts" ex)) as [sA|]; [|discriminate].
  destruct (all_uints_v (arr_of "Assets" ex)) as [sC|]; [|discriminate].
  destruct (all_uints_v (arr_of "Applications" ex)) as [sB|]; [|discriminate].
  injection Hobs as Hc.
  assert (Hps : map fst (combine (s_params s) ks) = s_params s) by (apply map_fst_combine; symmetry; apply (denotes_length _ _ _ Hden)).
  exists (ref_idxs 0 0 0 (s_params s)), w, encs.
  split; [exact Hwire|]. split.
  - rewrite <- Hps. apply (refs_resolve_idxs sender callee c pks [] [] [] sA sB sC); now subst c.
  - subst c. repeat split; [exact Henc|].
    now rewrite (enc_each_length _ _ Henc), (wire_length _ _ _ Hwire), Hps.
Qed.

Theorem method_call_correct_le15 :
  forall (selector_of : string -> bytes) (s : msig) (app_id : aid) (args : list iarg) (extra : fdict)
         (grp : list itx) (ks : list karg) (sender : bytes) (callee : N),
    method_call selector_of s app_id args extra = Ok grp ->
    denotes (s_params s) args ks ->
    (count_nontxn (s_params s) <= 15)%nat ->
    extra_ok extra = true ->
    let pre := ktxns (combine (s_params s) ks) in
    exists calltx,
      grp = pre ++ [calltx] /\
      last_field "TypeEnum" calltx = Some (VI 6) /\
      forall c, observe pre calltx = Some c ->
                valid_call (selector_of (arc4_sig_str s)) sender callee s ks c.
Proof.
  intros sel s app_id args extra grp ks sender callee Hmc Hden Hle Hex pre.
  destruct (method_call_marshals sel s app_id args extra grp ks sender callee Hmc Hden Hex)
    as [calltx [Hg [Hte Hc]]].
  exists calltx. split; [exact Hg|]. split; [exact Hte|]. intros c Ho.
  destruct (Hc c Ho) as [idxs [w [encs [Hwire [Hres [Henc [Ha [Ht Hl]]]]]]]].
  split; [symmetry; apply (denotes_length _ _ _ Hden)|].
  exists idxs, w, encs. repeat split; try assumption.
  rewrite pack_le15; [exact Henc|]. now rewrite <- (enc_each_length _ _ Henc), Hl.
Qed.

(* the call can be read back whenever extra_fields adds no ill-typed foreign entries — in particular
   when it does not touch the foreign arrays at all *)
Definition extra_plain (extra : fdict) : bool :=
  extra_ok extra &&
  forallb (fun kv => negb (String.eqb (fst kv) "Accounts" || String.eqb (fst kv) "Assets"
                           || String.eqb (fst kv) "Applications")) extra.

Theorem method_call_observable :
  forall (selector_of : string -> bytes) s app_id args extra grp ks,
    method_call selector_of s app_id args extra = Ok grp ->
    denotes (s_params s) args ks ->
    extra_plain extra = true ->
    exists calltx c, grp = ktxns (combine (s_params s) ks) ++ [calltx] /\
                     observe (ktxns (combine (s_params s) ks)) calltx = Some c.
Proof.
  intros sel s app_id args extra grp ks Hmc Hden Hex.
  unfold extra_plain in Hex. apply andb_true_iff in Hex. destruct Hex as [Hok Hpl].
  destruct (method_call_recorded _ _ _ _ _ _ _ Hmc Hden Hok)
    as [calltx [ex [w [encs [Hg [_ [Hset [_ [_ [_ [A1 [A2 [A3 A4]]]]]]]]]]]]].
  exists calltx. eexists. split; [exact Hg |]. unfold observe.
  rewrite A1, A2, A3, A4, !(arr_of_absent _ ex) by (apply (extra_absent _ _ _ _ Hpl Hset); reflexivity).
  rewrite !app_nil_r, !all_bytes_map, !all_uints_map. reflexivity.
Qed.

Lemma walk_nth : forall ps args st st',
  walk ps args st = Ok st' ->
  forall i t a, nth_error ps i = Some t -> nth_error args i = Some a ->
  exists st1 st2, step t a st1 = Ok st2.
Proof.
  induction ps as [|p pr IH]; intros [|a0 ar] st st' H i t a Hp Ha; destruct i; cbn in *; try discriminate.
  - inversion Hp. inversion Ha. subst. apply rbind_ok in H. destruct H as [st1 [Hs _]]. eauto.
  - apply rbind_ok in H. destruct H as [st1 [_ Hw]]. eapply IH; eassumption.
Qed.

Theorem method_call_gate :
  forall (selector_of : string -> bytes) s app_id args extra grp i t a v,
    method_call selector_of s app_id args extra = Ok grp ->
    nth_error (s_params s) i = Some t -> nth_error args i = Some (IAbi a v) ->
    is_txn_ty t = false /\ is_ref_ty t = false /\
    assignable a t = true /\ canon a = canon t /\
    exists bs, arc4_encode a v = Some bs /\ arc4_encode t v = Some bs /\ val_has_type t v = true.
Proof.
  intros sel s app_id args extra grp i t a v Hmc Hp Ha.
  destruct (method_call_inv _ _ _ _ _ _ Hmc) as [idf [st [ex [_ [_ [Hw _]]]]]].
  destruct (walk_nth _ _ _ _ Hw i t _ Hp Ha) as [st1 [st2 Hs]].
  destruct (step_abi_accepts _ _ _ _ _ Hs) as [H1 [H2 [H3 [bs [H4 _]]]]].
  repeat split; try assumption.
  - apply assignable_same_layout. exact H3.
  - exists bs. destruct (admitted_bytes_valid_for_target a t v bs H3 H4) as [E1 E2]. auto.
Qed.

Theorem method_call_rejects_unassignable :
  forall (selector_of : string -> bytes) s app_id args extra i t a v,
    nth_error (s_params s) i = Some t -> nth_error args i = Some (IAbi a v) ->
    assignable a t = false ->
    exists e, method_call selector_of s app_id args extra = Err e.
Proof.
  intros sel s app_id args extra i t a v Hp Ha Hn.
  destruct (method_call sel s app_id args extra) as [grp|e] eqn:E; [|eauto].
  destruct (method_call_gate _ _ _ _ _ _ _ _ _ _ E Hp Ha) as [_ [_ [H _]]]. congruence.
Qed.

Lemma walk_app : forall ps1 as1 ps2 as2 st,
  List.length as1 = List.length ps1 ->
  walk (ps1 ++ ps2) (as1 ++ as2) st = rbind (walk ps1 as1 st) (walk ps2 as2).
Proof.
  induction ps1 as [|p r IH]; intros [|a ar] ps2 as2 st H; cbn in *; try discriminate.
  - destruct ps2, as2; reflexivity.
  - destruct (step p a st) as [st1|e]; cbn; [|reflexivity]. apply IH. congruence.
Qed.

(* one accepted argument: one more application argument unless it is a transaction, one more entry in the
   foreign array of its kind if it is a reference *)
Lemma step_counts : forall t a st st',
  step t a st = Ok st' ->
  (exists d, a_args st' = a_args st ++ d /\ List.length d = count_nontxn [t]) /\
  (forall k, exists d, foreign_of k st' = foreign_of k st ++ d /\ List.length d = count_ref k [t]).
Proof.
  intros t a st st' H. unfold count_nontxn, count_ref. cbn [filter].
  destruct (is_txn_ty t) eqn:Et; [|destruct (is_ref_ty t) eqn:Er].
  - destruct t; try discriminate Et. destruct (step_txn_grows _ _ _ _ H) as [Hx Hk].
    split; [exists [] | intro k0; exists []]; rewrite app_nil_r; auto.
  - destruct t as [| | | | | | | | | | |k]; try discriminate Er.
    destruct (step_ref_grows _ _ _ _ H) as [v [_ [_ [Hx [_ Hk]]]]].
    split; [eexists; split; [exact Hx | reflexivity] |].
    intro k0. eexists. split; [apply Hk |]. now destruct (ref_kind_eqb k k0).
  - destruct (step_plain_grows _ _ _ _ Et Er H) as [x ->].
    split; [exists [x]; unfold not_txn_ty; rewrite Et; auto |].
    intro k0. exists []. rewrite app_nil_r. split; [now destruct k0 |]. destruct t; try reflexivity; discriminate Er.
Qed.

Lemma filter_cons_length : forall {A} (p : A -> bool) x l,
  List.length (filter p (x :: l)) = (List.length (filter p [x]) + List.length (filter p l))%nat.
Proof. intros A p x l. cbn [filter]. now destruct (p x). Qed.

Lemma walk_counts : forall ps args st st',
  List.length args = List.length ps -> walk ps args st = Ok st' ->
  (exists d, a_args st' = a_args st ++ d /\ List.length d = count_nontxn ps) /\
  (forall k, exists d, foreign_of k st' = foreign_of k st ++ d /\ List.length d = count_ref k ps).
Proof.
  induction ps as [|t pr IH]; intros [|a ar] st st' Hl H; cbn in Hl; try discriminate.
  - cbn in H. inversion H. split; [exists []|intros k; exists []]; rewrite app_nil_r; auto.
  - cbn [walk] in H. apply rbind_ok in H. destruct H as [st1 [Hs Hw]].
    destruct (step_counts _ _ _ _ Hs) as [[d1 [Hd1 Hl1]] Hf1].
    destruct (IH ar st1 st' (eq_add_S _ _ Hl) Hw) as [[d [Hd Hdl]] Hf].
    unfold count_nontxn, count_ref in *. split.
    + exists (d1 ++ d). now rewrite Hd, Hd1, <- app_assoc, app_length, filter_cons_length, Hl1, Hdl.
    + intro k. destruct (Hf1 k) as [e1 [He1 Hle1]]. destruct (Hf k) as [e [He Hle]].
      exists (e1 ++ e). now rewrite He, He1, <- app_assoc, app_length, filter_cons_length, Hle1, Hle.
Qed.

Theorem reference_index_rules_walk :
  forall ps1 k ps2 as1 a as2 st,
    List.length as1 = List.length ps1 -> List.length as2 = List.length ps2 ->
    walk (ps1 ++ TRef k :: ps2) (as1 ++ a :: as2) acc0 = Ok st ->
    exists v, ref_value k a = Ok v /\
      nth_error (a_args st) (count_nontxn ps1)
        = Some (VB [n2b (N.of_nat (pyteal_index k (count_ref k ps1)))]) /\
      nth_error (foreign_of k st) (count_ref k ps1) = Some v.
Proof.
  intros ps1 k ps2 as1 a as2 st H1 H2 Hw.
  rewrite walk_app in Hw by exact H1. apply rbind_ok in Hw. destruct Hw as [st1 [Hw1 Hw]].
  cbn [walk] in Hw. apply rbind_ok in Hw. destruct Hw as [st2 [Hs Hw2]].
  destruct (walk_counts _ _ _ _ H1 Hw1) as [[d1 [Hd1 Hl1]] Hf1].
  destruct (Hf1 k) as [f1 [Hf1k Hlf1]]. cbn in Hd1.
  assert (Hf1k' : foreign_of k st1 = f1) by (rewrite Hf1k; destruct k; reflexivity).
  destruct (step_ref_grows _ _ _ _ Hs) as [v [Hv [_ [Hx [_ Hk]]]]].
  specialize (Hk k). rewrite (proj2 (ref_kind_eqb_eq k k) eq_refl) in Hk.
  destruct (walk_counts _ _ _ _ H2 Hw2) as [[d2 [Hd2 _]] Hf2]. destruct (Hf2 k) as [f2 [Hf2k _]].
  exists v. split; [exact Hv|]. split.
  - rewrite Hd2, Hx, Hd1, Hf1k', Hlf1. rewrite <- app_assoc. rewrite nth_error_app2 by lia.
    rewrite Hl1, Nat.sub_diag. reflexivity.
  - rewrite Hf2k, Hk, Hf1k'. rewrite <- app_assoc. rewrite nth_error_app2 by lia.
    rewrite Hlf1, Nat.sub_diag. reflexivity.
Qed.

Theorem reference_index_rules :
  forall (selector_of : string -> bytes) s app_id args extra grp ps1 k ps2 as1 a as2,
    method_call selector_of s app_id args extra = Ok grp ->
    s_params s = ps1 ++ TRef k :: ps2 -> args = as1 ++ a :: as2 -> List.length as1 = List.length ps1 ->
    exists pre calltx v,
      grp = pre ++ [calltx] /\ ref_value k a = Ok v /\
      nth_error (arr_of "ApplicationArgs" calltx) (S (count_nontxn ps1))
        = Some (VB [n2b (N.of_nat (pyteal_index k (count_ref k ps1)))]) /\
      nth_error (arr_of (array_name k) calltx) (count_ref k ps1) = Some v.
Proof.
  intros sel s app_id args extra grp ps1 k ps2 as1 a as2 Hmc Hps Hargs Hl1.
  destruct (method_call_inv _ _ _ _ _ _ Hmc) as [idf [st [ex [Hid [Hlen [Hw [Hset ->]]]]]]].
  rewrite Hps, Hargs in Hw, Hlen.
  assert (Hl2 : List.length as2 = List.length ps2).
  { rewrite !app_length in Hlen. cbn in Hlen. lia. }
  destruct (reference_index_rules_walk _ _ _ _ _ _ _ Hl1 Hl2 Hw) as [v [Hv [Ha Hf]]].
  exists (a_txns st), (app_call_fields sel s idf st ++ ex), v.
  split; [reflexivity|]. split; [exact Hv|].
  split.
  - rewrite call_args by exact Hid. rewrite nth_error_app1.
    + cbn [nth_error]. exact Ha.
    + cbn [List.length]. apply -> Nat.succ_lt_mono. apply nth_error_Some. rewrite Ha. discriminate.
  - rewrite call_foreign by exact Hid. rewrite nth_error_app1; [exact Hf|]. apply nth_error_Some. rewrite Hf. discriminate.
Qed.

Theorem valid_call_at_most_16_args :
  forall sel sender callee s ks c, valid_call sel sender callee s ks c -> (List.length (ic_args c) <= 16)%nat.
Proof.
  intros sel sender callee s ks c [_ [idxs [w [bs [_ [_ [Hp [Ha _]]]]]]]].
  rewrite Ha. cbn. apply pack_length in Hp. lia.
Qed.

Definition s16 : msig := mkSig "f" (repeat (TUint 64) 16) None.
Definition vals16 : list N := map N.of_nat (seq 0 16).
Definition args16 : list iarg := map (fun n => IAbi (TUint 64) (VUint n)) vals16.
Definition ks16 : list karg := map (fun n => KVal (VUint n)) vals16.

(* with more than 15 non-transaction arguments the recorded call is never an ARC-4 encoding *)
Theorem method_call_gt15_never_valid :
  forall (selector_of : string -> bytes) s app_id args extra grp ks sender callee c,
    method_call selector_of s app_id args extra = Ok grp ->
    denotes (s_params s) args ks ->
    extra_ok extra = true ->
    (15 < count_nontxn (s_params s))%nat ->
    observe (ktxns (combine (s_params s) ks)) (last grp []) = Some c ->
    List.length (ic_args c) = S (count_nontxn (s_params s)) /\
    ~ valid_call (selector_of (arc4_sig_str s)) sender callee s ks c.
Proof.
  intros sel s app_id args extra grp ks sender callee c Hmc Hden Hex Hgt Ho.
  destruct (method_call_marshals sel s app_id args extra grp ks sender callee Hmc Hden Hex)
    as [calltx [-> [_ Hc]]].
  rewrite last_last in Ho. destruct (Hc c Ho) as [idxs [w [encs [_ [_ [_ [Ha [_ Hl]]]]]]]].
  assert (Hn : List.length (ic_args c) = S (count_nontxn (s_params s))) by (rewrite Ha; cbn; now rewrite Hl).
  split; [exact Hn|]. intro H. apply valid_call_at_most_16_args in H. lia.
Qed.

Theorem method_call_gt15_refuted :
  forall (selector_of : string -> bytes) (sender : bytes) (callee : N),
    exists grp calltx c,
      method_call selector_of s16 (AidExpr (XE T_uint (VI 1))) args16 [] = Ok grp /\
      denotes (s_params s16) args16 ks16 /\
      grp = ktxns (combine (s_params s16) ks16) ++ [calltx] /\
      observe (ktxns (combine (s_params s16) ks16)) calltx = Some c /\
      List.length (ic_args c) = 17%nat /\
      ~ valid_call (selector_of (arc4_sig_str s16)) sender callee s16 ks16 c.
Proof.
  intros sel sender callee.
  assert (Hden : denotes (s_params s16) args16 ks16) by (repeat (constructor; try reflexivity)).
  (* the constructor accepts the sixteen arguments: by evaluation *)
  assert (Hmc : exists grp, method_call sel s16 (AidExpr (XE T_uint (VI 1))) args16 [] = Ok grp)
    by (eexists; vm_compute; reflexivity).
  destruct Hmc as [grp Hmc].
  destruct (method_call_observable sel s16 _ args16 [] grp ks16 Hmc Hden eq_refl) as [calltx [c [Hg Ho]]].
  destruct (method_call_gt15_never_valid sel s16 _ args16 [] grp ks16 sender callee c Hmc Hden eq_refl)
    as [Hn Hv]; [cbn; lia | now rewrite Hg, last_last |].
  exists grp, calltx, c. repeat split; assumption.
Qed.

(* what ARC-4 prescribes for the same sixteen values after the selector: 14 single encodings + ONE tuple *)
Example arc4_packs_sixteen :
  exists bs, pack (map (fun n => (TUint 64, VUint n)) vals16) = Some bs /\ List.length bs = 15%nat /\
             nth_error bs 14 = Some (be_encode 8 14 ++ be_encode 8 15).
Proof. eexists. vm_compute. repeat split; reflexivity. Qed.
