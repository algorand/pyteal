(* Proofs/ABIIndexBits.v — the layout of packed bools ([Spec.pack_bools]): where each bool's bit is, how many
   bytes a run takes, that the padding bits are zero. *)
From Coq Require Import List NArith Arith Ascii String Bool Lia.
From PV Require Import Base.Bytes AVM.Ops ABI.Types ABI.Spec Proofs.ABISpecProof.
Import ListNotations.
Local Open Scope N_scope.

Lemma blen_nil : blen [] = 0.
Proof. reflexivity. Qed.

Lemma blen_cons : forall c (b : bytes), blen (c :: b) = 1 + blen b.
Proof. intros. unfold blen. cbn [List.length]. lia. Qed.

Lemma bsub_whole : forall b : bytes, bsub b 0 (blen b) = Some b.
Proof. intro b. exact (bsub_suffix [] b). Qed.

Lemma testbit_double_plus : forall a (b : bool) m,
    N.testbit (2 * a + (if b then 1 else 0)) m = if m =? 0 then b else N.testbit a (m - 1).
Proof.
  intros a b m. destruct (N.eqb_spec m 0) as [->|Hm].
  - change (if b then 1 else 0) with (N.b2n b). apply N.testbit_0_r.
  - replace m with (N.succ (m - 1)) at 1 by lia.
    change (if b then 1 else 0) with (N.b2n b). apply N.testbit_succ_r.
Qed.

(* the bits of pack_bits: first the [cnt] accumulated bits of [acc], then the list, then zero padding
   ([nth] beyond the list) *)
Lemma pack_bits_bit : forall bs acc cnt j,
    (cnt < 8)%nat -> (j < 8 * List.length (pack_bits bs acc cnt))%nat ->
    bit_at (pack_bits bs acc cnt) j =
    Some (if (j <? cnt)%nat then N.testbit acc (N.of_nat (cnt - 1 - j)) else nth (j - cnt) bs false).
Proof.
  induction bs as [|b r IH]; intros acc cnt j Hc Hj; cbn [pack_bits] in *.
  - destruct (Nat.eqb_spec cnt 0) as [->|Hn]; cbn [List.length] in Hj; [lia|].
    rewrite bit_at_cons_lo, testbit_n2b by lia. f_equal.
    destruct (Nat.ltb_spec j cnt).
    + rewrite N.shiftl_spec_high' by lia. f_equal. lia.
    + rewrite N.shiftl_spec_low by lia. destruct (j - cnt)%nat; reflexivity.
  - destruct (Nat.eqb_spec cnt 7) as [->|Hn7]; cbn [List.length] in Hj.
    + (* byte complete *)
      destruct (Nat.ltb_spec j 8) as [Hj8|Hj8].
      * rewrite bit_at_cons_lo by exact Hj8. f_equal. rewrite testbit_n2b by lia.
        rewrite testbit_double_plus.
        destruct (Nat.ltb_spec j 7) as [Hj7|Hj7].
        -- assert (E : (N.of_nat (7 - j) =? 0) = false) by (apply N.eqb_neq; lia). rewrite E.
           f_equal. lia.
        -- assert (j = 7)%nat by lia. subst j. cbn. reflexivity.
      * assert (Hk : exists k, j = (8 + k)%nat) by (exists (j - 8)%nat; lia).
        destruct Hk as [k ->]. rewrite bit_at_cons_hi.
        rewrite IH by lia. f_equal.
        assert (E : (8 + k <? 7)%nat = false) by (apply Nat.ltb_ge; lia). rewrite E.
        assert (E0 : (k <? 0)%nat = false) by (apply Nat.ltb_ge; lia). rewrite E0.
        replace (8 + k - 7)%nat with (S (k - 0)) by lia. reflexivity.
    + rewrite IH by lia. f_equal.
      destruct (Nat.ltb_spec j (S cnt)) as [H1|H1]; destruct (Nat.ltb_spec j cnt) as [H2|H2]; try lia.
      * rewrite testbit_double_plus.
        assert (E : (N.of_nat (S cnt - 1 - j) =? 0) = false) by (apply N.eqb_neq; lia). rewrite E.
        f_equal. lia.
      * assert (j = cnt) by lia. subst j. rewrite testbit_double_plus.
        replace (S cnt - 1 - cnt)%nat with 0%nat by lia. cbn [N.of_nat N.eqb].
        rewrite Nat.sub_diag. reflexivity.
      * replace (j - cnt)%nat with (S (j - S cnt)) by lia. reflexivity.
Qed.

Lemma pack_bools_bit : forall bs j, (j < 8 * List.length (pack_bools bs))%nat ->
    bit_at (pack_bools bs) j = Some (nth j bs false).
Proof.
  intros bs j H. unfold pack_bools in *. rewrite pack_bits_bit by (lia || exact H).
  cbn [Nat.ltb Nat.leb]. rewrite Nat.sub_0_r. reflexivity.
Qed.

Lemma pack_bits_len : forall bs acc cnt, (cnt < 8)%nat ->
    List.length (pack_bits bs acc cnt) = ((cnt + List.length bs + 7) / 8)%nat.
Proof.
  induction bs as [|b r IH]; intros acc cnt Hc.
  - cbn [pack_bits List.length]. rewrite Nat.add_0_r.
    destruct cnt as [|c]; [reflexivity|]. cbn [Nat.eqb List.length].
    apply Nat.div_unique with (r := c); lia.
  - cbn [pack_bits List.length].
    destruct (Nat.eqb_spec cnt 7) as [->|Hn7].
    + cbn [List.length]. rewrite IH by lia.
      replace (7 + S (List.length r) + 7)%nat with ((0 + List.length r + 7) + 1 * 8)%nat by lia.
      rewrite Nat.div_add by lia. lia.
    + rewrite IH by lia. f_equal. lia.
Qed.

Lemma pack_bools_len : forall bs, blen (pack_bools bs) = bool_seq_len (N.of_nat (List.length bs)).
Proof.
  intro bs. unfold pack_bools, blen, bool_seq_len. rewrite pack_bits_len by lia.
  rewrite Nat2N.inj_div. f_equal. lia.
Qed.

Lemma rev'_rev : forall {A} (l : list A), rev' l = rev l.
Proof. intros. unfold rev'. rewrite <- rev_alt. reflexivity. Qed.
