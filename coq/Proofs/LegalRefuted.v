(* Proofs/LegalRefuted.v — C04: the statement "whenever compilation succeeds the text is legal" is
   FALSE of the faithful compile model (Comp/Compile.v), hence — each witness is replayed against the
   real compiler by the check — of PyTeal at the pinned commit.  Witnesses ([vm_compute]):
     w_itxn    InnerTxnBuilder.SetField(TxnField.first_valid, Int(1)) -> itxn_field FirstValid  (never settable)
     w_mode    Global.round() in Signature mode        -> global Round               (Application-only field)
     w_back    a While loop at program version 3       -> b main_l..  backwards      (back branches exist from v4)
   The op tables handed to the model are those of AVM/Syntax.v; the witnesses use no field or op whose
   version matters. *)
From Coq Require Import List Arith NArith Ascii String Bool.
From PV Require Import Base.Sexp AVM.Syntax AVM.LegalCheck Src.Expr Comp.Lower Comp.Compile.
Import ListNotations.
Local Open Scope string_scope.

Definition nl : string := String (ascii_of_N 10) EmptyString.
Definition text_of (lines : list string) : string := concat_sep nl lines.
Definition opts (v : N) (app : bool) : copts := mkOpts v app false false opc_minv (fun _ _ => 0%N).

Definition int_ (n : N) : expr := EOp O_int [AInt n] TUint [].
Definition approve : expr := EExit (int_ 1).

(* Txn.application_args[300] is no witness: since /repo 6fb1ed6 the constructor refuses a constant array
   index above 255, so that recipe does not denote a PyTeal program *)
Definition w_itxn : prog := mkProgram
  (ESeq [EOp O_itxn_begin [] TNone []; EOp O_itxn_field [AStr "FirstValid"] TNone [int_ 1];
         EOp O_itxn_submit [] TNone []; approve]) [] [].
Definition w_mode : prog := mkProgram (EReturn (Some (EOp O_global_ [AStr "Round"] TUint []))) [] [].
Definition w_back : prog := mkProgram
  (ESeq [EOp O_pop [] TNone [int_ 0];
         EWhile (EOp O_lt [] TUint [EOp O_txn [AStr "Fee"] TUint []; int_ 3]) (EOp O_pop [] TNone [int_ 1]);
         approve]) [] [].

(* the property as a statement about the compile model *)
Definition compile_legal (version : N) (app : bool) (p : prog) : Prop :=
  forall lines, compile_model (opts version app) opc_modes p = COk lines ->
                legal_check version app [] (text_of lines) = LOk.

(* one compilation that succeeds with an illegal text refutes the property *)
Lemma not_compile_legal version app p lines :
  compile_model (opts version app) opc_modes p = COk lines ->
  legal_check version app [] (text_of lines) <> LOk -> ~ compile_legal version app p.
Proof. intros E N H. exact (N (H lines E)). Qed.

Lemma compile_legal_refuted_itxn : ~ compile_legal 6 true w_itxn.
Proof. eapply not_compile_legal; [vm_compute; reflexivity | vm_compute; discriminate]. Qed.

Lemma compile_legal_refuted_mode : ~ compile_legal 6 false w_mode.
Proof. eapply not_compile_legal; [vm_compute; reflexivity | vm_compute; discriminate]. Qed.

Lemma compile_legal_refuted_back : ~ compile_legal 3 false w_back.
Proof. eapply not_compile_legal; [vm_compute; reflexivity | vm_compute; discriminate]. Qed.

Lemma compile_legal_refuted_lemma : exists version app p, ~ compile_legal version app p.
Proof. exists 6%N, false, w_mode. exact compile_legal_refuted_mode. Qed.

(* what the checker says about each witness *)
Example w_itxn_verdict :
  compile_model (opts 6 true) opc_modes w_itxn =
    COk ["#pragma version 6"; "itxn_begin"; "int 1"; "itxn_field FirstValid"; "itxn_submit"; "int 1"; "return"] /\
  legal_check 6 true [] (text_of ["#pragma version 6"; "itxn_begin"; "int 1"; "itxn_field FirstValid"; "itxn_submit"; "int 1"; "return"])
    = LBad "itxn-field-not-settable" 2 "itxn_field FirstValid".
Proof. vm_compute. auto. Qed.

Example w_mode_verdict :
  legal_check 6 false [] (text_of ["#pragma version 6"; "global Round"; "return"]) = LBad "field-mode" 0 "global Round" /\
  legal_check 6 true [] (text_of ["#pragma version 6"; "global Round"; "return"]) = LOk.
Proof. vm_compute. auto. Qed.

Example w_back_verdict :
  match compile_model (opts 3 false) opc_modes w_back with
  | COk lines => match legal_check 3 false [] (text_of lines) with LBad k _ _ => k = "back-branch" | _ => False end
  | CErr _ => False
  end.
Proof. vm_compute. reflexivity. Qed.
