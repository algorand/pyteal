(* Proofs/ABIIndexSel.v — the opcode chosen by Substring / Extract / Suffix for constant arguments means the
   same as the generic three-operand form (substring3 / extract3 / "from start to the end"). *)
From Coq Require Import List NArith Arith Ascii String Bool Lia.
From PV Require Import Base.Bytes Base.U64 AVM.Syntax AVM.Ops ABI.Types ABI.Spec ABI.Index
  Proofs.ABIIndexBits.
Import ListNotations.
Local Open Scope N_scope.

Lemma push_int_ok : forall n, n < U64 -> push_int n = Some n.
Proof.
  intros n H. unfold push_int. cbn. unfold oki, fits64.
  assert (E : (n <? U64) = true) by (apply N.ltb_lt; exact H). rewrite E. reflexivity.
Qed.

Lemma push_int_some : forall n m, push_int n = Some m -> m = n /\ n < U64.
Proof.
  intros n m H. unfold push_int in H. cbn in H. unfold oki, fits64 in H.
  destruct (N.ltb_spec n U64); cbn in H; [|discriminate]. injection H as <-. auto.
Qed.

Lemma push_int_fail : forall n, U64 <= n -> push_int n = None.
Proof.
  intros n H. unfold push_int. cbn. unfold oki, fits64.
  assert (E : (n <? U64) = false) by (apply N.ltb_ge; exact H). rewrite E. reflexivity.
Qed.

(* results of the byte-string opcodes in terms of [bsub] *)
Definition okv (o : option bytes) : option value := option_map VB o.

Lemma do_substring3_eq : forall enc s e, do_substring3 enc s e = okv (bsub enc s e).
Proof. intros. unfold do_substring3. cbn. destruct (bsub enc s e); reflexivity. Qed.

Lemma do_extract3_eq : forall enc s l, do_extract3 enc s l = okv (bsub enc s (s + l)).
Proof. intros. unfold do_extract3. cbn. unfold bextract. destruct (bsub enc s (s + l)); reflexivity. Qed.

Lemma extract_imm_eq : forall enc s l,
    run1 (exec_pure O_extract [AInt s; AInt l] [VB enc]) =
    okv (if l =? 0 then bsub enc s (blen enc) else bsub enc s (s + l)).
Proof.
  intros. cbn. unfold bextract. destruct (l =? 0).
  - destruct (bsub enc s (blen enc)); reflexivity.
  - destruct (bsub enc s (s + l)); reflexivity.
Qed.

Lemma substring_imm_eq : forall enc s e,
    run1 (exec_pure O_substring [AInt s; AInt e] [VB enc]) = okv (bsub enc s e).
Proof. intros. cbn. destruct (bsub enc s e); reflexivity. Qed.

Lemma len_of_eq : forall enc, len_of enc = Some (blen enc).
Proof. reflexivity. Qed.

(* Substring(enc, Int s, Int e) *)
Theorem sel_substring_correct : forall ver s e o enc,
    sel_substring ver s e = SelOk o -> s < U64 -> e < U64 ->
    exec_sel enc o s e true = do_substring3 enc s e.
Proof.
  intros ver s e o enc H Hs He. unfold sel_substring in H.
  destruct (N.ltb_spec e s) as [|Hle]; [discriminate|].
  rewrite do_substring3_eq.
  destruct ((0 <? e - s) && (EXTRACT_MIN_VERSION <=? ver))%bool eqn:E1.
  - apply andb_true_iff in E1 as [Hl _]. apply N.ltb_lt in Hl.
    destruct ((s <? 256) && (e - s <? 256))%bool; injection H as <-.
    + cbn [exec_sel]. rewrite extract_imm_eq.
      assert (E : (e - s =? 0) = false) by (apply N.eqb_neq; lia). rewrite E.
      replace (s + (e - s)) with e by lia. reflexivity.
    + cbn [exec_sel]. rewrite !push_int_ok by lia. cbn [obind]. rewrite do_extract3_eq.
      replace (s + (e - s)) with e by lia. reflexivity.
  - destruct (ver <? SUBSTRING_MIN_VERSION); [discriminate|].
    destruct ((s <? 256) && (e <? 256))%bool; injection H as <-.
    + cbn [exec_sel]. apply substring_imm_eq.
    + cbn [exec_sel]. rewrite !push_int_ok by lia. cbn [obind]. apply do_substring3_eq.
Qed.

Theorem sel_substring_error : forall ver s e,
    sel_substring ver s e = SelError <->
    (e < s \/ (ver < SUBSTRING_MIN_VERSION /\ (e = s \/ ver < EXTRACT_MIN_VERSION))).
Proof.
  intros ver s e. unfold sel_substring.
  destruct (N.ltb_spec e s) as [Hlt|Hle]; [split; auto|].
  destruct (N.ltb_spec 0 (e - s)) as [Hl|Hl]; destruct (N.leb_spec EXTRACT_MIN_VERSION ver) as [Hv|Hv]; cbn [andb].
  - destruct ((s <? 256) && (e - s <? 256))%bool; split; try discriminate.
    all: intros [?|[? [?|?]]]; unfold SUBSTRING_MIN_VERSION, EXTRACT_MIN_VERSION in *; lia.
  - destruct (N.ltb_spec ver SUBSTRING_MIN_VERSION).
    + split; auto.
    + destruct ((s <? 256) && (e <? 256))%bool; split; try discriminate.
      all: intros [?|[? _]]; lia.
  - destruct (N.ltb_spec ver SUBSTRING_MIN_VERSION).
    + split; [intros _|auto]. right. split; [assumption|left; lia].
    + destruct ((s <? 256) && (e <? 256))%bool; split; try discriminate.
      all: intros [?|[? _]]; lia.
  - destruct (N.ltb_spec ver SUBSTRING_MIN_VERSION).
    + split; [intros _|auto]. right. split; [assumption|left; lia].
    + destruct ((s <? 256) && (e <? 256))%bool; split; try discriminate.
      all: intros [?|[? _]]; lia.
Qed.

(* Extract(enc, Int s, Int l) *)
Theorem sel_extract_correct : forall ver s l o enc,
    sel_extract ver s l = SelOk o -> s < U64 -> l < U64 ->
    exec_sel enc o s l false = do_extract3 enc s l.
Proof.
  intros ver s l o enc H Hs Hl. unfold sel_extract in H.
  destruct (ver <? EXTRACT_MIN_VERSION); [discriminate|].
  rewrite do_extract3_eq.
  destruct ((s <? 256) && (0 <? l) && (l <? 256))%bool eqn:E; injection H as <-.
  - apply andb_true_iff in E as [E _]. apply andb_true_iff in E as [_ E]. apply N.ltb_lt in E.
    cbn [exec_sel]. rewrite extract_imm_eq.
    assert (E0 : (l =? 0) = false) by (apply N.eqb_neq; lia). rewrite E0. reflexivity.
  - cbn [exec_sel]. rewrite !push_int_ok by lia. cbn [obind]. apply do_extract3_eq.
Qed.

Theorem sel_extract_error : forall ver s l, sel_extract ver s l = SelError <-> ver < EXTRACT_MIN_VERSION.
Proof.
  intros. unfold sel_extract. destruct (N.ltb_spec ver EXTRACT_MIN_VERSION).
  - split; auto.
  - destruct ((s <? 256) && (0 <? l) && (l <? 256))%bool; split; try discriminate; lia.
Qed.

(* Suffix(enc, Int s) *)
Theorem sel_suffix_correct : forall ver s o enc,
    sel_suffix ver s = SelOk o -> s < U64 ->
    exec_sel enc o s 0 false = do_substring3 enc s (blen enc).
Proof.
  intros ver s o enc H Hs. unfold sel_suffix in H. rewrite do_substring3_eq.
  destruct (s <? 256).
  - destruct (ver <? EXTRACT_MIN_VERSION); [discriminate|]. injection H as <-.
    cbn [exec_sel]. rewrite extract_imm_eq. reflexivity.
  - destruct (ver <? SUBSTRING_MIN_VERSION); [discriminate|]. injection H as <-.
    cbn [exec_sel]. rewrite push_int_ok by lia. cbn [obind]. rewrite len_of_eq. cbn [obind].
    apply do_substring3_eq.
Qed.

Theorem sel_suffix_error : forall ver s,
    sel_suffix ver s = SelError <->
    ((s < 256 /\ ver < EXTRACT_MIN_VERSION) \/ (256 <= s /\ ver < SUBSTRING_MIN_VERSION)).
Proof.
  intros. unfold sel_suffix. destruct (N.ltb_spec s 256).
  - destruct (N.ltb_spec ver EXTRACT_MIN_VERSION); split; try discriminate; auto.
    intros [[_ ?]|[? _]]; lia.
  - destruct (N.ltb_spec ver SUBSTRING_MIN_VERSION); split; try discriminate; auto.
    intros [[? _]|[_ ?]]; lia.
Qed.

(* immediates always fit one byte *)
Theorem sel_imm_range : forall ver a b o,
    (sel_substring ver a b = SelOk o \/ sel_extract ver a b = SelOk o \/ sel_suffix ver a = SelOk o) ->
    match o with
    | SExtractImm s l => s < 256 /\ l < 256
    | SSubstringImm s e => s < 256 /\ e < 256
    | _ => True
    end.
Proof.
  intros ver a b o [H|[H|H]].
  - unfold sel_substring in H. destruct (b <? a); [discriminate|].
    destruct ((0 <? b - a) && (EXTRACT_MIN_VERSION <=? ver))%bool.
    + destruct (N.ltb_spec a 256), (N.ltb_spec (b - a) 256); injection H as <-; cbn; auto.
    + destruct (ver <? SUBSTRING_MIN_VERSION); [discriminate|].
      destruct (N.ltb_spec a 256), (N.ltb_spec b 256); injection H as <-; cbn; auto.
  - unfold sel_extract in H. destruct (ver <? EXTRACT_MIN_VERSION); [discriminate|].
    destruct (N.ltb_spec a 256), (N.ltb_spec 0 b), (N.ltb_spec b 256); injection H as <-; cbn; auto.
  - unfold sel_suffix in H. destruct (N.ltb_spec a 256).
    + destruct (ver <? EXTRACT_MIN_VERSION); [discriminate|]. injection H as <-. split; [assumption|lia].
    + destruct (ver <? SUBSTRING_MIN_VERSION); [discriminate|]. injection H as <-. exact I.
Qed.
