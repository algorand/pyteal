(* Proofs/ABIIndexArray.v — array[idx], length(), get() on the encoding of an array ([array_elem_correct],
   [length_correct], [bytes_get_correct]). *)
From Coq Require Import List NArith Arith Ascii String Bool Lia.
From PV Require Import Base.Bytes Base.U64 AVM.Syntax AVM.Ops ABI.Types ABI.Spec ABI.Index
  Proofs.ABISpecProof Proofs.ABIIndexBits Proofs.ABIIndexAsm Proofs.ABIIndexElems Proofs.ABIIndexSel
  Proofs.ABIIndexDecode Proofs.ABIIndexTuple.
Import ListNotations.
Local Open Scope N_scope.

Definition arr_prefix (slen : option N) (n : N) : bytes :=
  match slen with Some _ => [] | None => be_encode 2 n end.

Lemma array_encode_eq : forall arr e slen v,
    array_info arr = Some (e, slen) ->
    arc4_encode arr v =
    match slen with
    | Some n => static_array_enc (is_bool e) (is_dynamic e) (arc4_encode e) n v
    | None => dyn_array_enc (is_bool e) (is_dynamic e) (arc4_encode e) v
    end.
Proof.
  intros arr e slen v H. destruct arr; cbn in H; try discriminate; injection H as <- <-; reflexivity.
Qed.

Lemma array_body : forall arr e slen v enc,
    array_info arr = Some (e, slen) -> arc4_encode arr v = Some enc ->
    exists vs es body,
      elems_of v = Some vs /\
      enc_all (enc_elem (is_bool e) (is_dynamic e) (arc4_encode e)) vs = Some es /\
      assemble es = Some body /\ Forall (elem_rel e) es /\ List.length es = List.length vs /\
      enc = arr_prefix slen (nlen vs) ++ body /\
      match slen with Some n => nlen vs = n | None => nlen vs < 65536 end.
Proof.
  intros arr e slen v enc Hi He. rewrite (array_encode_eq _ _ _ _ Hi) in He.
  destruct slen as [n|].
  - apply static_array_enc_inv in He as (vs & es & Hv & Hn & Hes & Ha).
    destruct (array_kind _ _ _ Hes) as [F L]. exists vs, es, enc. repeat split; auto.
  - apply dyn_array_enc_inv in He as (vs & es & body & Hv & Hn & Hes & Ha & ->).
    destruct (array_kind _ _ _ Hes) as [F L]. exists vs, es, body. repeat split; auto.
Qed.

Lemma spos_bools : forall t l np pos, is_bool t = true -> Forall (elem_rel t) l -> spos l np pos = (pos, np + nlen l).
Proof.
  intros t l np pos Hb F. revert np. induction F as [|e r He F IH]; intro np.
  - cbn. f_equal. unfold nlen. cbn. lia.
  - destruct (elem_rel_bool _ _ He Hb) as [b ->]. cbn [spos]. rewrite IH, nlen_cons. f_equal. lia.
Qed.

Lemma spos_statics : forall t l pos, is_bool t = false -> is_dynamic t = false -> Forall (elem_rel t) l ->
    spos l 0 pos = (pos + nlen l * static_len t, 0).
Proof.
  intros t l pos Hb Hd F. revert pos. induction F as [|e r He F IH]; intro pos.
  - cbn. f_equal. unfold nlen. cbn. lia.
  - destruct (elem_rel_static _ _ He Hb Hd) as [bs [-> Hl]]. cbn [spos]. rewrite IH, nlen_cons, bool_seq_len_0, Hl. f_equal. lia.
Qed.

Lemma spos_dyns : forall t l pos, is_bool t = false -> is_dynamic t = true -> Forall (elem_rel t) l ->
    spos l 0 pos = (pos + nlen l * 2, 0).
Proof.
  intros t l pos Hb Hd F. revert pos. induction F as [|e r He F IH]; intro pos.
  - cbn. f_equal. unfold nlen. cbn. lia.
  - destruct (elem_rel_dyn _ _ He Hb Hd) as [bs ->]. cbn [spos]. rewrite IH, nlen_cons, bool_seq_len_0. f_equal. lia.
Qed.

Lemma slice_app_shift : forall (pre body : bytes) p n, slice (pre ++ body) (blen pre + p) n = slice body p n.
Proof. intros. unfold slice. rewrite <- N.add_assoc. apply bsub_app_shift. Qed.

Lemma u16_at_shift : forall (pre body : bytes) p, u16_at (pre ++ body) (blen pre + p) = u16_at body p.
Proof. intros. rewrite !u16_at_eq, slice_app_shift. reflexivity. Qed.

Lemma u16_at_prefix : forall n body, n < 65536 -> u16_at (be_encode 2 n ++ body) 0 = Some n.
Proof.
  intros n body H. apply u16_at_ok; [|exact H].
  unfold slice. pose proof (bsub_mid [] (be_encode 2 n) body) as G. cbn [app] in G.
  rewrite be_encode_len in G. exact G.
Qed.

Lemma arr_prefix_len : forall slen n, blen (arr_prefix slen n) = match slen with Some _ => 0 | None => 2 end.
Proof. intros [m|] n; cbn [arr_prefix]; [reflexivity | apply be_encode_len]. Qed.

Theorem length_correct : forall arr e slen v enc vs idx,
    array_info arr = Some (e, slen) -> arc4_encode arr v = Some enc -> elems_of v = Some vs ->
    nlen vs < U64 ->
    eval_iexpr enc idx (length_expr slen) = Some (nlen vs).
Proof.
  intros arr e slen v enc vs idx Hi He Hv Hn.
  destruct (array_body _ _ _ _ _ Hi He) as (vs' & es & body & Hv' & _ & _ & _ & _ & -> & Hs).
  rewrite Hv in Hv'. injection Hv' as <-.
  destruct slen as [n|]; cbn [length_expr eval_iexpr arr_prefix].
  - subst n. apply push_int_ok. exact Hn.
  - rewrite push_int_ok by (unfold U64; lia). cbn [obind]. apply u16_at_prefix. exact Hs.
Qed.

Lemma is_dynamic_arr : forall arr e slen, array_info arr = Some (e, slen) ->
    is_dynamic arr = match slen with Some _ => is_dynamic e | None => true end.
Proof. intros arr e slen H. destruct arr; cbn in H; try discriminate; injection H as <- <-; reflexivity. Qed.

(* a dynamic array's positions are behind the two-byte element count *)
Definition add2 (lendyn : bool) (e : iexpr) : iexpr := if lendyn then IAdd e (IInt 2) else e.
Definition byte_index (stride : N) (lendyn : bool) : iexpr := add2 lendyn (IMul (IInt stride) IIdx).

Lemma array_elem_plan_eq : forall arr e slen, array_info arr = Some (e, slen) ->
    let lendyn := match slen with None => true | Some _ => false end in
    let bi := byte_index (stride e) lendyn in
    array_elem_plan arr =
    if is_bool e then Some (PGetbit (if is_dynamic arr then IAdd IIdx (IInt 16) else IIdx))
    else if is_dynamic e then
      decode_plan e (Some (add2 lendyn (IU16 bi)))
        (Some (IIf (IEq (IAdd IIdx (IInt 1)) (length_expr slen)) ILen (add2 lendyn (IU16 (IAdd bi (IInt 2)))))) None
    else decode_plan e (Some bi) None (Some (IInt (stride e))).
Proof. intros arr e slen H. unfold array_elem_plan. rewrite H. reflexivity. Qed.

Lemma eval_add2 : forall enc idx (lendyn : bool) e x,
    eval_iexpr enc idx e = Some x -> x + 2 < U64 ->
    eval_iexpr enc idx (add2 lendyn e) = Some (x + (if lendyn then 2 else 0)).
Proof.
  intros enc idx lendyn e x He Hx. destruct lendyn; cbn [add2 eval_iexpr].
  - rewrite He, push_int_ok by (unfold U64; lia). cbn [obind]. apply op2_add. exact Hx.
  - rewrite He, N.add_0_r. reflexivity.
Qed.

Lemma eval_byte_index : forall enc idx st lendyn, st < U64 -> st * idx + 2 < U64 ->
    eval_iexpr enc idx (byte_index st lendyn) = Some (st * idx + (if lendyn then 2 else 0)).
Proof.
  intros enc idx st lendyn Hs Hx. apply eval_add2; [|exact Hx].
  cbn [eval_iexpr]. rewrite push_int_ok by exact Hs. cbn [obind]. apply op2_mul. lia.
Qed.

(* array[idx] for an in-range index (constant or computed: the plan only sees its value) *)
Theorem array_elem_correct : forall ver arr e slen v enc vs i x,
    EXTRACT_MIN_VERSION <= ver ->
    array_info arr = Some (e, slen) -> arc4_encode arr v = Some enc -> blen enc <= MAX_BYTES ->
    elems_of v = Some vs -> nth_error vs i = Some x -> pyteal_elem e = true -> nlen vs < U64 ->
    exists p sv, array_elem_plan arr = Some p /\ stored e x = Some sv /\
                 exec_plan ver p enc (N.of_nat i) = Some sv.
Proof.
  intros ver arr e slen v enc vs i x Hver Hi He Hlen Hv Hx Hpy Hnv.
  pose proof (length_correct _ _ _ _ _ _ (N.of_nat i) Hi He Hv Hnv) as Hlenx.
  destruct (array_body _ _ _ _ _ Hi He) as (vs' & es & body & Hv' & Hes & Hasm & F & L & Eenc & Hs).
  rewrite Hv in Hv'. injection Hv' as <-.
  destruct (enc_all_nth _ _ _ _ _ Hes Hx) as (el & Hel & Hev).
  destruct (nth_error_split _ _ Hel) as (l1 & l2 & Ees & Hl1).
  assert (Hnl : nlen l1 + 1 + nlen l2 = nlen vs)
    by (unfold nlen; rewrite <- L, Ees, app_length; cbn [List.length]; lia).
  apply (f_equal N.of_nat) in Hl1. fold (nlen l1) in Hl1.
  rewrite Ees in F. apply Forall_app in F as [F1 F2]. apply Forall_cons_iff in F2 as [Hrel F3].
  set (lendyn := match slen with None => true | Some _ => false end).
  set (pre := arr_prefix slen (nlen vs)) in *.
  assert (Hpre : blen pre = if lendyn then 2 else 0) by (unfold pre, lendyn; rewrite arr_prefix_len; destruct slen; reflexivity).
  assert (Hbody : blen pre + blen body <= MAX_BYTES) by (rewrite Eenc, blen_app in Hlen; exact Hlen). unfold MAX_BYTES in Hbody.
  rewrite (array_elem_plan_eq _ _ _ Hi). cbv zeta. fold lendyn.
  destruct (is_bool e) eqn:Hb.
  - (* bool elements: one bit *)
    destruct (elem_rel_bool _ _ Hrel Hb) as [b ->].
    apply enc_elem_bool_inv in Hev as (b' & -> & [= <-]).
    assert (Hte : e = TBool) by (apply is_bool_true; exact Hb). subst e.
    pose proof (access_bool _ _ _ _ _ Hasm Ees) as G.
    rewrite (spos_bools TBool l1 0 0 eq_refl F1) in G. cbn [fst snd] in G.
    rewrite Hl1 in G. replace (8 * 0 + (0 + N.of_nat i)) with (N.of_nat i) in G by lia.
    pose proof (get_bit_bytes_bound _ _ _ G) as Bd.
    rewrite (is_dynamic_arr _ _ _ Hi). cbn [is_dynamic stored].
    assert (Hbit : eval_iexpr enc (N.of_nat i) (if lendyn then IAdd IIdx (IInt 16) else IIdx) = Some (8 * blen pre + N.of_nat i)).
    { rewrite Hpre. destruct lendyn; cbn [eval_iexpr obind]; [|reflexivity].
      rewrite push_int_ok by (unfold U64; lia). cbn [obind]. rewrite op2_add by (unfold U64; lia). f_equal. lia. }
    exists (PGetbit (if lendyn then IAdd IIdx (IInt 16) else IIdx)), (VI (b2N b)).
    split; [unfold lendyn; destruct slen; reflexivity|]. split; [reflexivity|].
    cbn [exec_plan]. rewrite Hbit. cbn [obind]. rewrite getbit_bytes_eq, Eenc, get_bit_bytes_shift, G. reflexivity.
  - unfold stride. destruct (is_dynamic e) eqn:Hd.
    + (* dynamic elements: from the offset in the element's head cell to the next one's, or to the end *)
      destruct (elem_rel_dyn _ _ Hrel Hb Hd) as [bs ->].
      apply enc_elem_nonbool_inv in Hev as (bs' & Hbs & [= <-]).
      pose proof (access_dyn _ _ _ _ _ Hasm Ees) as (Ho & Hsl & a & Ea & Hla).
      rewrite (spos_dyns e l1 0 Hb Hd F1) in Hsl. cbn [fst snd] in Hsl. rewrite bool_seq_len_0, Hl1 in Hsl.
      set (o := head_len es 0 + blen (tails_of l1)) in *.
      replace (0 + N.of_nat i * 2 + 0) with (2 * N.of_nat i) in Hsl by lia.
      assert (Hib : 2 * N.of_nat i + 2 <= blen body) by (eapply slice_bound; eauto).
      destruct (dyn_not_scalar e (@None iexpr) (@None iexpr) (@None iexpr) Hd) as [_ Hst].
      rewrite Hst, Hbs. cbn [option_map].
      set (bi := byte_index 2 lendyn).
      assert (Hbi : eval_iexpr enc (N.of_nat i) bi = Some (blen pre + 2 * N.of_nat i)).
      { unfold bi. rewrite eval_byte_index, Hpre by (unfold U64; lia). f_equal. lia. }
      assert (Hu : eval_iexpr enc (N.of_nat i) (IU16 bi) = Some o).
      { cbn [eval_iexpr]. rewrite Hbi. cbn [obind]. rewrite Eenc, u16_at_shift. apply u16_at_ok; assumption. }
      assert (Eenc2 : enc = (pre ++ a) ++ bs ++ tails_of l2) by (rewrite Eenc, Ea, <- app_assoc; reflexivity).
      assert (Hpa : blen (pre ++ a) = o + (if lendyn then 2 else 0)) by (rewrite blen_app, Hla, Hpre; lia).
      assert (Hvs : eval_iexpr enc (N.of_nat i) (add2 lendyn (IU16 bi)) = Some (blen (pre ++ a)))
        by (rewrite Hpa; apply eval_add2; [exact Hu | unfold U64; lia]).
      set (ve := IIf (IEq (IAdd IIdx (IInt 1)) (length_expr slen)) ILen (add2 lendyn (IU16 (IAdd bi (IInt 2))))).
      assert (Hve : eval_iexpr enc (N.of_nat i) ve = Some (blen (pre ++ a) + blen bs)).
      { unfold ve. cbn [eval_iexpr]. rewrite push_int_ok by (unfold U64; lia). cbn [obind].
        rewrite op2_add by (unfold U64 in *; lia). cbn [obind]. rewrite Hlenx. cbn [obind].
        change (op2 O_eq (N.of_nat i + 1) (nlen vs)) with (Some (b2N (N.of_nat i + 1 =? nlen vs))). cbn [obind].
        destruct l2 as [|y r].
        - (* last element: up to the end of the encoding *)
          assert (Elast : N.of_nat i + 1 = nlen vs) by (rewrite <- Hnl; cbn; lia).
          apply N.eqb_eq in Elast. rewrite Elast. cbn [b2N N.eqb].
          rewrite len_of_eq, Eenc2. cbn [tails_of]. rewrite (blen_app (pre ++ a)), app_nil_r. reflexivity.
        - (* not the last: the next head cell *)
          assert (Enl : (N.of_nat i + 1 =? nlen vs) = false) by (apply N.eqb_neq; rewrite <- Hnl, nlen_cons; lia).
          rewrite Enl. cbn [b2N N.eqb].
          apply Forall_cons_iff in F3 as [Hy F4].
          destruct (elem_rel_dyn _ _ Hy Hb Hd) as [bs2 ->].
          destruct (access_dyn_next _ _ _ _ [] _ _ Hasm Ees eq_refl) as [Ho2 Hsl2]. fold o in Ho2, Hsl2.
          rewrite (spos_dyns e l1 0 Hb Hd F1) in Hsl2. cbn [fst snd spos] in Hsl2. rewrite bool_seq_len_0, Hl1 in Hsl2.
          replace (0 + N.of_nat i * 2 + 0 + 2 + 0) with (2 * N.of_nat i + 2) in Hsl2 by lia.
          assert (Hib2 : 2 * N.of_nat i + 2 + 2 <= blen body) by (eapply slice_bound; eauto).
          rewrite Hpa, <- N.add_assoc, (N.add_comm _ (blen bs)), N.add_assoc. apply eval_add2; [|unfold U64; lia].
          cbn [eval_iexpr]. rewrite Hbi. cbn [obind]. rewrite push_int_ok by (unfold U64; lia). cbn [obind].
          rewrite op2_add by (unfold U64; lia). cbn [obind].
          rewrite Eenc, <- N.add_assoc, u16_at_shift. apply u16_at_ok; assumption. }
      destruct (dyn_not_scalar e (Some (add2 lendyn (IU16 bi))) (Some ve) None Hd) as [-> _].
      eexists; exists (VB bs). split; [reflexivity|]. split; [reflexivity|].
      rewrite (exec_substring _ _ _ _ _ _ _ Hver Hvs Hve), Eenc2, bsub_mid. reflexivity.
    + (* static elements *)
      destruct (elem_rel_static _ _ Hrel Hb Hd) as [bs [-> Hsl]].
      apply enc_elem_nonbool_inv in Hev as (bs' & Hbs & [= <-]).
      pose proof (access_static _ _ _ _ _ Hasm Ees) as (a & c & Ea & Hla).
      rewrite (spos_statics e l1 0 Hb Hd F1) in Hla. cbn [fst snd] in Hla. rewrite bool_seq_len_0, Hl1 in Hla.
      assert (Eenc2 : enc = (pre ++ a) ++ bs ++ c) by (rewrite Eenc, Ea, <- app_assoc; reflexivity).
      assert (Hab : blen a + blen bs <= blen body) by (rewrite Ea, !blen_app; lia).
      rewrite <- Hsl. eapply decode_static; eauto; cbv iota.
      * rewrite eval_byte_index by (unfold U64; nia). rewrite blen_app, Hla, Hpre, Hsl. f_equal. lia.
      * apply eval_int. unfold U64. lia.
Qed.

Theorem bytes_get_correct : forall ver t bs enc idx,
    EXTRACT_MIN_VERSION <= ver -> arc4_encode t (VBytes bs) = Some enc ->
    match t with TString | TDynBytes | TAddress | TStaticBytes _ => True | _ => False end ->
    exists p, get_plan t = Some p /\ exec_plan ver p enc idx = Some (VB bs).
Proof.
  intros ver t bs enc idx Hv He Ht.
  assert (Hstatic : forall n, static_array_enc false false (uint_enc 8) n (VBytes bs) = Some enc ->
                              exec_plan ver PWhole enc idx = Some (VB bs)).
  { intros n H. rewrite static_bytes_enc_spec in H. destruct (blen bs =? n); [|discriminate]. cbn. congruence. }
  assert (Hdyn : dyn_array_enc false false (uint_enc 8) (VBytes bs) = Some enc ->
                 exec_plan ver (PSuffix (IInt 2)) enc idx = Some (VB bs)).
  { intro H. rewrite dyn_bytes_enc_spec in H. destruct (blen bs <? 65536); [|discriminate].
    assert (enc = be_encode 2 (blen bs) ++ bs) by congruence. subst enc.
    pose proof (bsub_suffix (be_encode 2 (blen bs)) bs) as G. rewrite be_encode_len in G.
    change (N.of_nat 2) with 2 in G. rewrite (exec_suffix ver _ idx (IInt 2) 2 Hv eq_refl), G. reflexivity. }
  destruct t; try contradiction; cbn [get_plan]; eexists; (split; [reflexivity|]); eauto.
Qed.
