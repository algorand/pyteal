(* Proofs/TotalityWitness.v — property C20, part 4: the witness families and the concrete tables.

   * [long_prog n] = Seq(Pop(Int 0) x n, Approve()): well-typed, in the straight-line fragment, lowers
     to 2n+3 chained blocks; addIncoming's recursion is 2n+2 deep on it ([walk_depth_long]).  Hence for
     every bound L on the interpreter's recursion depth there is a well-typed straight-line program
     the implementation cannot walk (Props/C20.v, [walk_depth_unbounded]) although the compile model — which has no
     stack limit — accepts every one of them ([accepts_straight] of Proofs/TotalityAccept.v; [wt_long], [has_return_long]).
   * the former crash witnesses as recipes ([opt_witness]: a loop whose cycle consists of conditional
     blocks only, with a store/load pair in the loop condition; [loop_first_witness]); both defects were
     repaired in /repo, Props/C20.v records that the current model accepts them.
   * PyTeal's own tables (regenerated into Gen/Tables.v on every run) make Pop, Int, Approve available at
     every version 2..10 in both modes ([std_ok], finite check). *)
From Coq Require Import List Arith NArith Ascii String Bool Lia.
From PV Require Import Base.Bytes Base.Sexp AVM.Syntax Src.Expr Src.WellTyped Comp.Blocks Comp.Lower Comp.Passes
  Comp.Compile Gen.Tables Extract.WireExpr
  Proofs.LowerFrame Proofs.TotalityChain Proofs.TotalityWalk Proofs.TotalityAccept.
Import ListNotations.
Local Open Scope string_scope.
Local Open Scope list_scope.

(* the tables of the implementation under test *)
Definition tcode (n : N) : ty :=
  match n with 0%N => TUint | 1%N => TBytes | 2%N => TAny | _ => TNone end.

Definition gen_field_ty (family f : string) : option ty :=
  match find (fun r => String.eqb (fst (fst (fst r))) family && String.eqb (snd (fst (fst r))) f) gen_fields with
  | Some (_, _, _, t) => Some (tcode t)
  | None => None
  end.

Definition wt (e : expr) : bool := well_typed gen_field_ty false e.

(* OptimizeOptions resolved as compileTeal does: scratch_slots / frame_pointers given explicitly *)
Definition std_opts (v : N) (app ss fp : bool) : copts := mkOpts v app ss fp gen_minv gen_field_minv.

Definition versions : list N := [2; 3; 4; 5; 6; 7; 8; 9; 10]%N.

Lemma versions_spec v : (2 <= v)%N -> (v <= 10)%N -> In v versions.
Proof.
  intros A B. unfold versions.
  assert (H : exists k, v = N.of_nat k /\ 2 <= k <= 10) by (exists (N.to_nat v); lia).
  destruct H as (k & -> & K1 & K2).
  do 2 (destruct k as [|k]; [lia|]).
  do 9 (destruct k as [|k]; [cbn; tauto|]). lia.
Qed.

Lemma std_ok_all :
  forallb (fun v => forallb (fun app => forallb (fun ss => forallb (fun fp =>
    okop (std_opts v app ss fp) gen_modes O_pop && okop (std_opts v app ss fp) gen_modes O_int &&
    okop (std_opts v app ss fp) gen_modes O_return_) [true; false]) [true; false]) [true; false]) versions = true.
Proof. vm_compute. reflexivity. Qed.

Lemma std_ok v app ss fp : (2 <= v)%N -> (v <= 10)%N ->
  okop (std_opts v app ss fp) gen_modes O_pop = true /\
  okop (std_opts v app ss fp) gen_modes O_int = true /\
  okop (std_opts v app ss fp) gen_modes O_return_ = true.
Proof.
  intros A B. pose proof std_ok_all as H. rewrite forallb_forall in H.
  specialize (H v (versions_spec v A B)). rewrite forallb_forall in H.
  assert (Bo : forall b : bool, In b [true; false]) by (intros [|]; cbn; tauto).
  specialize (H app (Bo app)). rewrite forallb_forall in H.
  specialize (H ss (Bo ss)). rewrite forallb_forall in H.
  specialize (H fp (Bo fp)).
  apply andb_true_iff in H. destruct H as [H H3]. apply andb_true_iff in H. destruct H as [H1 H2]. auto.
Qed.

Definition int_ (n : N) : expr := EOp O_int [AInt n] TUint [].
Definition pop_int (n : N) : expr := EOp O_pop [] TNone [int_ n].
Definition approve : expr := EExit (int_ 1).
Definition long_prog (n : nat) : expr := ESeq (repeat (pop_int 0) n ++ [approve]).

Lemma sum_long n : list_sum (map blocks (repeat (pop_int 0) n ++ [approve])) = 2 * n + 2.
Proof.
  induction n as [|n IH]; [reflexivity|].
  cbn [repeat app map]. unfold list_sum in *. cbn [fold_right]. rewrite IH.
  change (blocks (pop_int 0)) with 2. lia.
Qed.

Lemma blocks_long n : blocks (long_prog n) = 2 * n + 3.
Proof. unfold long_prog. cbn [blocks]. rewrite sum_long. lia. Qed.

Lemma has_return_long n : has_return (long_prog n) = true.
Proof.
  unfold long_prog. cbn [has_return]. induction n as [|n IH]; [reflexivity|].
  cbn [repeat app]. destruct (repeat (pop_int 0) n ++ [approve]) eqn:E.
  - destruct n; discriminate.
  - exact IH.
Qed.

Section Long.
  Variable o : copts.
  Variable modes : opc -> bool * bool.
  Hypothesis ok_pop : okop o modes O_pop = true.
  Hypothesis ok_int : okop o modes O_int = true.
  Hypothesis ok_ret : okop o modes O_return_ = true.

  Lemma okop_version op : okop o modes op = true -> N.leb (o_minv o op) (o_version o) = true.
  Proof. unfold okop. intros H. repeat (apply andb_true_iff in H; destruct H as [H ?]). exact H. Qed.

  Lemma straight_int n : straight o (okop o modes) (int_ n) = true.
  Proof.
    unfold int_. cbn [straight forallb]. rewrite ok_int. unfold op_version_ok. cbn [field_arg].
    rewrite (okop_version O_int ok_int). reflexivity.
  Qed.

  Lemma straight_pop n : straight o (okop o modes) (pop_int n) = true.
  Proof.
    unfold pop_int. cbn [straight forallb]. fold (int_ n). rewrite straight_int, ok_pop.
    unfold op_version_ok. cbn [field_arg]. rewrite (okop_version O_pop ok_pop). reflexivity.
  Qed.

  Lemma straight_long n : straight o (okop o modes) (long_prog n) = true.
  Proof.
    unfold long_prog. cbn [straight]. induction n as [|n IH].
    - cbn [repeat app forallb]. unfold approve. cbn [straight]. rewrite ok_ret, straight_int. reflexivity.
    - cbn [repeat app forallb]. rewrite straight_pop. exact IH.
  Qed.

  (* addIncoming's recursion depth on long_prog n *)
  Theorem walk_depth_long n :
    let r := lower o (mkL None None None main_param) (long_prog n) None empty_graph in
    snd (add_incoming (snd r) (fst (fst r))) = 2 * n + 2.
  Proof.
    destruct (compile_one_straight o modes (long_prog n) (straight_long n) (has_return_long n))
      as (g & ops & _ & _ & _ & D).
    cbv zeta. rewrite D, blocks_long. lia.
  Qed.
End Long.

Lemma wt_long n : wt (long_prog n) = true.
Proof.
  unfold wt, long_prog. cbn [well_typed]. apply andb_true_iff. split.
  - induction n as [|n IH]; [vm_compute; reflexivity|]. cbn [repeat app forallb]. rewrite IH.
    rewrite andb_true_r. vm_compute. reflexivity.
  - induction n as [|n IH]; [reflexivity|]. cbn [repeat app map].
    destruct (map type_of (repeat (pop_int 0) n ++ [approve])) eqn:E.
    + destruct n; discriminate.
    + cbn [all_none_but_last type_of pop_int]. exact IH.
Qed.

(* the optimiser witness (finding: structural block comparison does not terminate):
   i.store(Int(0)); While(Seq(x.store(i.load()+Int(1)), x.load()) < Int(5)).Do(
       If(Txn.fee() > Int(5)).Then(i.store(i.load()+Int(1)))); Approve()                       *)
Definition ld (s : N) : expr := EOp O_load [ASlot s] TUint [].
Definition st (s : N) (e : expr) : expr := EOp O_store [ASlot s] TNone [e].
Definition inc (s : N) : expr := ENary O_add TUint [ld s; int_ 1].

Definition opt_witness : prog :=
  mkProgram
    (ESeq [st 256 (int_ 0);
           EWhile (EOp O_lt [] TUint [ESeq [st 257 (inc 256); ld 257]; int_ 5])
                  (EIf (EOp O_gt [] TUint [EOp O_txn [AStr "Fee"] TUint []; int_ 5]) (st 256 (inc 256)) None);
           approve])
    []
    [(256, (256, false)); (257, (257, false))]%N.

(* a loop as the first statement of the routine: crashed in NormalizeBlocks before the repair of the
   start-block handling in /repo; accepted since *)
Definition loop_first_witness : prog :=
  mkProgram
    (ESeq [EWhile (EOp O_lt [] TUint [EOp O_txn [AStr "Fee"] TUint []; int_ 3]) (pop_int 1); approve])
    [] [].

Definition is_ok {A} (r : cres A) : bool := match r with COk _ => true | CErr _ => false end.
Definition is_err {A} (r : cres A) (e : cerr) : bool :=
  match r, e with
  | CErr CrashRecursion, CrashRecursion => true
  | CErr CrashAssertion, CrashAssertion => true
  | _, _ => false
  end.
