(* Proofs/SlotCompose.v — the slot-assignment rewrite [ASlot u |-> AInt (look u)] (the function
   [assign_slots] maps over every routine, Comp/Compile.v) is a semantic identity
     * operation by operation ([do_op_rw]),
     * on linear code, step for step ([lstep_rw]; runs in [rewrite_preserves]),
     * on block graphs, block step for block step ([gstep_rw], [star_rw]),
   for every environment whose [e_asg] agrees with [look] on the slots that occur, provided the slots
   that are accessed DIRECTLY (load/store with exactly one slot immediate) get a number below 256:
   [do_op] gives such an access the meaning "cell [e_asg env u], no range check"; after the rewrite the
   same instruction carries an integer immediate and runs through [exec_op] with the AVM's range check.
   A slot immediate in any other position ([int] of a ScratchIndex, a load/store with several
   immediates, any other opcode) is turned into the integer [e_asg env u] by [arg_to_imm] already, so for
   those agreement alone suffices.
   Also here: what [map_graph_ops] does to a graph ([mgo_blk]).
   Proved in CallX/SlotCompose.v, for the semantics with a call oracle (whose one extra instruction
   carries a routine reference, which the rewrite leaves alone). *)
From Coq Require Import List Arith NArith String Bool Lia.
From PV Require Import Base.Bytes AVM.Syntax AVM.Ops AVM.Machine Src.Expr Src.Denote
  Comp.Blocks Comp.Lower Comp.Passes Comp.GraphSem Comp.LinearSem Comp.Compile
  Proofs.LowerFrame Proofs.OracleTransfer.
From PV Require CallX.SlotCompose Proofs.OptimizeCorrect.
Import ListNotations.

Definition rw_arg (look : N -> N) (a : arg) : arg :=
  match a with ASlot s => AInt (look s) | _ => a end.

Definition rw_instr (look : N -> N) : instr -> instr := rewrite_instr (rw_arg look).

Definition rw_comp (look : N -> N) (c : comp) : comp :=
  match c with COp i => COp (rw_instr look i) | other => other end.

Definition rw_code (look : N -> N) (code : list comp) : list comp := map (rw_comp look) code.

Definition rw_block (look : N -> N) (bb : block) : block := set_ops bb (map (rw_instr look) (b_ops bb)).

(* slots occurring in an immediate list / an op list / a linear code *)
Definition arg_slots (l : list arg) : list N :=
  flat_map (fun a => match a with ASlot s => [s] | _ => [] end) l.

Definition ops_slots (ops : list instr) : list N := flat_map instr_slots ops.

Definition comp_slots (c : comp) : list N := match c with COp i => instr_slots i | _ => [] end.
Definition code_slots (code : list comp) : list N := flat_map comp_slots code.

(* the slot a load/store accesses directly (the only place where the abstract semantics has no range check) *)
Definition direct_slots (i : instr) : list N :=
  match slot_access (i_op i) (i_args i) with Some (_, u) => [u] | None => [] end.
Definition ops_direct (ops : list instr) : list N := flat_map direct_slots ops.
Definition comp_direct (c : comp) : list N := match c with COp i => direct_slots i | _ => [] end.
Definition code_direct (code : list comp) : list N := flat_map comp_direct code.

(* the two hypotheses *)
Definition agree_on (env : denv) (look : N -> N) (l : list N) : Prop :=
  forall u, In u l -> e_asg env u = look u.
Definition in_range (look : N -> N) (l : list N) : Prop :=
  forall u, In u l -> (look u < 256)%N.

Lemma rw_instr_args look i : i_args (rw_instr look i) = map (rw_arg look) (i_args i).
Proof. reflexivity. Qed.

(* no placeholder survives *)
Lemma rw_arg_no_slot look a u : rw_arg look a <> ASlot u.
Proof. exact (CallX.SlotCompose.rw_arg_no_slot look a u). Qed.

Lemma rw_code_no_slots look code : code_slots (rw_code look code) = [].
Proof. exact (CallX.SlotCompose.rw_code_no_slots look code). Qed.

(* out of range: the AVM fails (used by the necessity examples) *)
Lemma exec_load_ge cx i stk st : (256 <= i)%N -> exec_op cx O_load [IInt i] stk st = OFail.
Proof. exact (CallX.SlotCompose.exec_load_ge cx i stk st). Qed.

Theorem do_op_rw env look o imms stk st :
  agree_on env look (arg_slots imms) ->
  in_range look (direct_slots (mkI o imms)) ->
  do_op env o (map (rw_arg look) imms) stk st = do_op env o imms stk st.
Proof.
  intros Ha Hr. rewrite <- !do_op_lift. exact (CallX.SlotCompose.do_op_rw (lift env) look o imms stk st Ha Hr).
Qed.

(* linear level: same configuration after every step, whatever the configuration *)
Theorem lstep_rw env look code :
  agree_on env look (code_slots code) -> in_range look (code_direct code) ->
  forall c, lstep env (rw_code look code) c = lstep env code c.
Proof.
  intros Ha Hr c. rewrite <- !lstep_lift. exact (CallX.SlotCompose.lstep_rw (lift env) look code Ha Hr c).
Qed.

(* the simple form of the hypotheses: every slot of the code is assigned as the environment says, below 256 *)
Definition slots_ok (env : denv) (look : N -> N) (l : list N) : Prop :=
  forall u, In u l -> e_asg env u = look u /\ (look u < 256)%N.

Corollary rewrite_preserves env look code : slots_ok env look (code_slots code) ->
  (forall c, lstep env (rw_code look code) c = lstep env code c) /\
  (forall c c', lstar env (rw_code look code) c c' <-> lstar env code c c') /\
  (forall fuel c, lrun fuel env (rw_code look code) c = lrun fuel env code c).
Proof.
  intros H. destruct (CallX.SlotCompose.rewrite_preserves (lift env) look code H) as (A & B & C).
  split; [intros c; rewrite <- !lstep_lift; apply A|].
  split; [intros c c'; rewrite <- !lstar_lift; apply B|intros fuel c; rewrite <- !lrun_lift; apply C].
Qed.

(* code without placeholders does not look at the assignment component of the environment at all *)
Definition with_asg (env : denv) (f : N -> N) : denv :=
  mkEnv (e_ctx env) f (e_msel env) (e_subs env) (e_in_sub env) (e_param env).

Theorem lstep_asg_irrelevant env f code : code_slots code = [] ->
  forall c, lstep (with_asg env f) code c = lstep env code c.
Proof.
  intros H c. rewrite <- !lstep_lift. exact (CallX.SlotCompose.lstep_asg_irrelevant (lift env) f code H c).
Qed.

Theorem lstar_asg_irrelevant env f code : code_slots code = [] ->
  forall c c', lstar (with_asg env f) code c c' <-> lstar env code c c'.
Proof.
  intros H c c'. rewrite <- !lstar_lift. exact (CallX.SlotCompose.lstar_asg_irrelevant (lift env) f code H c c').
Qed.

(* G' is G with SOME blocks rewritten (those whose slots are assigned consistently) *)
Definition rw_graph (env : denv) (look : N -> N) (G G' : bgraph) : Prop :=
  forall b, match G b with
            | None => G' b = None
            | Some bb => G' b = Some bb \/
                         (G' b = Some (rw_block look bb) /\
                          agree_on env look (ops_slots (b_ops bb)) /\ in_range look (ops_direct (b_ops bb)))
            end.

Theorem gstep_rw env look G G' : rw_graph env look G G' ->
  forall c, gstep env G' c = gstep env G c.
Proof.
  intros H c. rewrite <- !gstep_lift. exact (CallX.SlotCompose.gstep_rw (lift env) look G G' H c).
Qed.

Theorem star_rw env look G G' : rw_graph env look G G' ->
  forall c c', star env G' c c' <-> star env G c c'.
Proof.
  intros H c c'. rewrite <- !star_lift. exact (CallX.SlotCompose.star_rw (lift env) look G G' H c c').
Qed.

Definition map_block (f : instr -> instr) (bb : block) : block := set_ops bb (map f (b_ops bb)).

(* the slot rewrite of a routine *)
Definition rw_routine (look : N -> N) (c : croutine) : croutine := map_graph_ops (rw_instr look) c.

Lemma rw_routine_fields look c :
  cr_sub (rw_routine look c) = cr_sub c /\ cr_start (rw_routine look c) = cr_start c /\
  cr_end (rw_routine look c) = cr_end c.
Proof. exact (CallX.SlotCompose.rw_routine_fields look c). Qed.

Lemma map_block_rw look bb : map_block (rw_instr look) bb = rw_block look bb.
Proof. exact (CallX.SlotCompose.map_block_rw look bb). Qed.

Theorem mgo_blk look c b :
  g_blk (cr_graph (rw_routine look c)) b =
  if mem_id b (iterate (cr_graph c) (cr_start c)) then option_map (rw_block look) (g_blk (cr_graph c) b)
  else g_blk (cr_graph c) b.
Proof. exact (CallX.SlotCompose.mgo_blk look c b). Qed.

Lemma in_insert_sorted' x y l : In x (insert_sorted y l) <-> x = y \/ In x l.
Proof. exact (OptimizeCorrect.in_insert_sorted x y l). Qed.

Lemma in_sort_dedup' x l : In x (sort_dedup l) <-> In x l.
Proof. exact (OptimizeCorrect.in_sort_dedup x l). Qed.
