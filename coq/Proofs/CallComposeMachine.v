(* Proofs/CallComposeMachine.v — property C02: the two rules Comp/LinkedSem.v adds to the linear semantics
   are the rules of the reference machine [AVM/Machine.v step] for frames without [proto]:
     callsub l : the frame (pc+1, no proto) is pushed, control goes to the label;
     retsub    : the innermost frame (no proto) is popped, control goes to its return address,
                 the operand stack and the state are untouched; with an empty call stack the program fails.
   A call stack [fr : list nat] of Comp/LinkedSem.v stands for [frames_of fr].  (Positions: the machine
   counts instructions, the component list also counts labels; the translation is the one of the assembler
   stage, Proofs/StageELink.v, and is not repeated here.) *)
From Coq Require Import List Arith NArith String Bool Lia.
From PV Require Import AVM.Syntax AVM.Machine Proofs.MachineStep.
Import ListNotations.

Definition frames_of (fr : list nat) : list frame := map (fun r => mkFrame r None) fr.

Theorem machine_callsub cx p m l t fr :
  nth_error (pr_code p) (m_pc m) = Some (mkP O_callsub [IName l]) ->
  label_pc p l = Some t -> (height m <= STACK_MAX)%nat -> m_calls m = frames_of fr ->
  step cx p m = Running (mkM t (m_stack m) (frames_of (S (m_pc m) :: fr)) true (m_intc m) (m_bytec m) (m_st m)).
Proof. intros Hi Hl Hh Hc. rewrite (step_callsub cx p m Hh l Hi), Hl, Hc. reflexivity. Qed.

Theorem machine_retsub cx p m imms ret fr :
  nth_error (pr_code p) (m_pc m) = Some (mkP O_retsub imms) ->
  (height m <= STACK_MAX)%nat -> m_calls m = frames_of (ret :: fr) ->
  step cx p m = Running (mkM ret (m_stack m) (frames_of fr) false (m_intc m) (m_bytec m) (m_st m)).
Proof. intros Hi Hh Hc. rewrite (step_retsub cx p m Hh imms Hi), Hc. reflexivity. Qed.

Theorem machine_retsub_empty cx p m imms :
  nth_error (pr_code p) (m_pc m) = Some (mkP O_retsub imms) ->
  (height m <= STACK_MAX)%nat -> m_calls m = frames_of [] ->
  step cx p m = Done VFail m.
Proof. intros Hi Hh Hc. rewrite (step_retsub cx p m Hh imms Hi), Hc. reflexivity. Qed.
