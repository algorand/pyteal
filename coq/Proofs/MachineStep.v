(* Proofs/MachineStep.v — [AVM/Machine.v step], rule by rule, and the whole-run bridge from any step
   system that [step] simulates to the verdict of [Machine.run].
   1. One equation per rule of [step]: beyond the stack limit; and, for the machine standing at a given instruction
      within the limit, an operation of [exec_op]; err, return, b/bz/bnz, callsub, retsub, proto, frame_dig,
      frame_bury.
      [retsub_lift], [frame_index_lift], [from_bottom_lift]: what the three frame rules compute when cells are
      put below the stack.
   2. [bridge]: configurations [conf] with a partial step function, related to machine states so that every
      step is matched by one machine step, by none, or halts both sides with the same verdict; then a run to a
      configuration with a verdict is a run of the machine to that verdict, for every sufficient fuel.
      [bounded_by]: a fuelled boolean test of "the operand stack stays within the limit along the run". *)
From Coq Require Import List Arith NArith String Bool Lia.
From PV Require Import Base.Bytes AVM.Syntax AVM.Machine.
Import ListNotations.

Lemma height_ok m : height m <= STACK_MAX -> (STACK_MAX <? height m) = false.
Proof. apply Nat.ltb_ge. Qed.

Lemma step_overflow cx P m i :
  nth_error (pr_code P) (m_pc m) = Some i -> STACK_MAX < height m -> step cx P m = Done VFail m.
Proof. intros At Hh. unfold step. rewrite At. apply Nat.ltb_lt in Hh. rewrite Hh. reflexivity. Qed.

Section Rules.
  Variables (cx : ctx) (P : program) (m : mach).
  Hypothesis Hh : height m <= STACK_MAX.

  Lemma step_op o im stk st :
    nth_error (pr_code P) (m_pc m) = Some (mkP o im) -> exec_op cx o im (m_stack m) (m_st m) = OOk stk st ->
    step cx P m = Running (mkM (S (m_pc m)) stk (m_calls m) false (m_intc m) (m_bytec m) st).
  Proof. intros At Ex. unfold step. rewrite At, (height_ok m Hh). cbn [p_op p_imms]. rewrite Ex. reflexivity. Qed.

  Lemma step_fail o im :
    nth_error (pr_code P) (m_pc m) = Some (mkP o im) -> exec_op cx o im (m_stack m) (m_st m) = OFail ->
    step cx P m = Done VFail m.
  Proof. intros At Ex. unfold step. rewrite At, (height_ok m Hh). cbn [p_op p_imms]. rewrite Ex. reflexivity. Qed.

  Lemma step_err im : nth_error (pr_code P) (m_pc m) = Some (mkP O_err im) -> step cx P m = Done VFail m.
  Proof. intros At. unfold step. rewrite At, (height_ok m Hh). reflexivity. Qed.

  Lemma step_return im : nth_error (pr_code P) (m_pc m) = Some (mkP O_return_ im) ->
    step cx P m = match m_stack m with
                  | VI n :: _ => Done (if (n =? 0)%N then VReject else VApprove) m
                  | _ => Done VFail m
                  end.
  Proof. intros At. unfold step. rewrite At, (height_ok m Hh). reflexivity. Qed.

  Lemma step_b l : nth_error (pr_code P) (m_pc m) = Some (mkP O_b [IName l]) ->
    step cx P m = match label_pc P l with
                  | Some t => Running (with_pc_stack m t (m_stack m))
                  | None => Done VFail m
                  end.
  Proof. intros At. unfold step. rewrite At, (height_ok m Hh). reflexivity. Qed.

  Lemma step_bz l : nth_error (pr_code P) (m_pc m) = Some (mkP O_bz [IName l]) ->
    step cx P m = match m_stack m with
                  | VI c :: r =>
                      match label_pc P l with
                      | Some t => Running (with_pc_stack m (if (c =? 0)%N then t else S (m_pc m)) r)
                      | None => Done VFail m
                      end
                  | _ => Done VFail m
                  end.
  Proof. intros At. unfold step. rewrite At, (height_ok m Hh). cbn. destruct (m_stack m) as [|[c|b] r]; reflexivity. Qed.

  Lemma step_bnz l : nth_error (pr_code P) (m_pc m) = Some (mkP O_bnz [IName l]) ->
    step cx P m = match m_stack m with
                  | VI c :: r =>
                      match label_pc P l with
                      | Some t => Running (with_pc_stack m (if (c =? 0)%N then S (m_pc m) else t) r)
                      | None => Done VFail m
                      end
                  | _ => Done VFail m
                  end.
  Proof. intros At. unfold step. rewrite At, (height_ok m Hh). cbn. destruct (m_stack m) as [|[c|b] r]; reflexivity. Qed.

  Lemma step_callsub l : nth_error (pr_code P) (m_pc m) = Some (mkP O_callsub [IName l]) ->
    step cx P m = match label_pc P l with
                  | Some t => Running (mkM t (m_stack m) (mkFrame (S (m_pc m)) None :: m_calls m) true
                                           (m_intc m) (m_bytec m) (m_st m))
                  | None => Done VFail m
                  end.
  Proof. intros At. unfold step. rewrite At, (height_ok m Hh). reflexivity. Qed.

  (* retsub: without [proto] the frame is popped; under [proto A R] the cells below the arguments and the R cells
     at the frame pointer are kept *)
  Lemma step_retsub im : nth_error (pr_code P) (m_pc m) = Some (mkP O_retsub im) ->
    step cx P m =
    match m_calls m with
    | f :: fs =>
        match f_proto f with
        | None => Running (mkM (f_ret f) (m_stack m) fs false (m_intc m) (m_bytec m) (m_st m))
        | Some (h, a, r) =>
            if h + r <=? height m
            then Running (mkM (f_ret f)
                              (rev (firstn (h - a) (rev (m_stack m)) ++ firstn r (skipn h (rev (m_stack m)))))
                              fs false (m_intc m) (m_bytec m) (m_st m))
            else Done VFail m
        end
    | [] => Done VFail m
    end.
  Proof. intros At. unfold step. rewrite At, (height_ok m Hh). reflexivity. Qed.

  Lemma step_proto a r : nth_error (pr_code P) (m_pc m) = Some (mkP O_proto [IInt a; IInt r]) ->
    step cx P m =
    match m_from_callsub m, m_calls m with
    | true, f :: fs =>
        if N.to_nat a <=? height m
        then Running (mkM (S (m_pc m)) (m_stack m)
                          (mkFrame (f_ret f) (Some (height m, N.to_nat a, N.to_nat r)) :: fs)
                          false (m_intc m) (m_bytec m) (m_st m))
        else Done VFail m
    | _, _ => Done VFail m
    end.
  Proof. intros At. unfold step. rewrite At, (height_ok m Hh). reflexivity. Qed.

  Lemma step_frame_dig k : nth_error (pr_code P) (m_pc m) = Some (mkP O_frame_dig [IInt k]) ->
    step cx P m =
    match m_calls m with
    | f :: _ =>
        match f_proto f with
        | Some (h, a, _) =>
            match frame_index h a k with
            | Some idx =>
                match from_bottom (m_stack m) idx with
                | Some pos =>
                    match nth_error (m_stack m) pos with
                    | Some v => Running (with_pc_stack m (S (m_pc m)) (v :: m_stack m))
                    | None => Done VFail m
                    end
                | None => Done VFail m
                end
            | None => Done VFail m
            end
        | None => Done VFail m
        end
    | [] => Done VFail m
    end.
  Proof. intros At. unfold step. rewrite At, (height_ok m Hh). reflexivity. Qed.

  Lemma step_frame_bury k : nth_error (pr_code P) (m_pc m) = Some (mkP O_frame_bury [IInt k]) ->
    step cx P m =
    match m_stack m with
    | v :: r =>
        match m_calls m with
        | f :: _ =>
            match f_proto f with
            | Some (h, a, _) =>
                match frame_index h a k with
                | Some idx =>
                    match from_bottom r idx with
                    | Some pos => Running (with_pc_stack m (S (m_pc m)) (list_update r pos v))
                    | None => Done VFail m
                    end
                | None => Done VFail m
                end
            | None => Done VFail m
            end
        | [] => Done VFail m
        end
    | [] => Done VFail m
    end.
  Proof. intros At. unfold step. rewrite At, (height_ok m Hh). cbn. destruct (m_stack m); reflexivity. Qed.
End Rules.

(* retsub under proto, frame_dig and frame_bury address the stack from the bottom: with cells C below the
   stack and the recorded height raised by |C| they do the same, C untouched *)
Lemma retsub_lift (X C : list value) h a r : a <= h ->
  rev (firstn (h + List.length C - a) (rev (X ++ C)) ++ firstn r (skipn (h + List.length C) (rev (X ++ C)))) =
  rev (firstn (h - a) (rev X) ++ firstn r (skipn h (rev X))) ++ C.
Proof.
  intros Ha. rewrite (rev_app_distr X C).
  rewrite firstn_app, skipn_app, rev_length.
  replace (h + List.length C - a - List.length C) with (h - a) by lia.
  replace (h + List.length C - List.length C) with h by lia.
  rewrite (firstn_all2 (rev C)) by (rewrite rev_length; lia).
  rewrite (skipn_all2 (rev C)) by (rewrite rev_length; lia).
  cbn [app]. rewrite <- app_assoc. rewrite (rev_app_distr (rev C)). rewrite rev_involutive. reflexivity.
Qed.

Lemma frame_index_lift h a k d : a <= h ->
  frame_index (h + d) a k = option_map (fun x => x + d) (frame_index h a k).
Proof.
  intros Ha. unfold frame_index. destruct (k <? 128)%N.
  - cbn [option_map]. f_equal. lia.
  - destruct (N.to_nat (256 - k) <=? a) eqn:E; [|reflexivity].
    apply Nat.leb_le in E. cbn [option_map]. f_equal. lia.
Qed.

Lemma from_bottom_lift (X C : list value) idx :
  from_bottom (X ++ C) (idx + List.length C) = from_bottom X idx.
Proof.
  unfold from_bottom. rewrite app_length.
  destruct (idx <? List.length X) eqn:E.
  - apply Nat.ltb_lt in E.
    assert (E' : (idx + List.length C <? List.length X + List.length C) = true) by (apply Nat.ltb_lt; lia).
    rewrite E'. f_equal. lia.
  - apply Nat.ltb_ge in E.
    assert (E' : (idx + List.length C <? List.length X + List.length C) = false) by (apply Nat.ltb_ge; lia).
    rewrite E'. reflexivity.
Qed.

Lemma from_bottom_lt (X : list value) idx pos : from_bottom X idx = Some pos -> pos < List.length X.
Proof.
  unfold from_bottom. destruct (idx <? List.length X) eqn:E; [|discriminate].
  apply Nat.ltb_lt in E. intros H. injection H as <-. lia.
Qed.

Lemma exec_op_comment cx im stk st : exec_op cx O_comment im stk st = OOk stk st.
Proof. reflexivity. Qed.

(* an operation of [exec_op] uses one unit of fuel *)
Lemma run_op cx P pc stk calls fcs ic bc st o im stk' st' f :
  List.length stk <= STACK_MAX -> nth_error (pr_code P) pc = Some (mkP o im) ->
  exec_op cx o im stk st = OOk stk' st' ->
  run (S f) cx P (mkM pc stk calls fcs ic bc st) = run f cx P (mkM (S pc) stk' calls false ic bc st').
Proof.
  intros Hh At Ex. cbn [run]. rewrite (step_op cx P (mkM pc stk calls fcs ic bc st) Hh o im stk' st' At Ex). reflexivity.
Qed.

Section Bridge.
  Context {conf : Type}.
  Variable stp : conf -> option conf.
  Variable hgt : conf -> nat.                 (* height of the operand stack; 0 for a halted configuration *)

  Inductive star : conf -> conf -> Prop :=
  | star_refl c : star c c
  | star_step c c' c'' : stp c = Some c' -> star c' c'' -> star c c''.

  Lemma star_stuck c c' : stp c = None -> star c c' -> c' = c.
  Proof. intros F H. destruct H as [|c c1 c2 S1 _]; [reflexivity|]. rewrite F in S1. discriminate S1. Qed.

  (* the operand stack stays within the AVM's limit along the run from c0 *)
  Definition bounded (c0 : conf) : Prop := forall c, star c0 c -> hgt c <= STACK_MAX.

  (* a test that, with fuel f, accepts only configurations within the limit whose successor it accepts with
     fuel f - 1, accepts only bounded runs *)
  Lemma bounded_by (chk : nat -> conf -> bool) :
    (forall f c, chk f c = true ->
       hgt c <= STACK_MAX /\ forall c', stp c = Some c' -> exists f', f = S f' /\ chk f' c' = true) ->
    forall f c, chk f c = true -> bounded c.
  Proof.
    intros Hc. induction f as [|f IH]; intros c H d R; destruct (Hc _ _ H) as [Hh Hn];
      destruct R as [|c c' d S1 R]; try exact Hh; destruct (Hn _ S1) as (f' & E & H'); [discriminate E|].
    injection E as <-. exact (IH _ H' _ R).
  Qed.

  Variables (rel : conf -> mach -> Prop) (verd : conf -> option verdict) (fin : conf -> mach -> Prop).
  Variables (cx : ctx) (P : program).
  Hypothesis rel_running : forall c m, rel c m -> verd c = None.
  (* a step is one machine step, or none (the machine does not see labels, pragmas and comments), or the halt of
     both sides *)
  Hypothesis sim : forall c c' m, rel c m -> hgt c <= STACK_MAX -> stp c = Some c' ->
    (exists m', step cx P m = Running m' /\ rel c' m') \/
    rel c' m \/
    (stp c' = None /\ (verd c' = None \/ exists v, verd c' = Some v /\ step cx P m = Done v m /\ fin c' m)).

  Theorem bridge c0 h : star c0 h ->
    forall m v, rel c0 m -> verd h = Some v -> bounded c0 ->
    exists n m', (forall k, n <= k -> run k cx P m = (v, m')) /\ fin h m'.
  Proof.
    induction 1 as [c|c c' c'' S1 H' IH]; intros m v R V B.
    - rewrite (rel_running _ _ R) in V. discriminate V.
    - assert (B' : bounded c') by (intros d Hd; apply B; exact (star_step _ _ _ S1 Hd)).
      destruct (sim c c' m R (B c (star_refl c)) S1) as [(m1 & St & R1)|[R1|[F Hv]]].
      + destruct (IH m1 v R1 V B') as (n & m' & Hrun & Hfin). exists (S n), m'. split; [|exact Hfin].
        intros [|k] Hk; [lia|]. cbn [run]. rewrite St. apply Hrun. lia.
      + exact (IH m v R1 V B').
      + rewrite (star_stuck _ _ F H') in V |- *. destruct Hv as [V0|(v1 & V1 & St & Hfin)]; rewrite V in *; [discriminate V0|].
        injection V1 as <-. exists 1, m. split; [|exact Hfin]. intros [|k] Hk; [lia|]. cbn [run]. rewrite St. reflexivity.
  Qed.
End Bridge.
