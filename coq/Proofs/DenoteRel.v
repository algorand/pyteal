(* Proofs/DenoteRel.v — the evaluators of Src/Denote.v preserve a relation between outcomes.
   Every way the evaluators combine outcomes ([bind], [branch], [after_body], [hdr], the head of a loop) is
   [ctl]: hand the stack and state of a Normal / Break / Continue outcome to a continuation, pass anything else
   through.  So a relation on outcomes that [ctl] preserves (for continuations taking related (stack, state)
   pairs to related outcomes) is preserved by all of them, and by [den_list], [den_cond], [den_asserts],
   [den_while], [den_for] over two single-expression evaluators that preserve it on related expressions.
   Fuel monotonicity (Proofs/C18Fuel.v: the same outcome unless out of fuel) and the by-value simulation of
   Proofs/CallComposeByValue.v (the same outcome on a longer stack, states related) are instances. *)
From Coq Require Import List Arith Lia.
From PV Require Import AVM.Syntax AVM.Machine Src.Expr Src.Denote.
Import ListNotations.

Definition ctl (r : dout) (kN kB kC : list value -> mstate -> dout) : dout :=
  match r with
  | DNorm s st => kN s st
  | DBrk s st => kB s st
  | DCont s st => kC s st
  | other => other
  end.

(* selection on a popped condition value *)
Definition sel (yes no : list value -> mstate -> dout) (s : list value) (st : mstate) : dout :=
  branch (DNorm s st) yes no.

(* what a loop does with the outcome of its condition: Break and Continue in the condition leave the loop *)
Definition loop_head (r : dout) (yes no : list value -> mstate -> dout) : dout := ctl r (sel yes no) DNorm DEnd.

Lemma bind_ctl r k : bind r k = ctl r k DBrk DCont.
Proof. destruct r; reflexivity. Qed.
Lemma branch_ctl r y n : branch r y n = ctl r (sel y n) DBrk DCont.
Proof. destruct r; reflexivity. Qed.
Lemma after_body_ctl r k : after_body r k = ctl r k DNorm k.
Proof. destruct r; reflexivity. Qed.
Lemma hdr_ctl r k : hdr r k = ctl r k DNorm DEnd.
Proof. destruct r; reflexivity. Qed.

Lemma den_while_S d n c b s st :
  den_while d (S n) c b s st = loop_head (d c s st) (fun s1 st1 => after_body (d b s1 st1) (den_while d n c b)) DNorm.
Proof. cbn [den_while]. destruct (d c s st); reflexivity. Qed.

Lemma den_for_S d n c p b s st :
  den_for d (S n) c p b s st =
  loop_head (d c s st) (fun s1 st1 => after_body (d b s1 st1) (fun s2 st2 => hdr (d p s2 st2) (den_for d n c p b))) DNorm.
Proof. cbn [den_for]. destruct (d c s st); reflexivity. Qed.

Section DenRel.
  Variable Rs : list value -> mstate -> list value -> mstate -> Prop.
  Variable Ro : dout -> dout -> Prop.

  Definition Rk (k k' : list value -> mstate -> dout) : Prop :=
    forall s t s' t', Rs s t s' t' -> Ro (k s t) (k' s' t').

  (* [Ro] respects the control structure of the evaluators *)
  Record respects : Prop := {
    rel_ctl : forall r r' kN kN' kB kB' kC kC', Ro r r' -> Rk kN kN' -> Rk kB kB' -> Rk kC kC' ->
              Ro (ctl r kN kB kC) (ctl r' kN' kB' kC');
    rel_sel : forall y y' n n', Rk y y' -> Rk n n' -> Rk (sel y n) (sel y' n');
    rel_norm : Rk DNorm DNorm;
    rel_brk : Rk DBrk DBrk;
    rel_cont : Rk DCont DCont;
    rel_end : Rk DEnd DEnd;
    rel_fail : Ro DFail DFail;
    rel_fuel : forall r', Ro DFuel r'
  }.

  Hypothesis H : respects.

  Lemma bind_rel r r' k k' : Ro r r' -> Rk k k' -> Ro (bind r k) (bind r' k').
  Proof. intros A K. rewrite !bind_ctl. exact (rel_ctl H _ _ _ _ _ _ _ _ A K (rel_brk H) (rel_cont H)). Qed.

  Lemma branch_rel r r' y y' n n' : Ro r r' -> Rk y y' -> Rk n n' -> Ro (branch r y n) (branch r' y' n').
  Proof.
    intros A Y N. rewrite !branch_ctl. exact (rel_ctl H _ _ _ _ _ _ _ _ A (rel_sel H _ _ _ _ Y N) (rel_brk H) (rel_cont H)).
  Qed.

  Lemma after_body_rel r r' k k' : Ro r r' -> Rk k k' -> Ro (after_body r k) (after_body r' k').
  Proof. intros A K. rewrite !after_body_ctl. exact (rel_ctl H _ _ _ _ _ _ _ _ A K (rel_norm H) K). Qed.

  Lemma hdr_rel r r' k k' : Ro r r' -> Rk k k' -> Ro (hdr r k) (hdr r' k').
  Proof. intros A K. rewrite !hdr_ctl. exact (rel_ctl H _ _ _ _ _ _ _ _ A K (rel_norm H) (rel_end H)). Qed.

  Lemma loop_head_rel r r' y y' n n' : Ro r r' -> Rk y y' -> Rk n n' -> Ro (loop_head r y n) (loop_head r' y' n').
  Proof. intros A Y N. exact (rel_ctl H _ _ _ _ _ _ _ _ A (rel_sel H _ _ _ _ Y N) (rel_norm H) (rel_end H)). Qed.

  Variables d1 d2 : expr -> list value -> mstate -> dout.
  Variable Re : expr -> expr -> Prop.
  Hypothesis D : forall e e', Re e e' -> Rk (d1 e) (d2 e').

  Lemma den_list_rel l l' : Forall2 Re l l' -> Rk (den_list d1 l) (den_list d2 l').
  Proof.
    induction 1 as [|e e' t t' He _ IH]; cbn [den_list]; [exact (rel_norm H)|].
    intros s st s' st' R. apply bind_rel; [exact (D e e' He s st s' st' R)|exact IH].
  Qed.

  Lemma den_cond_rel l l' : Forall2 (fun a a' => Re (fst a) (fst a') /\ Re (snd a) (snd a')) l l' ->
    Rk (den_cond d1 l) (den_cond d2 l').
  Proof.
    induction 1 as [|[c v] [c' v'] t t' [Hc Hv] _ IH]; cbn [den_cond]; intros s st s' st' R; [exact (rel_fail H)|].
    apply branch_rel; [exact (D c c' Hc s st s' st' R)|exact (D v v' Hv)|exact IH].
  Qed.

  Lemma den_asserts_rel l l' : Forall2 Re l l' -> Rk (den_asserts d1 l) (den_asserts d2 l').
  Proof.
    induction 1 as [|c c' t t' Hc _ IH]; cbn [den_asserts]; [exact (rel_norm H)|].
    intros s st s' st' R. apply branch_rel; [exact (D c c' Hc s st s' st' R)|exact IH|intros ? ? ? ? _; exact (rel_fail H)].
  Qed.

  (* loops: the first evaluator ends within n1 iterations; the second may be given more *)
  Lemma den_while_rel c c' b b' : Re c c' -> Re b b' ->
    forall n1 n2, n1 <= n2 -> Rk (den_while d1 n1 c b) (den_while d2 n2 c' b').
  Proof.
    intros Hc Hb. induction n1 as [|n1 IH]; intros n2 Hn s st s' st' R; [apply (rel_fuel H)|].
    destruct n2 as [|n2]; [lia|]. rewrite !den_while_S.
    apply loop_head_rel; [exact (D c c' Hc s st s' st' R)| |exact (rel_norm H)].
    intros s1 st1 s1' st1' R1. apply after_body_rel; [exact (D b b' Hb s1 st1 s1' st1' R1)|]. apply IH. lia.
  Qed.

  Lemma den_for_rel c c' p p' b b' : Re c c' -> Re p p' -> Re b b' ->
    forall n1 n2, n1 <= n2 -> Rk (den_for d1 n1 c p b) (den_for d2 n2 c' p' b').
  Proof.
    intros Hc Hp Hb. induction n1 as [|n1 IH]; intros n2 Hn s st s' st' R; [apply (rel_fuel H)|].
    destruct n2 as [|n2]; [lia|]. rewrite !den_for_S.
    apply loop_head_rel; [exact (D c c' Hc s st s' st' R)| |exact (rel_norm H)].
    intros s1 st1 s1' st1' R1. apply after_body_rel; [exact (D b b' Hb s1 st1 s1' st1' R1)|].
    intros s2 st2 s2' st2' R2. apply hdr_rel; [exact (D p p' Hp s2 st2 s2' st2' R2)|]. apply IH. lia.
  Qed.
End DenRel.
