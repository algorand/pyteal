(* Proofs/LitLineProof.v — C13: how the assembler's tokeniser and statement parser read the
   lines  byte 0x..  /  byte base32(..)  /  byte base64(..)  /  int N  /  addr A  /  method "sig",
   for arbitrary payload text satisfying a character-class condition. *)
From Coq Require Import List Arith NArith Ascii String Bool Lia.
From PV Require Import Base.Bytes AVM.Syntax AVM.Machine AVM.Parse Lit.BaseN Proofs.TextFacts
  Proofs.LitEscapeProof.
Import ListNotations.
Local Open Scope string_scope.
Local Open Scope list_scope.

(* [TextFacts.ordinary] *)
Definition plainc (c : ascii) : bool :=
  negb (is_space c) && negb (Ascii.eqb c """") && negb (Ascii.eqb c "/") && negb (Ascii.eqb c "(") &&
  negb (Ascii.eqb c ")") && negb (Ascii.eqb c ";").

(* inside base64( ... ): alphabet and pad characters, slashes included *)
Definition b64c (c : ascii) : bool := is_b64 c || is_pad c.

Lemma b64c_not_special c : b64c c = true ->
  is_space c || Ascii.eqb c """" || Ascii.eqb c "(" || Ascii.eqb c ")" || Ascii.eqb c ";" || Ascii.eqb c (chr 10) = false.
Proof. intros H. apply negb_true_iff. revert c H. apply ascii_impl. vm_compute. reflexivity. Qed.

(* a slash inside base64( ... ) does not start a comment *)
Lemma tok_b64run l : forallb b64c l = true -> tok_keeps false false true l.
Proof.
  apply tok_keeps_chars. intros c Hc t cur acc. apply b64c_not_special in Hc. cbn [app tok_line].
  destruct (is_space c); [discriminate Hc|]. destruct (Ascii.eqb c """"); [discriminate Hc|].
  destruct (Ascii.eqb c "("); [discriminate Hc|]. destruct (Ascii.eqb c ")"); [discriminate Hc|].
  destruct (Ascii.eqb c ";"); [discriminate Hc|]. clear Hc.
  destruct (Ascii.eqb c "/"); [|reflexivity]. destruct t; [reflexivity|]. now rewrite andb_false_r.
Qed.

(* the characters of hexadecimal, base32 and decimal payloads are ordinary, and none is a line feed *)
Lemma payload_char c : is_hex c || (is_b32 c || is_pad c) || is_digit c = true ->
  ordinary c && negb (Ascii.eqb c (chr 10)) = true.
Proof. revert c. apply ascii_impl. vm_compute. reflexivity. Qed.

Lemma hex_plain c : is_hex c = true -> ordinary c = true.
Proof. intros H. pose proof (payload_char c) as P. rewrite H in P. now apply andb_prop in P. Qed.
Lemma b32pad_plain c : is_b32 c || is_pad c = true -> ordinary c = true.
Proof. intros H. pose proof (payload_char c) as P. rewrite H, orb_true_r in P. now apply andb_prop in P. Qed.
Lemma digit_plain c : is_digit c = true -> ordinary c = true.
Proof. intros H. pose proof (payload_char c) as P. rewrite H, orb_true_r in P. now apply andb_prop in P. Qed.

Lemma flush_one cur acc x : rev (match x :: cur with [] => acc | _ => str_of (x :: cur) :: acc end) = rev acc ++ [str_of (x :: cur)].
Proof. reflexivity. Qed.

(* <op> <word>: an op word, a blank, and a run of ordinary characters that ends the line *)
Lemma tokens_op_word (op w : string) :
  sep_word op -> w <> "" -> forallb ordinary (list_ascii_of_string w) = true ->
  tokens_of_line (op ++ " " ++ w)%string = [op; w].
Proof.
  intros (O & N & K1 & K2) NE H. rewrite tokens_cons_word by assumption.
  now rewrite tokens_one_word by (assumption || now apply ordinary_word).
Qed.

Lemma op_word (op : string) : forallb ordinary (list_ascii_of_string op) = true -> op <> "" ->
  String.eqb op "base64" = false -> String.eqb op "b64" = false -> sep_word op.
Proof. intros H N K1 K2. split; [now apply ordinary_word | auto]. Qed.

(* byte 0x<h> *)
Lemma tokens_hex (h : string) :
  forallb is_hex (list_ascii_of_string h) = true ->
  tokens_of_line ("byte 0x" ++ h)%string = ["byte"; ("0x" ++ h)%string].
Proof.
  intros H. apply (tokens_op_word "byte" ("0x" ++ h)); [now apply op_word | discriminate|].
  cbn [append list_ascii_of_string forallb]. now apply (forallb_impl _ _ hex_plain).
Qed.

Lemma str_of_paren (pre v : string) :
  str_of (")"%char :: rev (list_ascii_of_string v) ++ rev (list_ascii_of_string pre)) = (pre ++ v ++ ")")%string.
Proof.
  unfold str_of. cbn [rev]. rewrite rev_app_distr, !rev_involutive, <- app_assoc.
  change ([")"%char]) with (list_ascii_of_string ")").
  rewrite <- !los_app. apply sol_los.
Qed.

(* byte base32(<v>) *)
Lemma tokens_base32 (v : string) :
  forallb (fun c => is_b32 c || is_pad c) (list_ascii_of_string v) = true ->
  tokens_of_line ("byte base32(" ++ v ++ ")")%string = ["byte"; ("base32(" ++ v ++ ")")%string].
Proof.
  intros H. unfold tokens_of_line. rewrite !los_app.
  change (list_ascii_of_string "byte base32(") with (list_ascii_of_string "byte " ++ list_ascii_of_string "base32(").
  rewrite <- app_assoc, tok_byte_prefix.
  assert (P : forall rest acc, tok_line (list_ascii_of_string "base32(" ++ rest) [] false false false acc =
                               tok_line rest (rev (list_ascii_of_string "base32(")) false false false acc) by reflexivity.
  rewrite P, tok_ordinary by now apply (forallb_impl _ _ b32pad_plain).
  apply (f_equal (fun t => ["byte"; t])), str_of_paren.
Qed.

(* byte base64(<v>) *)
Lemma tokens_base64 (v : string) :
  forallb b64c (list_ascii_of_string v) = true ->
  tokens_of_line ("byte base64(" ++ v ++ ")")%string = ["byte"; ("base64(" ++ v ++ ")")%string].
Proof.
  intros H. unfold tokens_of_line. rewrite !los_app.
  change (list_ascii_of_string "byte base64(") with (list_ascii_of_string "byte " ++ list_ascii_of_string "base64(").
  rewrite <- app_assoc, tok_byte_prefix.
  assert (P : forall rest acc, tok_line (list_ascii_of_string "base64(" ++ rest) [] false false false acc =
                               tok_line rest (rev (list_ascii_of_string "base64(")) false false true acc) by reflexivity.
  rewrite P, tok_b64run by exact H.
  apply (f_equal (fun t => ["byte"; t])), str_of_paren.
Qed.

Lemma tokens_int (w : string) :
  w <> ""%string -> forallb is_digit (list_ascii_of_string w) = true ->
  tokens_of_line ("int " ++ w)%string = ["int"; w].
Proof.
  intros NE H. apply (tokens_op_word "int" w); [now apply op_word | exact NE|].
  now apply (forallb_impl _ _ digit_plain).
Qed.

Lemma tokens_addr (w : string) :
  w <> ""%string -> forallb (fun c => is_b32 c || is_pad c) (list_ascii_of_string w) = true ->
  tokens_of_line ("addr " ++ w)%string = ["addr"; w].
Proof.
  intros NE H. apply (tokens_op_word "addr" w); [now apply op_word | exact NE|].
  now apply (forallb_impl _ _ b32pad_plain).
Qed.

Definition push_int (n : N) : option (option stmt) := Some (Some (SInstr (mkP O_int [IInt n]))).
Definition push_addr (b : bytes) : option (option stmt) := Some (Some (SInstr (mkP O_addr [IBytes b]))).
Definition push_method (b : bytes) : option (option stmt) :=
  Some (Some (SInstr (mkP O_method_signature [IBytes b]))).

Lemma parse_stmt_int msel tk :
  parse_stmt msel ["int"; tk] = match parse_int_arg tk with Some n => push_int n | None => None end.
Proof. reflexivity. Qed.

Lemma parse_stmt_addr msel tk :
  parse_stmt msel ["addr"; tk] =
  if (String.length tk =? 58)%nat
  then match decode_base32 tk with Some b => push_addr (firstn 32 b) | None => None end
  else None.
Proof. reflexivity. Qed.

Lemma parse_stmt_method msel tk :
  parse_stmt msel ["method"; tk] =
  match parse_string_literal tk with
  | Some sig => match alookup String.eqb (string_of_bytes sig) msel with
                | Some sel => push_method sel | None => None end
  | None => None
  end.
Proof. reflexivity. Qed.
