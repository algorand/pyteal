(* Proofs/TotalityWalk.v — property C20, part 2: the graph passes of compileSubroutine on a
   descending chain (what every straight-line program lowers to, Proofs/TotalityChain.v):

     addIncoming   visits the chain from its top T down to block 0; its recursion depth is T
                   ([add_incoming_chain]) — one Python stack frame per block of the program;
     validateTree  passes ([validate_tree_chain]);
     NormalizeBlocks  merges the whole chain into block 0, which becomes the start ([normalize_chain]);
     validateTree  passes on the result.

   The recursive Python walks are modelled with an explicit stack that records the depth the
   recursion would have (Comp/Passes.v, [add_incoming] returns the maximal depth). *)
From Coq Require Import List Arith NArith String Bool Lia.
From PV Require Import Base.Bytes AVM.Syntax Src.Expr Comp.Blocks Comp.Lower Comp.Passes Comp.SimCheck
  Proofs.LowerFrame Proofs.IncomingProof Proofs.TotalityChain.
Import ListNotations.

Section Walk.
  Variable P : instr -> Prop.

  (* blocks 0..T: block 0 is terminal, block (S i) continues with block i *)
  Definition dchain (g : graph) (T : nat) : Prop :=
    (exists ops, g_blk g 0 = Some (BSimple ops None) /\ Forall P ops) /\
    (forall i, i < T -> exists ops, g_blk g (S i) = Some (BSimple ops (Some i)) /\ Forall P ops).

  Lemma dchain_out0 g T : dchain g T -> out_of g 0 = [].
  Proof. intros ((ops & B & _) & _). unfold out_of. rewrite B. reflexivity. Qed.

  Lemma dchain_outS g T i : dchain g T -> i < T -> out_of g (S i) = [i].
  Proof. intros (_ & H) L. destruct (H i L) as (ops & B & _). unfold out_of. rewrite B. reflexivity. Qed.

  Lemma dchain_blk_eq g g' T : g_blk g' = g_blk g -> dchain g T -> dchain g' T.
  Proof. intros E D. unfold dchain. rewrite E. exact D. Qed.

  Lemma dchain_le g T T' : T' <= T -> dchain g T -> dchain g T'.
  Proof. intros L (A & B). split; [exact A|]. intros i Hi. apply B. lia. Qed.

  Lemma mem_id_above b visited : (forall x, In x visited -> b < x) -> mem_id b visited = false.
  Proof.
    induction visited as [|y t IH]; intros H; cbn [mem_id]; [reflexivity|].
    destruct (Nat.eqb_spec b y) as [->|N].
    - specialize (H y (or_introl eq_refl)). lia.
    - cbn [orb]. apply IH. intros x Hx. apply H. right. exact Hx.
  Qed.

  Lemma ai_nil f g v m : add_incoming_loop f g [] v m = (g, m).
  Proof. destruct f; reflexivity. Qed.

  (* the parent recorded at a block whose incoming list is still empty *)
  Lemma record_parent g b parent : g_inc g b = [] ->
    let g1 := match parent with
              | Some p => if mem_id p (g_inc g b) then g else set_inc g b (g_inc g b ++ [p])
              | None => g end in
    g_blk g1 = g_blk g /\ g_next g1 = g_next g /\
    g_inc g1 b = (match parent with Some p => [p] | None => [] end) /\
    forall i, i <> b -> g_inc g1 i = g_inc g i.
  Proof.
    intros Z. destruct parent as [p|]; cbn zeta; [|repeat split; try reflexivity; exact Z].
    rewrite Z. cbn [mem_id app]. unfold set_inc. cbn [g_blk g_next g_inc].
    repeat split; try reflexivity; [apply upd_same|intros i Hi; apply upd_other; exact Hi].
  Qed.

  Lemma ai_chain T : forall b fuel g parent d visited maxd,
    dchain g T -> b <= T -> b < fuel ->
    (forall x, In x visited -> b < x) ->
    (forall i, i <= b -> g_inc g i = []) ->
    exists g', add_incoming_loop fuel g [(b, parent, d)] visited maxd = (g', Nat.max maxd (d + b)) /\
      g_blk g' = g_blk g /\ g_next g' = g_next g /\
      (forall i, i < b -> g_inc g' i = [S i]) /\
      g_inc g' b = (match parent with Some p => [p] | None => [] end) /\
      (forall i, b < i -> g_inc g' i = g_inc g i).
  Proof.
    induction b as [|b IH]; intros fuel g parent d visited maxd D LT LF HV HI;
      (destruct fuel as [|f]; [lia|]); cbn [add_incoming_loop];
      destruct (record_parent g _ parent (HI _ (le_n _))) as (B1 & N1 & I1 & I2);
      set (g1 := match parent with Some p => _ | None => g end) in *; clearbody g1;
      pose proof (dchain_blk_eq _ _ _ B1 D) as D1; rewrite (mem_id_above _ visited HV).
    - (* block 0: terminal *)
      rewrite (dchain_out0 g1 T D1). cbn [map app]. rewrite ai_nil.
      exists g1. split. { f_equal. lia. } split; [exact B1|]. split; [exact N1|].
      split; [intros i Hi; lia|]. split; [exact I1|]. intros i Hi. apply I2. lia.
    - (* block S b: continues with block b *)
      rewrite (dchain_outS g1 T b D1) by lia. cbn [map app].
      destruct (IH f g1 (Some (S b)) (S d) (S b :: visited) (Nat.max maxd d) D1) as (g' & R & B' & N' & J1 & J2 & J3).
      + lia.
      + lia.
      + intros x [<-|Hx]; [lia|]. specialize (HV x Hx). lia.
      + intros i Hi. rewrite I2 by lia. apply HI. lia.
      + exists g'. split. { etransitivity; [exact R|]. f_equal. lia. } split; [congruence|]. split; [congruence|].
        split; [|split].
        * intros i Hi. destruct (Nat.eq_dec i b) as [->|Ne]; [exact J2|apply J1; lia].
        * rewrite J3 by lia. exact I1.
        * intros i Hi. rewrite J3 by lia. apply I2. lia.
  Qed.

  (* addIncoming from the top of a chain whose incoming lists are still empty *)
  Theorem add_incoming_chain g T :
    dchain g T -> T < g_next g -> (forall i, g_inc g i = []) ->
    exists g', add_incoming g T = (g', T) /\ g_blk g' = g_blk g /\ g_next g' = g_next g /\
      (forall i, i < T -> g_inc g' i = [S i]) /\ g_inc g' T = [] /\ (forall i, T < i -> g_inc g' i = []).
  Proof.
    intros D L Z. unfold add_incoming.
    destruct (ai_chain T T (3 * S (g_next g)) g None 0 [] 0 D) as (g' & R & B & N & J1 & J2 & J3).
    - lia.
    - lia.
    - intros x [].
    - intros i _. apply Z.
    - exists g'. split; [etransitivity; [exact R|reflexivity]|].
      split; [exact B|]. split; [exact N|]. split; [exact J1|]. split; [exact J2|].
      intros i Hi. rewrite J3 by exact Hi. apply Z.
  Qed.

  Lemma dchain_edge g T p x : dchain g T -> p <= T -> In x (out_of g p) -> p = S x.
  Proof.
    intros D L I. destruct p as [|p]; [rewrite (dchain_out0 g T D) in I; destruct I|].
    rewrite (dchain_outS g T p D) in I by lia. destruct I as [<-|[]]. reflexivity.
  Qed.

  Lemma dchain_reach g T p : dchain g T -> reach g T p -> p <= T.
  Proof.
    intros D R. induction R as [|p x R IH I]; [apply le_n|].
    rewrite (dchain_edge g T p x D IH I) in IH. lia.
  Qed.

  (* validateTree asserts nothing but [tree_valid] (Proofs/IncomingProof.v), whatever the fuel *)
  Theorem validate_tree_chain g T :
    dchain g T -> (forall i, i < T -> g_inc g i = [S i]) -> validate_tree g T = true.
  Proof.
    intros D HI. unfold validate_tree. apply (vt_complete g T); [|apply dfs_sound_start]. intros p b R I.
    pose proof (dchain_reach g T p D R) as L. rewrite (dchain_edge g T p b D L I) in L |- *.
    rewrite HI by lia. cbn [count_id]. rewrite Nat.eqb_refl. reflexivity.
  Qed.

  (* NormalizeBlocks, pass 1: the chain is merged into block 0 *)
  Lemma ni_nil body f g s v : norm_iter body f g s [] v = (g, s).
  Proof. destruct f; reflexivity. Qed.

  Lemma ni_step body f g s w q v :
    norm_iter body (S f) g s (w :: q) v =
    let nexts := out_of g w in
    let '(g1, s1) := body g s w in
    let '(q1, v1) := enqueue nexts q v in
    norm_iter body f g1 s1 q1 v1.
  Proof. reflexivity. Qed.

  Definition single (g : graph) : Prop :=
    exists ops, g_blk g 0 = Some (BSimple ops None) /\ Forall P ops.

  Lemma single_dchain g : single g -> dchain g 0.
  Proof. intros S. split; [exact S|]. intros i Hi. lia. Qed.

  (* a block replaced together with its incoming list: what a merge step of NormalizeBlocks does *)
  Lemma set_blk_inc g i b l : wf g -> i < g_next g ->
    let g2 := set_inc (set_blk g i b) i l in
    wf g2 /\ g_next g2 = g_next g /\ g_blk g2 i = Some b /\ g_inc g2 i = l /\
    forall j, j <> i -> g_blk g2 j = g_blk g j /\ g_inc g2 j = g_inc g j.
  Proof.
    intros W L. destruct (define_spec g i b W L) as (W1 & N1 & B1 & O1).
    unfold set_blk, set_inc. cbn [g_blk g_inc g_next].
    split; [exact W1|]. split; [exact N1|]. split; [exact B1|]. split; [apply upd_same|].
    intros j Hj. split; [exact (O1 j Hj)|apply upd_other; exact Hj].
  Qed.

  (* state while block w is at the head of the queue: blocks 0..w are the untouched chain, block S w
     holds everything merged so far and is the current start *)
  Lemma n1_chain : forall w fuel g visited acc,
    w < fuel -> wf g -> S w < g_next g ->
    dchain g w ->
    (forall i, i <= w -> g_inc g i = [S i]) ->
    g_blk g (S w) = Some (BSimple acc (Some w)) -> Forall P acc -> g_inc g (S w) = [] ->
    (forall x, In x visited -> w <= x) ->
    exists g', norm_iter norm_body1 fuel g (S w) [w] visited = (g', 0) /\
      single g' /\ g_inc g' 0 = [] /\ g_next g' = g_next g /\ wf g'.
  Proof.
    induction w as [|w IH]; intros fuel g visited acc LF W LN D HI BS PA IS HV;
      (destruct fuel as [|f]; [lia|]); cbn [norm_iter].
    - (* w = 0 *)
      destruct D as ((ops0 & B0 & P0) & D').
      assert (O0 : out_of g 0 = []) by (unfold out_of; rewrite B0; reflexivity).
      rewrite O0. unfold norm_body1. rewrite (HI 0) by lia.
      assert (O1 : out_of g 1 = [0]) by (unfold out_of; rewrite BS; reflexivity).
      rewrite O1. cbn [Nat.eqb]. rewrite B0. rewrite IS. cbn [fold_left].
      cbn [enqueue fold_left]. rewrite ni_nil.
      destruct (set_blk_inc g 0 (set_ops (BSimple ops0 None) (get_ops g 1 ++ b_ops (BSimple ops0 None))) [] W)
        as (W2 & N2 & B2 & I2 & _); [lia|].
      eexists. split; [reflexivity|]. split; [|split; [exact I2|split; [exact N2|exact W2]]].
      exists (acc ++ ops0). split; [|apply Forall_app; split; assumption].
      rewrite B2. cbn [set_ops b_ops]. unfold get_ops. rewrite BS. reflexivity.
    - (* w = S w *)
      destruct (proj2 D w (Nat.lt_succ_diag_r w)) as (opsw & Bw & Pw).
      assert (Ow : out_of g (S w) = [w]) by (unfold out_of; rewrite Bw; reflexivity).
      rewrite Ow. unfold norm_body1. rewrite (HI (S w)) by lia.
      assert (O1 : out_of g (S (S w)) = [S w]) by (unfold out_of; rewrite BS; reflexivity).
      rewrite O1. rewrite Nat.eqb_refl. rewrite Bw. rewrite IS. cbn [fold_left].
      rewrite Nat.eqb_refl.
      unfold enqueue. cbn [fold_left]. rewrite (mem_id_above w visited) by (intros x Hx; specialize (HV x Hx); lia).
      cbn [app].
      destruct (set_blk_inc g (S w) (set_ops (BSimple opsw (Some w)) (get_ops g (S (S w)) ++ b_ops (BSimple opsw (Some w)))) [] W)
        as (W2 & N2 & B2 & I2 & O2); [lia|].
      set (g2 := set_inc _ (S w) []) in *. clearbody g2.
      destruct (IH f g2 (visited ++ [w]) (acc ++ opsw)) as (g' & R & SG & I0 & N' & W').
      + lia.
      + exact W2.
      + lia.
      + destruct D as (D0 & D'). split.
        * destruct D0 as (ops0 & B0 & P0). exists ops0. rewrite (proj1 (O2 0 ltac:(lia))). auto.
        * intros i Hi. destruct (D' i) as (ops & B & Po); [lia|]. exists ops. rewrite (proj1 (O2 (S i) ltac:(lia))). auto.
      + intros i Hi. rewrite (proj2 (O2 i ltac:(lia))). apply HI. lia.
      + rewrite B2. cbn [set_ops b_ops]. unfold get_ops. rewrite BS. reflexivity.
      + apply Forall_app. split; assumption.
      + exact I2.
      + intros x Hx. apply in_app_or in Hx. destruct Hx as [Hx|[<-|[]]]; [specialize (HV x Hx); lia|lia].
      + exists g'. split; [exact R|]. split; [exact SG|]. split; [exact I0|]. split; [congruence|exact W'].
  Qed.

  Lemma n2_single f g : single g -> norm_iter norm_body2 (S f) g 0 [0] [0] = (g, 0).
  Proof.
    intros S. pose proof (dchain_out0 g 0 (single_dchain g S)) as O0. cbn [norm_iter].
    rewrite O0. unfold norm_body2. rewrite O0.
    destruct (get_ops g 0); cbn [enqueue fold_left]; apply ni_nil.
  Qed.

  (* NormalizeBlocks on a chain with exact incoming lists *)
  Theorem normalize_chain g T :
    wf g -> g_next g = S T -> dchain g T ->
    (forall i, i < T -> g_inc g i = [S i]) -> g_inc g T = [] ->
    exists g', normalize g T = (g', 0) /\ single g' /\ g_next g' = g_next g /\ wf g'.
  Proof.
    intros W N D HI HT. unfold normalize. rewrite N. unfold id in *.
    assert (P1 : exists g', norm_iter norm_body1 (S (S T)) g T [T] [T] = (g', 0) /\
                            single g' /\ g_next g' = g_next g /\ wf g').
    { rewrite ni_step. unfold norm_body1 at 1. rewrite HT.
      destruct T as [|T'].
      - rewrite (dchain_out0 g 0 D). cbn [enqueue fold_left]. rewrite ni_nil.
        exists g. split; [reflexivity|]. split; [exact (proj1 D)|]. split; [reflexivity|exact W].
      - destruct (proj2 D T' (Nat.lt_succ_diag_r T')) as (opsT & BT & PT).
        rewrite (dchain_outS g (S T') T' D) by lia.
        unfold enqueue. cbn [fold_left mem_id]. destruct (Nat.eqb_spec T' (S T')); [lia|]. cbn [orb app].
        destruct (n1_chain T' (S (S T')) g [S T'; T'] opsT) as (g' & R & SG & I0 & N' & W').
        + lia.
        + exact W.
        + lia.
        + apply (dchain_le g (S T')); [lia|exact D].
        + intros i Hi. apply HI. lia.
        + exact BT.
        + exact PT.
        + exact HT.
        + intros x [<-|[<-|[]]]; lia.
        + exists g'. split; [exact R|]. split; [exact SG|]. split; [exact N'|exact W']. }
    destruct P1 as (g1 & R1 & SG & N1 & W1). rewrite R1.
    rewrite (n2_single (S T) g1 SG). exists g1. split; [reflexivity|]. split; [exact SG|]. split; [congruence|exact W1].
  Qed.

  Lemma validate_tree_single g : single g -> validate_tree g 0 = true.
  Proof. intros S. apply validate_tree_chain; [exact (single_dchain g S)|]. intros i Hi. lia. Qed.
End Walk.
