(* Proofs/CallMachineText.v — property C02: linked code -> TEXT -> assembler -> [Machine.run].
   The component list compile_components returns for a program with subroutines is [#pragma version v :: L],
   L = flatten_subroutines ... (main code, then every subroutine behind its header [// name] + entry label).
   1. the pragma in front shifts every position — and every RETURN position on the call stack — by one
      ([pstep_pragma]); it is not an instruction, so the program linked from [#pragma :: L] is a linked program
      for L itself (StageELink.link_pragma_linked);
   2. the printed text of a printable list parses to [link msel (pragma :: L)] (StageEText.text_links: subroutine
      headers and [callsub <label>] are in the class [printable]);
   3. the whole-run machine bridge of Proofs/CallMachineSim.v on that program.
   Result [linked_text_runs]: a halting run [pstar] of L from pc 0 with an empty call stack gives the verdict of
   [Machine.run] on the parse of the printed text. *)
From Coq Require Import List Arith NArith Ascii String Bool Lia.
From PV Require Import AVM.Syntax AVM.Machine AVM.Parse Src.Denote Comp.LinearSem Comp.LinkedSem Comp.Assemble
  Proofs.StageELink Proofs.StageEText Proofs.StageECompose Proofs.CallMachineSim.
Import ListNotations.
Local Open Scope list_scope.

Definition pshift (c : pconf) : pconf :=
  match c with PAt fr pc stk st => PAt (map S fr) (S pc) stk st | other => other end.

Lemma pstep_pragma env v code c :
  pstep env (CPragma v :: code) (pshift c) = option_map pshift (pstep env code c).
Proof.
  destruct c as [fr pc stk st| | | |]; try reflexivity.
  cbn [pshift pstep nth_error].
  destruct (nth_error code pc) as [[i|l cm|vv]|]; cbn [option_map pshift]; try reflexivity.
  f_equal. unfold pstep_op.
  destruct (is_return (i_op i)); [destruct stk; reflexivity|].
  destruct (is_retsub (i_op i)); [destruct fr; reflexivity|].
  destruct (call_label i) as [l|].
  { rewrite find_label_pragma. destruct (find_label l code); reflexivity. }
  destruct (jump_of i) as [[[| |] l]|].
  - unfold pgoto. rewrite find_label_pragma. destruct (find_label l code); reflexivity.
  - destruct stk as [|x s']; [reflexivity|]. destruct (truthy x) as [[|]|]; try reflexivity.
    unfold pgoto. rewrite find_label_pragma. destruct (find_label l code); reflexivity.
  - destruct stk as [|x s']; [reflexivity|]. destruct (truthy x) as [[|]|]; try reflexivity.
    unfold pgoto. rewrite find_label_pragma. destruct (find_label l code); reflexivity.
  - destruct (do_op env (i_op i) (i_args i) stk st); reflexivity.
Qed.

(* the whole-run bridge for the list behind its pragma: P = the assembler's program for [#pragma :: L] *)
Theorem machine_bridge_linked env version L P :
  link (e_msel env) (CPragma version :: L) = Some P -> targets_ok (CPragma version :: L) = true ->
  forall st h v,
    pstar env L (PAt [] 0 [] st) h -> pverdict_of h = Some v ->
    pstack_bounded env L (PAt [] 0 [] st) ->
    exists n m', (forall k, n <= k -> run k (e_ctx env) P (init_mach st) = (v, m')) /\ pfinal_ok h m'.
Proof.
  intros LK TG st h v H V B.
  exact (pbridge_linked env L P (link_pragma_linked _ _ _ _ LK) (targets_ok_pragma _ _ TG) [] 0 [] st h _ v H
           (prel_init L st) V B).
Qed.

Theorem linked_text_runs msel version L :
  let comps := CPragma version :: L in
  NoDup (labels_of L) ->
  printable msel comps = true -> targets_ok comps = true ->
  exists lines P,
    assemble_all comps = Some lines /\
    parse_program msel (program_text lines) = Some P /\ link msel comps = Some P /\
    (no_pragma L = true -> pr_version P = version) /\
    forall env, e_msel env = msel ->
    forall st h v,
      pstar env L (PAt [] 0 [] st) h -> pverdict_of h = Some v ->
      pstack_bounded env L (PAt [] 0 [] st) ->
      exists n m', (forall k, n <= k -> run k (e_ctx env) P (init_mach st) = (v, m')) /\ pfinal_ok h m'.
Proof.
  intros comps ND PR TG.
  destruct (printed_links msel comps PR ltac:(discriminate) ND) as (lines & P & A & PP & LK).
  exists lines, P. split; [exact A|]. split; [exact PP|]. split; [exact LK|].
  split; [intros NP; exact (pragma_version msel version L P NP LK)|].
  intros env Em st h v H V B. subst msel.
  exact (machine_bridge_linked env version L P LK TG st h v H V B).
Qed.
