(* Proofs/WideRatioGeneral.v — C16 for ARBITRARY factor expressions.
   [denote env fuel (EWide ns ds)] (Src/Denote.v) evaluates the factor expressions left to right,
   interleaved with WideRatio's glue ops.  Here:
     * [wide_ratio_general]      if every factor evaluates (on every stack below) to one uint64 value,
                                 the outcome is the exact quotient of the values, or failure;
     * [wide_ratio_never_wraps]  for uint64-valued factors, ANY normal outcome is the exact quotient
                                 of values the factors evaluated to (state threaded in order);
     * [wide_ratio_abrupt_origin] any outcome other than normal / failure is the outcome of a factor;
     * [wide_ratio_abrupt_num/_den] a factor that does not terminate normally decides the outcome.
   The proofs are simulations: with factor values [vs], the evaluator's stack is the one
   [run_pure] computes for the constant factors [map const_code vs] (Proofs/WideRatioProof.v). *)
From Coq Require Import List NArith Lia Bool.
From PV Require Import Base.Bytes Base.U64 AVM.Syntax AVM.Ops AVM.Machine Src.Expr Src.Denote
  Comp.WideRatio Proofs.WideRatioProof Proofs.WideRatioGeneralOps.
Import ListNotations.
Local Open Scope N_scope.

Definition notnorm (r : dout) : Prop := match r with DNorm _ _ => False | _ => True end.

Lemma bind_notnorm r f : notnorm r -> bind r f = r.
Proof. destruct r; cbn [notnorm bind]; intros H; try reflexivity; contradiction. Qed.

Lemma bind_bind r f g : bind (bind r f) g = bind r (fun s st => bind (f s st) g).
Proof. destruct r; reflexivity. Qed.

Lemma bind_ext r f g : (forall s st, f s st = g s st) -> bind r f = bind r g.
Proof. intros H. destruct r; cbn [bind]; auto. Qed.

Lemma bind_norm_inv r f s' st' : bind r f = DNorm s' st' ->
  exists s st, r = DNorm s st /\ f s st = DNorm s' st'.
Proof. destruct r; try discriminate. eauto. Qed.

Definition rest_code (vs : list N) : list instr :=
  flat_map (fun f => f ++ mul_step_ops) (map const_code vs).

Lemma rest_code_cons v vs : rest_code (v :: vs) = const_code v ++ mul_step_ops ++ rest_code vs.
Proof. unfold rest_code. cbn [map flat_map]. rewrite <- app_assoc. reflexivity. Qed.

Lemma rest_code_app a b : rest_code (a ++ b) = rest_code a ++ rest_code b.
Proof. unfold rest_code. rewrite map_app, flat_map_app. reflexivity. Qed.

Section Factors.
  Variable env : denv.
  Variable den : expr -> list value -> mstate -> dout.

  (* the factors [es], evaluated in order from state [st], each push exactly one uint64 value whatever
     the stack below is (the running product sits there), giving [vs] and the final state *)
  Inductive evalF : list expr -> mstate -> list N -> mstate -> Prop :=
  | evalF_nil st : evalF [] st [] st
  | evalF_cons e es st v st1 vs st2 :
      v < U64 ->
      (forall s, den e s st = DNorm (VI v :: s) st1) ->
      evalF es st1 vs st2 ->
      evalF (e :: es) st (v :: vs) st2.

  (* a uint64-valued expression: whenever it terminates normally it has pushed one uint64 *)
  Definition uintv (e : expr) : Prop :=
    forall s st s' st', den e s st = DNorm s' st' -> exists v, v < U64 /\ s' = VI v :: s.

  (* the factors [es] DID evaluate, in order from [st], to [vs] (each on some stack extending [base]) *)
  Inductive ranF (base : list value) : list expr -> mstate -> list N -> mstate -> Prop :=
  | ranF_nil st : ranF base [] st [] st
  | ranF_cons e es st v st1 vs st2 :
      v < U64 ->
      (exists acc, den e (acc ++ base) st = DNorm (VI v :: acc ++ base) st1) ->
      ranF base es st1 vs st2 ->
      ranF base (e :: es) st (v :: vs) st2.

  Lemma ranF_bound base es st vs st' : ranF base es st vs st' -> Forall (fun c => c < U64) vs.
  Proof. induction 1 as [|e es st v st1 vs st2 Hv _ _ IH]; constructor; assumption. Qed.

  Lemma ranF_length base es st vs st' : ranF base es st vs st' -> length vs = length es.
  Proof. induction 1 as [|e es st v st1 vs st2 _ _ _ IH]; cbn [length]; congruence. Qed.

  Lemma ranF_ne base es st vs st' : ranF base es st vs st' -> es <> [] -> vs <> [].
  Proof. destruct 1; [congruence|discriminate]. Qed.

  Lemma evalF_ranF base es st vs st' : evalF es st vs st' -> ranF base es st vs st'.
  Proof.
    induction 1 as [st|e es st v st1 vs st2 Hv He _ IH]; [constructor|].
    apply (ranF_cons base e es st v st1 vs st2 Hv); [|exact IH].
    exists []. apply He.
  Qed.

  Lemma evalF_bound es st vs st' : evalF es st vs st' -> Forall (fun c => c < U64) vs.
  Proof. intros H. exact (ranF_bound [] _ _ _ _ (evalF_ranF [] _ _ _ _ H)). Qed.

  Lemma evalF_length es st vs st' : evalF es st vs st' -> length vs = length es.
  Proof. intros H. exact (ranF_length [] _ _ _ _ (evalF_ranF [] _ _ _ _ H)). Qed.

  Lemma evalF_ne es st vs st' : evalF es st vs st' -> es <> [] -> vs <> [].
  Proof. intros H. exact (ranF_ne [] _ _ _ _ (evalF_ranF [] _ _ _ _ H)). Qed.

  Lemma ranF_weaken p base es st vs st' : ranF (p ++ base) es st vs st' -> ranF base es st vs st'.
  Proof.
    induction 1 as [st|e es st v st1 vs st2 Hv (acc & He) _ IH]; [constructor|].
    apply (ranF_cons base e es st v st1 vs st2 Hv); [|exact IH].
    exists (acc ++ p). rewrite <- !app_assoc. exact He.
  Qed.

  Lemma evalF_app a : forall b st va st1 vb st2,
    evalF a st va st1 -> evalF b st1 vb st2 -> evalF (a ++ b) st (va ++ vb) st2.
  Proof.
    intros b st va st1 vb st2 Ha. revert vb st2.
    induction Ha as [|e es st v st1 vs st1' Hv He _ IH]; intros vb st2 Hb; cbn [app]; [exact Hb|].
    econstructor; eauto.
  Qed.

  (* ---------------- forward simulation ---------------- *)
  Lemma wide_rest_sim es st vs st' : evalF es st vs st' ->
    forall s, den_wide_rest env den es s st = lift (run_pure (rest_code vs) s) st'.
  Proof.
    induction 1 as [st|e es st v st1 vs st2 Hv He _ IH]; intros s.
    - reflexivity.
    - cbn [den_wide_rest]. rewrite He. cbn [bind]. rewrite den_ops_glue by reflexivity.
      rewrite rest_code_cons, run_const_app by exact Hv. rewrite run_pure_app.
      destruct (run_pure mul_step_ops (VI v :: s)) as [s2|]; cbn [lift bind]; [apply IH|reflexivity].
  Qed.

  Lemma factors_sim es st vs st' : es <> [] -> evalF es st vs st' ->
    forall s, den_factors env den es s st = lift (run_pure (multiply_factors (map const_code vs)) s) st'.
  Proof.
    intros Hne H s.
    destruct H as [st|e0 es st v0 st1 vs st2 Hv0 He0 H1]; [congruence|].
    destruct H1 as [st1|e1 es st1 v1 st2 vs st3 Hv1 He1 H2].
    - (* single factor: int 0 below it *)
      cbn [den_factors map multiply_factors]. rewrite den_int0. cbn [bind]. rewrite He0.
      rewrite (run_const v0 (VI 0 :: s) Hv0 : run_pure (I1 O_int 0 :: const_code v0) s = _). reflexivity.
    - cbn [den_factors map multiply_factors]. rewrite He0. cbn [bind]. rewrite He1. cbn [bind].
      rewrite den_ops_glue, !run_const_app, run_pure_app by (reflexivity || assumption).
      destruct (run_pure [I0 O_mulw] (VI v1 :: VI v0 :: s)) as [s3|]; cbn [lift bind]; [|reflexivity].
      apply (wide_rest_sim _ _ _ _ H2).
  Qed.

  Lemma factors_run es st vs st' : es <> [] -> evalF es st vs st' ->
    forall s, den_factors env den es s st =
              if running_ok 1 vs then DNorm (VI (lo64 (prod vs)) :: VI (hi64 (prod vs)) :: s) st' else DFail.
  Proof.
    intros Hne H s.
    rewrite (factors_sim _ _ _ _ Hne H), multiply_factors_spec by eauto using evalF_ne, evalF_bound.
    destruct (running_ok 1 vs); reflexivity.
  Qed.

  (* ---------------- inversion: a normal outcome comes from factor values ---------------- *)
  (* the running product [p] sits on the stack as its two words; each multiply step keeps that shape *)
  Lemma wide_rest_inv es : Forall uintv es ->
    forall base p st s' st',
      den_wide_rest env den es (VI (lo64 p) :: VI (hi64 p) :: base) st = DNorm s' st' ->
      exists vs, ranF base es st vs st' /\
                 run_pure (rest_code vs) (VI (lo64 p) :: VI (hi64 p) :: base) = Some s'.
  Proof.
    induction 1 as [|e es Ue _ IH]; intros base p st s' st' H; cbn [den_wide_rest] in H.
    - inversion H; subst. exists []. split; [constructor|reflexivity].
    - apply bind_norm_inv in H as (s1 & st1 & E & H). destruct (Ue _ _ _ _ E) as (v & Hv & ->).
      rewrite den_ops_glue, mul_step_run, join128 in H by reflexivity. cbv zeta in H.
      destruct (p * v <? U128) eqn:L; [|discriminate H].
      destruct (IH _ _ _ _ _ H) as (vs & R & Run). exists (v :: vs). split.
      + apply (ranF_cons base e es st v st1 vs st' Hv); [|exact R]. exists [VI (lo64 p); VI (hi64 p)]. exact E.
      + rewrite rest_code_cons, run_const_app, run_pure_app, mul_step_run, join128 by exact Hv.
        cbv zeta. rewrite L. exact Run.
  Qed.

  Lemma factors_inv es : es <> [] -> Forall uintv es ->
    forall base st s' st', den_factors env den es base st = DNorm s' st' ->
      exists vs, ranF base es st vs st' /\ running_ok 1 vs = true /\
                 s' = VI (lo64 (prod vs)) :: VI (hi64 (prod vs)) :: base.
  Proof.
    intros Hne U base st s' st' H.
    assert (exists vs, ranF base es st vs st' /\
                       run_pure (multiply_factors (map const_code vs)) base = Some s') as (vs & R & Run).
    { destruct U as [|e0 es U0 U]; [congruence|]. destruct U as [|e1 es U1 U]; cbn [den_factors] in H.
      - rewrite den_int0 in H. cbn [bind] in H. destruct (U0 _ _ _ _ H) as (v & Hv & ->).
        exists [v]. split.
        + apply (ranF_cons base e0 [] st v st' [] st' Hv); [|constructor]. exists [VI 0]. exact H.
        + exact (run_const v (VI 0 :: base) Hv).
      - apply bind_norm_inv in H as (s1 & st1 & E0 & H). destruct (U0 _ _ _ _ E0) as (v0 & Hv0 & ->).
        apply bind_norm_inv in H as (s2 & st2 & E1 & H). destruct (U1 _ _ _ _ E1) as (v1 & Hv1 & ->).
        rewrite den_ops_glue in H by reflexivity.
        destruct (wide_rest_inv es U base (v0 * v1) _ _ _ H) as (vs & R & Run).
        exists (v0 :: v1 :: vs). split.
        + apply (ranF_cons base e0 (e1 :: es) st v0 st1 (v1 :: vs) st' Hv0); [exists []; exact E0|].
          apply (ranF_cons base e1 es st1 v1 st2 vs st' Hv1); [exists [VI v0]; exact E1|exact R].
        + cbn [map multiply_factors]. rewrite !run_const_app by assumption. exact Run. }
    exists vs. rewrite multiply_factors_spec in Run by eauto using ranF_ne, ranF_bound.
    destruct (running_ok 1 vs); [|discriminate Run]. inversion Run. auto.
  Qed.

  (* ---------------- where an abrupt outcome comes from ---------------- *)
  Definition from_factor (es : list expr) (r : dout) : Prop :=
    exists e s st, In e es /\ den e s st = r.

  (* [r], if neither normal nor a failure, is the outcome of one of [es] *)
  Definition origin (es : list expr) (r : dout) : Prop := notnorm r -> r <> DFail -> from_factor es r.

  Lemma origin_incl es es' r : incl es es' -> origin es r -> origin es' r.
  Proof. intros I O N F. destruct (O N F) as (e & s & st & Hin & E). exists e, s, st. auto. Qed.

  Lemma origin_head e es s st : origin (e :: es) (den e s st).
  Proof. intros _ _. exists e, s, st. split; [left|]; reflexivity. Qed.

  Lemma origin_lift es r st : origin es (lift r st).
  Proof. destruct r; cbn [lift]; intros N F; [contradiction|congruence]. Qed.

  Lemma origin_bind es r k : origin es r -> (forall s st, origin es (k s st)) -> origin es (bind r k).
  Proof. intros Hr Hk. destruct r; [apply Hk|exact Hr ..]. Qed.

  Lemma wide_rest_origin es : forall s st, origin es (den_wide_rest env den es s st).
  Proof.
    induction es as [|e es IH]; intros s st; cbn [den_wide_rest]; [apply (origin_lift [] (Some s))|].
    apply origin_bind; [apply origin_head|intros s1 st1]. rewrite den_ops_glue by reflexivity.
    apply origin_bind; [apply origin_lift|intros s2 st2].
    exact (origin_incl _ _ _ (incl_tl e (incl_refl es)) (IH s2 st2)).
  Qed.

  Lemma factors_origin es s st : origin es (den_factors env den es s st).
  Proof.
    destruct es as [|e0 [|e1 es]]; cbn [den_factors].
    - apply (origin_lift [] (Some s)).
    - rewrite den_int0. apply origin_head.
    - apply origin_bind; [apply origin_head|intros s1 st1].
      apply origin_bind; [exact (origin_incl _ _ _ (incl_tl e0 (incl_refl _)) (origin_head e1 es s1 st1))|].
      intros s2 st2. rewrite den_ops_glue by reflexivity.
      apply origin_bind; [apply origin_lift|intros s3 st3].
      exact (origin_incl _ _ _ (incl_tl e0 (incl_tl e1 (incl_refl es))) (wide_rest_origin es s3 st3)).
  Qed.

  (* ---------------- a factor that does not terminate normally ---------------- *)
  Lemma wide_rest_app a : forall b s st,
    den_wide_rest env den (a ++ b) s st =
    bind (den_wide_rest env den a s st) (fun s1 st1 => den_wide_rest env den b s1 st1).
  Proof.
    induction a as [|e a IH]; intros b s st; cbn [app den_wide_rest bind]; [reflexivity|].
    rewrite bind_bind. apply bind_ext; intros s1 st1.
    rewrite bind_bind. apply bind_ext; intros s2 st2. apply IH.
  Qed.

  Lemma den_factors_app e0 e1 a b s st :
    den_factors env den (e0 :: e1 :: a ++ b) s st =
    bind (den_factors env den (e0 :: e1 :: a) s st) (fun s1 st1 => den_wide_rest env den b s1 st1).
  Proof.
    cbn [den_factors].
    rewrite bind_bind. apply bind_ext; intros s1 st1.
    rewrite bind_bind. apply bind_ext; intros s2 st2.
    rewrite bind_bind. apply bind_ext; intros s3 st3. apply wide_rest_app.
  Qed.

  (* the running products of the values seen so far decide between "the factor's outcome" and failure *)
  Lemma factors_abrupt pre e post st vals st1 (r : list value -> dout) :
    evalF pre st vals st1 ->
    (forall s, den e s st1 = r s) -> (forall s, notnorm (r s)) ->
    forall base, exists acc,
      den_factors env den (pre ++ e :: post) base st =
      if running_ok 1 vals then r (acc ++ base) else DFail.
  Proof.
    intros Hpre He Hn base. destruct pre as [|e0 [|e1 es]].
    - (* the first factor *)
      inversion Hpre; subst. cbn [app running_ok]. destruct post as [|p post'].
      + exists [VI 0]. cbn [den_factors]. rewrite den_int0. cbn [bind]. apply He.
      + exists []. cbn [den_factors]. rewrite He. apply bind_notnorm, Hn.
    - (* the second factor *)
      inversion Hpre as [|? ? ? v0 st0 ? ? Hv0 He0 H1]; subst. inversion H1; subst.
      exists [VI v0]. cbn [app den_factors]. rewrite He0. cbn [bind]. rewrite He, bind_notnorm by apply Hn.
      cbn [running_ok]. rewrite N.mul_1_l, (proj1 (word64 v0 Hv0)). reflexivity.
    - (* a later factor *)
      change ((e0 :: e1 :: es) ++ e :: post) with (e0 :: e1 :: es ++ e :: post).
      rewrite den_factors_app, (factors_run (e0 :: e1 :: es) _ _ _ ltac:(discriminate) Hpre).
      destruct (running_ok 1 vals); cbn [bind]; [|exists []; reflexivity].
      exists [VI (lo64 (prod vals)); VI (hi64 (prod vals))].
      cbn [den_wide_rest]. rewrite He. apply bind_notnorm, Hn.
  Qed.
End Factors.

Definition eval_factors (env : denv) (fuel : nat) := evalF (denote env fuel).
Definition ran_factors (env : denv) (fuel : nat) := ranF (denote env fuel).
Definition uint_valued (env : denv) (e : expr) : Prop := forall fuel, uintv (denote env fuel) e.

Lemma denote_wide env f ns ds stk st :
  denote env (S f) (EWide ns ds) stk st =
  bind (den_factors env (denote env f) ns stk st) (fun s1 st1 =>
  bind (den_factors env (denote env f) ds s1 st1) (fun s2 st2 => den_ops env combine_ops s2 st2)).
Proof. reflexivity. Qed.

Theorem wide_ratio_general env f ns ds nvals dvals stk st stm st' :
  ns <> [] -> ds <> [] ->
  eval_factors env f ns st nvals stm ->
  eval_factors env f ds stm dvals st' ->
  denote env (S f) (EWide ns ds) stk st =
  match wide_ratio_spec nvals dvals with
  | Some q => DNorm (VI q :: stk) st'
  | None => DFail
  end.
Proof.
  intros Hn Hd En Ed.
  (* the evaluator runs the op list of the constant factors nvals, dvals *)
  transitivity (lift (run_pure (wide_ratio_ops (map const_code nvals) (map const_code dvals)) stk) st').
  - rewrite denote_wide. unfold wide_ratio_ops.
    rewrite run_pure_app, (factors_sim env _ ns st nvals stm Hn En).
    destruct (run_pure (multiply_factors (map const_code nvals)) stk) as [s1|]; cbn [lift bind]; [|reflexivity].
    rewrite run_pure_app, (factors_sim env _ ds stm dvals st' Hd Ed).
    destruct (run_pure (multiply_factors (map const_code dvals)) s1) as [s2|]; cbn [lift bind]; [|reflexivity].
    apply den_ops_glue. reflexivity.
  - rewrite wide_ratio_exact by eauto using evalF_ne, evalF_bound.
    destruct (wide_ratio_spec nvals dvals); reflexivity.
Qed.

Theorem wide_ratio_never_wraps env fuel ns ds stk st s' st' :
  ns <> [] -> ds <> [] ->
  Forall (uint_valued env) ns -> Forall (uint_valued env) ds ->
  denote env fuel (EWide ns ds) stk st = DNorm s' st' ->
  exists f nvals dvals stm,
    fuel = S f /\
    ran_factors env f stk ns st nvals stm /\
    ran_factors env f stk ds stm dvals st' /\
    running_ok 1 nvals = true /\ running_ok 1 dvals = true /\
    prod dvals <> 0 /\ prod nvals / prod dvals < U64 /\
    s' = VI (prod nvals / prod dvals) :: stk.
Proof.
  intros Hn Hd Un Ud H. destruct fuel as [|f]; [discriminate H|]. rewrite denote_wide in H.
  apply bind_norm_inv in H as (s1 & st1 & E1 & H). apply bind_norm_inv in H as (s2 & st2 & E2 & H).
  apply (Forall_impl (uintv (denote env f)) (fun a (Ha : uint_valued env a) => Ha f)) in Un, Ud.
  destruct (factors_inv env _ ns Hn Un _ _ _ _ E1) as (nvals & Rn & R1 & ->).
  destruct (factors_inv env _ ds Hd Ud _ _ _ _ E2) as (dvals & Rd & R2 & ->).
  rewrite den_ops_glue, combine_run in H by reflexivity.
  destruct (N.eqb_spec (prod dvals) 0) as [Z|Z]; [discriminate H|].
  destruct (N.ltb_spec (prod nvals / prod dvals) U64) as [L|L]; [|discriminate H].
  inversion H; subst s' st2.
  exists f, nvals, dvals, st1. repeat split; try assumption.
  (* the denominators ran on stacks extending the numerator's result, which extends stk *)
  exact (ranF_weaken _ [VI (lo64 (prod nvals)); VI (hi64 (prod nvals))] stk _ _ _ _ Rd).
Qed.

(* any outcome of a WideRatio other than "normal" and "failure" is the outcome of one of its factors:
   the glue never exits, returns, breaks or leaves the modelled fragment *)
Theorem wide_ratio_abrupt_origin env f ns ds stk st r :
  denote env (S f) (EWide ns ds) stk st = r -> notnorm r -> r <> DFail ->
  exists e s st1, In e (ns ++ ds) /\ denote env f e s st1 = r.
Proof.
  intros <-. rewrite denote_wide. apply (origin_bind (denote env f) (ns ++ ds)).
  - exact (origin_incl _ _ _ _ (incl_appl ds (incl_refl ns)) (factors_origin env _ ns stk st)).
  - intros s1 st1. apply origin_bind.
    + exact (origin_incl _ _ _ _ (incl_appr ns (incl_refl ds)) (factors_origin env _ ds s1 st1)).
    + intros s2 st2. rewrite den_ops_glue by reflexivity. apply origin_lift.
Qed.

(* a numerator factor that does not terminate normally *)
Theorem wide_ratio_abrupt_num env f pre e post ds stk st vals st1 (r : list value -> dout) :
  eval_factors env f pre st vals st1 ->
  (forall s, denote env f e s st1 = r s) -> (forall s, notnorm (r s)) ->
  exists acc,
    denote env (S f) (EWide (pre ++ e :: post) ds) stk st =
    if running_ok 1 vals then r (acc ++ stk) else DFail.
Proof.
  intros Hpre He Hn. rewrite denote_wide.
  destruct (factors_abrupt env _ pre e post st vals st1 r Hpre He Hn stk) as (acc & E).
  exists acc. rewrite E. destruct (running_ok 1 vals); [apply bind_notnorm, Hn|reflexivity].
Qed.

(* a denominator factor that does not terminate normally (all numerator factors evaluated) *)
Theorem wide_ratio_abrupt_den env f ns pre e post stk st nvals stm vals st1 (r : list value -> dout) :
  ns <> [] ->
  eval_factors env f ns st nvals stm ->
  eval_factors env f pre stm vals st1 ->
  (forall s, denote env f e s st1 = r s) -> (forall s, notnorm (r s)) ->
  exists acc,
    denote env (S f) (EWide ns (pre ++ e :: post)) stk st =
    if running_ok 1 nvals && running_ok 1 vals then r (acc ++ stk) else DFail.
Proof.
  intros Hne En Hpre He Hn. rewrite denote_wide, (factors_run env _ ns st nvals stm Hne En).
  destruct (running_ok 1 nvals); cbn [bind andb]; [|exists []; reflexivity].
  destruct (factors_abrupt env _ pre e post stm vals st1 r Hpre He Hn
              (VI (lo64 (prod nvals)) :: VI (hi64 (prod nvals)) :: stk)) as (acc & E).
  exists (acc ++ [VI (lo64 (prod nvals)); VI (hi64 (prod nvals))]).
  rewrite E. rewrite <- app_assoc. cbn [app].
  destruct (running_ok 1 vals); [apply bind_notnorm, Hn|reflexivity].
Qed.

Lemma eval_factors_nil_iff env fuel st vs st' :
  eval_factors env fuel [] st vs st' <-> vs = [] /\ st' = st.
Proof.
  split.
  - intros H. inversion H; subst. split; reflexivity.
  - intros [-> ->]. constructor.
Qed.

Lemma eval_factors_cons_iff env fuel e es st vs st' :
  eval_factors env fuel (e :: es) st vs st' <->
  exists v st1 vs', vs = v :: vs' /\ v < U64 /\
    (forall s, denote env fuel e s st = DNorm (VI v :: s) st1) /\
    eval_factors env fuel es st1 vs' st'.
Proof.
  split.
  - intros H. inversion H as [|e' es' st0 v st1 vs' st2 Hv He Hr]; subst.
    exists v, st1, vs'. repeat split; assumption.
  - intros (v & st1 & vs' & -> & Hv & He & Hr). exact (evalF_cons _ e es st v st1 vs' st' Hv He Hr).
Qed.

Lemma ran_factors_nil_iff env fuel base st vs st' :
  ran_factors env fuel base [] st vs st' <-> vs = [] /\ st' = st.
Proof.
  split.
  - intros H. inversion H; subst. split; reflexivity.
  - intros [-> ->]. constructor.
Qed.

Lemma ran_factors_cons_iff env fuel base e es st vs st' :
  ran_factors env fuel base (e :: es) st vs st' <->
  exists v st1 vs', vs = v :: vs' /\ v < U64 /\
    (exists acc, denote env fuel e (acc ++ base) st = DNorm (VI v :: acc ++ base) st1) /\
    ran_factors env fuel base es st1 vs' st'.
Proof.
  split.
  - intros H. inversion H as [|e' es' st0 v st1 vs' st2 Hv He Hr]; subst.
    exists v, st1, vs'. repeat split; assumption.
  - intros (v & st1 & vs' & -> & Hv & He & Hr). exact (ranF_cons _ base e es st v st1 vs' st' Hv He Hr).
Qed.

(* evaluation is deterministic: factors that evaluate on every stack ran with exactly those values *)
Lemma eval_ran_agree env fuel base es : forall st vs st' vs2 st2,
  eval_factors env fuel es st vs st' -> ran_factors env fuel base es st vs2 st2 -> vs2 = vs /\ st2 = st'.
Proof.
  intros st vs st' vs2 st2 H1. revert vs2 st2.
  induction H1 as [st|e es st v st1 vs st' Hv He _ IH]; intros vs2 st2 H2;
    inversion H2 as [|? ? ? v2 st1' vs2' ? Hv2 (acc & He2) Hr2]; subst; [auto|].
  rewrite He in He2. injection He2 as <- <-. destruct (IH _ _ Hr2) as [-> ->]. auto.
Qed.
