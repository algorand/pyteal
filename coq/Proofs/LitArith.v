(* Proofs/LitArith.v — C13: arithmetic of the assembler's big-number base-N decoder
   ([decode_bits] in AVM/Parse.v): it distributes over groups whose bit length is a multiple of 8,
   and on one group it computes the bytes the RFC 4648 diagrams prescribe. *)
From Coq Require Import List Arith NArith Ascii String Bool Lia.
From PV Require Import Base.Bytes AVM.Parse Lit.RFC4648.
Import ListNotations.
Local Open Scope N_scope.

Definition foldw (w : N) (vals : list N) (a : N) : N := fold_left (fun acc v => acc * 2 ^ w + v) vals a.

Lemma decode_bits_unfold w vals :
  decode_bits w vals =
  be_encode (N.to_nat (w * N.of_nat (List.length vals) / 8))
            (N.shiftr (foldw w vals 0) (w * N.of_nat (List.length vals) mod 8)).
Proof. reflexivity. Qed.

Lemma pow2_pos n : 0 < 2 ^ n.
Proof. apply N.neq_0_lt_0, N.pow_nonzero. discriminate. Qed.

Lemma foldw_acc w l : forall a,
  foldw w l a = a * 2 ^ (w * N.of_nat (List.length l)) + foldw w l 0.
Proof.
  induction l as [|v l IH]; intros a.
  - cbn. rewrite N.mul_0_r. cbn. lia.
  - unfold foldw in *. cbn [fold_left List.length]. rewrite IH, (IH (0 * 2 ^ w + v)).
    rewrite Nat2N.inj_succ, N.mul_succ_r, N.pow_add_r.
    set (P := 2 ^ (w * N.of_nat (List.length l))). set (Q := 2 ^ w). lia.
Qed.

Lemma foldw_bound w l : Forall (fun v => v < 2 ^ w) l -> foldw w l 0 < 2 ^ (w * N.of_nat (List.length l)).
Proof.
  induction 1 as [|v l Hv Hl IH].
  - cbn. rewrite N.mul_0_r. reflexivity.
  - unfold foldw in *. cbn [fold_left List.length]. fold (foldw w l (0 * 2 ^ w + v)).
    rewrite foldw_acc. unfold foldw.
    rewrite Nat2N.inj_succ, N.mul_succ_r, N.pow_add_r.
    set (P := 2 ^ (w * N.of_nat (List.length l))) in *. set (Q := 2 ^ w) in *.
    assert (0 < P) by apply pow2_pos. nia.
Qed.

Lemma be_encode_snoc k n y : y < 256 -> be_encode (S k) (n * 256 + y) = be_encode k n ++ [byte_of y].
Proof.
  intros H. cbn [be_encode]. rewrite N.div_add_l by discriminate. rewrite (N.div_small y) by assumption.
  rewrite N.add_0_r. f_equal. unfold n2b, byte_of.
  rewrite N.add_comm, N.mod_add by discriminate. now rewrite N.mod_small.
Qed.

Lemma be_encode_split m : forall k G R,
  R < 256 ^ N.of_nat m ->
  be_encode (k + m) (G * 256 ^ N.of_nat m + R) = be_encode k G ++ be_encode m R.
Proof.
  induction m as [|m IH]; intros k G R H.
  - cbn in H. assert (R = 0) by lia. subst R. cbn [N.of_nat]. rewrite Nat.add_0_r.
    cbn [be_encode]. rewrite N.pow_0_r, N.mul_1_r, N.add_0_r, app_nil_r. reflexivity.
  - rewrite Nat.add_succ_r. cbn [be_encode].
    rewrite Nat2N.inj_succ, N.pow_succ_r' in *.
    set (P := 256 ^ N.of_nat m) in *.
    replace (G * (256 * P) + R) with (G * P * 256 + R) by lia.
    rewrite N.div_add_l by discriminate.
    rewrite IH by (apply N.div_lt_upper_bound; [discriminate | lia]).
    rewrite <- app_assoc. f_equal. f_equal. f_equal. unfold n2b.
    rewrite N.add_comm, N.mod_add by discriminate. reflexivity.
Qed.

Lemma shiftr_eq X s q r : X = q * 2 ^ s + r -> r < 2 ^ s -> N.shiftr X s = q.
Proof.
  intros -> H. rewrite N.shiftr_div_pow2, N.div_add_l by (apply N.pow_nonzero; discriminate).
  rewrite N.div_small by assumption. lia.
Qed.

(* a byte string is the big-endian encoding of the number it spells in base 256 *)
Lemma be_encode_bytes bs : be_encode (List.length bs) (foldw 8 (map N_of_ascii bs) 0) = bs.
Proof.
  induction bs as [|c l IH] using rev_ind; [reflexivity|].
  rewrite app_length, Nat.add_1_r, map_app. unfold foldw in *. rewrite fold_left_app. cbn [map fold_left].
  change (2 ^ 8) with 256 in *. rewrite be_encode_snoc by apply N_ascii_bounded.
  unfold byte_of. now rewrite IH, ascii_N_embedding.
Qed.

Lemma quot_rem_8 K s : s < 8 -> (8 * N.of_nat K + s) / 8 = N.of_nat K /\ (8 * N.of_nat K + s) mod 8 = s.
Proof.
  intros H. rewrite (N.mul_comm 8). split.
  - rewrite N.div_add_l, N.div_small by (assumption || discriminate). lia.
  - rewrite N.add_comm, N.mod_add by discriminate. now apply N.mod_small.
Qed.

(* The one arithmetic fact behind every group lemma, decoding and encoding: digits of [w] bits
   whose number, after dropping the [s] low bits the last byte does not fill, is the number the
   bytes [bs] spell, decode to [bs]. *)
Lemma decode_bits_bytes w vals bs s r :
  w * N.of_nat (List.length vals) = 8 * N.of_nat (List.length bs) + s -> s < 8 -> r < 2 ^ s ->
  foldw w vals 0 = foldw 8 (map N_of_ascii bs) 0 * 2 ^ s + r ->
  decode_bits w vals = bs.
Proof.
  intros L Hs Hr E. rewrite decode_bits_unfold, L. destruct (quot_rem_8 (List.length bs) s Hs) as [-> ->].
  rewrite Nat2N.id, (shiftr_eq _ s _ r E Hr). apply be_encode_bytes.
Qed.

(* the decoder distributes over a leading group of 8K bits *)
Lemma decode_bits_app w g r K :
  Forall (fun v => v < 2 ^ w) r ->
  w * N.of_nat (List.length g) = 8 * N.of_nat K ->
  decode_bits w (g ++ r) = decode_bits w g ++ decode_bits w r.
Proof.
  intros Hr Hg. rewrite !decode_bits_unfold.
  unfold foldw at 1. rewrite fold_left_app. fold (foldw w g 0). fold (foldw w r (foldw w g 0)).
  rewrite foldw_acc. set (G := foldw w g 0). pose proof (foldw_bound w r Hr) as HR.
  set (R := foldw w r 0) in *. rewrite app_length, Nat2N.inj_add, N.mul_add_distr_l, Hg.
  set (T := w * N.of_nat (List.length r)) in *.
  pose proof (N.div_mod T 8 ltac:(discriminate)) as DM.
  pose proof (N.mod_lt T 8 ltac:(discriminate)) as ML.
  replace ((8 * N.of_nat K + T) / 8) with (N.of_nat K + T / 8)
    by (rewrite (N.mul_comm 8), N.div_add_l by discriminate; reflexivity).
  replace ((8 * N.of_nat K + T) mod 8) with (T mod 8)
    by (rewrite (N.mul_comm 8), N.add_comm, N.mod_add by discriminate; reflexivity).
  destruct (quot_rem_8 K 0 eq_refl) as [Q0 R0]. rewrite N.add_0_r in Q0, R0. rewrite Q0, R0, Nat2N.id.
  set (m := T / 8) in *. set (s := T mod 8) in *.
  rewrite N2Nat.inj_add, Nat2N.id.
  assert (E2 : 2 ^ T = 256 ^ m * 2 ^ s).
  { rewrite DM, N.pow_add_r, N.pow_mul_r. reflexivity. }
  assert (Ps : 0 < 2 ^ s) by apply pow2_pos.
  rewrite (shiftr_eq (G * 2 ^ T + R) s (G * 256 ^ m + R / 2 ^ s) (R mod 2 ^ s)).
  - replace (256 ^ m) with (256 ^ N.of_nat (N.to_nat m)) by now rewrite N2Nat.id.
    rewrite be_encode_split.
    + f_equal. f_equal. rewrite N.shiftr_div_pow2. reflexivity.
    + rewrite N2Nat.id. apply N.div_lt_upper_bound; [lia|]. rewrite N.mul_comm, <- E2. exact HR.
  - rewrite E2. pose proof (N.div_mod R (2 ^ s) ltac:(lia)). nia.
  - apply N.mod_lt. lia.
Qed.

(* naming quotients and remainders so that [lia] can finish *)
Ltac divmod x k :=
  let q := fresh "q" in let r := fresh "r" in let Hq := fresh "Hq" in let Hr := fresh "Hr" in
  pose proof (N.div_mod x k ltac:(discriminate)) as Hq;
  pose proof (N.mod_lt x k ltac:(discriminate)) as Hr;
  remember (x / k) as q; remember (x mod k) as r.

(* [decode_bits_bytes] on explicit digits and bytes [byte_of y]: what is left is that the last
   byte's unused bits are fewer than [s], and the identity between the two spellings of the number
   (for [lia], once quotients and remainders have names) *)
Ltac group_bytes w s r :=
  apply (decode_bits_bytes w _ _ s r); unfold foldw, byte_of; cbn [map fold_left List.length];
  rewrite ?N_ascii_embedding by lia; try reflexivity.

Lemma q64_ok a b c d : a < 64 -> b < 64 -> c < 64 -> d < 64 -> decode_bits 6 [a; b; c; d] = q64 a b c d.
Proof. intros Ha Hb Hc Hd. unfold q64. divmod b 16. divmod c 4. group_bytes 6 0 0. lia. Qed.

Lemma q64_2_ok a b : a < 64 -> b < 64 -> decode_bits 6 [a; b] = q64_2 a b.
Proof. intros Ha Hb. unfold q64_2. divmod b 16. group_bytes 6 4 r; lia. Qed.

Lemma q64_3_ok a b c : a < 64 -> b < 64 -> c < 64 -> decode_bits 6 [a; b; c] = q64_3 a b c.
Proof. intros Ha Hb Hc. unfold q64_3. divmod b 16. divmod c 4. group_bytes 6 2 r0; lia. Qed.

Lemma q32_ok a b c d e f g h :
  a < 32 -> b < 32 -> c < 32 -> d < 32 -> e < 32 -> f < 32 -> g < 32 -> h < 32 ->
  decode_bits 5 [a; b; c; d; e; f; g; h] = q32 a b c d e f g h.
Proof.
  intros Ha Hb Hc Hd He Hf Hg Hh. unfold q32, q32_4, q32_3, q32_2, q32_1. cbn [app].
  divmod b 4. divmod d 16. divmod e 2. divmod g 8. group_bytes 5 0 0. lia.
Qed.

Lemma q32_1_ok a b : a < 32 -> b < 32 -> decode_bits 5 [a; b] = q32_1 a b.
Proof. intros Ha Hb. unfold q32_1. divmod b 4. group_bytes 5 2 r; lia. Qed.

Lemma q32_2_ok a b c d : a < 32 -> b < 32 -> c < 32 -> d < 32 -> decode_bits 5 [a; b; c; d] = q32_2 a b c d.
Proof.
  intros Ha Hb Hc Hd. unfold q32_2, q32_1. cbn [app]. divmod b 4. divmod d 16. group_bytes 5 4 r0; lia.
Qed.

Lemma q32_3_ok a b c d e : a < 32 -> b < 32 -> c < 32 -> d < 32 -> e < 32 ->
  decode_bits 5 [a; b; c; d; e] = q32_3 a b c d e.
Proof.
  intros Ha Hb Hc Hd He. unfold q32_3, q32_2, q32_1. cbn [app].
  divmod b 4. divmod d 16. divmod e 2. group_bytes 5 1 r1; lia.
Qed.

Lemma q32_4_ok a b c d e f g : a < 32 -> b < 32 -> c < 32 -> d < 32 -> e < 32 -> f < 32 -> g < 32 ->
  decode_bits 5 [a; b; c; d; e; f; g] = q32_4 a b c d e f g.
Proof.
  intros Ha Hb Hc Hd He Hf Hg. unfold q32_4, q32_3, q32_2, q32_1. cbn [app].
  divmod b 4. divmod d 16. divmod e 2. divmod g 8. group_bytes 5 3 r2; lia.
Qed.
