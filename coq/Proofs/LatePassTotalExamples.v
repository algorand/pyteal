(* Proofs/LatePassTotalExamples.v — non-vacuity of the late-pass totality theorems (a routine with nested
   loops, Break and Continue, a Cond and an Assert goes from the checks to a running instruction list)
   and necessity of the one side condition (a Cond without arms). *)
From Coq Require Import List Arith NArith String Bool Lia.
From PV Require Import Base.Bytes AVM.Syntax AVM.Machine Src.Expr Src.Denote
  Comp.Blocks Comp.Lower Comp.Passes Comp.GraphSem Comp.LinearSem Comp.SimCheck Comp.Compile
  Proofs.LowerFrame Proofs.LowerLemmas Proofs.LowerCorrect Proofs.LowerShape
  Proofs.NormalizeLowered Proofs.FlattenCorrect Proofs.SortCorrect
  Proofs.EndToEndExits Proofs.EndToEndGlue Proofs.EndToEnd Proofs.EndToEndExamples
  Proofs.LatePassTotalReach Proofs.LatePassTotalNorm Proofs.LatePassTotal.
Import ListNotations.

Definition y_ld (s : N) : expr := EOp O_load [ASlot s] TUint [].
Definition y_st (s : N) (e : expr) : expr := EOp O_store [ASlot s] TNone [e].
Definition y_bin (o : opc) (a b : expr) : expr := EOp o [] TUint [a; b].
Definition y_inc (s : N) : expr := y_st s (ENary O_add TUint [y_ld s; x_int 1]).

(* n := 0
   while n < 10:
     for (i := 0; i < 5; i := i + 1):
       if i == 3: break
       if i == 1: continue
       n := n + 1
     if n > 7: break  else: continue
   assert n < 100
   cond [n == 8 -> return 1] [1 -> return 0] *)
Definition late_ast : expr :=
  ESeq [ y_st 0 (x_int 0);
         EWhile (y_bin O_lt (y_ld 0) (x_int 10))
           (ESeq [ EFor (y_st 1 (x_int 0)) (y_bin O_lt (y_ld 1) (x_int 5)) (y_inc 1)
                     (ESeq [ EIf (y_bin O_eq (y_ld 1) (x_int 3)) EBreak None;
                             EIf (y_bin O_eq (y_ld 1) (x_int 1)) EContinue None;
                             y_inc 0 ]);
                   EIf (y_bin O_gt (y_ld 0) (x_int 7)) EBreak (Some EContinue) ]);
         EAssert [y_bin O_lt (y_ld 0) (x_int 100)] None;
         ECond [ (y_bin O_eq (y_ld 0) (x_int 8), EReturn (Some (x_int 1)));
                 (x_int 1, EReturn (Some (x_int 0))) ] ].

Definition late_final : mstate :=
  match denote ex_env1 400 (root_ast late_ast) [] ex_st with DExit _ st => st | _ => ex_st end.

(* the hypotheses of [routine_checked_end_to_end] hold, its conclusion is obtained FROM THE THEOREM (the
   existence of cr / order / code is not computed); the computed run is [late_passes_computed] below *)
Example late_passes_example :
  check_expr opts0 None false (root_ast late_ast) = None /\
  has_bad_continue false (root_ast late_ast) = false /\
  head_loop (root_ast late_ast) = false /\
  nec (root_ast late_ast) = true /\
  denote ex_env1 400 (root_ast late_ast) [] ex_st = DExit (VI 1) late_final /\
  exists cr order code,
    compile_one opts0 None late_ast = COk cr /\
    sort_blocks (cr_graph cr) (cr_start cr) (cr_end cr) = Some order /\
    flatten_blocks (cr_graph cr) order = Some code /\
    lstar ex_env1 code (LAt 0 [] ex_st) (LExit (VI 1) late_final).
Proof.
  assert (Ck : check_expr opts0 None false (root_ast late_ast) = None) by (vm_compute; reflexivity).
  assert (Hb : has_bad_continue false (root_ast late_ast) = false) by (vm_compute; reflexivity).
  assert (HL : head_loop (root_ast late_ast) = false) by reflexivity.
  assert (Hn : nec (root_ast late_ast) = true) by (vm_compute; reflexivity).
  assert (Dn : denote ex_env1 400 (root_ast late_ast) [] ex_st = DExit (VI 1) late_final) by (vm_compute; reflexivity).
  repeat (split; [assumption|]).
  destruct (routine_checked_end_to_end opts0 None late_ast eq_refl Ck Hb HL Hn) as (cr & order & code & E & HS & HF & _ & T).
  exists cr, order, code. repeat (split; [assumption|]).
  assert (Hc : consistent ex_env1 (routine_ctx opts0 None)) by (apply consistent_main; reflexivity).
  apply (T ex_env1 Hc 400 [] ex_st). rewrite Dn. reflexivity.
Qed.

(* running the lowering on this routine is the one slow evaluation: it is done once, here *)
Definition late_cr : croutine := Eval vm_compute in cr_of opts0 late_ast.
Lemma late_cr_eq : compile_one opts0 None late_ast = COk late_cr.
Proof. vm_compute. reflexivity. Qed.

(* the same routine, computed: of the 60 blocks of the lowering 15 are reachable after NormalizeBlocks,
   the end block (id 0) is last in the order, the code has 58 components and the linear machine runs it
   to the same result *)
Example late_passes_computed :
  let cr := cr_of opts0 late_ast in
  compile_one opts0 None late_ast = COk cr /\
  sort_blocks (cr_graph cr) (cr_start cr) (cr_end cr) = Some (order_of cr) /\
  flatten_blocks (cr_graph cr) (order_of cr) = Some (code_of cr) /\
  List.length (order_of cr) = 15 /\ last (order_of cr) 1 = cr_end cr /\ List.length (code_of cr) = 58 /\
  lrun 2000 ex_env1 (code_of cr) (LAt 0 [] ex_st) = LExit (VI 1) late_final.
Proof. unfold cr_of. rewrite late_cr_eq. vm_compute. repeat split; reflexivity. Qed.

(* the side condition is necessary:
   Cond() — no arms.  PyTeal's constructor raises TealInputError ("Cond requires at least one
   [condition, value]"), so no such expression reaches the compiler; the model's [check_expr] follows
   __teal__, which would lower it to a bare err block next to an unconnected end block.  compile_one
   accepts (both tree validations pass), and sortBlocks does not find the end block: in the model the
   outcome is TealInternalError("End block not present"), not a crash. *)
Example sort_needs_cond_arms :
  let cr := cr_of opts0 (ECond []) in
  compile_one opts0 None (ECond []) = COk cr /\
  nec (root_ast (ECond [])) = false /\
  sort_blocks (cr_graph cr) (cr_start cr) (cr_end cr) = None.
Proof. vm_compute. repeat split; reflexivity. Qed.

Example sort_needs_cond_arms_seq :
  let e := ESeq [ECond []; EReturn (Some (x_int 1))] in
  let cr := cr_of opts0 e in
  compile_one opts0 None e = COk cr /\
  sort_blocks (cr_graph cr) (cr_start cr) (cr_end cr) = None.
Proof. vm_compute. repeat split; reflexivity. Qed.

(* flattenBlocks, on the other hand, has no such exception: whatever list sortBlocks could have returned
   is flattened; here on the blocks reachable from the start *)
Example flatten_without_arms :
  let cr := cr_of opts0 (ECond []) in
  exists code, flatten_blocks (cr_graph cr) [cr_start cr] = Some code.
Proof. vm_compute. eexists. reflexivity. Qed.
