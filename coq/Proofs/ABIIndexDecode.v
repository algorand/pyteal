(* Proofs/ABIIndexDecode.v — executing decode plans: a plan that addresses the bytes of a component returns
   what a correct decode stores ([stored]); in particular x.decode(encoded) with no range on the encoding of a
   value (scalar decoders, and the identity for byte-string-stored types). *)
From Coq Require Import List NArith Arith Ascii String Bool Lia.
From PV Require Import Base.Bytes Base.U64 AVM.Syntax AVM.Ops ABI.Types ABI.Spec ABI.Index
  Proofs.ABISpecProof Proofs.ABIIndexSel.
Import ListNotations.
Local Open Scope N_scope.

Lemma eval_int : forall enc idx n, n < U64 -> eval_iexpr enc idx (IInt n) = Some n.
Proof. intros. cbn. apply push_int_ok. assumption. Qed.

Lemma op2_add : forall a b, a + b < U64 -> op2 O_add a b = Some (a + b).
Proof. intros a b H. unfold op2. cbn. unfold oki, fits64. apply N.ltb_lt in H. rewrite H. reflexivity. Qed.

Lemma op2_mul : forall a b, a * b < U64 -> op2 O_mul a b = Some (a * b).
Proof. intros a b H. unfold op2. cbn. unfold oki, fits64. apply N.ltb_lt in H. rewrite H. reflexivity. Qed.

Lemma op2_add_some : forall a b r, op2 O_add a b = Some r -> r = a + b.
Proof.
  intros a b r H. unfold op2 in H. cbn in H. unfold oki in H. destruct (fits64 (a + b)); cbn in H; congruence.
Qed.

Lemma op2_mul_some : forall a b r, op2 O_mul a b = Some r -> r = a * b.
Proof.
  intros a b r H. unfold op2 in H. cbn in H. unfold oki in H. destruct (fits64 (a * b)); cbn in H; congruence.
Qed.

Lemma u16_at_eq : forall enc s, u16_at enc s = option_map be_decode (slice enc s 2).
Proof. intros. unfold u16_at, slice. cbn. unfold bextract. destruct (bsub enc s (s + 2)); reflexivity. Qed.

Lemma u16_at_ok : forall enc s o, slice enc s 2 = Some (be_encode 2 o) -> o < 65536 -> u16_at enc s = Some o.
Proof.
  intros enc s o H Ho. rewrite u16_at_eq, H. cbn [option_map]. f_equal.
  apply be_decode_encode. exact Ho.
Qed.

Lemma slice_bound : forall enc s n x, slice enc s n = Some x -> s + n <= blen enc.
Proof. intros enc s n x H. unfold slice in H. apply bsub_len in H. lia. Qed.

(* Extract / Substring / Suffix: with constant arguments the opcode that substring.py selects, otherwise
   the three-operand form; the bytes are the same *)
Lemma sel_extract_ok : forall ver s l, EXTRACT_MIN_VERSION <= ver -> exists o, sel_extract ver s l = SelOk o.
Proof.
  intros ver s l H. destruct (sel_extract ver s l) as [o|] eqn:E; [eauto|].
  apply sel_extract_error in E. lia.
Qed.

Lemma sel_suffix_ok : forall ver s, EXTRACT_MIN_VERSION <= ver -> exists o, sel_suffix ver s = SelOk o.
Proof.
  intros ver s H. destruct (sel_suffix ver s) as [o|] eqn:E; [eauto|].
  apply sel_suffix_error in E. unfold EXTRACT_MIN_VERSION, SUBSTRING_MIN_VERSION in *. lia.
Qed.

Lemma exec_extract : forall ver enc idx s l a b,
    EXTRACT_MIN_VERSION <= ver -> eval_iexpr enc idx s = Some a -> eval_iexpr enc idx l = Some b ->
    exec_plan ver (PExtract s l) enc idx = okv (bsub enc a (a + b)).
Proof.
  intros ver enc idx s l a b Hv Hs Hl.
  assert (G : obind (eval_iexpr enc idx s) (fun x => obind (eval_iexpr enc idx l) (fun y => do_extract3 enc x y))
              = okv (bsub enc a (a + b))) by (rewrite Hs, Hl; apply do_extract3_eq).
  destruct s; try exact G. destruct l; try exact G.
  apply push_int_some in Hs as [-> Hs], Hl as [-> Hl].
  destruct (sel_extract_ok ver n n0 Hv) as [o Ho]. cbn [exec_plan]. rewrite Ho.
  rewrite <- do_extract3_eq. exact (sel_extract_correct _ _ _ _ _ Ho Hs Hl).
Qed.

Lemma exec_suffix : forall ver enc idx s a,
    EXTRACT_MIN_VERSION <= ver -> eval_iexpr enc idx s = Some a ->
    exec_plan ver (PSuffix s) enc idx = okv (bsub enc a (blen enc)).
Proof.
  intros ver enc idx s a Hv Hs.
  assert (G : obind (eval_iexpr enc idx s) (fun x => obind (len_of enc) (fun e => do_substring3 enc x e))
              = okv (bsub enc a (blen enc))) by (rewrite Hs; apply do_substring3_eq).
  destruct s; try exact G.
  apply push_int_some in Hs as [-> Hs].
  destruct (sel_suffix_ok ver n Hv) as [o Ho]. cbn [exec_plan]. rewrite Ho.
  rewrite <- do_substring3_eq. exact (sel_suffix_correct _ _ _ _ Ho Hs).
Qed.

Lemma exec_substring : forall ver enc idx s e a b,
    EXTRACT_MIN_VERSION <= ver -> eval_iexpr enc idx s = Some a -> eval_iexpr enc idx e = Some b ->
    exec_plan ver (PSubstring s e) enc idx = okv (bsub enc a b).
Proof.
  intros ver enc idx s e a b Hv Hs He.
  assert (G : obind (eval_iexpr enc idx s) (fun x => obind (eval_iexpr enc idx e) (fun y => do_substring3 enc x y))
              = okv (bsub enc a b)) by (rewrite Hs, He; apply do_substring3_eq).
  destruct s; try exact G. destruct e; try exact G.
  apply push_int_some in Hs as [-> Hs], He as [-> He]. cbn [exec_plan].
  destruct (sel_substring ver n n0) as [o|] eqn:Eo.
  - rewrite <- do_substring3_eq. exact (sel_substring_correct _ _ _ _ _ Eo Hs He).
  - (* TealCompileError: end before start, where substring3 fails as well *)
    apply sel_substring_error in Eo as [Eo|[Eo _]]; [|unfold EXTRACT_MIN_VERSION, SUBSTRING_MIN_VERSION in *; lia].
    unfold bsub. apply N.leb_gt in Eo. rewrite Eo. reflexivity.
Qed.

(* reading a uintN that sits at offset blen a; the start is any expression that evaluates to it *)
Lemma exec_uint_at : forall ver bits enc idx a n c s,
    (bits = 8 \/ bits = 16 \/ bits = 32 \/ bits = 64) -> n < 2 ^ bits ->
    enc = a ++ be_encode (N.to_nat (bits / 8)) n ++ c ->
    eval_iexpr enc idx s = Some (blen a) ->
    exec_plan ver (PUintAt bits s) enc idx = Some (VI n).
Proof.
  intros ver bits enc idx a n c s Hb Hn E Hs.
  cbn [exec_plan]. rewrite Hs. cbn [obind].
  destruct Hb as [-> | [-> | [-> | ->]]].
  1: { change (N.to_nat (8 / 8)) with 1%nat in E. cbn [be_encode app] in E.
       cbn [N.eqb Pos.eqb]. cbn. subst enc. rewrite nth_N_app_mid. cbn. rewrite b2n_n2b.
       rewrite N.mod_small by (change (2 ^ 8) with 256 in Hn; exact Hn). reflexivity. }
  (* 16, 32, 64 bits: extract_uintN reads the N/8 bytes at blen a *)
  all: cbn [N.eqb Pos.eqb]; cbn; unfold bextract.
  all: rewrite (bsub_mid' enc a _ c _ _ E eq_refl) by (rewrite be_encode_len; reflexivity).
  all: cbn [run1]; rewrite be_decode_encode by exact Hn; reflexivity.
Qed.

Lemma exec_btoi : forall ver enc idx n, n < 2 ^ 64 -> enc = be_encode 8 n -> exec_plan ver PBtoi enc idx = Some (VI n).
Proof.
  intros ver enc idx n Hn ->. cbn [exec_plan].
  change (exec_pure O_btoi [] [VB (be_encode 8 n)])
    with (if blen (be_encode 8 n) <=? 8 then POk [VI (be_decode (be_encode 8 n))] else PFail).
  rewrite be_encode_len. cbn [N.leb N.compare N.of_nat Pos.of_succ_nat Pos.succ Pos.compare Pos.compare_cont run1].
  rewrite be_decode_encode by exact Hn. reflexivity.
Qed.

(* the uint decoders, spelled out: every (start, end, length) variant that _index_tuple / ArrayElement use
   reads the big-endian value at the start position *)
Theorem uint_decode_correct : forall ver bits n enc idx a c s e l,
    (bits = 8 \/ bits = 16 \/ bits = 32 \/ bits = 64) -> n < 2 ^ bits ->
    enc = a ++ be_encode (N.to_nat (bits / 8)) n ++ c ->
    eval_iexpr enc idx (odefault s (IInt 0)) = Some (blen a) ->
    (s = None -> e = None -> l = None -> bits = 64 -> a = [] /\ c = []) ->
    exists p, uint_decode bits s e l = Some p /\ exec_plan ver p enc idx = Some (VI n).
Proof.
  intros ver bits n enc idx a c s e l Hb Hn E Hs Hwhole.
  assert (G : exec_plan ver (PUintAt bits (odefault s (IInt 0))) enc idx = Some (VI n))
    by (eapply exec_uint_at; eauto).
  destruct Hb as [-> | [-> | [-> | ->]]].
  1-3: eexists; split; [reflexivity | exact G].
  destruct s as [x|]; [eexists; split; [reflexivity | exact G]|].
  destruct e as [y|]; [eexists; split; [reflexivity | exact G]|].
  destruct l as [z|]; [eexists; split; [reflexivity | exact G]|].
  destruct (Hwhole eq_refl eq_refl eq_refl eq_refl) as [-> ->].
  exists PBtoi. split; [reflexivity|]. apply exec_btoi; [exact Hn|]. rewrite E, app_nil_r. reflexivity.
Qed.

(* a static, non-bool component bs of enc = a ++ bs ++ c *)
Lemma dyn_not_scalar : forall t s e l, is_dynamic t = true ->
    decode_plan t s e l = substring_for_decoding s e l /\ stored t = fun v => option_map VB (arc4_encode t v).
Proof. intros t s e l H. destruct t; cbn in H; try discriminate; split; reflexivity. Qed.

(* the (start, length) option matrix: no start only when the component is first, no length only when it is last *)
Lemma decode_static : forall ver t v bs enc idx a c s l,
    EXTRACT_MIN_VERSION <= ver ->
    arc4_encode t v = Some bs -> is_bool t = false -> is_dynamic t = false -> pyteal_elem t = true ->
    enc = a ++ bs ++ c ->
    match s with Some x => eval_iexpr enc idx x = Some (blen a) | None => a = [] end ->
    match l with Some y => eval_iexpr enc idx y = Some (blen bs) | None => c = [] end ->
    exists p sv, decode_plan t s None l = Some p /\ stored t v = Some sv /\ exec_plan ver p enc idx = Some sv.
Proof.
  intros ver t v bs enc idx a c s l Hv He Hb Hd Hp E Rs Rl.
  assert (Huint : forall bits, (bits = 8 \/ bits = 16 \/ bits = 32 \/ bits = 64) -> uint_enc bits v = Some bs ->
            exists p sv, uint_decode bits s None l = Some p /\
                         match v with VUint n => Some (VI n) | _ => None end = Some sv /\
                         exec_plan ver p enc idx = Some sv).
  { intros bits Hbits Hu. apply uint_enc_inv in Hu as (n & -> & Hn & ->).
    destruct (uint_decode_correct ver bits n enc idx a c s None l Hbits Hn E) as (p & Hpl & Hx).
    - destruct s; [exact Rs | subst a; reflexivity].
    - intros -> _ -> _. auto.
    - exists p, (VI n). auto. }
  assert (Hbytes : forall p, substring_for_decoding s None l = Some p -> exec_plan ver p enc idx = Some (VB bs)).
  { assert (Hs0 : eval_iexpr enc idx (odefault s (IInt 0)) = Some (blen a))
      by (destruct s; [exact Rs | subst a; reflexivity]).
    intros p Hpl. destruct l as [y|].
    - assert (p = PExtract (odefault s (IInt 0)) y) by (destruct s; cbn in *; congruence). subst p.
      rewrite (exec_extract _ _ _ _ _ _ _ Hv Hs0 Rl), E, bsub_mid. reflexivity.
    - subst c. rewrite app_nil_r in E. destruct s as [x|]; cbn in Hpl; injection Hpl as <-.
      + rewrite (exec_suffix _ _ _ _ _ Hv Rs), E, bsub_suffix. reflexivity.
      + subst a. cbn in *. congruence. }
  assert (Hgen : decode_plan t s None l = substring_for_decoding s None l ->
                 stored t v = option_map VB (arc4_encode t v) ->
                 exists p sv, decode_plan t s None l = Some p /\ stored t v = Some sv /\ exec_plan ver p enc idx = Some sv).
  { intros D S. destruct (substring_for_decoding s None l) as [p|] eqn:Ep; [|destruct s, l; discriminate Ep].
    exists p, (VB bs). rewrite D, S, He. auto. }
  destruct t; cbn [is_bool is_dynamic pyteal_elem] in Hb, Hd, Hp; try discriminate;
    try (apply Hgen; reflexivity).
  - (* TByte *) cbn [decode_plan stored]. cbn [arc4_encode] in He. apply Huint; auto.
  - (* TUint *) cbn [decode_plan stored]. cbn [arc4_encode] in He. apply Huint; auto.
    apply pyteal_bits_cases. exact Hp.
Qed.

Theorem decode_whole_correct : forall ver t v enc idx,
    EXTRACT_MIN_VERSION <= ver -> arc4_encode t v = Some enc -> pyteal_elem t = true ->
    exists p sv, decode_plan t None None None = Some p /\ stored t v = Some sv /\ exec_plan ver p enc idx = Some sv.
Proof.
  intros ver t v enc idx Hv He Hp.
  destruct (is_bool t) eqn:Hb.
  - apply is_bool_true in Hb. subst t. cbn [arc4_encode] in He. destruct v as [b|n|r|vs]; cbn in He; try discriminate.
    injection He as <-. exists (PGetbit (IMul (IInt 0) (IInt 8))), (VI (b2N b)).
    split; [reflexivity|]. split; [reflexivity|]. destruct b; vm_compute; reflexivity.
  - destruct (is_dynamic t) eqn:Hd.
    + destruct (dyn_not_scalar t (@None iexpr) (@None iexpr) (@None iexpr) Hd) as [Hdp Hst].
      exists PWhole, (VB enc). rewrite Hdp, Hst, He. repeat split.
    + eapply (decode_static ver t v enc enc idx [] []); eauto. rewrite app_nil_r. reflexivity.
Qed.
