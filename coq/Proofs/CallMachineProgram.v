(* Proofs/CallMachineProgram.v — property C02: source semantics with calls -> the TEXT compile_model prints ->
   [Machine.run].  Composition of
     Proofs/CallComposeFinal.v        (linked list L computes [denote_k]; acyclic and general call graph),
     Proofs/CallComposeByValueFinal.v ([denote_c] -> linked list, acyclic, by-value parameters),
     Proofs/CallMachineText.v         (list -> text -> assembler -> machine, whole-run bridge with call stack). *)
From Coq Require Import List Arith NArith String Bool Lia.
From PV Require Import AVM.Syntax AVM.Machine AVM.Parse Src.Expr Src.Denote Src.DenoteCall Comp.Lower
  Comp.LinearSem Comp.LinkedSem Comp.Compile Comp.Assemble Proofs.LowerShape Proofs.NormalizeLowered
  Proofs.SlotComposeAssign Proofs.StageELink Proofs.StageEText Proofs.StageECompose Proofs.CallMachineSim
  Proofs.CallMachineText CallX.EndToEnd Proofs.CallComposeLink Proofs.CallComposeMain Proofs.CallComposeLayout
  Proofs.CallComposeSpillPass Proofs.CallComposeProgram Proofs.CallComposeAcyclic Proofs.CallComposeFinal
  Proofs.CallComposeByValue Proofs.CallComposeByValueFinal.
Import ListNotations.
Local Open Scope list_scope.

(* the two definitions of "the labels of a list" (assembler stage / link stage) agree *)
Lemma labels_of_eq L : Proofs.CallComposeLink.labels_of L = Proofs.StageELink.labels_of L.
Proof.
  unfold Proofs.CallComposeLink.labels_of.
  induction L as [|c t IH]; [reflexivity|].
  destruct c as [i|l cm|v]; cbn [flat_map Proofs.StageELink.labels_of app]; rewrite IH; reflexivity.
Qed.

(* the verdict of the embedded outcome of the main routine (empty call stack):
   [return] ends the program with the value's verdict; [retsub] in main, and every failure, is a failure *)
Lemma emb_verdict h : claimed h -> pverdict_of (emb 0 [] h) = verdict_of h.
Proof. destruct h; cbn; intros C; try reflexivity; destruct C. Qed.

(* the machine at the verdict, in terms of the source outcome: when the program exits, the machine state is the
   state of the outcome and the value is on top of the stack *)
Definition exit_ok (h : lconf) (m : mach) : Prop :=
  match h with
  | LExit v st => m_st m = st /\ hd_error (m_stack m) = Some v
  | _ => True
  end.

Lemma emb_exit_ok h m : pfinal_ok (emb 0 [] h) m -> exit_ok h m.
Proof. destruct h; cbn; intros H; try exact Logic.I; exact H. Qed.

Lemma compile_model_inv o modes p lines :
  compile_model o modes p = COk lines ->
  exists comps, compile_components o modes p = COk comps /\ assemble_all comps = Some lines.
Proof.
  unfold compile_model. destruct (compile_components o modes p) as [comps|e]; [|discriminate].
  destruct (assemble_all comps) as [ls|] eqn:A; [|discriminate]. intros H. injection H as <-.
  exists comps. split; [reflexivity|exact A].
Qed.

(* the printed lines of a linked list behind its pragma parse to the program that runs as the list does; the run
   is that of the main routine's outcome h, embedded with an empty call stack *)
Lemma lines_run msel version L lines :
  assemble_all (CPragma version :: L) = Some lines -> NoDup (labels_of L) ->
  printable msel (CPragma version :: L) = true -> targets_ok (CPragma version :: L) = true ->
  exists P,
    parse_program msel (program_text lines) = Some P /\ link msel (CPragma version :: L) = Some P /\
    (no_pragma L = true -> pr_version P = version) /\
    forall env : Src.Denote.denv, Src.Denote.e_msel env = msel -> forall st h v,
      pstar env L (PAt [] 0 [] st) (emb 0 [] h) -> claimed h -> verdict_of h = Some v ->
      pstack_bounded env L (PAt [] 0 [] st) ->
      exists n m', (forall k, n <= k -> run k (Src.Denote.e_ctx env) P (init_mach st) = (v, m')) /\ exit_ok h m'.
Proof.
  intros HA ND PR TG. rewrite labels_of_eq in ND.
  destruct (linked_text_runs msel version L ND PR TG) as (lines' & P & A' & PP & LK & PV & Run).
  rewrite HA in A'. injection A' as <-. exists P. split; [exact PP|]. split; [exact LK|]. split; [exact PV|].
  intros env Em st h v H Cl V B.
  destruct (Run env Em st (emb 0 [] h) v H (eq_trans (emb_verdict h Cl) V) B) as (n & m' & Hrun & Hfin).
  exists n, m'. split; [exact Hrun|exact (emb_exit_ok h m' Hfin)].
Qed.

(* acyclic call graph *)
Theorem program_text_calls_nonrecursive o modes p lines (rank : N -> nat) msel :
  compile_model o modes p = COk lines -> o_opt_slots o = false ->
  head_loop (root_ast (p_main p)) = false ->
  (forall r, In r (p_subs p) -> r_deferred r = None) ->
  (forall u i, In (u, (i, true)) (p_slots p) -> (i < 256)%N) ->
  exists crs crs' locals asg frs,
    compile_rec (S (List.length (p_subs p))) o p None (p_main p) [] = COk crs /\
    assign_slots p crs = COk (crs', locals, asg) /\
    fold_right flat_step (COk []) crs' = COk frs /\
    (acyclic rank frs ->
     let L := flatten_subroutines frs in
     let comps := CPragma (o_version o) :: L in
     compile_components o modes p = COk comps /\ assemble_all comps = Some lines /\
     (NoDup (labels_of L) ->
      forallb (fun fr => linkable (fr_ops fr)) frs = true ->
      printable msel comps = true -> targets_ok comps = true ->
      exists P,
        parse_program msel (program_text lines) = Some P /\ link msel comps = Some P /\
        (no_pragma L = true -> pr_version P = o_version o) /\
        forall cx n fuel st h v,
          halt_of (denote_k o cx (look_of asg) msel (fs_subs frs) idW n None fuel (root_ast (p_main p)) [] st) = Some h ->
          claimed h -> verdict_of h = Some v ->
          pstack_bounded (lenv cx (look_of asg) msel (fs_subs frs)) L (PAt [] 0 [] st) ->
          exists k0 m', (forall k, k0 <= k -> run k cx P (init_mach st) = (v, m')) /\ exit_ok h m')).
Proof.
  intros H Ho HL HD HT.
  destruct (compile_model_inv o modes p lines H) as (comps0 & HC & HA).
  destruct (call_correct_nonrecursive o modes p comps0 rank HC Ho HL HD HT)
    as (crs & crs' & locals & asg & frs & HR & HAs & HF & T).
  exists crs, crs', locals, asg, frs. split; [exact HR|]. split; [exact HAs|]. split; [exact HF|].
  intros Ha L comps. destruct (T Ha) as [HC0 T2]. fold L in HC0. fold comps in HC0. subst comps0.
  split; [exact HC|]. split; [exact HA|].
  intros ND LK PR TG.
  destruct (lines_run msel (o_version o) L lines HA ND PR TG) as (P & PP & PL & PV & Run).
  exists P. split; [exact PP|]. split; [exact PL|]. split; [exact PV|].
  intros cx n fuel st h v Hh Cl V B.
  destruct (T2 ND LK cx msel) as [_ T3].
  exact (Run (lenv cx (look_of asg) msel (fs_subs frs)) eq_refl st h v (T3 n fuel [] st h Hh Cl) Cl V B).
Qed.

(* any call graph (the spill pass included) *)
Theorem program_text_calls_recursive o modes p lines msel :
  compile_model o modes p = COk lines -> o_opt_slots o = false ->
  head_loop (root_ast (p_main p)) = false ->
  (forall r, In r (p_subs p) -> r_deferred r = None) ->
  (forall u i, In (u, (i, true)) (p_slots p) -> (i < 256)%N) ->
  exists crs crs' locals asg frs frs2,
    compile_rec (S (List.length (p_subs p))) o p None (p_main p) [] = COk crs /\
    assign_slots p crs = COk (crs', locals, asg) /\
    fold_right flat_step (COk []) crs' = COk frs /\
    spill (o_version o) p frs locals = COk frs2 /\
    let L := flatten_subroutines frs2 in
    let comps := CPragma (o_version o) :: L in
    compile_components o modes p = COk comps /\ assemble_all comps = Some lines /\
    (NoDup (labels_of L) ->
     forallb (fun fr => linkable (fr_ops fr)) frs2 = true ->
     printable msel comps = true -> targets_ok comps = true ->
     exists P,
       parse_program msel (program_text lines) = Some P /\ link msel comps = Some P /\
       (no_pragma L = true -> pr_version P = o_version o) /\
       forall cx,
         let W := W_spill o cx (look_of asg) msel (fs_subs frs2) (o_version o) p frs locals in
         forall n fuel st h v,
           halt_of (denote_k o cx (look_of asg) msel (fs_subs frs2) W n None fuel (root_ast (p_main p)) [] st) = Some h ->
           claimed h -> verdict_of h = Some v ->
           pstack_bounded (lenv cx (look_of asg) msel (fs_subs frs2)) L (PAt [] 0 [] st) ->
           exists k0 m', (forall k, k0 <= k -> run k cx P (init_mach st) = (v, m')) /\ exit_ok h m').
Proof.
  intros H Ho HL HD HT.
  destruct (compile_model_inv o modes p lines H) as (comps0 & HC & HA).
  destruct (call_correct_recursive o modes p comps0 HC Ho HL HD HT)
    as (crs & crs' & locals & asg & frs & frs2 & HR & HAs & HF & HS & T).
  exists crs, crs', locals, asg, frs, frs2.
  split; [exact HR|]. split; [exact HAs|]. split; [exact HF|]. split; [exact HS|].
  intros L comps. cbv zeta in T. destruct T as [HC0 T2]. fold L in HC0, T2. fold comps in HC0. subst comps0.
  split; [exact HC|]. split; [exact HA|].
  intros ND LK PR TG.
  destruct (lines_run msel (o_version o) L lines HA ND PR TG) as (P & PP & PL & PV & Run).
  exists P. split; [exact PP|]. split; [exact PL|]. split; [exact PV|].
  intros cx W n fuel st h v Hh Cl V B.
  destruct (T2 ND LK cx msel) as [_ T3].
  exact (Run (lenv cx (look_of asg) msel (fs_subs frs2)) eq_refl st h v (T3 n fuel [] st h Hh Cl) Cl V B).
Qed.

(* against the by-value semantics [denote_c] (acyclic, by-value parameters, non-failing runs) *)
Theorem program_text_calls_by_value o modes p lines (rank : N -> nat) (PL : list N) msel :
  compile_model o modes p = COk lines -> o_opt_slots o = false -> o_use_fp o = false ->
  head_loop (root_ast (p_main p)) = false ->
  (forall r, In r (p_subs p) -> r_deferred r = None) ->
  (forall u i, In (u, (i, true)) (p_slots p) -> (i < 256)%N) ->
  exists crs crs' locals asg frs,
    compile_rec (S (List.length (p_subs p))) o p None (p_main p) [] = COk crs /\
    assign_slots p crs = COk (crs', locals, asg) /\
    fold_right flat_step (COk []) crs' = COk frs /\
    (acyclic rank frs ->
     let L := flatten_subroutines frs in
     let comps := CPragma (o_version o) :: L in
     let subs := fs_subs frs in
     let look := look_of asg in
     compile_components o modes p = COk comps /\ assemble_all comps = Some lines /\
     (NoDup (labels_of L) ->
      forallb (fun fr => linkable (fr_ops fr)) frs = true ->
      printable msel comps = true -> targets_ok comps = true ->
      exists P,
        parse_program msel (program_text lines) = Some P /\ link msel comps = Some P /\
        (no_pragma L = true -> pr_version P = o_version o) /\
        forall cx,
          params_ok look subs rank PL -> bodies_ok look subs rank PL -> disciplined cx look msel subs ->
          forall k, okb look subs rank PL k (root_ast (p_main p)) = true ->
          forall f st v stC,
            denote_c (ceC cx look msel subs) f None [] (root_ast (p_main p)) [] st = DExit v stC ->
            pstack_bounded (lenv cx look msel subs) L (PAt [] 0 [] st) ->
            exists k0 m', (forall k, k0 <= k -> run k cx P (init_mach st) = (exit_verdict v, m')) /\
                          hd_error (m_stack m') = Some v /\ Rel look PL (m_st m') stC)).
Proof.
  intros H Ho Hfp HL HD HT.
  destruct (compile_model_inv o modes p lines H) as (comps0 & HC & HA).
  destruct (call_correct_nonrecursive_by_value o modes p comps0 rank PL HC Ho Hfp HL HD HT)
    as (crs & crs' & locals & asg & frs & HR & HAs & HF & T).
  exists crs, crs', locals, asg, frs. split; [exact HR|]. split; [exact HAs|]. split; [exact HF|].
  intros Ha L comps subs look. destruct (T Ha) as [HC0 T2]. fold L in HC0, T2. fold comps in HC0. subst comps0.
  split; [exact HC|]. split; [exact HA|].
  intros ND LK PR TG.
  destruct (lines_run msel (o_version o) L lines HA ND PR TG) as (P & PP & PL' & PV & Run).
  exists P. split; [exact PP|]. split; [exact PL'|]. split; [exact PV|].
  intros cx HPo HBo HDo k Ok f st v stC HCe B.
  destruct (T2 ND LK cx msel HPo HBo HDo k Ok f st v stC HCe) as (stK & Hstar & HRel).
  destruct (Run (lenv cx look msel subs) eq_refl st (LExit v stK) (exit_verdict v) Hstar Logic.I eq_refl B)
    as (k0 & m' & Hrun & Hst & Htop).
  exists k0, m'. split; [exact Hrun|]. split; [exact Htop|]. rewrite Hst. exact HRel.
Qed.
