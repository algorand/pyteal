(* Proofs/SlotComposeAssign.v — what a successful [assign_slots] (Comp/Compile.v, the slot assignment of
   the compile pipeline itself) has computed: every routine is rewritten with ONE function
   [look_of asg], and that function is injective on the slots of the program and (when requested ids are
   valid scratch numbers, which the ScratchSlot constructor guarantees) below 256.

   Property C10 proves the same facts (C10_assign_injective, C10_assign_in_range) for its own, more
   detailed model of scratchslots.py (Comp/Slots.v: slot OBJECTS, Python set order as a parameter).  The
   pipeline model [Compile.assign_slots] is a different Gallina function (slots are uids, requested ids
   come from [p_slots], [sorted] is an insertion sort by id, the "next free" loop has fuel 600), and no
   refinement theorem links the two; so the facts are proved here directly for the function the
   pipeline uses.  Only the "next free" loop itself is the same function in both ([bump_next_free]). *)
From Coq Require Import List Arith NArith String Bool Lia Permutation Sorted.
From PV Require Import Base.Bytes AVM.Syntax Src.Expr Comp.Blocks Comp.Lower Comp.Passes Comp.Compile
  Proofs.SpillProof Proofs.SlotCompose.
(* list lemmas shared with the C10 model of the same Python function; not imported, the two models use the
   same names *)
From PV Require Comp.Slots Proofs.SlotsProof.
Import ListNotations.

Lemma insert_sorted_ss x l : StronglySorted N.lt l -> StronglySorted N.lt (insert_sorted x l).
Proof.
  induction l as [|y t IH]; intros S; cbn [insert_sorted].
  - constructor; constructor.
  - inversion S as [|? ? St Ft]; subst.
    destruct (N.eqb_spec x y) as [E|E]; [exact S|].
    destruct (N.ltb_spec x y) as [L|L].
    + constructor; [exact S|]. constructor; [exact L|].
      rewrite Forall_forall in *. intros z Hz. specialize (Ft z Hz). lia.
    + constructor; [apply IH; exact St|].
      rewrite Forall_forall in *. intros z Hz. apply in_insert_sorted' in Hz.
      destruct Hz as [->|Hz]; [lia|apply Ft; exact Hz].
Qed.

Lemma sort_dedup_ss l : StronglySorted N.lt (sort_dedup l).
Proof. unfold sort_dedup. induction l as [|x t IH]; cbn [fold_right]; [constructor|apply insert_sorted_ss; exact IH]. Qed.

Lemma ss_lt_nodup l : StronglySorted N.lt l -> NoDup l.
Proof.
  induction 1 as [|x t St IH Ft]; constructor; [|exact IH].
  intros Hx. rewrite Forall_forall in Ft. specialize (Ft x Hx). lia.
Qed.

Lemma sort_dedup_nodup l : NoDup (sort_dedup l).
Proof. apply ss_lt_nodup, sort_dedup_ss. Qed.

(* the check "len(set(ids)) == len(ids)" of the model *)
Lemma dedup_len_nodup l : List.length (sort_dedup l) = List.length l -> NoDup l.
Proof.
  intros H. apply (NoDup_incl_NoDup (sort_dedup_nodup l)); [rewrite H; apply le_n|].
  intros x Hx. apply in_sort_dedup'. exact Hx.
Qed.

Lemma insert_by_id_perm p x l : Permutation (x :: l) (insert_by_id p x l).
Proof.
  induction l as [|y t IH]; cbn [insert_by_id]; [apply Permutation_refl|].
  destruct (N.ltb (fst (slot_info p x)) (fst (slot_info p y))); [apply Permutation_refl|].
  eapply perm_trans; [apply perm_swap|]. apply perm_skip. exact IH.
Qed.

Definition sorted_slots (p : prog) (all : list N) : list N := fold_right (insert_by_id p) [] all.

Lemma sorted_slots_perm p all : Permutation all (sorted_slots p all).
Proof.
  unfold sorted_slots. induction all as [|x t IH]; cbn [fold_right]; [constructor|].
  eapply perm_trans; [apply perm_skip; exact IH|]. apply insert_by_id_perm.
Qed.

Definition res (p : prog) (s : N) : bool := snd (slot_info p s).
Definition sid (p : prog) (s : N) : N := fst (slot_info p s).

(* "while nextSlotIndex in slotIds: nextSlotIndex += 1", with the fuel of the model *)
Definition bump (used : list N) : nat -> N -> N :=
  fix bump (fuel : nat) (n : N) : N :=
    match fuel with O => n | S f => if mem_N n used then bump f (n + 1)%N else n end.

(* Unfolding [assign_loop] on a cons exposes the model's inner loop applied to its literal fuel, at the four
   places where [next'] stands, and the kernel unrolls all 600 levels at each of them, whatever the right-hand
   side is.  That happens in this equation only: everything else about the loop goes through it. *)
Lemma assign_loop_cons p s t next used acc :
  assign_loop p (s :: t) next used acc =
  if res p s then assign_loop p t (bump used 600 next) used ((s, sid p s) :: acc)
  else assign_loop p t (bump used 600 next) (bump used 600 next :: used) ((s, bump used 600 next) :: acc).
Proof.
  transitivity (let next' := bump used 600 next in
                let '(i, r) := slot_info p s in
                if r then assign_loop p t next' used ((s, i) :: acc)
                else assign_loop p t next' (next' :: used) ((s, next') :: acc)).
  - reflexivity.
  - unfold res, sid. destruct (slot_info p s) as [i r]. reflexivity.
Qed.

Lemma bump_next_free used : forall fuel n, bump used fuel n = Slots.next_free fuel used n.
Proof.
  induction fuel as [|f IH]; intros n; cbn [bump Slots.next_free]; [reflexivity|]. rewrite IH.
  replace (Slots.memN n used) with (mem_N n used); [reflexivity|].
  apply eq_true_iff_eq. rewrite mem_N_In, SlotsProof.memN_In. reflexivity.
Qed.

Section Loop.
  Variable p : prog.
  Variable K : nat.                     (* number of distinct slots of the program *)
  Hypothesis K256 : (K <= 256)%nat.

  Record linv (slots : list N) (next : N) (used : list N) (acc : list (N * N)) : Prop := mkLinv {
    li_below : forall m, (m < next)%N -> In m used;
    li_nodup : NoDup used;
    li_count : (List.length used + List.length (filter (fun s => negb (res p s)) slots))%nat = K;
    li_vals : NoDup (map snd acc ++ map (sid p) (filter (res p) slots));
    li_vals_used : forall n, In n (map snd acc ++ map (sid p) (filter (res p) slots)) -> In n used;
    li_range : forall s n, In (s, n) acc -> if res p s then n = sid p s else (n < 256)%N
  }.

  Lemma assign_loop_inv : forall slots next used acc,
    linv slots next used acc ->
    (exists next' used', linv [] next' used' (assign_loop p slots next used acc)) /\
    map fst (assign_loop p slots next used acc) = rev slots ++ map fst acc.
  Proof.
    induction slots as [|s t IH]; intros next used acc I.
    - cbn [assign_loop rev app]. split; [eauto|reflexivity].
    - rewrite assign_loop_cons.
      assert (LK : (List.length used <= K)%nat) by (pose proof (li_count _ _ _ _ I); lia).
      destruct (SlotsProof.next_free_gen 600 used next) as (Fresh & B1 & B2);
        [pose proof (SlotsProof.cnt_ge_le_length used next); lia|].
      rewrite <- bump_next_free in Fresh, B1, B2. set (next' := bump used 600 next) in *.
      assert (Below : forall m, (m < next')%N -> In m used).
      { intros m Hm. destruct (N.lt_ge_cases m next) as [L|L]; [exact (li_below _ _ _ _ I m L)|exact (B2 m L Hm)]. }
      pose proof (SlotsProof.below_all_used_le used next' Below) as Len.
      destruct (res p s) eqn:R.
      + assert (I' : linv t next' used ((s, sid p s) :: acc)).
        { destruct I as [I1 I2 I3 I4 I5 I6]. cbn [filter] in I3, I4, I5. rewrite R in I3, I4, I5. cbn [negb map] in I3, I4, I5.
          constructor.
          - exact Below.
          - exact I2.
          - exact I3.
          - cbn [map snd app]. eapply Permutation_NoDup; [|exact I4]. apply Permutation_sym, Permutation_middle.
          - intros n Hn. apply I5. cbn [map snd app] in Hn.
            eapply Permutation_in; [|exact Hn]. apply Permutation_middle.
          - intros s0 n [E|Hin]; [injection E as <- <-; rewrite R; reflexivity|exact (I6 s0 n Hin)]. }
        destruct (IH next' used _ I') as [X Y]. split; [exact X|].
        rewrite Y. cbn [map fst rev]. rewrite <- app_assoc. reflexivity.
      + assert (I' : linv t next' (next' :: used) ((s, next') :: acc)).
        { destruct I as [I1 I2 I3 I4 I5 I6]. cbn [filter] in I3, I4, I5. rewrite R in I3, I4, I5. cbn [negb List.length] in I3, I4, I5.
          constructor.
          - intros m Hm. right. exact (Below m Hm).
          - constructor; assumption.
          - cbn [List.length]. lia.
          - cbn [map snd app]. constructor; [|exact I4]. intros Hin. apply Fresh, I5. exact Hin.
          - intros n Hn. cbn [map snd app] in Hn. destruct Hn as [<-|Hn]; [left; reflexivity|right; exact (I5 n Hn)].
          - intros s0 n [E|Hin]; [|exact (I6 s0 n Hin)]. injection E as <- <-. rewrite R. lia. }
        destruct (IH next' (next' :: used) _ I') as [X Y]. split; [exact X|].
        rewrite Y. cbn [map fst rev]. rewrite <- app_assoc. reflexivity.
  Qed.
End Loop.

Definition look_of (asg : list (N * N)) (s : N) : N :=
  match find (fun x => N.eqb (fst x) s) asg with Some (_, n) => n | None => s end.

Definition all_slots (crs : list croutine) : list N := sort_dedup (List.concat (map routine_slots crs)).

Definition reserved_ids (p : prog) (all : list N) : list N := map (sid p) (filter (res p) all).

Lemma assign_slots_inv p crs crs' locals asg :
  assign_slots p crs = COk (crs', locals, asg) ->
  NoDup (reserved_ids p (all_slots crs)) /\
  (List.length (all_slots crs) <= 256)%nat /\
  asg = assign_loop p (sorted_slots p (all_slots crs)) 0%N (sort_dedup (reserved_ids p (all_slots crs))) [] /\
  crs' = map (rw_routine (look_of asg)) crs.
Proof.
  intros H. unfold assign_slots in H. cbv zeta in H.
  fold (all_slots crs) in H.
  change (map (fun s => fst (slot_info p s)) (filter (fun s' => snd (slot_info p s')) (all_slots crs)))
    with (reserved_ids p (all_slots crs)) in H.
  destruct (Nat.eqb (List.length (sort_dedup (reserved_ids p (all_slots crs))))
                    (List.length (reserved_ids p (all_slots crs)))) eqn:E1; cbn [negb] in H; [|discriminate H].
  destruct (Nat.ltb 256 (List.length (all_slots crs))) eqn:E2; [discriminate H|].
  match type of H with
  | match ?X with _ => _ end = _ => destruct X as [[|]|]; try discriminate H
  end.
  injection H as H1 H2 H3.
  apply Nat.eqb_eq in E1. apply Nat.ltb_ge in E2.
  split; [apply dedup_len_nodup; exact E1|]. split; [exact E2|].
  split; [symmetry; exact H3|]. rewrite <- H1, H3. reflexivity.
Qed.

Lemma routine_slots_in_all crs cr u : In cr crs -> In u (routine_slots cr) -> In u (all_slots crs).
Proof.
  intros Hc Hu. unfold all_slots. apply in_sort_dedup', in_concat.
  exists (routine_slots cr). split; [apply in_map; exact Hc|exact Hu].
Qed.

Lemma all_slots_nodup crs : NoDup (all_slots crs).
Proof. apply sort_dedup_nodup. Qed.

(* lookups in an association list with distinct keys *)
Lemma look_of_in asg s n : NoDup (map fst asg) -> In (s, n) asg -> look_of asg s = n.
Proof.
  unfold look_of. induction asg as [|[k v] t IH]; intros ND Hin; [destruct Hin|].
  cbn [find fst]. cbn [map fst] in ND. inversion ND as [|? ? Hk Ht]; subst.
  destruct (N.eqb_spec k s) as [E|E].
  - subst k. destruct Hin as [Hin|Hin]; [congruence|].
    exfalso. apply Hk. apply in_map_iff. exists (s, n). split; [reflexivity|exact Hin].
  - destruct Hin as [Hin|Hin]; [congruence|]. apply IH; assumption.
Qed.

Lemma in_map_fst_ex {A B} (l : list (A * B)) a : In a (map fst l) -> exists b, In (a, b) l.
Proof. intros H. apply in_map_iff in H. destruct H as ([a' b] & E & H). cbn in E. subst. eauto. Qed.

(* everything the loop invariant says about the final assignment *)
Lemma assign_slots_facts p crs crs' locals asg :
  assign_slots p crs = COk (crs', locals, asg) ->
  crs' = map (rw_routine (look_of asg)) crs /\
  NoDup (map fst asg) /\ NoDup (map snd asg) /\
  (forall s, In s (all_slots crs) <-> In s (map fst asg)) /\
  (forall s n, In (s, n) asg -> if res p s then n = sid p s else (n < 256)%N).
Proof.
  intros H. destruct (assign_slots_inv p crs crs' locals asg H) as (ND & L & Ea & Ec).
  set (all := all_slots crs) in *.
  pose proof (sorted_slots_perm p all) as P.
  assert (I0 : linv p (List.length all) (sorted_slots p all) 0%N (sort_dedup (reserved_ids p all)) []).
  { constructor.
    - intros m Hm. lia.
    - apply sort_dedup_nodup.
    - assert (E1 : List.length (sort_dedup (reserved_ids p all)) = List.length (filter (res p) all)).
      { rewrite (Permutation_length (NoDup_Permutation (sort_dedup_nodup _) ND (fun x => in_sort_dedup' x _))).
        unfold reserved_ids. apply map_length. }
      rewrite E1.
      rewrite <- (Permutation_length (SlotsProof.perm_filter (fun s => negb (res p s)) _ _ P)).
      apply SlotsProof.filter_split_len.
    - cbn [map app]. eapply Permutation_NoDup; [|exact ND]. unfold reserved_ids.
      apply Permutation_map, SlotsProof.perm_filter. exact P.
    - cbn [map app]. intros n Hn. apply in_sort_dedup'. unfold reserved_ids.
      eapply Permutation_in; [|exact Hn]. apply Permutation_map, SlotsProof.perm_filter, Permutation_sym. exact P.
    - intros s n []. }
  destruct (assign_loop_inv p (List.length all) L _ _ _ _ I0) as [(next' & used' & I) Ef].
  rewrite <- Ea in I, Ef. cbn [map app] in Ef. rewrite app_nil_r in Ef.
  split; [exact Ec|]. split; [|split; [|split]].
  - rewrite Ef. apply NoDup_rev. eapply Permutation_NoDup; [exact P|apply all_slots_nodup].
  - pose proof (li_vals _ _ _ _ _ _ I) as V. cbn [filter map] in V. rewrite app_nil_r in V. exact V.
  - intros s. rewrite Ef, <- in_rev. split; intros Hs; eapply Permutation_in; try exact Hs; [exact P|apply Permutation_sym; exact P].
  - exact (li_range _ _ _ _ _ _ I).
Qed.

(* requested ids are scratch numbers (ScratchSlot.__init__ rejects anything else; C10_constructor_rejects) *)
Definition requested_valid (p : prog) (l : list N) : Prop :=
  forall s, In s l -> res p s = true -> (sid p s < 256)%N.

(* a sufficient condition on the program record alone *)
Lemma requested_valid_of_table p l :
  (forall u i, In (u, (i, true)) (p_slots p) -> (i < 256)%N) -> requested_valid p l.
Proof.
  intros H s _. unfold res, sid, slot_info.
  destruct (find (fun x => N.eqb (fst x) s) (p_slots p)) as [[u [i r]]|] eqn:F.
  - cbn [fst snd]. intros ->. apply find_some in F. exact (H u i (proj1 F)).
  - cbn [fst snd]. intros L. apply N.ltb_lt. exact L.
Qed.

Theorem assign_look_injective p crs crs' locals asg :
  assign_slots p crs = COk (crs', locals, asg) ->
  forall s1 s2, In s1 (all_slots crs) -> In s2 (all_slots crs) ->
    look_of asg s1 = look_of asg s2 -> s1 = s2.
Proof.
  intros H s1 s2 H1 H2 E.
  destruct (assign_slots_facts p crs crs' locals asg H) as (_ & NF & NS & Dom & _).
  destruct (in_map_fst_ex asg s1 (proj1 (Dom s1) H1)) as (n1 & I1).
  destruct (in_map_fst_ex asg s2 (proj1 (Dom s2) H2)) as (n2 & I2).
  rewrite (look_of_in asg s1 n1 NF I1), (look_of_in asg s2 n2 NF I2) in E. subst n2.
  exact (SlotsProof.NoDup_snd_inj asg s1 s2 n1 NS I1 I2).
Qed.

Theorem assign_look_in_range p crs crs' locals asg :
  assign_slots p crs = COk (crs', locals, asg) ->
  requested_valid p (all_slots crs) ->
  forall s, In s (all_slots crs) -> (look_of asg s < 256)%N.
Proof.
  intros H V s Hs.
  destruct (assign_slots_facts p crs crs' locals asg H) as (_ & NF & _ & Dom & R).
  destruct (in_map_fst_ex asg s (proj1 (Dom s) Hs)) as (n & I).
  rewrite (look_of_in asg s n NF I). specialize (R s n I).
  destruct (res p s) eqn:Rs; [rewrite R; exact (V s Hs Rs)|exact R].
Qed.

(* a requested id is respected *)
Theorem assign_look_requested p crs crs' locals asg :
  assign_slots p crs = COk (crs', locals, asg) ->
  forall s, In s (all_slots crs) -> res p s = true -> look_of asg s = sid p s.
Proof.
  intros H s Hs Rs.
  destruct (assign_slots_facts p crs crs' locals asg H) as (_ & NF & _ & Dom & R).
  destruct (in_map_fst_ex asg s (proj1 (Dom s) Hs)) as (n & I).
  rewrite (look_of_in asg s n NF I). specialize (R s n I). rewrite Rs in R. exact R.
Qed.

Lemma assign_slots_routines p crs crs' locals asg :
  assign_slots p crs = COk (crs', locals, asg) ->
  forall cr, In cr crs -> In (rw_routine (look_of asg) cr) crs'.
Proof.
  intros H cr Hc. destruct (assign_slots_inv p crs crs' locals asg H) as (_ & _ & _ & ->).
  apply in_map. exact Hc.
Qed.

(* "each variable a cell of its own": the assigned numbers of two different variables of the program are
   different scratch cells, so writing one leaves the other alone *)
Theorem assigned_cells_disjoint p crs crs' locals asg :
  assign_slots p crs = COk (crs', locals, asg) ->
  forall u1 u2, In u1 (all_slots crs) -> In u2 (all_slots crs) -> u1 <> u2 ->
    look_of asg u1 <> look_of asg u2.
Proof. intros H u1 u2 H1 H2 Ne E. exact (Ne (assign_look_injective p crs crs' locals asg H u1 u2 H1 H2 E)). Qed.
