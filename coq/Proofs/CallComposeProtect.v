(* Proofs/CallComposeProtect.v — property C02, recursion: WHAT a call wrapped by the spill pass does.
   [wrap] (Proofs/CallComposeSpill.v) answers a wrapped call with the outcome of its spill segment.
   Here that outcome is characterised with the frame theorem of Proofs/SpillProof.v
   ([before_ok], [after_ok], i.e. the two halves of C02_spill_frame_same_type), transported from the
   stack/scratch semantics Comp/SpillSem.v to the semantics with oracles:

   [wrapped_call_protects]: if the callee, called with [args] in state [st], returns [results] and state
   [st'] whatever lies below its arguments (it is a function of its arguments and the state), then the
   wrapped call on stack [rev args ++ S] returns [rev results ++ S] — the operands of the caller are
   untouched — in a state that has the CALLER's local slots as they were before the call ([st]), every
   other scratch slot and every other state component as the callee left them ([st']). *)
From Coq Require Import String.
From Coq Require Import List Arith NArith Bool Lia.
From PV Require Import Base.Bytes AVM.Syntax AVM.Ops AVM.Machine Src.Expr
  Comp.Blocks Comp.Lower Comp.Passes Comp.Compile Comp.SpillSem
  Proofs.SpillProof Proofs.CallPartial
  CallX.Denote CallX.DoOp CallX.GraphSem CallX.LinearSem
  Proofs.CallComposeLink Proofs.CallComposeSpill Proofs.CallComposeSpillPass.
Import ListNotations.
Local Open Scope list_scope.

(* every component of the state except the scratch space *)
Definition same_rest (a b : mstate) : Prop :=
  s_global a = s_global b /\ s_local a = s_local b /\ s_boxes a = s_boxes b /\
  s_itxn a = s_itxn b /\ s_last_itxn a = s_last_itxn b /\ s_trace a = s_trace b.

Lemma same_rest_refl a : same_rest a a.
Proof. repeat split. Qed.
Lemma same_rest_trans a b c : same_rest a b -> same_rest b c -> same_rest a c.
Proof. intros (A1 & A2 & A3 & A4 & A5 & A6) (B1 & B2 & B3 & B4 & B5 & B6). repeat split; congruence. Qed.
Lemma same_rest_set st i v : same_rest st (set_scratch st i v).
Proof. repeat split. Qed.

Definition is_store_comp (c : comp) : bool := match c with COp i => is_store (i_op i) | _ => false end.

Lemma args_imms env o ns : args_to_imms env o (map AInt ns) = Some (map IInt ns).
Proof. induction ns as [|n t IH]; [reflexivity|]. cbn [map args_to_imms arg_to_imm]. rewrite IH. reflexivity. Qed.

Lemma slot_access_ints o ns : slot_access o (map AInt ns) = None.
Proof. destruct ns as [|n [|n2 t]]; reflexivity. Qed.

Lemma call_target_ints o ns : call_target o (map AInt ns) = None.
Proof.
  destruct (call_target o (map AInt ns)) as [f|] eqn:E; [|reflexivity].
  destruct (call_target_inv _ _ _ E) as [_ Ea]. destruct ns as [|n [|n2 t]]; discriminate Ea.
Qed.


Section Free.
  Variable env : denv.
  Variable callee : callee_t.
  Variable na : nat.

  (* one instruction of the spill code: the same step in both semantics *)
  Lemma spill_op_step o ns stk stX m stk1 m1 : spill_opc o = true ->
    (forall n, sc_of stX n = m n) ->
    sstep callee na (COp (mkI o (map AInt ns))) stk m = Some (stk1, m1) ->
    exists stX1, do_op env o (map AInt ns) stk stX = DNorm stk1 stX1 /\
                 (forall n, sc_of stX1 n = m1 n) /\ same_rest stX stX1 /\ (is_store o = false -> stX1 = stX).
  Proof.
    intros Ho Hm H. rewrite (do_op_plain env o _ stk stX (call_target_ints o ns) (slot_access_ints o ns)), args_imms.
    destruct (spill_opc_inv o Ho) as [<-|[<-|[<-|[<-|[<-|[<-|[<-|[]]]]]]]].
    3-7: cbn [sstep i_op i_args] in H; unfold exec_op; rewrite imms_to_args_ints;
         match type of H with context [exec_pure ?oo ?aa ?ss] => destruct (exec_pure oo aa ss) as [s| |] end;
         try discriminate H; injection H as <- <-; exists stX; repeat split; auto.
    - (* load *)
      cbn [sstep i_op i_args] in H. destruct ns as [|n [|? ?]]; try discriminate H. cbn [map] in *.
      change (exec_op (e_ctx env) O_load [IInt n] stk stX)
        with (if (n <? 256)%N then OOk (scratch_get (s_scratch stX) n :: stk) stX else OFail).
      destruct (n <? 256)%N; [|discriminate H]. injection H as <- <-.
      exists stX. split; [rewrite <- Hm; reflexivity|]. split; [exact Hm|]. split; [apply same_rest_refl|reflexivity].
    - (* store *)
      cbn [sstep i_op i_args] in H. destruct ns as [|n [|? ?]]; try discriminate H;
        destruct stk as [|v r]; try discriminate H. cbn [map] in *.
      change (exec_op (e_ctx env) O_store [IInt n] (v :: r) stX)
        with (if (n <? 256)%N then OOk r (set_scratch stX n v) else OFail).
      destruct (n <? 256)%N; [|discriminate H]. injection H as <- <-.
      exists (set_scratch stX n v). split; [reflexivity|]. split.
      + intros k. rewrite sc_of_set. unfold supd. rewrite Hm. reflexivity.
      + split; [apply same_rest_set|discriminate].
  Qed.

  (* a call-free stretch of spill code *)
  Lemma spill_code_run seg : Forall spill_comp seg ->
    forall j stk stX m stk' m', (forall n, sc_of stX n = m n) ->
      srun callee na seg stk m = Some (stk', m') ->
      forall C, (forall k x, nth_error seg k = Some x -> nth_error C (j + k) = Some x) ->
      exists stX', lstar env C (LAt j stk stX) (LAt (j + List.length seg) stk' stX') /\
                   (forall n, sc_of stX' n = m' n) /\ same_rest stX stX' /\
                   (existsb is_store_comp seg = false -> stX' = stX).
  Proof.
    induction 1 as [|c t Hc _ IH]; intros j stk stX m stk' m' Hm Hr C HC.
    - cbn [srun] in Hr. injection Hr as <- <-. exists stX. rewrite Nat.add_0_r.
      split; [apply lstar_refl|]. split; [exact Hm|]. split; [apply same_rest_refl|reflexivity].
    - cbn [srun] in Hr. destruct (sstep callee na c stk m) as [[stk1 m1]|] eqn:S1; [|discriminate Hr].
      pose proof (spill_comp_straight c Hc) as St. destruct Hc as (o & ns & -> & Ho).
      destruct (spill_op_step o ns stk stX m stk1 m1 Ho Hm S1) as (stX1 & D & Hm1 & R1 & NS).
      assert (HC' : forall k x, nth_error t k = Some x -> nth_error C (S j + k) = Some x).
      { intros k x Hk. specialize (HC (S k) x Hk). rewrite Nat.add_succ_r in HC. exact HC. }
      destruct (IH (S j) stk1 stX1 m1 stk' m' Hm1 Hr C HC') as (stX' & Run & Hm' & R' & NS').
      exists stX'. split.
      + eapply lstar_step; [|cbn [List.length]; rewrite Nat.add_succ_r; exact Run].
        cbn [lstep]. specialize (HC 0 _ eq_refl). rewrite Nat.add_0_r in HC. rewrite HC. f_equal.
        rewrite (lstep_straight _ _ _ _ _ _ St).
        cbn [i_op i_args]. rewrite D. reflexivity.
      + split; [exact Hm'|]. split; [exact (same_rest_trans _ _ _ R1 R')|].
        cbn [existsb is_store_comp i_op]. intros E. apply orb_false_iff in E. destruct E as [E1 E2].
        rewrite (NS' E2). exact (NS E1).
  Qed.
End Free.

Lemma existsb_flat_map_false {A B} (f : B -> bool) (g : A -> list B) l :
  (forall x, existsb f (g x) = false) -> existsb f (flat_map g l) = false.
Proof. intros H. induction l as [|x t IH]; [reflexivity|]. cbn [flat_map]. rewrite existsb_app, H, IH. reflexivity. Qed.

Lemma sp_pre_no_store version slots numArgs : existsb is_store_comp (sp_pre version slots numArgs) = false.
Proof.
  unfold sp_pre. cbv zeta. rewrite existsb_app. apply orb_false_intro; apply existsb_flat_map_false; intros x.
  - destruct (_ && _); reflexivity.
  - destruct (_ && _); destruct (negb _); try destruct (Nat.eqb _ 1); reflexivity.
Qed.

Theorem wrapped_call_protects (version : N) (ret : bool) (slots : list N) (na : nat)
        (wr : N -> option (list comp * list comp)) (env0 : denv) (orc : N -> list value -> mstate -> callres)
        (f : N) (args X0 results : list value) (st st' : mstate) :
  wr f = Some (sp_pre version slots na, sp_post version ret slots na) ->
  slots <> [] -> NoDup slots -> Forall slot_ok slots ->
  List.length args = na ->
  (List.length slots + na - 1 <= 255)%nat -> (List.length slots <= 255)%nat ->
  List.length results = (if ret then 1 else 0)%nat ->
  (* the callee is a function of its arguments and the state: the stack below them is handed back as it is *)
  (forall Y, orc f (rev args ++ Y) st = CRet (rev results ++ Y) st') ->
  exists st'',
    wrap wr env0 orc f (rev args ++ X0) st = CRet (rev results ++ X0) st'' /\
    (forall n, scratch_get (s_scratch st'') n =
               if mem_N n slots then scratch_get (s_scratch st) n else scratch_get (s_scratch st') n) /\
    same_rest st' st''.
Proof.
  intros Hwr Hne Hnd Hs Hl Hd Hk Hres Horc. subst na.
  set (c := call_stmt_of f).
  set (bc := sp_pre version slots (List.length args)).
  set (ac := sp_post version ret slots (List.length args)).
  set (C := bc ++ c :: ac).
  assert (EC : expand wr c = C).
  { unfold c, call_stmt_of. cbn [expand i_op i_args call_target]. rewrite Hwr. reflexivity. }
  assert (HSt : forallb straight C = true).
  { unfold C. rewrite forallb_app. cbn [forallb]. unfold bc, ac.
    rewrite (spill_code_straight _ (sp_pre_spill _ _ _)), (spill_code_straight _ (sp_post_spill _ _ _ _)). reflexivity. }
  set (env := envR env0 orc).
  set (m := sc_of st). set (m1 := sc_of st').
  set (Y := rev (map m slots) ++ (if N.leb 5 version then X0 else rev args ++ X0)).
  set (dummy := (fun (_ : list value) (mm : scratch) => (@nil value, mm)) : callee_t).
  (* before *)
  pose proof (before_ok dummy (List.length args) version slots args X0 m Hs Hd) as Rb.
  rewrite <- sp_pre_eq in Rb. fold bc Y in Rb.
  destruct (spill_code_run env dummy (List.length args) bc (sp_pre_spill _ _ _) 0 (rev args ++ X0) st m _ _
              (fun n => eq_refl) Rb C) as (st1 & Run1 & _ & _ & NS1).
  { intros k x Hx. unfold C. cbn [Nat.add]. rewrite nth_error_app1; [exact Hx|]. apply nth_error_Some. rewrite Hx. discriminate. }
  rewrite (NS1 (sp_pre_no_store _ _ _)) in Run1. clear NS1 st1. cbn [Nat.add] in Run1.
  (* the call *)
  assert (Ec : nth_error C (List.length bc) = Some c).
  { unfold C. rewrite nth_error_app2 by lia. rewrite Nat.sub_diag. reflexivity. }
  assert (Run2 : lstep env C (LAt (List.length bc) (rev args ++ Y) st) = Some (LAt (S (List.length bc)) (rev results ++ Y) st')).
  { cbn [lstep]. rewrite Ec. unfold c, call_stmt_of. rewrite lstep_straight by reflexivity.
    cbn [i_op i_args]. rewrite do_op_call. unfold env, envR, with_call. cbn [e_call]. rewrite Horc. reflexivity. }
  (* after *)
  destruct (after_ok dummy (List.length args) version ret slots args X0 results m m1 Hne Hnd Hs Hk Hres) as (m2 & Ra & Hm2).
  rewrite <- (sp_post_eq _ _ _ _ Hnd) in Ra. fold ac Y in Ra.
  destruct (spill_code_run env dummy (List.length args) ac (sp_post_spill _ _ _ _) (S (List.length bc)) (rev results ++ Y) st' m1 _ _
              (fun n => eq_refl) Ra C) as (st'' & Run3 & Hm'' & R'' & _).
  { intros k x Hx. unfold C. rewrite nth_error_app2 by lia.
    replace (S (List.length bc) + k - List.length bc) with (S k) by lia. exact Hx. }
  assert (Elen : S (List.length bc) + List.length ac = List.length C).
  { unfold C. rewrite app_length. cbn [List.length]. lia. }
  rewrite Elen in Run3.
  assert (Run : lstar env C (LAt 0 (rev args ++ X0) st) (LEnd (rev results ++ X0) st'')).
  { eapply lstar_trans; [exact Run1|]. eapply lstar_step; [exact Run2|]. eapply lstar_trans; [exact Run3|].
    apply lstar_one. cbn [lstep]. rewrite (proj2 (nth_error_None C (List.length C)) (le_n _)). reflexivity. }
  exists st''. split; [|split; [|exact R'']].
  - unfold wrap, is_wrapped. rewrite Hwr. fold c. rewrite EC. exact (seg_orc_end env0 orc C _ _ _ _ HSt Run).
  - intros n. change (scratch_get (s_scratch st'') n) with (sc_of st'' n). rewrite Hm'', Hm2. reflexivity.
Qed.
