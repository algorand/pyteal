(* Proofs/SlotComposePipeline.v — the link to the pipeline function [compile_components] (optimiser off):
   every routine it flattens is the slot rewrite of a [compile_one] result — of the main routine or of the
   declaration body of a subroutine of the program — under the assignment [assign_slots] computed for
   the whole program; so [routine_end_to_end_assigned] applies to each of them. *)
From Coq Require Import List Arith NArith String Bool Lia.
From PV Require Import Base.Bytes AVM.Syntax AVM.Machine Src.Expr Src.Denote
  Comp.Blocks Comp.Lower Comp.Passes Comp.GraphSem Comp.LinearSem Comp.SimCheck Comp.Compile
  Proofs.LowerFrame Proofs.LowerCorrect Proofs.LowerShape Proofs.NormalizeSem
  Proofs.NormalizeLowered Proofs.FlattenCorrect Proofs.SortCorrect
  Proofs.EndToEndExits Proofs.EndToEndGlue Proofs.EndToEnd
  Proofs.SlotCompose Proofs.SlotComposeAssign Proofs.SlotComposeEnd Proofs.SlotComposeCover Proofs.SlotComposeFinal
  Proofs.PipelineStages.
Import ListNotations.

(* where a compiled routine comes from *)
Definition origin (o : copts) (p : prog) (cr : croutine) : Prop :=
  compile_one o None (p_main p) = COk cr \/
  exists r, In r (p_subs p) /\ compile_one o (Some r) (decl_body o r) = COk cr.

Theorem compile_rec_origin o p crs :
  compile_rec (S (List.length (p_subs p))) o p None (p_main p) [] = COk crs ->
  forall cr, In cr crs -> origin o p cr.
Proof.
  intros H cr Hcr. pose proof (compile_rec_post o p (S (List.length (p_subs p))) None (p_main p) []) as K. rewrite H in K.
  destruct (K cr Hcr) as [[]|X]. exact X.
Qed.

(* compile_components, optimiser off: the two intermediate results *)
Lemma compile_components_assign_inv o modes p comps :
  compile_components o modes p = COk comps -> o_opt_slots o = false ->
  exists crs crs' locals asg,
    compile_rec (S (List.length (p_subs p))) o p None (p_main p) [] = COk crs /\
    assign_slots p crs = COk (crs', locals, asg).
Proof.
  intros H Ho. rewrite compile_components_stages, Ho in H.
  destruct (negb _); [discriminate H|].
  apply cbind_ok in H as (crs & E1 & H). cbn [cbind] in H. apply cbind_ok in H as ([[crs' locals] asg] & E2 & _).
  exists crs, crs', locals, asg. split; [exact E1|exact E2].
Qed.

(* the statement for every routine of a program *)
Theorem program_routines_end_to_end o modes p comps :
  compile_components o modes p = COk comps -> o_opt_slots o = false ->
  head_loop (root_ast (p_main p)) = false ->
  (forall r, In r (p_subs p) -> r_deferred r = None) ->
  exists crs crs' locals asg,
    compile_rec (S (List.length (p_subs p))) o p None (p_main p) [] = COk crs /\
    assign_slots p crs = COk (crs', locals, asg) /\
    (requested_valid p (all_slots crs) ->
     forall cr, In cr crs ->
       exists sub ast0,
         compile_one o sub ast0 = COk cr /\
         let cr' := rw_routine (look_of asg) cr in
         In cr' crs' /\
         forall order code,
           sort_blocks (cr_graph cr') (cr_start cr') (cr_end cr') = Some order ->
           flatten_blocks (cr_graph cr') order = Some code ->
           pos_of (cr_graph cr') order (cr_start cr') = 0 /\
           code_slots code = [] /\
           forall env, consistent env (routine_ctx o sub) ->
           forall fuel stk st h,
             halt_of (denote (with_asg env (look_of asg)) fuel (root_ast ast0) stk st) = Some h ->
             lstar env code (LAt 0 stk st) h /\
             forall c2, lstar env code (LAt 0 stk st) c2 -> lfinal c2 = true -> c2 = h).
Proof.
  intros H Ho HL HD.
  destruct (compile_components_assign_inv o modes p comps H Ho) as (crs & crs' & locals & asg & HR & HA).
  exists crs, crs', locals, asg. split; [exact HR|]. split; [exact HA|].
  intros HV cr Hcr.
  destruct (compile_rec_origin o p crs HR cr Hcr) as [E|(r & Hr & E)].
  - exists None, (p_main p). split; [exact E|].
    exact (routine_end_to_end_assigned o None (p_main p) cr p crs crs' locals asg eq_refl E HL Hcr HA HV).
  - exists (Some r), (decl_body o r). split; [exact E|].
    exact (routine_end_to_end_assigned o (Some r) (decl_body o r) cr p crs crs' locals asg (HD r Hr) E
             (decl_body_root_head_loop o r) Hcr HA HV).
Qed.
