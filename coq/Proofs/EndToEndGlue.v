(* Proofs/EndToEndGlue.v — glue between the stages of C01 for one routine:
     * the lowered routine graph has ONE exit (the end block), and NormalizeBlocks keeps it so;
     * [compile_one] inverted: what a successful run has computed;
     * the normalised graph is well-formed (ids below the counter), so [sort_blocks] is complete on it,
       its order satisfies [single_exit] (hence [ends_last]) and begins with the start block.
   Proved in CallX/EndToEndGlue.v; only [compiled_routine_facts] mentions the semantics. *)
From Coq Require Import List Arith NArith String Bool Lia.
From PV Require Import Base.Bytes AVM.Syntax AVM.Machine Src.Expr Src.Denote
  Comp.Blocks Comp.Lower Comp.Passes Comp.GraphSem Comp.SimCheck Comp.Compile
  Proofs.LowerFrame Proofs.LowerShape Proofs.NormalizeLowered Proofs.EndToEndExits Proofs.OracleTransfer.
From PV Require CallX.EndToEndGlue.
Import ListNotations.

Definition exits_at (g : graph) (en : id) : Prop :=
  (forall i bb, g_blk g i = Some bb -> falloff bb -> i = en) /\
  exists ops, g_blk g en = Some (BSimple ops None).

Theorem lower_root_exits o c e s en g0 :
  l_brk c = None -> l_cont c = None ->
  check_expr o (l_sub_ret c) false e = None -> has_bad_continue false e = false ->
  lower o c e None empty_graph = ((s, en), g0) ->
  exits_at g0 en.
Proof. exact (CallX.EndToEndGlue.lower_root_exits o c e s en g0). Qed.

(* block-wise transformations that keep the exit *)
Definition bpres (b b' : block) : Prop :=
  (falloff b' -> falloff b) /\ (forall o, b = BSimple o None -> exists o', b' = BSimple o' None).

Lemma bpres_refl b : bpres b b.
Proof. exact (CallX.EndToEndGlue.bpres_refl b). Qed.

Definition gpres (g g' : graph) : Prop :=
  forall i, match g_blk g i with
            | None => g_blk g' i = None
            | Some b => exists b', g_blk g' i = Some b' /\ bpres b b'
            end.

Lemma exits_gpres g g' en : gpres g g' -> exits_at g en -> exits_at g' en.
Proof. exact (CallX.EndToEndGlue.exits_gpres g g' en). Qed.

Lemma body1_exits g s w g' s' en :
  gbody1 replace_outgoing g s w = (g', s') -> exits_at g en -> exits_at g' en.
Proof. exact (CallX.EndToEndGlue.body1_exits g s w g' s' en). Qed.

Lemma body2_exits fs ss g s w g' s' en :
  gbody2 replace_outgoing fs ss g s w = (g', s') -> exits_at g en -> exits_at g' en.
Proof. exact (CallX.EndToEndGlue.body2_exits fs ss g s w g' s' en). Qed.

Theorem normalize_exits g s g' s' en :
  normalize g s = (g', s') -> exits_at g en -> exits_at g' en.
Proof. exact (CallX.EndToEndGlue.normalize_exits g s g' s' en). Qed.

Definition routine_ctx (o : copts) (sub : option routine) : lctx :=
  mkL (option_map r_ret sub) None None
      (match sub with Some r => param_instr o r | None => main_param end).

Lemma compile_one_inv o sub ast0 cr :
  (match sub with Some r => r_deferred r | None => None end) = None ->
  compile_one o sub ast0 = COk cr ->
  check_expr o (option_map r_ret sub) false (root_ast ast0) = None /\
  has_bad_continue false (root_ast ast0) = false /\
  exists s g0,
    lower o (routine_ctx o sub) (root_ast ast0) None empty_graph = ((s, cr_end cr), g0) /\
    normalize (fst (add_incoming g0 s)) s = (cr_graph cr, cr_start cr).
Proof. exact (CallX.EndToEndGlue.compile_one_inv o sub ast0 cr). Qed.

(* everything the later stages need to know about a compiled routine *)
Theorem compiled_routine_facts o sub ast0 cr :
  (match sub with Some r => r_deferred r | None => None end) = None ->
  compile_one o sub ast0 = COk cr ->
  exists s g0,
    lower o (routine_ctx o sub) (root_ast ast0) None empty_graph = ((s, cr_end cr), g0) /\
    wf g0 /\
    (head_loop (root_ast ast0) = false ->
     forall env, equiv_from env (g_blk g0) s (g_blk (cr_graph cr)) (cr_start cr)) /\
    wf (cr_graph cr) /\
    exits_at (cr_graph cr) (cr_end cr).
Proof.
  intros D E.
  destruct (CallX.EndToEndGlue.compiled_routine_facts o sub ast0 cr D E) as (s & g0 & EL & W0 & Q & W & X).
  exists s, g0. split; [exact EL|]. split; [exact W0|]. split; [|split; [exact W|exact X]].
  intros HL env. apply equiv_from_lift. exact (Q HL (lift env)).
Qed.
