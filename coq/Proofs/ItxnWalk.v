(* Proofs/ItxnWalk.v — C14: lemmas about the pieces of InnerTxnBuilder.MethodCall (Router/Itxn.v): SetFields and
   the recorded field lists, the single steps of the argument loop for plain and transaction arguments,
   the wire list. *)
From Coq Require Import List Arith NArith Ascii String Bool Lia.
From PV Require Import Base.Bytes Base.Sexp AVM.Syntax ABI.Types ABI.Spec ABI.Descr ABI.Assignable
  Router.Args Proofs.AssignableProof Proofs.RouterArgsLists Proofs.RouterArgsProof Router.Itxn.
Import ListNotations.
Local Open Scope string_scope.
Local Open Scope list_scope.

Lemma rbind_ok : forall {A B} (r : res A) (f : A -> res B) b,
  rbind r f = Ok b -> exists a, r = Ok a /\ f a = Ok b.
Proof. intros A B [a|e] f b H; cbn in H; [eauto | discriminate]. Qed.

Lemma index_byte_ok : forall n v, index_byte n = Ok v -> (n < 256)%nat /\ v = VB [n2b (N.of_nat n)].
Proof.
  unfold index_byte. intros n v H. destruct (Nat.ltb_spec n 256) as [Hl|Hl]; [|discriminate].
  inversion H. split; [exact Hl | reflexivity].
Qed.

Lemma enc_each_app : forall w1 w2 b1 b2,
  enc_each w1 = Some b1 -> enc_each w2 = Some b2 -> enc_each (w1 ++ w2) = Some (b1 ++ b2).
Proof. intros w1 w2 b1 b2 H1 H2. apply enc_each_Forall2, Forall2_app; now apply enc_each_Forall2. Qed.

Lemma some_vals_keys : forall f es, Forall (fun kv => fst kv = f) (some_vals f es).
Proof.
  induction es as [|[e|] r IH]; cbn; [constructor | constructor; [reflexivity | exact IH] | exact IH].
Qed.

Lemma set_field_keys : forall f v x, set_field f v = Ok x -> Forall (fun kv => fst kv = f) x.
Proof.
  unfold set_field. intros f v x H.
  destruct (field_type f) as [ft|]; [|discriminate].
  destruct (negb (field_is_array f)).
  - destruct v as [e|es|t vs|]; try discriminate.
    destruct (require_ok (x_type e) ft); [|discriminate]. inversion H. repeat constructor.
  - destruct v as [e|es|t vs|]; try discriminate.
    + destruct (existsb is_noneo es); [discriminate|].
      destruct (first_bad_type ft es); [discriminate|]. inversion H. apply some_vals_keys.
    + destruct (require_ok t ft); [|discriminate]. inversion H.
      apply Forall_forall. intros kv Hin. apply in_map_iff in Hin. destruct Hin as [y [Hy _]]. subst kv. reflexivity.
Qed.

Lemma set_fields_keys : forall fs x, set_fields fs = Ok x -> Forall (fun kv => In (fst kv) (map fst fs)) x.
Proof.
  induction fs as [|[f v] r IH]; intros x H; cbn in H.
  - inversion H. constructor.
  - apply rbind_ok in H. destruct H as [a [Ha H]].
    apply rbind_ok in H. destruct H as [b [Hb H]]. inversion H.
    apply Forall_app. split.
    + apply set_field_keys in Ha. eapply Forall_impl; [|exact Ha]. intros kv Hk. cbn. left. symmetry. exact Hk.
    + eapply Forall_impl; [|apply IH; exact Hb]. intros kv Hk. cbn. right. exact Hk.
Qed.

Lemma last_field_app : forall f a b,
  last_field f (a ++ b) = match last_field f b with Some w => Some w | None => last_field f a end.
Proof.
  induction a as [|[k v] r IH]; intros b; cbn.
  - destruct (last_field f b); reflexivity.
  - rewrite IH. destruct (last_field f b); [reflexivity|]. reflexivity.
Qed.

Lemma last_field_absent : forall f x, Forall (fun kv => fst kv <> f) x -> last_field f x = None.
Proof.
  induction x as [|[k v] r IH]; intros H; cbn; [reflexivity|].
  inversion H as [|? ? Hk Hr]. subst. rewrite (IH Hr). cbn in Hk.
  destruct (String.eqb_spec k f); [contradiction | reflexivity].
Qed.

Lemma arr_of_absent : forall f x, Forall (fun kv => fst kv <> f) x -> arr_of f x = [].
Proof.
  unfold arr_of. induction x as [|[k v] r IH]; intros H; cbn; [reflexivity|].
  inversion H as [|? ? Hk Hr]. subst. cbn in Hk.
  destruct (String.eqb_spec k f); [contradiction | apply IH; exact Hr].
Qed.

Lemma arr_of_app : forall f a b, arr_of f (a ++ b) = arr_of f a ++ arr_of f b.
Proof. intros. unfold arr_of. rewrite filter_app, map_app. reflexivity. Qed.

Lemma arr_of_fields : forall f g vs, arr_of f (fields_of g vs) = if String.eqb g f then vs else [].
Proof.
  intros f g vs. unfold arr_of, fields_of. induction vs as [|v r IH]; cbn [map filter fst].
  - now destruct (String.eqb g f).
  - destruct (String.eqb g f); cbn [map snd]; now rewrite IH.
Qed.

(* a dict with distinct keys: the recorded transaction's last value of a scalar key is the dict's *)
Lemma set_fields_last : forall fs x f e,
  set_fields fs = Ok x -> NoDup (map fst fs) -> assoc_str f fs = Some (FExpr e) ->
  last_field f x = Some (x_val e).
Proof.
  induction fs as [|[f0 v0] r IH]; intros x f e H Hnd Hassoc; cbn in *; [discriminate|].
  apply rbind_ok in H. destruct H as [a [Ha H]].
  apply rbind_ok in H. destruct H as [b [Hb H]]. inversion H. subst x. clear H.
  inversion Hnd as [|? ? Hnotin Hnd']. subst.
  rewrite last_field_app.
  destruct (String.eqb_spec f f0) as [Heq|Hne].
  - subst f0. inversion Hassoc. subst v0.
    assert (Hb' : last_field f b = None).
    { apply last_field_absent. apply set_fields_keys in Hb.
      eapply Forall_impl; [|exact Hb]. intros kv Hin Heq. cbn in Hin. rewrite Heq in Hin. contradiction. }
    rewrite Hb'.
    unfold set_field in Ha. destruct (field_type f) as [ft|]; [|discriminate].
    destruct (negb (field_is_array f)); [|discriminate].
    destruct (require_ok (x_type e) ft); [|discriminate]. inversion Ha. cbn.
    rewrite String.eqb_refl. reflexivity.
  - rewrite (IH b f e Hb Hnd' Hassoc). reflexivity.
Qed.

Lemma of_nat_lt_256 : forall n, (n < 256)%nat -> (N.of_nat n < 256)%N.
Proof. intros. lia. Qed.

Lemma enum_kind_ok : forall name k1,
  spec_of_enum_name name = Some (TTxn k1) ->
  kind_enum k1 = None \/ kind_enum k1 = Some (enum_value name).
Proof.
  intros name k1 H. unfold spec_of_enum_name in H.
  repeat match type of H with
  | (if String.eqb name ?s then _ else _) = _ =>
      destruct (String.eqb_spec name s) as [->|_];
      [ inversion H; subst; first [left; reflexivity | right; reflexivity] | ]
  end.
  discriminate.
Qed.

Lemma step_plain_eq : forall t a st,
  is_txn_ty t = false -> is_ref_ty t = false -> step t a st = step_plain t a st.
Proof. intros t a st H1 H2. destruct t; try reflexivity; discriminate. Qed.

Lemma wire_plain : forall t v r idxs,
  is_txn_ty t = false -> is_ref_ty t = false ->
  wire ((t, KVal v) :: r) idxs = option_map (cons (t, v)) (wire r idxs).
Proof. intros t v r idxs H1 H2. destruct t; try reflexivity; discriminate. Qed.

Lemma kind_fits_plain : forall t v, is_txn_ty t = false -> is_ref_ty t = false -> kind_fits t (KVal v) = true.
Proof. intros t v H1 H2. destruct t; try reflexivity; discriminate. Qed.

Lemma step_txn_inv : forall t a st st',
  step_txn t a st = Ok st' ->
  exists fs name a_spec x,
    a = IDict fs /\ assoc_str "TypeEnum" fs = Some (FExpr (XEnum name)) /\
    spec_of_enum_name name = Some a_spec /\ assignable a_spec t = true /\ set_fields fs = Ok x /\
    st' = mkAcc (a_txns st ++ [x]) (a_accts st) (a_apps st) (a_assets st) (a_args st).
Proof.
  intros t a st st' H. unfold step_txn in H.
  destruct a as [| | |fs|]; try discriminate.
  destruct (assoc_str "TypeEnum" fs) as [[[|name]| | |]|] eqn:Ha; try discriminate.
  destruct (spec_of_enum_name name) as [a_spec|] eqn:Hs; [|discriminate].
  destruct (assignable a_spec t) eqn:Has; [|discriminate].
  apply rbind_ok in H. destruct H as [x [Hx H]]. inversion H. exists fs, name, a_spec, x. auto 6.
Qed.

(* a transaction argument is accepted only if the dict's type_enum fits the parameter's transaction kind *)
Lemma step_txn_ok : forall k fs st st',
  step_txn (TTxn k) (IDict fs) st = Ok st' -> NoDup (map fst fs) ->
  exists x, set_fields fs = Ok x /\ ktxn_type_ok k x = true /\
            st' = mkAcc (a_txns st ++ [x]) (a_accts st) (a_apps st) (a_assets st) (a_args st).
Proof.
  intros k fs st st' H Hnd.
  destruct (step_txn_inv _ _ _ _ H) as [fs' [name [a_spec [x [Ea [Ha [Hs [Has [Hx ->]]]]]]]]]. inversion Ea. subst fs'.
  exists x. split; [exact Hx|]. split; [|reflexivity].
  destruct (assignable_to_txn _ _ Has) as [k1 ->].
  apply assignable_txn_iff in Has. destruct Has as [k2 [Heq Hor]]. inversion Heq. subst k2.
  unfold ktxn_type_ok.
  destruct Hor as [->| ->]; [|reflexivity].
  destruct (enum_kind_ok _ _ Hs) as [Hn|Hn]; rewrite Hn; [reflexivity|].
  rewrite (set_fields_last fs x "TypeEnum" (XEnum name) Hx Hnd Ha). cbn. apply N.eqb_refl.
Qed.

Lemma denotes_length : forall ps args ks,
  denotes ps args ks -> List.length args = List.length ps /\ List.length ks = List.length ps.
Proof. induction 1 as [|t a k ts args ks _ _ [IH1 IH2]]; cbn; [split; reflexivity | split; congruence]. Qed.

Lemma wire_length : forall pks idxs w,
  wire pks idxs = Some w -> List.length w = count_nontxn (map fst pks).
Proof.
  unfold count_nontxn.
  induction pks as [|[t a] r IH]; intros idxs w H.
  - inversion H. reflexivity.
  - cbn [wire] in H. destruct (negb (kind_fits t a)); [discriminate|].
    destruct t as [| | | | | | | | | | k|k]; cbn [map fst filter not_txn_ty is_txn_ty negb List.length];
      try (destruct a; try discriminate;
           destruct (wire r idxs) as [w'|] eqn:E; [|discriminate]; inversion H; cbn; f_equal; eapply IH; exact E).
    + eapply IH; exact H.
    + destruct idxs as [|i ir]; [discriminate|].
      destruct (wire r ir) as [w'|] eqn:E; [|discriminate]. inversion H. cbn. f_equal. eapply IH; exact E.
Qed.
