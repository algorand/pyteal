(* Proofs/ConstantsSim.v — C12: (1) the site value of ConstantsSpec.load_value is what the AVM [step]
   pushes (single-step simulation on AVM/Machine.v); (2) a long-form index is below the size of the
   emitted block; (3) the refuted statements: block indices are not bounded by 255 (what
   createConstantBlocks does to pairwise distinct constants, each used twice), an address template
   changes its literal context; (4) non-vacuity examples. *)
From Coq Require Import List Arith NArith Ascii String Bool Lia FinFun.
From PV Require Import Base.Bytes Base.U64 Base.Sexp AVM.Syntax AVM.Ops AVM.Machine AVM.Parse
  Comp.Assemble Comp.ConstantsLit Comp.Constants Comp.ConstantsSpec Proofs.ConstantsLitProof Proofs.ConstantsProof
  Proofs.ABISpecProof.
Import ListNotations.
Local Open Scope string_scope.

Theorem load_value_step ib bb p v :
  load_value ib bb p = Some v -> imm_fits p ->
  forall cx prog m,
    nth_error (pr_code prog) (m_pc m) = Some p ->
    m_intc m = ib -> m_bytec m = bb -> (height m <= STACK_MAX)%nat ->
    step cx prog m = Running (with_pc_stack m (S (m_pc m)) (sval_value v :: m_stack m)).
Proof.
  intros Hl Hf cx prog m Hn Hi Hb Hh.
  unfold step. rewrite Hn.
  destruct (Nat.ltb_spec STACK_MAX (height m)) as [Hgt|_]; [lia|].
  destruct p as [o imms]. unfold load_value in Hl. cbn [p_op p_imms] in *.
  destruct o; try discriminate Hl; unfold push_value in Hl; cbn [p_op p_imms] in Hl.
  all: try (destruct imms as [|[n|b|s] [|? ?]]; try discriminate Hl).
  all: try (injection Hl as <-).
  all: unfold exec_op; cbn [exec_pure imms_to_args].
  all: subst ib bb.
  all: try rewrite nth_N_spec.
  all: try (destruct (nth_error _ _) as [x|] eqn:Hx; [|discriminate Hl]; cbn in Hl; injection Hl as <-).
  all: try reflexivity.
  all: try (unfold imm_fits in Hf; cbn [p_op p_imms] in Hf; unfold oki, fits64;
            destruct (N.ltb_spec n U64) as [_|Hge]; [reflexivity|unfold U64 in Hge; lia]).
Qed.

(* the original pseudo-op, as the assembler reads it, pushes the value it denotes *)
Lemma denote_parsed sigma msel i v :
  is_const_instr i = true -> denote sigma msel i = Some v ->
  exists p0, parsed_of sigma msel i = Some p0 /\ imm_fits p0 /\ forall ib bb, load_value ib bb p0 = Some v.
Proof.
  unfold denote. intros Hc Hd.
  destruct (parsed_of sigma msel i) as [p0|] eqn:Hp; [|discriminate Hd].
  exists p0. split; [reflexivity|].
  unfold parsed_of in Hp. destruct (arg_tokens sigma (i_args i)) as [ts|]; [|discriminate Hp].
  destruct i as [o args]. cbn [i_op i_args] in *.
  destruct (const_ops _ _ Hc) as [->|[->|[->| ->]]];
    cbn -[parse_int_arg parse_bytes_arg decode_base32 parse_string_literal alookup firstn Nat.eqb String.length] in Hp.
  - (* int *)
    destruct ts as [|a [|b r]]; try discriminate Hp.
    destruct (parse_int_arg a) as [n|] eqn:Hn; [|discriminate Hp]. injection Hp as <-.
    cbn in Hd. injection Hd as <-. split; [exact (parse_int_arg_lt _ _ Hn)|reflexivity].
  - (* byte *)
    destruct (parse_bytes_arg ts) as [[b [|x y]]|]; try discriminate Hp. injection Hp as <-.
    cbn in Hd. injection Hd as <-. split; [exact I|reflexivity].
  - (* addr *)
    destruct ts as [|a [|b r]]; try discriminate Hp.
    destruct (String.length a =? 58)%nat; [|discriminate Hp].
    destruct (decode_base32 a) as [d|]; [|discriminate Hp]. injection Hp as <-.
    unfold push_value in Hd. cbn [p_op p_imms] in Hd. injection Hd as <-. split; [exact I|reflexivity].
  - (* method *)
    destruct ts as [|a [|b r]]; try discriminate Hp.
    destruct (parse_string_literal a) as [sg|]; [|discriminate Hp].
    destruct (alookup String.eqb (string_of_bytes sg) msel) as [sel|]; [|discriminate Hp]. injection Hp as <-.
    cbn in Hd. injection Hd as <-. split; [exact I|reflexivity].
Qed.

(* Site-wise single-step simulation: at a constant site, the original instruction (in any program,
   any machine state) and the rewritten instruction (in any program, any state whose constant blocks
   are the ones the emitted block lines establish) both step to "same state, pc+1, value pushed". *)
Definition site_sim (sigma : string -> string) (msel : list (string * bytes))
           (ib : list N) (bb : list bytes) (c c' : comp) : Prop :=
  match c with
  | COp i =>
      if is_const_instr i then
        exists i' p0 p' v, c' = COp i' /\ parsed_of sigma msel i = Some p0 /\ parsed_of sigma msel i' = Some p' /\
          denote sigma msel i = Some v /\
          forall cx prog0 prog1 m0 m1,
            nth_error (pr_code prog0) (m_pc m0) = Some p0 ->
            nth_error (pr_code prog1) (m_pc m1) = Some p' ->
            m_intc m1 = ib -> m_bytec m1 = bb ->
            (height m0 <= STACK_MAX)%nat -> (height m1 <= STACK_MAX)%nat ->
            step cx prog0 m0 = Running (with_pc_stack m0 (S (m_pc m0)) (sval_value v :: m_stack m0)) /\
            step cx prog1 m1 = Running (with_pc_stack m1 (S (m_pc m1)) (sval_value v :: m_stack m1))
      else c' = c
  | _ => c' = c
  end.

Theorem constants_step_simulation addr_hash sig_hash sigma msel ops out :
  msel_consistent sig_hash msel ->
  create_constant_blocks addr_hash sig_hash ops = Some out ->
  input_ok sigma msel ops ->
  exists pro body ib bb,
    out = (pro ++ body)%list /\
    blocks_after sigma msel pro [] [] = Some (ib, bb) /\
    Forall2 (site_sim sigma msel ib bb) ops body.
Proof.
  intros Hm Hc Hok.
  destruct (constants_sites_preserved addr_hash sig_hash sigma msel Hm ops out Hc Hok)
    as (pro & body & ib & bb & -> & _ & Hb & Hf).
  exists pro, body, ib, bb. split; [reflexivity|]. split; [exact Hb|].
  apply (forall2_impl_in _ _ _ _ _ Hok Hf). intros c c' (Hw & _ & _) Hs.
  destruct c as [i|l cm|pv]; cbn [site_ok site_sim] in *; try exact Hs.
  destruct (is_const_instr i) eqn:Hci; [|exact Hs].
  destruct Hs as (i' & p' & -> & Hp' & Hfit & Hl).
  cbn in Hw. specialize (Hw Hci). destruct (denote sigma msel i) as [v|] eqn:Hd; [|congruence].
  destruct (denote_parsed sigma msel i v Hci Hd) as (p0 & Hp0 & Hfit0 & Hl0).
  exists i', p0, p', v. split; [reflexivity|]. split; [exact Hp0|]. split; [exact Hp'|]. split; [reflexivity|].
  intros cx prog0 prog1 m0 m1 N0 N1 I1 B1 H0 H1. split.
  - exact (load_value_step (m_intc m0) (m_bytec m0) p0 v (Hl0 _ _) Hfit0 cx prog0 m0 N0 eq_refl eq_refl H0).
  - exact (load_value_step ib bb p' v (Hl v eq_refl) Hfit cx prog1 m1 N1 I1 B1 H1).
Qed.

(* positive part: at a well-formed site a long-form index is below the size of the emitted block *)
Theorem constant_index_below_block_size addr_hash sig_hash sigma msel ops out :
  msel_consistent sig_hash msel ->
  create_constant_blocks addr_hash sig_hash ops = Some out ->
  input_ok sigma msel ops ->
  exists pro body ib bb,
    out = (pro ++ body)%list /\ blocks_after sigma msel pro [] [] = Some (ib, bb) /\
    Forall2 (fun c c' =>
      match c with
      | COp i => is_const_instr i = true ->
          forall i' p' k, c' = COp i' -> parsed_of sigma msel i' = Some p' -> p_imms p' = [IInt k] ->
            (p_op p' = O_intc -> (N.to_nat k < List.length ib)%nat) /\
            (p_op p' = O_bytec -> (N.to_nat k < List.length bb)%nat)
      | _ => True
      end) ops body.
Proof.
  intros Hm Hc Hok.
  destruct (constants_sites_preserved addr_hash sig_hash sigma msel Hm ops out Hc Hok)
    as (pro & body & ib & bb & -> & _ & Hb & Hf).
  exists pro, body, ib, bb. split; [reflexivity|]. split; [exact Hb|].
  apply (forall2_impl_in _ _ _ _ _ Hok Hf). intros c c' (Hw & _ & _) Hs.
  destruct c as [i|l cm|pv]; [|exact I..].
  intros Hci i' p' k -> Hp' Himm. cbn [site_ok] in Hs. rewrite Hci in Hs.
  destruct Hs as (i2 & p2 & E & Hp2 & _ & Hl). injection E as <-. rewrite Hp' in Hp2. injection Hp2 as <-.
  cbn in Hw. specialize (Hw Hci). destruct (denote sigma msel i) as [v|] eqn:Hd; [|congruence].
  specialize (Hl v eq_refl). unfold load_value in Hl. rewrite Himm in Hl.
  split; intros Ho; rewrite Ho in Hl; apply nth_error_Some;
    destruct (nth_error _ (N.to_nat k)); [discriminate|discriminate Hl|discriminate|discriminate Hl].
Qed.

(* negative part: nothing bounds the block size.  Witness family: n distinct integers >= 128, each twice. *)
Definition int_op (n : N) : comp := COp (mkI O_int [AInt n]).
Definition byte_op (n : N) : comp := COp (mkI O_byte [AStr (hex_spelling (be_encode 2 n))]).
Definition witness_ints (n : nat) : list comp :=
  let l := map (fun j => int_op (1000 + N.of_nat j)) (seq 0 n) in (l ++ l)%list.
Definition witness_bytes (n : nat) : list comp :=
  let l := map (fun j => byte_op (N.of_nat j)) (seq 0 n) in (l ++ l)%list.

Definition no_hash : bytes -> bytes := fun _ => [].
Definition no_sig : string -> bytes := fun _ => [].
Definition id_sigma : string -> string := fun s => s.

Definition max_long_index (out : list comp) : N :=
  fold_left (fun acc c => match c with COp i => match long_index i with Some k => N.max acc k | None => acc end | _ => acc end) out 0%N.

Lemma int_op_ok sigma msel n : (n < 18446744073709551616)%N ->
  well_formed_site sigma msel (int_op n) /\ no_addr_template_site (int_op n) /\ plain_method_site (int_op n).
Proof.
  intros Hn. split; [|split; exact I]. intros _.
  unfold denote, parsed_of. cbn -[parse_int_arg N_to_dec]. rewrite parse_int_arg_dec by exact Hn. discriminate.
Qed.

Lemma witness_ints_ok sigma msel n : (1000 + N.of_nat n <= 18446744073709551616)%N -> input_ok sigma msel (witness_ints n).
Proof.
  intros Hn. unfold input_ok, witness_ints. apply Forall_app. split; apply Forall_forall; intros c Hc;
    apply in_map_iff in Hc; destruct Hc as (j & <- & Hj); apply in_seq in Hj; apply int_op_ok; lia.
Qed.

(* What createConstantBlocks does to sites with pairwise distinct keys of one kind, each site taken twice:
   every frequency is 2, so the stable sort keeps the order of first occurrence, every key enters its
   block, and both sites of the j-th key load index j. *)
Section Twice.
Local Open Scope list_scope.
Variables (ah : bytes -> bytes) (sh : string -> bytes) (kd : ckind).
Variables (A : Type) (mk : A -> instr) (key : A -> ckey).
Hypothesis Hkd : kd <> CKNone.
Hypothesis Hmk : forall a, const_kind (i_op (mk a)) = kd /\ extract_key ah sh (mk a) = Some (key a).

Definition sites (js : list A) : list comp := map (fun a => COp (mk a)) js.
Definition tally (n : nat) (js : list A) : freqs := map (fun a => (key a, n)) js.
Definition bumps (js : list A) (f : freqs) : freqs := fold_left (fun f a => bump (key a) f) js f.
Fixpoint loads (b : nat) (js : list A) : list comp :=
  match js with
  | [] => []
  | a :: t => COp (load_kind kd b (i_args (mk a))) :: loads (S b) t
  end.

Lemma keys_tally n js : keys (tally n js) = map key js.
Proof. unfold keys, tally. rewrite map_map. reflexivity. Qed.

Lemma tally_snoc n done a : tally n (done ++ [a]) = (tally n done ++ [(key a, n)])%list.
Proof. apply map_app. Qed.

Lemma tally_flat n js : Forall (fun x => snd x = n) (tally n js).
Proof. apply Forall_forall. intros x Hx. apply in_map_iff in Hx. now destruct Hx as (a & <- & _). Qed.

Lemma count_sites js : forall fi fb,
  count_consts ah sh (sites js) fi fb =
  Some (match kd with CKInt => (bumps js fi, fb) | _ => (fi, bumps js fb) end).
Proof.
  induction js as [|a t IH]; intros fi fb; cbn [sites map count_consts].
  - now destruct kd.
  - destruct (Hmk a) as [-> ->]. destruct kd; [apply IH|apply IH|contradiction].
Qed.

Lemma fresh_key n done a t : NoDup (map key (done ++ a :: t)) -> ~ In (key a) (keys (tally n done)).
Proof.
  rewrite keys_tally, map_app. intros H Hin. apply NoDup_remove_2 in H. apply H, in_or_app. now left.
Qed.

(* first and second visit of the keys *)
Lemma bumps_first js : forall done, NoDup (map key (done ++ js)) ->
  bumps js (tally 1 done) = tally 1 (done ++ js).
Proof.
  induction js as [|a t IH]; intros done H; cbn [bumps fold_left]; [now rewrite app_nil_r|].
  rewrite <- (app_nil_r (tally 1 done)), bump_skip by exact (fresh_key 1 done a t H).
  cbn [bump]. rewrite <- tally_snoc.
  specialize (IH (done ++ [a])%list). rewrite <- app_assoc in IH. exact (IH H).
Qed.

Lemma bumps_second js : forall done, NoDup (map key (done ++ js)) ->
  bumps js (tally 2 done ++ tally 1 js) = tally 2 (done ++ js).
Proof.
  induction js as [|a t IH]; intros done H; cbn [bumps fold_left tally map]; [now rewrite !app_nil_r|].
  rewrite bump_skip by exact (fresh_key 2 done a t H). cbn [bump]. rewrite ckey_eqb_refl.
  specialize (IH (done ++ [a])%list). rewrite <- app_assoc, tally_snoc, <- app_assoc in IH. exact (IH H).
Qed.

(* the second disjunct of int_block_keep *)
Definition block_key (k : ckey) : bool :=
  match k with KTmpl _ => true | KInt v => (128 <=? v)%N | KBytes _ => false end.

Lemma int_block_tally js : (forall a, block_key (key a) = true) ->
  forall i, int_block_from i (tally 2 js) = map key js.
Proof.
  intros Hb. induction js as [|a t IH]; intros i; cbn [tally map int_block_from]; [reflexivity|].
  unfold int_block_keep. cbn [fst snd]. fold (block_key (key a)). rewrite Hb, orb_true_r. cbn [andb Nat.ltb Nat.leb].
  f_equal. apply IH.
Qed.

Lemma byte_block_tally js : byte_block_of (tally 2 js) = map key js.
Proof. unfold byte_block_of. induction js as [|a t IH]; cbn; [reflexivity|]. f_equal. exact IH. Qed.

Lemma rewrite_site iks fb sb done a t :
  NoDup (map key (done ++ a :: t)) ->
  match kd with CKInt => iks = map key (done ++ a :: t) | _ => fb = tally 2 (done ++ a :: t) /\ sb = fb end ->
  rewrite_comp ah sh iks fb sb (COp (mk a)) = Some (COp (load_kind kd (List.length done) (i_args (mk a)))).
Proof.
  intros Hnd Hp. pose proof (fresh_key 0 done a t Hnd) as Hf. rewrite keys_tally in Hf.
  assert (Hi : index_of (key a) (map key (done ++ a :: t)) = Some (List.length done))
    by (rewrite map_app; cbn [map]; rewrite index_of_skip by exact Hf; now rewrite map_length).
  cbn [rewrite_comp]. destruct (Hmk a) as [-> ->]. destruct kd; [|destruct Hp as [-> ->]|contradiction].
  - rewrite Hp, Hi. reflexivity.
  - rewrite (freq_of_in _ (eq_ind_r (@NoDup _) Hnd (keys_tally 2 _)) (key a) 2)
      by (apply (in_map (fun a => (key a, 2%nat))), in_or_app; right; now left).
    cbn [Nat.eqb]. fold (keys (tally 2 (done ++ a :: t))). rewrite keys_tally, Hi. reflexivity.
Qed.

Lemma rewrite_sites iks fb sb js : forall done,
  NoDup (map key (done ++ js)) ->
  match kd with CKInt => iks = map key (done ++ js) | _ => fb = tally 2 (done ++ js) /\ sb = fb end ->
  rewrite_all ah sh iks fb sb (sites js) = Some (loads (List.length done) js).
Proof.
  induction js as [|a t IH]; intros done Hnd Hp; cbn [sites map rewrite_all loads]; [reflexivity|].
  rewrite (rewrite_site iks fb sb done a t Hnd Hp).
  replace (done ++ a :: t)%list with ((done ++ [a]) ++ t)%list in * by now rewrite <- app_assoc.
  fold (sites t). rewrite (IH _ Hnd Hp), app_length, Nat.add_1_r. reflexivity.
Qed.

Lemma loads_in js : forall b j a, nth_error js j = Some a ->
  In (COp (load_kind kd (b + j) (i_args (mk a)))) (loads b js).
Proof.
  induction js as [|a0 t IH]; intros b [|j] a H; try discriminate H; cbn [loads nth_error] in *.
  - injection H as ->. rewrite Nat.add_0_r. now left.
  - right. rewrite Nat.add_succ_r. exact (IH (S b) j a H).
Qed.

Notation max_step :=
  (fun acc c => match c with COp i => match long_index i with Some k => N.max acc k | None => acc end | _ => acc end).

Lemma max_loads js : forall b acc,
  fold_left max_step (loads b js) acc =
  match js with
  | [] => acc
  | _ => if (b + List.length js <=? 4)%nat then acc else N.max acc (N.of_nat (b + List.length js - 1))
  end.
Proof.
  induction js as [|a t IH]; intros b acc; [reflexivity|].
  cbn [loads fold_left]. rewrite IH, long_index_load. cbn [List.length].
  destruct t as [|a' t']; cbn [List.length]; destruct (Nat.ltb_spec b 4);
    repeat (match goal with |- context [(?x <=? 4)%nat] => destruct (Nat.leb_spec x 4) end); lia.
Qed.

Lemma max_twice ik bk js :
  max_long_index (block_prologue ik bk ++ loads 0 js ++ loads 0 js) =
  if (List.length js <=? 4)%nat then 0%N else N.of_nat (List.length js - 1).
Proof.
  unfold max_long_index. rewrite !fold_left_app, !max_loads.
  replace (fold_left _ (block_prologue ik bk) 0%N) with 0%N by (unfold block_prologue; now destruct ik, bk).
  destruct js; [reflexivity|]. cbn [Nat.add]. destruct (_ <=? 4)%nat; lia.
Qed.
End Twice.
Arguments sites {A}. Arguments loads kd {A}. Arguments tally {A}. Arguments bumps {A}.

Theorem twice_blocks ah sh kd A (mk : A -> instr) key js :
  kd <> CKNone ->
  (forall a, const_kind (i_op (mk a)) = kd /\ extract_key ah sh (mk a) = Some (key a)) ->
  NoDup (map key js) -> (kd = CKInt -> forall a, block_key (key a) = true) ->
  create_constant_blocks ah sh (sites mk js ++ sites mk js)%list =
  Some (match kd with
        | CKInt => block_prologue (map key js) []
        | _ => block_prologue [] (map key js)
        end ++ loads kd mk 0 js ++ loads kd mk 0 js)%list.
Proof.
  intros Hkd Hmk Hnd Hb. unfold create_constant_blocks, make_plan.
  rewrite <- (map_app _ js js : sites mk (js ++ js)%list = (sites mk js ++ sites mk js)%list) at 1.
  rewrite (count_sites ah sh kd A mk key Hkd Hmk).
  assert (Hf : bumps key (js ++ js)%list [] = tally key 2 js).
  { unfold bumps. rewrite fold_left_app.
    exact (eq_trans (f_equal (bumps key js) (bumps_first A key js [] Hnd)) (bumps_second A key js [] Hnd)). }
  rewrite Hf. pose proof (rewrite_sites ah sh kd A mk key Hkd Hmk) as Hrw.
  destruct kd; [| |contradiction]; cbn [pl_int_block pl_fb pl_sorted_bytes pl_byte_block];
    rewrite (sort_desc_flat 2 _ (tally_flat A key 2 js)), rewrite_all_app.
  - rewrite int_block_tally by now apply Hb.
    rewrite (Hrw _ _ _ js [] Hnd) by reflexivity. reflexivity.
  - rewrite byte_block_tally, (Hrw _ _ _ js [] Hnd) by (split; reflexivity). reflexivity.
Qed.

(* the spelling Bytes(bytes) / Bytes("base16", ..) emits in lowercase — and createConstantBlocks itself
   emits — is read by BOTH constants.py and the assembler, as the same value *)
Theorem hex_spelling_read_by_both b rest :
  extract_bytes [AStr (hex_spelling b)] = Some (KBytes b) /\
  parse_bytes_arg (hex_spelling b :: rest) = Some (b, rest).
Proof.
  split; [|apply parse_bytes_arg_hex_spelling].
  assert (E1 : is_tmpl_name (hex_spelling b) = false) by reflexivity.
  assert (E2 : String.prefix """" (hex_spelling b) = false) by reflexivity.
  assert (E3 : String.prefix "0x" (hex_spelling b) = true) by apply prefix_app.
  unfold extract_bytes. rewrite E1, E2, E3. cbn [andb].
  unfold hex_spelling, bytes_to_hex. cbn [append list_ascii_of_string skipn].
  rewrite list_ascii_of_string_of_list_ascii.
  rewrite (fromhex_agrees _ _ (hex_of_bytes_roundtrip b)). reflexivity.
Qed.

Lemma witness_ints_blocks n : exists pro,
  let l := loads CKInt (fun j => mkI O_int [AInt (1000 + N.of_nat j)]) 0 (seq 0 n) in
  create_constant_blocks no_hash no_sig (witness_ints n) = Some (pro ++ l ++ l)%list /\
  max_long_index (pro ++ l ++ l)%list = if (n <=? 4)%nat then 0%N else N.of_nat (n - 1).
Proof.
  set (mk := fun j => mkI O_int [AInt (1000 + N.of_nat j)]).
  eexists. split; [|rewrite max_twice, seq_length; reflexivity].
  apply (twice_blocks no_hash no_sig CKInt nat mk (fun j => KInt (1000 + N.of_nat j))).
  - discriminate.
  - intros j. split; reflexivity.
  - apply Injective_map_NoDup; [|apply seq_NoDup].
    intros a b E. apply Nat2N.inj, (N.add_cancel_l _ _ 1000). congruence.
  - intros _ j. apply N.leb_le. lia.
Qed.

Lemma witness_bytes_blocks n : (N.of_nat n <= 65536)%N -> exists pro,
  let l := loads CKBytes (fun j => mkI O_byte [AStr (hex_spelling (be_encode 2 (N.of_nat j)))]) 0 (seq 0 n) in
  create_constant_blocks no_hash no_sig (witness_bytes n) = Some (pro ++ l ++ l)%list /\
  max_long_index (pro ++ l ++ l)%list = if (n <=? 4)%nat then 0%N else N.of_nat (n - 1).
Proof.
  intros Hn. set (mk := fun j => mkI O_byte [AStr (hex_spelling (be_encode 2 (N.of_nat j)))]).
  eexists. split; [|rewrite max_twice, seq_length; reflexivity].
  apply (twice_blocks no_hash no_sig CKBytes nat mk (fun j => KBytes (be_encode 2 (N.of_nat j)))).
  - discriminate.
  - intros j. split; [reflexivity|]. apply hex_spelling_read_by_both. exact [].
  - apply (NoDup_map_inv (fun k => match k with KBytes b => be_decode b | _ => 0%N end)). rewrite map_map.
    rewrite (map_ext_in _ N.of_nat)
      by (intros j Hj; apply in_seq in Hj; apply be_decode_encode; change (256 ^ N.of_nat 2)%N with 65536%N; lia).
    apply Injective_map_NoDup; [exact Nat2N.inj|apply seq_NoDup].
  - discriminate.
Qed.

Lemma witness_257_index : exists out i,
  create_constant_blocks no_hash no_sig (witness_ints 257) = Some out /\
  In (COp i) out /\ i_op i = O_intc /\ long_index i = Some 256%N.
Proof.
  destruct (witness_ints_blocks 257) as (pro & E & _).
  eexists _, _. split; [exact E|]. split.
  - apply in_or_app. right. apply in_or_app. left. exact (loads_in CKInt nat _ (seq 0 257) 0 256 256 eq_refl).
  - split; reflexivity.
Qed.

Theorem constant_index_encodable_refuted :
  exists ops out,
    create_constant_blocks no_hash no_sig ops = Some out /\
    input_ok id_sigma [] ops /\
    exists i k, In (COp i) out /\ i_op i = O_intc /\ long_index i = Some k /\ (255 < k)%N.
Proof.
  destruct witness_257_index as (out & i & E & Hin & Ho & Hk).
  exists (witness_ints 257), out. split; [exact E|]. split; [apply witness_ints_ok; lia|].
  exists i, 256%N. repeat split; assumption || reflexivity.
Qed.

(* the same for larger members of the family and for byte constants *)
Lemma witness_family_indices :
  option_map max_long_index (create_constant_blocks no_hash no_sig (witness_ints 257)) = Some 256%N /\
  option_map max_long_index (create_constant_blocks no_hash no_sig (witness_ints 300)) = Some 299%N /\
  option_map max_long_index (create_constant_blocks no_hash no_sig (witness_bytes 300)) = Some 299%N /\
  option_map max_long_index (create_constant_blocks no_hash no_sig (witness_ints 256)) = Some 255%N.
Proof.
  destruct (witness_ints_blocks 257) as (p1 & -> & E1). destruct (witness_ints_blocks 300) as (p2 & -> & E2).
  destruct (witness_bytes_blocks 300) as (p3 & -> & E3); [lia|]. destruct (witness_ints_blocks 256) as (p4 & -> & E4).
  cbn [option_map]. rewrite E1, E2, E3, E4. repeat split.
Qed.

Definition zero_address : string := "AAAAAAAAAAAAAAAAAAAAAAAAAAAAAAAAAAAAAAAAAAAAAAAAAAAAY5HFKQ".
Definition tmpl_addr_ops : list comp := [COp (mkI O_addr [AStr "TMPL_A"])].

(* With the placeholder instantiated by an address (what Tmpl.zero / a user supplies), the pseudo-op
   form denotes the public key, while the rewritten site is not even readable by the assembler. *)
Theorem addr_template_context_refuted :
  exists sigma ops out i i' v,
    create_constant_blocks no_hash no_sig ops = Some out /\
    ops = [COp i] /\ out = [COp i'] /\
    denote sigma [] i = Some v /\
    parsed_of sigma [] i' = None.
Proof.
  exists (fun _ => zero_address), tmpl_addr_ops.
  eexists _, _, _, _. split; [vm_compute; reflexivity|].
  split; [reflexivity|]. split; [reflexivity|]. split; vm_compute; reflexivity.
Qed.

Theorem template_spelling_kept s :
  is_tmpl_name s = true ->
  extract_int [AStr s] = Some (KTmpl s) /\ int_key_arg (KTmpl s) = AStr s /\
  extract_bytes [AStr s] = Some (KTmpl s) /\ bytes_key_arg (KTmpl s) = AStr s.
Proof.
  intros H. unfold extract_int, extract_bytes. rewrite H. repeat split.
Qed.

Theorem enum_value_kept name n :
  is_tmpl_name name = false ->
  extract_int [AStr name] = Some (KInt n) ->
  parse_int_arg name = Some n /\ parse_int_arg (N_to_dec n) = Some n.
Proof.
  intros Ht H. unfold extract_int in H. rewrite Ht in H.
  destruct (assoc_str name int_enum_values) as [m|] eqn:E; [|discriminate H]. injection H as <-.
  now apply int_enum_agrees.
Qed.

Definition example_ops : list comp :=
  [COp (mkI O_int [AInt 5]); COp (mkI O_byte [AStr """a\x62"""]); COp (mkI O_int [AStr "pay"]);
   CLabel "l0" None; COp (mkI O_int [AInt 5]); COp (mkI O_byte [AStr "0x6162"]);
   COp (mkI O_byte [AStr "base64(YWI=)"]); COp (mkI O_int [AStr "TMPL_N"]); COp (mkI O_pop []);
   COp (mkI O_byte [AStr "base32(MFRA)"]); COp (mkI O_int [AInt 1])].

Example example_output :
  option_map (fun out => assemble_all out) (create_constant_blocks no_hash no_sig example_ops) =
  Some (Some ["intcblock 5 1"; "bytecblock 0x6162"; "intc_0 // 5"; "bytec_0 // ""a\x62"""; "intc_1 // pay"; "l0:";
              "intc_0 // 5"; "bytec_0 // 0x6162"; "bytec_0 // base64(YWI=)"; "pushint TMPL_N // TMPL_N"; "pop";
              "bytec_0 // base32(MFRA)"; "intc_1 // 1"]).
Proof. vm_compute. reflexivity. Qed.

Example example_input_ok : input_ok (fun _ => "77") [] example_ops.
Proof.
  apply input_okb_sound. vm_compute. reflexivity.
Qed.

Example example_msel_consistent : msel_consistent no_sig [].
Proof. intros sg sel H. discriminate H. Qed.
