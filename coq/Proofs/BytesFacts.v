(* Proofs/BytesFacts.v — byte strings (Base/Bytes.v): lengths, substrings of concatenations, the big-endian
   codec, and bit addressing as the AVM does it (AVM/Ops.v get_bit_bytes / set_bit_bytes: bit 0 is the most
   significant bit of byte 0). *)
From Coq Require Import List NArith Arith Ascii Bool Lia.
From PV Require Import Base.Bytes Base.U64 AVM.Ops.
Import ListNotations.

Lemma map_fst_combine : forall {A B} (l1 : list A) (l2 : list B),
  List.length l1 = List.length l2 -> map fst (combine l1 l2) = l1.
Proof.
  intros A B l1. induction l1 as [| x r IH]; intros l2 H; [reflexivity |].
  destruct l2 as [| y r2]; [discriminate |]. cbn. f_equal. apply IH. cbn in H. lia.
Qed.

(* related lists, cut at a position of the first *)
Lemma Forall2_split : forall {A B} (R : A -> B -> Prop) l1 l2 i x,
    Forall2 R l1 l2 -> nth_error l1 i = Some x ->
    exists y, nth_error l2 i = Some y /\ R x y /\
              l1 = firstn i l1 ++ x :: skipn (S i) l1 /\ l2 = firstn i l2 ++ y :: skipn (S i) l2 /\
              Forall2 R (skipn (S i) l1) (skipn (S i) l2) /\ (i < List.length l1)%nat.
Proof.
  intros A B R l1 l2 i x F. revert i. induction F as [|a b r1 r2 Hab F IH]; intros i Hn.
  - destruct i; discriminate.
  - destruct i as [|i]; cbn in Hn.
    + injection Hn as <-. exists b. cbn. repeat split; auto. lia.
    + destruct (IH _ Hn) as (y & Hy & Hr & E1 & E2 & F' & L). exists y. cbn [nth_error firstn skipn app List.length].
      repeat split; auto; try (f_equal; assumption). lia.
Qed.

Local Open Scope N_scope.

Lemma blen_app : forall a b : bytes, blen (a ++ b) = blen a + blen b.
Proof. intros. unfold blen. rewrite app_length. lia. Qed.

Lemma to_nat_blen : forall b : bytes, N.to_nat (blen b) = List.length b.
Proof. intros. apply Nat2N.id. Qed.

Lemma blen_repeat : forall (c : ascii) n, blen (repeat c (N.to_nat n)) = n.
Proof. intros c n. unfold blen. rewrite repeat_length. apply N2Nat.id. Qed.

Lemma blen_zero_nil : forall a : bytes, blen a = 0 -> a = [].
Proof. intros [|x r] H; [reflexivity | discriminate H]. Qed.

(* whatever fits a byte string fits a uint64 *)
Lemma MAXB_U64 : forall n, n <= MAX_BYTES -> n < U64.
Proof. intros n H. unfold MAX_BYTES in H. unfold U64. lia. Qed.

Lemma b2n_lt : forall c, b2n c < 256.
Proof. intro c. apply N_ascii_bounded. Qed.

Lemma n2b_b2n : forall c, n2b (b2n c) = c.
Proof. intro c. unfold n2b. rewrite N.mod_small by apply b2n_lt. apply ascii_N_embedding. Qed.

Lemma b2n_n2b : forall n, b2n (n2b n) = n mod 256.
Proof. intro n. apply N_ascii_embedding. apply N.mod_lt. discriminate. Qed.

Lemma bytes_eqb_refl : forall a, bytes_eqb a a = true.
Proof. induction a as [|x r IH]; [reflexivity|]. cbn. now rewrite Ascii.eqb_refl. Qed.

Lemma bytes_eqb_eq : forall a b, bytes_eqb a b = true <-> a = b.
Proof.
  intros a b. split; [|intros ->; apply bytes_eqb_refl].
  revert b. induction a as [|x r IH]; intros [|y r2] H; simpl in H; try discriminate; [reflexivity|].
  apply andb_true_iff in H as [H1 H2]. apply Ascii.eqb_eq in H1. apply IH in H2. congruence.
Qed.

(* the middle of a concatenation *)
Lemma bsub_mid : forall a b c : bytes, bsub (a ++ b ++ c) (blen a) (blen a + blen b) = Some b.
Proof.
  intros. unfold bsub.
  assert (H1 : (blen a <=? blen a + blen b) = true) by (apply N.leb_le; lia).
  assert (H2 : (blen a + blen b <=? blen (a ++ b ++ c)) = true)
    by (apply N.leb_le; rewrite !blen_app; lia).
  rewrite H1, H2. cbn [andb].
  replace (blen a + blen b - blen a) with (blen b) by lia.
  rewrite !to_nat_blen, skipn_app, skipn_all, Nat.sub_diag. cbn [skipn app].
  rewrite firstn_app, firstn_all, Nat.sub_diag. cbn [firstn]. rewrite app_nil_r. reflexivity.
Qed.

Lemma bsub_mid' : forall (enc a b c : bytes) s e,
    enc = a ++ b ++ c -> s = blen a -> e = s + blen b -> bsub enc s e = Some b.
Proof. intros; subst. apply bsub_mid. Qed.

(* from the end of a to the end *)
Lemma bsub_suffix : forall a b : bytes, bsub (a ++ b) (blen a) (blen (a ++ b)) = Some b.
Proof.
  intros. pose proof (bsub_mid a b []) as H. rewrite app_nil_r in H. rewrite blen_app. exact H.
Qed.

Lemma bsub_len : forall b s e x, bsub b s e = Some x -> blen x = e - s /\ s <= e /\ e <= blen b.
Proof.
  intros b s e x H. unfold bsub in H.
  destruct (N.leb_spec s e); [|discriminate]. destruct (N.leb_spec e (blen b)); [|discriminate].
  injection H as <-. split; [|split; assumption].
  unfold blen in *. rewrite firstn_length, skipn_length. lia.
Qed.

Lemma bsub_fail : forall b s e, blen b < e -> bsub b s e = None.
Proof.
  intros b s e H. unfold bsub. apply N.leb_gt in H. rewrite H, andb_false_r. reflexivity.
Qed.

(* positions behind a prefix *)
Lemma bsub_app_shift : forall (pre body : bytes) s e, bsub (pre ++ body) (blen pre + s) (blen pre + e) = bsub body s e.
Proof.
  intros pre body s e. unfold bsub. rewrite blen_app.
  replace (blen pre + s <=? blen pre + e) with (s <=? e)
    by (destruct (N.leb_spec s e), (N.leb_spec (blen pre + s) (blen pre + e)); auto; lia).
  replace (blen pre + e <=? blen pre + blen body) with (e <=? blen body)
    by (destruct (N.leb_spec e (blen body)), (N.leb_spec (blen pre + e) (blen pre + blen body)); auto; lia).
  destruct ((s <=? e) && (e <=? blen body))%bool; [|reflexivity].
  replace (blen pre + e - (blen pre + s)) with (e - s) by lia.
  rewrite N2Nat.inj_add, to_nat_blen, skipn_app, skipn_all2 by lia.
  replace (List.length pre + N.to_nat s - List.length pre)%nat with (N.to_nat s) by lia. reflexivity.
Qed.

Lemma nth_N_spec : forall {A} (l : list A) i, nth_N l i = nth_error l (N.to_nat i).
Proof.
  intros A l i. unfold nth_N. destruct (N.ltb_spec i (N.of_nat (List.length l))); [reflexivity|].
  symmetry. apply nth_error_None. lia.
Qed.

Lemma nth_N_app_mid : forall (a : bytes) c (r : bytes), nth_N (a ++ c :: r) (blen a) = Some c.
Proof.
  intros. rewrite nth_N_spec, to_nat_blen, nth_error_app2, Nat.sub_diag by lia. reflexivity.
Qed.

Lemma be_encode_len : forall k n, blen (be_encode k n) = N.of_nat k.
Proof.
  induction k as [|k IH]; intro n; [reflexivity|].
  cbn [be_encode]. rewrite blen_app, IH. unfold blen. cbn [List.length]. lia.
Qed.

(* the k + m low-order bytes: the k bytes above the m lowest, then those *)
Lemma be_encode_split : forall m k n,
    be_encode (k + m) n = be_encode k (n / 256 ^ N.of_nat m) ++ be_encode m n.
Proof.
  induction m as [|m IH]; intros k n.
  - rewrite Nat.add_0_r. simpl. rewrite N.div_1_r, app_nil_r. reflexivity.
  - replace (k + S m)%nat with (S (k + m)) by lia. cbn [be_encode]. rewrite IH.
    rewrite app_assoc. f_equal. f_equal.
    rewrite Nat2N.inj_succ, N.pow_succ_r'. rewrite N.div_div by (try apply N.pow_nonzero; discriminate).
    reflexivity.
Qed.

Lemma be_decode_acc_app : forall a b acc, be_decode_acc acc (a ++ b) = be_decode_acc (be_decode_acc acc a) b.
Proof. induction a as [|c r IH]; intros b acc; cbn; [reflexivity|]. apply IH. Qed.

Lemma be_decode_acc_encode : forall k n acc,
    be_decode_acc acc (be_encode k n) = acc * 256 ^ N.of_nat k + n mod 256 ^ N.of_nat k.
Proof.
  induction k as [|k IH]; intros n acc.
  - cbn. rewrite N.mod_1_r. lia.
  - cbn [be_encode]. rewrite be_decode_acc_app, IH. cbn [be_decode_acc]. rewrite b2n_n2b.
    rewrite Nat2N.inj_succ, N.pow_succ_r by lia.
    assert (P : 256 ^ N.of_nat k <> 0) by (apply N.pow_nonzero; lia).
    rewrite (N.mod_mul_r n 256 (256 ^ N.of_nat k)) by (lia || assumption).
    lia.
Qed.

Lemma be_decode_encode : forall k n, n < 256 ^ N.of_nat k -> be_decode (be_encode k n) = n.
Proof.
  intros k n H. unfold be_decode. rewrite be_decode_acc_encode. rewrite N.mod_small by exact H. lia.
Qed.

(* bit j of a byte string, index in nat *)
Definition bit_at (bs : bytes) (j : nat) : option bool :=
  match nth_error bs (j / 8) with
  | Some c => Some (N.testbit (b2n c) (N.of_nat (7 - j mod 8)))
  | None => None
  end.

Lemma get_bit_bytes_bit_at : forall bs j,
    get_bit_bytes bs (N.of_nat j) = option_map b2N (bit_at bs j).
Proof.
  intros bs j. unfold get_bit_bytes, bit_at. rewrite nth_N_spec.
  replace (N.of_nat j / 8) with (N.of_nat (j / 8)) by (rewrite Nat2N.inj_div; reflexivity).
  replace (N.of_nat j mod 8) with (N.of_nat (j mod 8)) by (rewrite Nat2N.inj_mod; reflexivity).
  rewrite Nat2N.id. destruct (nth_error bs (j / 8)); [|reflexivity]. cbn [option_map].
  replace (7 - N.of_nat (j mod 8)) with (N.of_nat (7 - j mod 8))
    by (pose proof (Nat.mod_upper_bound j 8 ltac:(lia)); lia).
  reflexivity.
Qed.

Lemma bit_at_cons_lo : forall c r j, (j < 8)%nat -> bit_at (c :: r) j = Some (N.testbit (b2n c) (N.of_nat (7 - j))).
Proof.
  intros c r j H. unfold bit_at. rewrite Nat.div_small, Nat.mod_small by exact H. reflexivity.
Qed.

Lemma bit_at_cons_hi : forall c r j, bit_at (c :: r) (8 + j) = bit_at r j.
Proof.
  intros c r j. unfold bit_at.
  replace (8 + j)%nat with (j + 1 * 8)%nat by lia. rewrite Nat.div_add, Nat.mod_add by lia.
  rewrite Nat.add_1_r. reflexivity.
Qed.

Lemma bit_at_app : forall a b j, bit_at (a ++ b) (8 * List.length a + j) = bit_at b j.
Proof.
  induction a as [|c r IH]; intros b j; cbn [List.length app].
  - rewrite Nat.mul_0_r. reflexivity.
  - replace (8 * S (List.length r) + j)%nat with (8 + (8 * List.length r + j))%nat by lia.
    rewrite bit_at_cons_hi. apply IH.
Qed.

Lemma bit_at_app_l : forall a b j, (j < 8 * List.length a)%nat -> bit_at (a ++ b) j = bit_at a j.
Proof.
  intros a b j H. unfold bit_at.
  rewrite nth_error_app1 by (apply Nat.div_lt_upper_bound; lia). reflexivity.
Qed.

Lemma testbit_n2b : forall x m, m < 8 -> N.testbit (b2n (n2b x)) m = N.testbit x m.
Proof.
  intros x m H. rewrite b2n_n2b. change 256 with (2 ^ 8). apply N.mod_pow2_bits_low. exact H.
Qed.

Lemma get_bit_bytes_shift : forall (pre body : bytes) i,
    get_bit_bytes (pre ++ body) (8 * blen pre + i) = get_bit_bytes body i.
Proof.
  intros pre body i. rewrite <- (N2Nat.id i). unfold blen.
  replace (8 * N.of_nat (List.length pre) + N.of_nat (N.to_nat i))
    with (N.of_nat (8 * List.length pre + N.to_nat i)) by lia.
  rewrite !get_bit_bytes_bit_at, bit_at_app. reflexivity.
Qed.

(* a bit that can be read lies inside the string *)
Lemma get_bit_bytes_bound : forall enc i x, get_bit_bytes enc i = Some x -> i < 8 * blen enc.
Proof.
  intros enc i x H. unfold get_bit_bytes in H. rewrite nth_N_spec in H.
  destruct (nth_error enc (N.to_nat (i / 8))) eqn:E; [|discriminate].
  assert (L : (N.to_nat (i / 8) < List.length enc)%nat) by (apply nth_error_Some; congruence).
  destruct (N.lt_ge_cases i (8 * blen enc)) as [G|G]; [exact G|].
  apply N.div_le_lower_bound in G; [|discriminate]. unfold blen in G. lia.
Qed.

Lemma get_bit_bytes_beyond : forall enc j, 8 * blen enc <= j -> get_bit_bytes enc j = None.
Proof.
  intros enc j H. destruct (get_bit_bytes enc j) eqn:E; [|reflexivity].
  apply get_bit_bytes_bound in E. lia.
Qed.

Lemma bit_at_zeros : forall n j, (j < 8 * n)%nat -> bit_at (repeat zero n) j = Some false.
Proof.
  intros n j H. unfold bit_at. rewrite (nth_error_nth' _ zero) by (rewrite repeat_length; apply Nat.div_lt_upper_bound; lia).
  rewrite nth_repeat. reflexivity.
Qed.

(* a byte is determined by its eight bits *)
Lemma byte_bits_ext : forall c d : ascii,
    (forall m, m < 8 -> N.testbit (b2n c) m = N.testbit (b2n d) m) -> c = d.
Proof.
  intros c d H. rewrite <- (n2b_b2n c), <- (n2b_b2n d). f_equal. apply N.bits_inj. intro m.
  destruct (N.lt_ge_cases m 8) as [L|L]; [exact (H m L)|].
  rewrite <- (N.mod_small (b2n c) (2 ^ 8)), <- (N.mod_small (b2n d) (2 ^ 8)) by apply b2n_lt.
  rewrite !N.mod_pow2_bits_high by exact L. reflexivity.
Qed.

Lemma bytes_bit_ext : forall a b : bytes, List.length a = List.length b ->
    (forall j, (j < 8 * List.length a)%nat -> bit_at a j = bit_at b j) -> a = b.
Proof.
  induction a as [|c r IH]; intros [|d s] L H; try discriminate L; [reflexivity|].
  cbn [List.length] in L, H. f_equal.
  - apply byte_bits_ext. intros m Hm.
    specialize (H (7 - N.to_nat m)%nat ltac:(lia)). rewrite !bit_at_cons_lo in H by lia.
    replace (N.of_nat (7 - (7 - N.to_nat m))) with m in H by lia. congruence.
  - apply IH; [lia|]. intros j Hj. specialize (H (8 + j)%nat ltac:(lia)). rewrite !bit_at_cons_hi in H. exact H.
Qed.

Lemma list_update_length : forall {A} (l : list A) i x, List.length (list_update l i x) = List.length l.
Proof. induction l as [|a r IH]; intros [|i] x; cbn; auto. Qed.

Lemma nth_error_list_update : forall {A} (l : list A) i x k, (i < List.length l)%nat ->
    nth_error (list_update l i x) k = if Nat.eqb k i then Some x else nth_error l k.
Proof.
  induction l as [|a r IH]; intros i x k H; [cbn in H; lia|].
  destruct i as [|i], k as [|k]; cbn in *; try reflexivity. apply IH. lia.
Qed.

(* the mask that clears bit q of a byte *)
Lemma testbit_clear_mask : forall p q, q < 8 -> N.testbit (255 - 2 ^ q) p = N.testbit 255 p && negb (p =? q).
Proof.
  intros p q Hq. change 255 with (N.ones 8).
  rewrite N.sub_nocarry_ldiff, N.ldiff_spec, N.pow2_bits_eqb, (N.eqb_sym q p); [reflexivity|].
  apply N.bits_inj. intro k. rewrite N.ldiff_spec, N.pow2_bits_eqb, N.bits_0.
  destruct (N.eqb_spec q k) as [<-|]; [rewrite N.ones_spec_low by exact Hq|]; reflexivity.
Qed.

(* SetBit writes one bit and leaves the others *)
Lemma set_bit_bytes_spec : forall acc i (b : bool), (i < 8 * List.length acc)%nat ->
    exists acc', set_bit_bytes acc (N.of_nat i) (b2N b) = Some acc' /\ List.length acc' = List.length acc /\
                 forall j, bit_at acc' j = if Nat.eqb j i then Some b else bit_at acc j.
Proof.
  intros acc i b Hi. unfold set_bit_bytes. rewrite nth_N_spec.
  replace (N.of_nat i / 8) with (N.of_nat (i / 8)) by (rewrite Nat2N.inj_div; reflexivity).
  replace (N.of_nat i mod 8) with (N.of_nat (i mod 8)) by (rewrite Nat2N.inj_mod; reflexivity).
  rewrite Nat2N.id.
  assert (Hk : (i / 8 < List.length acc)%nat) by (apply Nat.div_lt_upper_bound; lia).
  destruct (nth_error acc (i / 8)) as [c|] eqn:Ec; [|apply nth_error_None in Ec; lia].
  eexists. split; [reflexivity|]. split; [apply list_update_length|].
  intro j. unfold bit_at. rewrite nth_error_list_update by exact Hk.
  pose proof (Nat.mod_upper_bound i 8 ltac:(lia)) as Hi8. pose proof (Nat.mod_upper_bound j 8 ltac:(lia)) as Hj8.
  pose proof (Nat.div_mod i 8 ltac:(lia)). pose proof (Nat.div_mod j 8 ltac:(lia)).
  replace (7 - N.of_nat (i mod 8)) with (N.of_nat (7 - i mod 8)) by lia.
  destruct (Nat.eqb_spec (j / 8) (i / 8)) as [E|E]; [|destruct (Nat.eqb_spec j i) as [->|Hne]; [congruence | reflexivity]].
  rewrite E, Ec, testbit_n2b, N.shiftl_1_l by lia.
  assert (Hpq : (N.of_nat (7 - j mod 8) =? N.of_nat (7 - i mod 8)) = Nat.eqb j i).
  { destruct (Nat.eqb_spec j i) as [->|Hne]; [apply N.eqb_refl | apply N.eqb_neq; lia]. }
  destruct b; cbn [b2N N.eqb].
  - rewrite N.lor_spec, N.pow2_bits_eqb, N.eqb_sym, Hpq. destruct (Nat.eqb j i); [apply f_equal, orb_true_r | rewrite orb_false_r; reflexivity].
  - rewrite N.land_spec, testbit_clear_mask, Hpq by lia. change 255 with (N.ones 8). rewrite N.ones_spec_low by lia.
    destruct (Nat.eqb j i); cbn [negb andb]; [rewrite andb_false_r | rewrite andb_true_r]; reflexivity.
Qed.
