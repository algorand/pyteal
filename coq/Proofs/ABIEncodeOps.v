(* Proofs/ABIEncodeOps.v — the primitive operations of ABI/Encode.v ARE the AVM opcodes
   (AVM/Ops.v exec_pure), and elementary facts about them. *)
From Coq Require Import List NArith ZArith Ascii String Bool Lia.
From PV Require Import Base.Bytes Base.U64 AVM.Syntax AVM.Ops ABI.Types ABI.Spec ABI.Encode Proofs.BytesFacts.
Import ListNotations.
Local Open Scope N_scope.

Lemma itob_is_avm : forall n r, exec_pure O_itob [] (VI n :: r) = POk (VB (x_itob n) :: r).
Proof. reflexivity. Qed.

(* Suffix(b, Int(s)) is compiled to `extract s 0` (s <= 255, version >= 5) *)
Lemma suffix_is_avm_extract : forall b s r,
    exec_pure O_extract [AInt s; AInt 0] (VB b :: r) =
    match x_suffix b s with Some x => POk (VB x :: r) | None => PFail end.
Proof. reflexivity. Qed.

Lemma setbit_is_avm : forall b i v r,
    exec_pure O_setbit [] (VI v :: VI i :: VB b :: r) =
    match x_setbit b i v with Some x => POk (VB x :: r) | None => PFail end.
Proof. intros. unfold x_setbit. simpl. destruct (v <=? 1); [destruct (set_bit_bytes b i v)|]; reflexivity. Qed.

Lemma setbyte_is_avm : forall b i v r,
    exec_pure O_setbyte [] (VI v :: VI i :: VB b :: r) =
    match x_setbyte b i v with Some x => POk (VB x :: r) | None => PFail end.
Proof. intros. unfold x_setbyte. simpl. destruct ((v <=? 255) && (i <? blen b)); reflexivity. Qed.

Lemma not_is_avm : forall n r, exec_pure O_logic_not [] (VI n :: r) = POk (VI (x_not n) :: r).
Proof. reflexivity. Qed.

Lemma concat_is_avm : forall a b r,
    exec_pure O_concat [] (VB b :: VB a :: r) =
    match x_concat (Some MAX_BYTES) a b with Some x => POk (VB x :: r) | None => PFail end.
Proof. intros. unfold x_concat. simpl. unfold okb. destruct (blen (a ++ b) <=? MAX_BYTES); reflexivity. Qed.

Lemma len_is_avm : forall b r, exec_pure O_len [] (VB b :: r) = POk (VI (blen b) :: r).
Proof. reflexivity. Qed.

(* the range assert of uint_set: `load; int 2^size; <; assert` *)
Lemma uint_set_expr_is_avm : forall size n r,
    size <> 64 ->
    match exec_pure O_lt [] (VI (2 ^ size) :: VI n :: r) with
    | POk s => exec_pure O_assert_ [] s
    | x => x
    end = match uint_set_expr size n with Some _ => POk r | None => PFail end.
Proof.
  intros size n r H. unfold uint_set_expr. apply N.eqb_neq in H. rewrite H. simpl.
  unfold okbool. destruct (n <? 2 ^ size); reflexivity.
Qed.

(* the length assert of StaticBytes.set(Expr): `int n; load; len; ==; assert` *)
Lemma static_bytes_assert_is_avm : forall n v r,
    match exec_pure O_eq [] (VI (blen v) :: VI n :: r) with
    | POk s => exec_pure O_assert_ [] s
    | x => x
    end = match static_bytes_set_expr n v with Some _ => POk r | None => PFail end.
Proof. intros. unfold static_bytes_set_expr. simpl. unfold okbool. destruct (n =? blen v); reflexivity. Qed.

(* Suffix(Itob(n), Int(8 - k)) = the k low-order bytes, big-endian *)
Lemma suffix_itob : forall k n, (k <= 8)%nat ->
    x_suffix (x_itob n) (N.of_nat (8 - k)) = Some (be_encode k n).
Proof.
  intros k n H. unfold x_suffix, x_itob.
  replace 8%nat with ((8 - k) + k)%nat at 1 3 by lia.
  rewrite be_encode_split.
  rewrite <- (be_encode_len (8 - k) (n / 256 ^ N.of_nat k)) at 1.
  apply bsub_suffix.
Qed.

Lemma uint_encode_16 : forall n, uint_encode 16 n = Some (be_encode 2 n).
Proof. intro n. unfold uint_encode. simpl. exact (suffix_itob 2 n ltac:(lia)). Qed.

Lemma uint_encode_32 : forall n, uint_encode 32 n = Some (be_encode 4 n).
Proof. intro n. unfold uint_encode. simpl. exact (suffix_itob 4 n ltac:(lia)). Qed.

Lemma uint_encode_64 : forall n, uint_encode 64 n = Some (be_encode 8 n).
Proof. reflexivity. Qed.

Lemma uint_encode_8 : forall n, n < 256 -> uint_encode 8 n = Some (be_encode 1 n).
Proof.
  intros n H. unfold uint_encode, x_setbyte. simpl.
  assert (Hle : (n <=? 255) = true) by (apply N.leb_le; lia). rewrite Hle. reflexivity.
Qed.

Lemma uint_encode_8_fails : forall n, 256 <= n -> uint_encode 8 n = None.
Proof.
  intros n H. unfold uint_encode, x_setbyte. simpl.
  assert (Hle : (n <=? 255) = false) by (apply N.leb_gt; lia). rewrite Hle. reflexivity.
Qed.

Lemma x_concat_none : forall a b, x_concat None a b = Some (a ++ b).
Proof. reflexivity. Qed.

Lemma concat_all_none : forall parts, concat_all None parts = Some (List.concat parts).
Proof.
  intros [|p r]; [reflexivity|]. simpl.
  revert p. induction r as [|x r IH]; intro p; simpl; [rewrite app_nil_r; reflexivity|].
  rewrite IH. rewrite app_assoc. reflexivity.
Qed.

(* with a cap, an answer is the uncapped answer *)
Lemma x_concat_mono : forall l a b c, x_concat (Some l) a b = Some c -> x_concat None a b = Some c.
Proof. intros l a b c H. unfold x_concat in *. destruct (blen (a ++ b) <=? l); [exact H | discriminate]. Qed.

Lemma x_concat_within : forall l a b, blen (a ++ b) <= l -> x_concat (Some l) a b = Some (a ++ b).
Proof. intros l a b H. unfold x_concat. apply N.leb_le in H. rewrite H. reflexivity. Qed.
