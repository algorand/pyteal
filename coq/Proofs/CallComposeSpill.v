(* Proofs/CallComposeSpill.v — property C02, recursion: code in which some call statements are wrapped
   in straight-line code (what [spill] does: [spill_one] = loads/covers before, stores/pops after a
   re-entrant [callsub]) against the unwrapped code.

   [expand c] is the replacement of component c: [c] itself, or a STRAIGHT-LINE segment (no label, no
   branch, no return/retsub) around a call instruction.  The unwrapped code is run with the oracle
   [wrap orc]: a wrapped call answers with the outcome of running its segment (with the raw oracle
   [orc] for the call inside it) — [seg_orc].  [spill_sim]: that run is, position for position
   ([pos]), the run of the expanded code with the raw oracle.  States are equal, not just equivalent:
   the statement is purely about where the instructions sit. *)
From Coq Require Import List Arith NArith String Bool Lia.
From PV Require Import Base.Bytes AVM.Syntax AVM.Machine Src.Expr
  Comp.Blocks Comp.Lower Comp.Passes Comp.Compile
  CallX.Denote CallX.DoOp CallX.GraphSem CallX.LinearSem CallX.FlattenCorrect Proofs.CallComposeLink.
Import ListNotations.
Local Open Scope list_scope.

Definition with_call (env : denv) (orc : N -> list value -> mstate -> callres) : denv :=
  mkEnv (e_ctx env) (e_asg env) (e_msel env) (e_subs env) (e_in_sub env) (e_param env) orc.

(* an instruction that only runs through [do_op] and moves to the next position *)
Definition straight (c : comp) : bool :=
  match c with
  | COp i => negb (is_return (i_op i)) && negb (is_retsub (i_op i)) &&
             match jump_of i with None => true | Some _ => false end
  | _ => false
  end.

Lemma lstep_straight env code pc i stk st : straight (COp i) = true ->
  lstep_op env code pc i stk st =
  match do_op env (i_op i) (i_args i) stk st with
  | DNorm s' st' => LAt (S pc) s' st'
  | DExit v st' => LExit v st'
  | DUnsup o => LUnsup o
  | _ => LFail
  end.
Proof.
  cbn [straight]. intros H. apply andb_prop in H as [H J]. apply andb_prop in H as [R R']. apply negb_true_iff in R, R'.
  unfold lstep_op. rewrite R, R'. destruct (jump_of i); [discriminate J|reflexivity].
Qed.

Definition call_stmt_of (f : N) : comp := COp (mkI O_callsub [ASub f]).

(* the outcome of a straight-line segment, as a call result *)
Definition seg_orc (env : denv) (seg : list comp) (stk : list value) (st : mstate) : callres :=
  match lrun (S (List.length seg)) env seg (LAt 0 stk st) with
  | LEnd s' st' => CRet s' st'
  | LExit v st' => CExit v st'
  | LFail => CFail
  | _ => CNone
  end.

Section Expand.
  (* [wrapper f = Some (pre, post)]: a call of f is replaced by pre ++ [the call] ++ post *)
  Variable wrapper : N -> option (list comp * list comp).

  Definition expand (c : comp) : list comp :=
    match c with
    | COp i =>
        match call_target (i_op i) (i_args i) with
        | Some f => match wrapper f with Some (pre, post) => pre ++ [c] ++ post | None => [c] end
        | None => [c]
        end
    | _ => [c]
    end.

  Definition wrapper_ok : Prop :=
    forall f pre post, wrapper f = Some (pre, post) -> forallb straight pre = true /\ forallb straight post = true.

  (* every replacement is the component itself or a straight-line segment around a call instruction *)
  Definition expand_ok : Prop :=
    forall c, (expand c = [c] /\
               forall i f, c = COp i -> call_target (i_op i) (i_args i) = Some f -> wrapper f = None) \/
              (exists f pre post, c = call_stmt_of f /\ wrapper f = Some (pre, post)) /\ forallb straight (expand c) = true.

  Definition pos (code : list comp) (k : nat) : nat := List.length (flat_map expand (firstn k code)).

  Definition is_wrapped (f : N) : bool := match wrapper f with Some _ => true | None => false end.

  Variable env0 : denv.
  Variable orc : N -> list value -> mstate -> callres.

  Definition envR : denv := with_call env0 orc.

  Definition wrap (f : N) (stk : list value) (st : mstate) : callres :=
    if is_wrapped f then seg_orc envR (expand (call_stmt_of f)) stk st else orc f stk st.

  Definition envW : denv := with_call env0 wrap.

  Hypothesis HW : wrapper_ok.

  Lemma straight_call f : straight (call_stmt_of f) = true.
  Proof. reflexivity. Qed.

  Lemma HE : expand_ok.
  Proof.
    intros c. destruct c as [i|l cm|v]; try (left; split; [reflexivity|intros ? ? Q; discriminate Q]). cbn [expand].
    destruct (call_target (i_op i) (i_args i)) as [f|] eqn:CT;
      [|left; split; [reflexivity|intros i' f' Q; injection Q as <-; rewrite CT; discriminate]].
    destruct (wrapper f) as [[pre post]|] eqn:Wf;
      [|left; split; [reflexivity|intros i' f' Q C'; injection Q as <-; rewrite CT in C'; injection C' as <-; exact Wf]]. right.
    destruct (call_target_inv _ _ _ CT) as [Eo Ea]. destruct i as [o a]. cbn [i_op i_args] in Eo, Ea. subst o a.
    split; [exists f, pre, post; split; [reflexivity|exact Wf]|].
    destruct (HW f pre post Wf) as [S1 S2]. rewrite !forallb_app, S1, S2. reflexivity.
  Qed.

  Lemma pos_0 code : pos code 0 = 0.
  Proof. reflexivity. Qed.

  Lemma pos_cons c t p : pos (c :: t) (S p) = List.length (expand c) + pos t p.
  Proof. unfold pos. cbn [firstn flat_map]. apply app_length. Qed.

  Lemma pos_S code : forall pc c, nth_error code pc = Some c -> pos code (S pc) = pos code pc + List.length (expand c).
  Proof.
    induction code as [|y t IH]; intros [|pc] c H; try discriminate H; cbn [nth_error] in H; rewrite pos_cons.
    - injection H as ->. rewrite !pos_0. lia.
    - rewrite pos_cons, (IH pc c H). lia.
  Qed.

  Lemma expanded_at code : forall pc c, nth_error code pc = Some c ->
    forall j x, nth_error (expand c) j = Some x -> nth_error (flat_map expand code) (pos code pc + j) = Some x.
  Proof.
    induction code as [|y t IH]; intros [|pc] c H j x Hj; try discriminate H; cbn [nth_error flat_map] in *.
    - injection H as ->. change (pos (c :: t) 0 + j) with j. rewrite nth_error_app1; [exact Hj|]. apply nth_error_Some. rewrite Hj. discriminate.
    - rewrite pos_cons, nth_error_app2 by lia.
      replace (List.length (expand y) + pos t pc + j - List.length (expand y)) with (pos t pc + j) by lia. exact (IH pc c H j x Hj).
  Qed.

  Lemma pos_beyond code pc : nth_error code pc = None -> pos code pc = List.length (flat_map expand code).
  Proof.
    intros H. unfold pos. rewrite firstn_all2; [reflexivity|]. apply nth_error_None. exact H.
  Qed.

  Lemma straight_no_label seg l : forallb straight seg = true -> forall cm, ~ In (CLabel l cm) seg.
  Proof.
    intros H cm Hin. rewrite forallb_forall in H. specialize (H _ Hin). discriminate H.
  Qed.

  Lemma expand_no_label c l : (forall cm, c <> CLabel l cm) -> forall cm, ~ In (CLabel l cm) (expand c).
  Proof.
    intros Hc cm. destruct (HE c) as [[E _]|[_ S]].
    - rewrite E. intros [Q|[]]. exact (Hc cm Q).
    - exact (straight_no_label _ l S cm).
  Qed.

  Lemma find_label_expand l : forall code,
    find_label l (flat_map expand code) = option_map (pos code) (find_label l code).
  Proof.
    induction code as [|c t IH]; [reflexivity|].
    (* a component that is not the label: the search goes on behind its replacement *)
    assert (T : (forall cm, c <> CLabel l cm) ->
                find_label l (flat_map expand (c :: t)) = option_map (pos (c :: t)) (option_map S (find_label l t))).
    { intros Hc. cbn [flat_map]. rewrite (find_label_app_notin l (expand c) _ (expand_no_label c l Hc)), IH.
      destruct (find_label l t) as [p|]; [|reflexivity]. cbn [option_map]. rewrite pos_cons. reflexivity. }
    destruct c as [i|l' cm|v]; cbn [find_label]; [apply T; discriminate| |apply T; discriminate].
    destruct (String.eqb_spec l l') as [->|Ne]; [cbn [flat_map expand app find_label]; rewrite String.eqb_refl; reflexivity|]. apply T. intros cm' E. injection E as E _. exact (Ne (eq_sym E)).
  Qed.

  (* a straight-line segment inside a longer list *)
  Definition embs (b len : nat) (c : lconf) : lconf :=
    match c with
    | LAt j stk st => LAt (b + j) stk st
    | LEnd stk st => LAt (b + len) stk st
    | other => other
    end.

  Lemma straight_step env C seg b : forallb straight seg = true ->
    (forall j x, nth_error seg j = Some x -> nth_error C (b + j) = Some x) ->
    forall j stk st c1, j < List.length seg ->
      lstep env seg (LAt j stk st) = Some c1 ->
      lstep env C (LAt (b + j) stk st) = Some (embs b (List.length seg) c1) /\
      match c1 with LAt j' _ _ => j' = S j | LEnd _ _ => False | _ => True end.
  Proof.
    intros HS HP j stk st c1 Lj S1. cbn [lstep] in *.
    destruct (nth_error seg j) as [x|] eqn:E; [|apply nth_error_None in E; lia].
    rewrite (HP j x E). rewrite forallb_forall in HS. pose proof (HS x (nth_error_In _ _ E)) as Sx.
    destruct x as [i|l cm|v]; try discriminate Sx. injection S1 as <-. rewrite !(lstep_straight _ _ _ _ _ _ Sx).
    destruct (do_op env (i_op i) (i_args i) stk st); cbn [embs]; try (split; [reflexivity|exact Logic.I]).
    rewrite Nat.add_succ_r. split; reflexivity.
  Qed.

  Lemma straight_run env C seg b : forallb straight seg = true ->
    (forall j x, nth_error seg j = Some x -> nth_error C (b + j) = Some x) ->
    forall c c', lstar env seg c c' ->
      (match c with LAt j _ _ => j <= List.length seg | _ => True end) ->
      lstar env C (embs b (List.length seg) c) (embs b (List.length seg) c').
  Proof.
    intros HS HP c c' H. induction H as [c|c c1 c' S1 _ IH]; intros Hj; [apply lstar_refl|].
    destruct c as [j stk st| | | | |]; try discriminate S1.
    destruct (Nat.eq_dec j (List.length seg)) as [->|Ne].
    - (* at the end of the segment: the segment's own run ends here *)
      cbn [lstep] in S1. rewrite (proj2 (nth_error_None seg (List.length seg)) (le_n _)) in S1. injection S1 as <-.
      cbn [embs] in *. apply IH. exact Logic.I.
    - assert (Lj : j < List.length seg) by lia.
      destruct (straight_step env C seg b HS HP j stk st c1 Lj S1) as [S2 Sh].
      eapply lstar_step; [exact S2|]. apply IH.
      destruct c1; try exact Logic.I. subst. lia.
  Qed.

  Definition mapc (code : list comp) (c : lconf) : lconf :=
    match c with LAt pc stk st => LAt (pos code pc) stk st | other => other end.

  Definition not_unsup (c : lconf) : Prop := match c with LUnsup _ => False | _ => True end.

  Lemma goto_expand code l stk st :
    mapc code (goto code l stk st) = goto (flat_map expand code) l stk st.
  Proof. unfold goto. rewrite find_label_expand. destruct (find_label l code); reflexivity. Qed.

  (* the two environments differ in the oracle only, and agree on the calls that are not wrapped *)
  Lemma do_op_W_R o imms stk st : call_target o imms = None \/ (exists f, call_target o imms = Some f /\ is_wrapped f = false) ->
    do_op envW o imms stk st = do_op envR o imms stk st.
  Proof.
    intros [H|(f & H & Wf)]; [rewrite !do_op_old by exact H; reflexivity|].
    destruct (call_target_inv _ _ _ H) as [-> ->]. rewrite !do_op_call. cbn [envW envR with_call e_call]. unfold wrap. rewrite Wf. reflexivity.
  Qed.

  (* the fuel [seg_orc] gives a straight-line segment is enough: the run leaves the segment *)
  Lemma lrun_seg_final seg stk st : forallb straight seg = true ->
    lfinal (lrun (S (List.length seg)) envR seg (LAt 0 stk st)) = true.
  Proof.
    intros HS.
    assert (G : forall n j s t, j + n = S (List.length seg) -> j <= List.length seg ->
              lfinal (lrun n envR seg (LAt j s t)) = true).
    { induction n as [|n IH]; intros j s t Hn Hj; [lia|]. cbn [lrun].
      destruct (Nat.eq_dec j (List.length seg)) as [->|Ne].
      - cbn [lstep]. rewrite (proj2 (nth_error_None seg (List.length seg)) (le_n _)).
        destruct n; reflexivity.
      - destruct (lstep envR seg (LAt j s t)) as [c1|] eqn:S1;
          [|cbn [lstep] in S1; destruct (nth_error seg j) as [[| |]|]; discriminate S1].
        destruct (straight_step envR seg seg 0 HS (fun _ _ H => H) j s t c1 ltac:(lia) S1) as [_ Sh].
        destruct c1 as [j' s' t'|s' t'|v' t'|s' t'| |o']; try (destruct n; reflexivity).
        subst j'. apply IH; lia. }
    apply (G (S (List.length seg)) 0); lia.
  Qed.

  Lemma seg_orc_end seg stk st s' st' : forallb straight seg = true ->
    lstar envR seg (LAt 0 stk st) (LEnd s' st') -> seg_orc envR seg stk st = CRet s' st'.
  Proof.
    intros HS Run. unfold seg_orc.
    rewrite (lstar_final_unique envR seg _ _ _ (lrun_lstar envR seg _ _) (lrun_seg_final seg stk st HS) Run eq_refl). reflexivity.
  Qed.

  Theorem spill_step code c c1 : lstep envW code c = Some c1 -> not_unsup c1 ->
    lstar envR (flat_map expand code) (mapc code c) (mapc code c1).
  Proof.
    intros S1 NU. destruct c as [pc stk st| | | | |]; try discriminate S1.
    cbn [lstep] in S1. cbn [mapc].
    destruct (nth_error code pc) as [c|] eqn:E.
    2:{ injection S1 as <-. apply lstar_one. cbn [lstep mapc]. rewrite (pos_beyond code pc E).
        rewrite (proj2 (nth_error_None _ _) (le_n _)). reflexivity. }
    destruct (HE c) as [[Ex NW]|[(f & pre & post & Ef & Wf) HS]].
    - (* the component stands as it is *)
      assert (E' : nth_error (flat_map expand code) (pos code pc) = Some c).
      { rewrite <- (Nat.add_0_r (pos code pc)). apply (expanded_at code pc c E 0 c). rewrite Ex. reflexivity. }
      assert (PS : pos code (S pc) = S (pos code pc)).
      { rewrite (pos_S code pc c E), Ex. cbn [List.length]. lia. }
      destruct c as [i|l cm|v]; injection S1 as <-; apply lstar_one; cbn [lstep]; rewrite E'; f_equal;
        [|cbn [mapc]; rewrite PS; reflexivity..].
      unfold lstep_op.
      destruct (is_return (i_op i)); [destruct stk; reflexivity|].
      destruct (is_retsub (i_op i)); [reflexivity|].
      assert (D : do_op envW (i_op i) (i_args i) stk st = do_op envR (i_op i) (i_args i) stk st).
      { apply do_op_W_R. destruct (call_target (i_op i) (i_args i)) as [f|] eqn:CT; [right|left; reflexivity].
        exists f. split; [reflexivity|]. unfold is_wrapped. rewrite (NW i f eq_refl CT). reflexivity. }
      (* every leaf is a final configuration, a jump ([goto_expand]) or the next position ([PS]) *)
      destruct (jump_of i) as [[[| |] l]|];
        [|destruct stk as [|v s']; [reflexivity|]; destruct (truthy v) as [[|]|]..
         |rewrite <- D; destruct (do_op envW (i_op i) (i_args i) stk st)].
      all: cbn [mapc]; rewrite ?PS, <- ?goto_expand; reflexivity.
    - (* a wrapped call: the oracle's answer is the outcome of the segment, which sits here *)
      subst c. injection S1 as <-.
      pose proof (expanded_at code pc _ E) as Pl.
      pose proof (pos_S code pc _ E) as PS.
      set (seg := expand (call_stmt_of f)) in *.
      unfold lstep_op in *. cbn [call_stmt_of i_op i_args is_return is_retsub jump_of] in *.
      rewrite do_op_call in *. cbn [envW with_call e_call] in *. unfold wrap, is_wrapped in *.
      rewrite Wf in *.
      pose proof (lrun_lstar envR seg (S (List.length seg)) (LAt 0 stk st)) as Run.
      pose proof (straight_run envR (flat_map expand code) seg (pos code pc) HS Pl _ _ Run (Nat.le_0_l _)) as Emb.
      cbn [embs] in Emb. rewrite Nat.add_0_r in Emb.
      unfold seg_orc in *. fold seg in NU |- *.
      destruct (lrun (S (List.length seg)) envR seg (LAt 0 stk st)) as [j s' st'|s' st'|v st'|s' st'| |o];
        cbn [of_callres mapc embs] in *; try destruct NU; try exact Emb.
      rewrite PS. exact Emb.
  Qed.

  Lemma not_unsup_final c : ~ not_unsup c -> forall code, lstep envW code c = None.
  Proof. destruct c; cbn; intros H code; try reflexivity; exfalso; apply H; exact Logic.I. Qed.

  (* the unwrapped code with the wrapping oracle against the expanded code with the raw oracle *)
  Theorem spill_sim code c c' : lstar envW code c c' -> not_unsup c' ->
    lstar envR (flat_map expand code) (mapc code c) (mapc code c').
  Proof.
    induction 1 as [c|c c1 c' S1 H IH]; intros NU; [apply lstar_refl|].
    assert (N1 : not_unsup c1).
    { destruct c1; try exact Logic.I. inversion H as [|? ? ? S2 _]; subst; [exact NU|discriminate S2]. }
    eapply lstar_trans; [exact (spill_step code c c1 S1 N1)|exact (IH NU)].
  Qed.
End Expand.
