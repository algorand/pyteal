(* Proofs/OracleTransfer.v — the semantics of Src/Denote.v, Comp/GraphSem.v, Comp/LinearSem.v and
   Comp/SimCheck.v are the semantics with a call oracle (CallX/) at the oracle that knows nothing.
   [lift] embeds an environment; operations, block runs, graph steps and linear steps are then EQUAL.
   The evaluators are not: the original [denote] gives up at [ECall] before it evaluates the
   arguments, the one with the oracle after.  They agree up to [le], "equal, or the original one is
   unsupported", which is all a statement needs whose claim about an unsupported outcome is empty.
   The C01 chain is proved for the oracle semantics (CallX/*.v); Proofs/*.v instantiate it here.
   A definition of the chain that mentions no semantics (graph surgery, layout, the slot rewrite) is
   written out with the same body under both CallX/ and Proofs/: the two are convertible, which is
   what lets [exact (CallX.F.lemma ..)] close a statement about the Proofs copy.  An inductive
   declared twice is not ([reach]; Proofs/SortCorrect.v relates the two). *)
From Coq Require Import List Arith NArith String Bool.
From PV Require Import Base.Bytes AVM.Syntax AVM.Machine Src.Expr Src.Denote
  Comp.Blocks Comp.GraphSem Comp.LinearSem Comp.SimCheck.
From PV Require CallX.Denote CallX.GraphSem CallX.LinearSem CallX.SimCheck CallX.DoOp.
Import ListNotations.
Module X := CallX.Denote.
Module XG := CallX.GraphSem.
Module XL := CallX.LinearSem.

Definition lift (e : denv) : X.denv :=
  X.mkEnv (e_ctx e) (e_asg e) (e_msel e) (e_subs e) (e_in_sub e) (e_param e) (fun _ _ _ => X.CNone).

Lemma old_lift e : X.old_env (lift e) = e.
Proof. destruct e; reflexivity. Qed.

(* also at [callsub <ASub f>]: the original [args_to_imms] refuses a routine reference *)
Lemma do_op_lift e o imms stk st : X.do_op (lift e) o imms stk st = do_op e o imms stk st.
Proof.
  destruct (X.call_target o imms) as [f|] eqn:C.
  - destruct (CallX.DoOp.call_target_inv _ _ _ C) as [-> ->]. reflexivity.
  - rewrite (X.do_op_old _ _ _ _ _ C), old_lift. reflexivity.
Qed.

(* an operation of the original semantics never ends the program: only [return] does, in [exec_ops] *)
Lemma do_op_shape e o imms stk st :
  match do_op e o imms stk st with DNorm _ _ | DFail | DUnsup _ => True | _ => False end.
Proof.
  unfold do_op.
  destruct (slot_access o imms) as [[[|] u]|].
  - exact Logic.I.
  - destruct stk; exact Logic.I.
  - destruct (args_to_imms e o imms); [|exact Logic.I].
    destruct (exec_op (e_ctx e) o l stk st); try exact Logic.I.
    destruct (is_err o); exact Logic.I.
Qed.

Lemma exec_ops_lift e ops : forall stk st, XG.exec_ops (lift e) ops stk st = exec_ops e ops stk st.
Proof.
  induction ops as [|i t IH]; intros stk st; cbn [XG.exec_ops exec_ops]; [reflexivity|].
  rewrite do_op_lift. pose proof (do_op_shape e (i_op i) (i_args i) stk st) as D.
  destruct (do_op e (i_op i) (i_args i) stk st); try contradiction; try reflexivity.
  rewrite IH. reflexivity.
Qed.

Lemma gstep_lift e G c : XG.gstep (lift e) G c = gstep e G c.
Proof.
  destruct c; try reflexivity. cbn [XG.gstep gstep].
  destruct (G b) as [[ops n|ops t f]|]; try reflexivity; rewrite exec_ops_lift; reflexivity.
Qed.

Lemma star_lift e G a b : XG.star (lift e) G a b <-> star e G a b.
Proof.
  split; induction 1; try constructor.
  - econstructor; [rewrite <- gstep_lift; eassumption|assumption].
  - econstructor; [rewrite gstep_lift; eassumption|assumption].
Qed.

Lemma lstep_lift e code c : XL.lstep (lift e) code c = lstep e code c.
Proof.
  destruct c; try reflexivity. cbn [XL.lstep lstep].
  destruct (nth_error code pc) as [[i| |]|]; try reflexivity.
  unfold XL.lstep_op, lstep_op. rewrite do_op_lift.
  pose proof (do_op_shape e (i_op i) (i_args i) stk st) as D.
  destruct (do_op e (i_op i) (i_args i) stk st); try contradiction; reflexivity.
Qed.

Lemma lstar_lift e code a b : XL.lstar (lift e) code a b <-> lstar e code a b.
Proof.
  split; induction 1; try constructor.
  - econstructor; [rewrite <- lstep_lift; eassumption|assumption].
  - econstructor; [rewrite lstep_lift; eassumption|assumption].
Qed.

(* the form in which the end-to-end statements speak of a run: it reaches [h], and nothing else final *)
Lemma lstar_unique_lift e code c h :
  XL.lstar (lift e) code c h /\ (forall c2, XL.lstar (lift e) code c c2 -> lfinal c2 = true -> c2 = h) ->
  lstar e code c h /\ (forall c2, lstar e code c c2 -> lfinal c2 = true -> c2 = h).
Proof. intros [A B]. split; [apply lstar_lift; exact A|]. intros c2 S2. apply B, lstar_lift, S2. Qed.

Lemma lrun_lift e code : forall n c, XL.lrun n (lift e) code c = lrun n e code c.
Proof.
  induction n as [|n IH]; intros c; cbn [XL.lrun lrun]; [reflexivity|].
  rewrite lstep_lift. destruct (lstep e code c); [apply IH|reflexivity].
Qed.

Lemma equiv_from_lift e G s G' s' : CallX.SimCheck.equiv_from (lift e) G s G' s' <-> equiv_from e G s G' s'.
Proof.
  unfold CallX.SimCheck.equiv_from, equiv_from.
  split; intros H stk st c Hc; specialize (H stk st c Hc).
  - rewrite <- !star_lift. exact H.
  - rewrite !star_lift. exact H.
Qed.

Definition le (r1 r2 : dout) : Prop := r1 = r2 \/ exists o, r1 = DUnsup o.
Definition le_den (d1 d2 : expr -> list value -> mstate -> dout) := forall x s st, le (d1 x s st) (d2 x s st).

Lemma le_refl r : le r r.
Proof. left; reflexivity. Qed.

Lemma le_bind r1 r2 f1 f2 : le r1 r2 -> (forall s st, le (f1 s st) (f2 s st)) -> le (bind r1 f1) (bind r2 f2).
Proof. intros [->|[o ->]] H; [destruct r2; cbn; try apply le_refl; apply H|right; exists o; reflexivity]. Qed.

Lemma le_branch r1 r2 y1 y2 n1 n2 : le r1 r2 ->
  (forall s st, le (y1 s st) (y2 s st)) -> (forall s st, le (n1 s st) (n2 s st)) ->
  le (branch r1 y1 n1) (branch r2 y2 n2).
Proof.
  intros [->|[o ->]] Hy Hn; [|right; exists o; reflexivity].
  destruct r2; cbn; try apply le_refl. destruct stk as [|v s]; [apply le_refl|].
  destruct (truthy v) as [[|]|]; [apply Hy|apply Hn|apply le_refl].
Qed.

Lemma le_hdr r1 r2 f1 f2 : le r1 r2 -> (forall s st, le (f1 s st) (f2 s st)) -> le (hdr r1 f1) (hdr r2 f2).
Proof. intros [->|[o ->]] H; [destruct r2; cbn; try apply le_refl; apply H|right; exists o; reflexivity]. Qed.

Lemma le_after r1 r2 f1 f2 : le r1 r2 -> (forall s st, le (f1 s st) (f2 s st)) ->
  le (after_body r1 f1) (after_body r2 f2).
Proof. intros [->|[o ->]] H; [destruct r2; cbn; try apply le_refl; apply H|right; exists o; reflexivity]. Qed.

Section Mono.
  Variables d1 d2 : expr -> list value -> mstate -> dout.
  Hypothesis H : le_den d1 d2.

  Lemma le_list l : forall s st, le (den_list d1 l s st) (den_list d2 l s st).
  Proof. induction l; intros; cbn [den_list]; [apply le_refl|apply le_bind; auto]. Qed.

  Lemma le_cond l : forall s st, le (den_cond d1 l s st) (den_cond d2 l s st).
  Proof. induction l as [|[c v] t IH]; intros; cbn [den_cond]; [apply le_refl|apply le_branch; auto]. Qed.

  Lemma le_asserts l : forall s st, le (den_asserts d1 l s st) (den_asserts d2 l s st).
  Proof. induction l; intros; cbn [den_asserts]; [apply le_refl|apply le_branch; auto using le_refl]. Qed.

  Lemma le_while n c b : forall s st, le (den_while d1 n c b s st) (den_while d2 n c b s st).
  Proof.
    induction n; intros; cbn [den_while]; [apply le_refl|].
    destruct (H c s st) as [->|[o ->]]; [|right; exists o; reflexivity].
    destruct (d2 c s st) eqn:E; try apply le_refl;
    apply le_branch; try apply le_refl; intros; try apply le_refl; apply le_after; auto.
  Qed.

  Lemma le_for n c sp b : forall s st, le (den_for d1 n c sp b s st) (den_for d2 n c sp b s st).
  Proof.
    induction n; intros; cbn [den_for]; [apply le_refl|].
    destruct (H c s st) as [->|[o ->]]; [|right; exists o; reflexivity].
    destruct (d2 c s st) eqn:E; try apply le_refl;
    apply le_branch; try apply le_refl; intros; try apply le_refl; apply le_after; auto; intros; apply le_hdr; auto.
  Qed.

  Variable e : denv.

  Lemma le_ops ops : forall s st, le (den_ops e ops s st) (X.den_ops (lift e) ops s st).
  Proof.
    induction ops; intros; cbn [den_ops X.den_ops]; [apply le_refl|].
    rewrite do_op_lift. apply le_bind; auto using le_refl.
  Qed.

  Lemma le_stores l : forall s st, le (den_stores e l s st) (X.den_stores (lift e) l s st).
  Proof.
    induction l; intros; cbn [den_stores X.den_stores]; [apply le_refl|].
    rewrite do_op_lift. apply le_bind; auto using le_refl.
  Qed.

  Lemma le_nary o l : forall s st, le (den_nary_rest e d1 o l s st) (X.den_nary_rest (lift e) d2 o l s st).
  Proof.
    induction l; intros; cbn [den_nary_rest X.den_nary_rest]; [apply le_refl|].
    apply le_bind; auto. intros. rewrite do_op_lift. apply le_bind; auto using le_refl.
  Qed.

  Lemma le_wide l : forall s st, le (den_wide_rest e d1 l s st) (X.den_wide_rest (lift e) d2 l s st).
  Proof.
    induction l; intros; cbn [den_wide_rest X.den_wide_rest]; [apply le_refl|].
    apply le_bind; auto. intros. apply le_bind; auto using le_ops.
  Qed.

  Lemma le_factors l s st : le (den_factors e d1 l s st) (X.den_factors (lift e) d2 l s st).
  Proof.
    destruct l as [|a [|b t]]; cbn [den_factors X.den_factors]; [apply le_refl| |].
    - apply le_bind; auto using le_ops.
    - apply le_bind; auto. intros. apply le_bind; auto. intros. apply le_bind; auto using le_ops, le_wide.
  Qed.
End Mono.

Theorem denote_lift e : forall fuel, le_den (denote e fuel) (X.denote (lift e) fuel).
Proof.
  induction fuel as [|f IH]; intros x s st; [apply le_refl|].
  destruct x; cbn [denote X.denote]; cbn [lift X.e_in_sub X.e_param].
  - apply le_bind; [apply le_list; exact IH|]. intros. rewrite do_op_lift. apply le_refl.
  - destruct args; [apply le_refl|]. apply le_bind; [apply IH|]. intros. apply le_nary; exact IH.
  - apply le_list; exact IH.
  - apply le_branch; [apply IH|intros; apply IH|]. intros. destruct el; [apply IH|apply le_refl].
  - apply le_cond; exact IH.
  - apply le_while; exact IH.
  - apply le_hdr; [apply IH|]. intros. apply le_for; exact IH.
  - apply le_refl.
  - apply le_refl.
  - apply le_asserts; exact IH.
  - destruct v; [|apply le_refl]. apply le_bind; [apply IH|]. intros; apply le_refl.
  - apply le_bind; [apply IH|]. intros; apply le_refl.
  - apply le_bind; [apply le_list; exact IH|]. intros. rewrite do_op_lift. apply le_bind; [apply le_refl|].
    intros. apply le_stores.
  - right. eexists; reflexivity.
  - apply le_bind; [apply le_factors; exact IH|]. intros. apply le_bind; [apply le_factors; exact IH|].
    intros. apply le_ops.
  - rewrite do_op_lift. apply le_refl.
Qed.

(* what the order is used for: an outcome the original evaluator does produce is the oracle one's *)
Lemma denote_lift_eq e fuel x s st :
  (forall o, denote e fuel x s st <> DUnsup o) -> X.denote (lift e) fuel x s st = denote e fuel x s st.
Proof. intros N. destruct (denote_lift e fuel x s st) as [E|[o E]]; [symmetry; exact E|destruct (N o E)]. Qed.
