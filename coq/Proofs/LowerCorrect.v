(* Proofs/LowerCorrect.v — the block graph produced by [lower] executes exactly as [denote] says:
   operands left to right exactly once, branch polarity, loop back-edges, Break/Continue targets,
   Return/Exit, the multi-value store order.  The induction is in CallX/LowerCorrect.v, for the
   evaluator with a call oracle, which also makes a claim at [ECall]; the evaluator here gives up
   there ([DUnsup]), where [tgt] claims nothing. *)
From Coq Require Import List Arith NArith String Bool Lia.
From PV Require Import Base.Bytes AVM.Syntax AVM.Machine Src.Expr Src.Denote
  Comp.Blocks Comp.Lower Comp.GraphSem Proofs.LowerLemmas
  Proofs.OracleTransfer.
From PV Require CallX.LowerCorrect.
Import ListNotations.

Section Main.
  Variable env : denv.
  Notation lw_ok := (lw_ok env).

  Definition consistent (c : lctx) : Prop :=
    e_in_sub env = match l_sub_ret c with Some _ => true | None => false end /\
    (forall i, e_param env i = l_param c i).

  Theorem lower_correct o : forall fuel c e, consistent c -> lw_ok (lower o c) (denote env fuel) c e.
  Proof.
    intros fuel c e Hc k g s en g' W E G HG stk st.
    eapply tgt_le; [apply denote_lift|]. apply tgt_lift.
    exact (CallX.LowerCorrect.lower_correct (lift env) o fuel c e Hc k g s en g' W E G HG stk st).
  Qed.
End Main.
