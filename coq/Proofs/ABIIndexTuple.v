(* Proofs/ABIIndexTuple.v — tuple[i] on the encoding of a tuple returns component i ([index_tuple_correct]):
   the offset arithmetic of _index_tuple (walk_before / walk_after, with PyTeal's look-ahead over bool runs)
   computes the head positions of the ARC-4 encoding ([spos]). *)
From Coq Require Import List NArith Arith Ascii String Bool Lia.
From PV Require Import Base.Bytes Base.U64 AVM.Syntax AVM.Ops ABI.Types ABI.Spec ABI.Index
  Proofs.ABISpecProof Proofs.ABIIndexBits Proofs.ABIIndexAsm Proofs.ABIIndexElems Proofs.ABIIndexSel
  Proofs.ABIIndexDecode.
Import ListNotations.
Local Open Scope N_scope.

Lemma cb_cons_bool : forall t r, is_bool t = true -> consecutive_bools (t :: r) = 1 + consecutive_bools r.
Proof. intros t r H. cbn. rewrite H. reflexivity. Qed.

Lemma cb_cons_nonbool : forall t r, is_bool t = false -> consecutive_bools (t :: r) = 0.
Proof. intros t r H. cbn. rewrite H. reflexivity. Qed.

(* the loop variables against head positions.  pos, np: the bytes emitted before the pending run of bools and the length of that run so far ([spos]);
   c: the bools still to come in the run.  PyTeal advances the offset over the whole run at its first bool and
   then skips c members. *)
Definition ainv (ign off pos np c : N) : Prop :=
  if np =? 0 then off = pos /\ ign = 0 else ign = c /\ off = pos + bool_seq_len (np + c).

Ltac arith := try lia; repeat (f_equal; try lia).

Lemma ainv_init : forall pos c, ainv 0 pos pos 0 c.
Proof. intros. split; reflexivity. Qed.

(* at a member that is not a bool PyTeal has nothing pending *)
Lemma ainv_nonbool : forall ign off pos np, ainv ign off pos np 0 -> ign = 0 /\ off = pos + bool_seq_len np.
Proof.
  intros ign off pos np A. unfold ainv in A. destruct (N.eqb_spec np 0) as [E|_].
  - subst np. destruct A as [-> ->]. rewrite bool_seq_len_0. lia.
  - rewrite N.add_0_r in A. exact A.
Qed.

(* at a bool: the first of a run advances over the run, the others are skipped *)
Lemma ainv_bool : forall ign off pos np c, ainv ign off pos np (1 + c) ->
    (0 <? ign) = negb (np =? 0) /\
    ainv (if np =? 0 then 1 + c - 1 else ign - 1) (if np =? 0 then off + bool_seq_len (1 + c) else off) pos (np + 1) c.
Proof.
  intros ign off pos np c A. unfold ainv in *.
  assert (E1 : (np + 1 =? 0) = false) by (apply N.eqb_neq; lia). rewrite E1.
  destruct (N.eqb_spec np 0) as [E|Hnp]; destruct A as [-> ->].
  - subst np. split; [reflexivity|]. split; arith.
  - split; [apply N.ltb_lt; lia|]. split; arith.
Qed.

Definition winv (w : wstate) (pos np c : N) : Prop :=
  ainv (w_ign w) (w_off w) pos np c /\ (np <> 0 -> w_lbs w = pos /\ w_lbl w = np + c).

Lemma walk_before_inv : forall k ts es w pos np,
    Forall2 elem_rel ts es -> winv w pos np (consecutive_bools ts) -> (k <= List.length ts)%nat ->
    winv (walk_before ts k w)
         (fst (spos (firstn k es) np pos)) (snd (spos (firstn k es) np pos))
         (consecutive_bools (skipn k ts)).
Proof.
  induction k as [|k IH]; intros ts es w pos np F W Hk.
  - destruct ts; cbn; exact W.
  - destruct F as [|t e tr er He F]; [cbn in Hk; lia|].
    cbn [List.length] in Hk. cbn [walk_before firstn skipn]. destruct W as [A B].
    destruct (is_bool t) eqn:Hb.
    + rewrite (cb_cons_bool _ _ Hb) in *. destruct (ainv_bool _ _ _ _ _ A) as [E A']. rewrite E.
      destruct (elem_rel_bool _ _ He Hb) as [b ->]. cbn [spos].
      unfold ainv in A. revert A A'. destruct (N.eqb_spec np 0) as [E0|Hnp]; intros A A'; cbn [negb];
        (apply IH; [exact F| |lia]); (split; [exact A'|]); intros _; cbn [w_lbs w_lbl].
      * subst np. destruct A as [-> _]. split; arith.
      * destruct (B Hnp) as [-> ->]. split; arith.
    + rewrite (cb_cons_nonbool _ _ Hb) in A. destruct (ainv_nonbool _ _ _ _ A) as [Ei Eo]. rewrite Ei.
      cbn [N.ltb N.compare]. destruct (is_dynamic t) eqn:Hd.
      * destruct (elem_rel_dyn _ _ He Hb Hd) as [bs ->]. cbn [spos].
        apply IH; [exact F| |lia]. split; [|intro; congruence]. cbn [w_ign w_off]. rewrite Eo. apply ainv_init.
      * destruct (elem_rel_static _ _ He Hb Hd) as [bs [-> Hl]]. cbn [spos].
        apply IH; [exact F| |lia]. split; [|intro; congruence]. cbn [w_ign w_off]. rewrite Eo, Hl. apply ainv_init.
Qed.

Lemma winv_init : forall c, winv (mkW 0 0 0 0) 0 0 c.
Proof. intro c. split; [apply ainv_init | intro; congruence]. Qed.

(* the facts used at the indexed position *)
Lemma walk_before_at : forall ts es i t,
    Forall2 elem_rel ts es -> nth_error ts i = Some t ->
    let w := walk_before ts i (mkW 0 0 0 0) in
    let P := fst (spos (firstn i es) 0 0) in
    let np := snd (spos (firstn i es) 0 0) in
    (is_bool t = true ->
       (if 0 <? w_ign w then w_lbs w * 8 + (w_lbl w - w_ign w) else w_off w * 8) = 8 * P + np) /\
    (is_bool t = false -> w_off w = P + bool_seq_len np).
Proof.
  intros ts es i t F Hn w P np.
  destruct (Forall2_split _ _ _ _ _ F Hn) as (e & He & Hr & E1 & _ & _ & L).
  pose proof (walk_before_inv i ts es (mkW 0 0 0 0) 0 0 F (winv_init _) ltac:(lia)) as W.
  fold w P np in W.
  assert (Hs : skipn i ts = t :: skipn (S i) ts).
  { rewrite E1 at 1. rewrite skipn_app.
    assert (Hl : List.length (firstn i ts) = i) by (apply firstn_length_le; lia).
    rewrite <- Hl at 1. rewrite skipn_all. rewrite Hl, Nat.sub_diag. reflexivity. }
  rewrite Hs in W. destruct W as [A B]. split; intro Hb.
  - rewrite (cb_cons_bool _ _ Hb) in *. destruct (ainv_bool _ _ _ _ _ A) as [E _]. rewrite E.
    unfold ainv in A. revert A. destruct (N.eqb_spec np 0) as [E0|E0]; intro A; cbn [negb].
    + destruct A as [-> _]. lia.
    + destruct A as [-> _]. destruct (B E0) as [-> ->]. lia.
  - rewrite (cb_cons_nonbool _ _ Hb) in A. exact (proj2 (ainv_nonbool _ _ _ _ A)).
Qed.

(* the members m up to the next dynamic one (or up to the end) have static positions *)
Lemma walk_after_spec : forall m ts rest ign nxt pos np,
    Forall2 elem_rel ts (m ++ rest) -> ainv ign nxt pos np (consecutive_bools ts) -> no_dyn m = true ->
    rest = [] \/ (exists bs l3, rest = ED bs :: l3) ->
    walk_after ts ign nxt =
    (match rest with [] => false | _ => true end, fst (spos m np pos) + bool_seq_len (snd (spos m np pos))).
Proof.
  induction m as [|e er IH]; intros ts rest ign nxt pos np F A Hn Hrest.
  - cbn [app] in F. destruct Hrest as [->|(bs' & l3 & ->)].
    + inversion F; subst. cbn [spos fst snd walk_after consecutive_bools] in *.
      rewrite (proj2 (ainv_nonbool _ _ _ _ A)). reflexivity.
    + inversion F as [|t e tr er' He F']; subst. cbn [spos fst snd walk_after].
      unfold elem_rel in He. cbn in He. destruct He as [Hb Hd].
      rewrite (cb_cons_nonbool _ _ Hb) in A. destruct (ainv_nonbool _ _ _ _ A) as [-> ->].
      cbn [N.ltb N.compare]. rewrite Hb, Hd. reflexivity.
  - cbn [app] in F. inversion F as [|t e' tr er' He F']; subst.
    change (no_dyn (e :: er)) with (negb (is_ED e) && no_dyn er)%bool in Hn.
    apply andb_true_iff in Hn as [Hne Hn]. cbn [walk_after].
    destruct (is_bool t) eqn:Hb.
    + rewrite (cb_cons_bool _ _ Hb) in *. destruct (ainv_bool _ _ _ _ _ A) as [E A']. rewrite E.
      destruct (elem_rel_bool _ _ He Hb) as [b ->]. cbn [spos].
      revert A'. destruct (np =? 0); intro A'; cbn [negb]; apply (IH _ rest); assumption.
    + rewrite (cb_cons_nonbool _ _ Hb) in A. destruct (ainv_nonbool _ _ _ _ A) as [-> ->].
      cbn [N.ltb N.compare]. destruct (is_dynamic t) eqn:Hd.
      * destruct (elem_rel_dyn _ _ He Hb Hd) as [bs ->]. discriminate.
      * destruct (elem_rel_static _ _ He Hb Hd) as [bs [-> Hl]]. cbn [spos]. rewrite Hl.
        apply (IH _ rest); [exact F'|apply ainv_init|exact Hn|exact Hrest].
Qed.

Lemma dyn_split : forall es,
    no_dyn es = true \/ exists m bs l3, es = m ++ ED bs :: l3 /\ no_dyn m = true.
Proof.
  induction es as [|e r IH]; [left; reflexivity|].
  destruct e as [b|bs|bs].
  - destruct IH as [H|(m & bs & l3 & -> & Hm)].
    + left. exact H.
    + right. exists (EB b :: m), bs, l3. auto.
  - destruct IH as [H|(m & bs' & l3 & -> & Hm)].
    + left. exact H.
    + right. exists (ES bs :: m), bs', l3. auto.
  - right. exists [], bs, r. auto.
Qed.

Lemma tuple_encode_inv : forall nm ts vs enc,
    arc4_encode (TTuple nm ts) (VList vs) = Some enc ->
    exists es, enc_seq (map (fun x => enc_elem (is_bool x) (is_dynamic x) (arc4_encode x)) ts) vs = Some es /\
               assemble es = Some enc /\ Forall2 elem_rel ts es.
Proof.
  intros nm ts vs enc H. cbn [arc4_encode] in H. unfold tuple_enc in H.
  apply obind_some in H as [es [He Ha]]. exists es. repeat split; auto. eapply tuple_rel; eauto.
Qed.

Lemma getbit_bytes_eq : forall enc i,
    run1 (exec_pure O_getbit [] [VI i; VB enc]) = option_map VI (get_bit_bytes enc i).
Proof. intros. cbn. destruct (get_bit_bytes enc i); reflexivity. Qed.

Lemma skipn_S_nil : forall {A} (l : list A) i, S i = List.length l -> skipn (S i) l = [].
Proof. intros A l i H. apply skipn_all2. lia. Qed.

Theorem index_tuple_correct : forall ver nm ts vs enc i t v idx,
    EXTRACT_MIN_VERSION <= ver ->
    arc4_encode (TTuple nm ts) (VList vs) = Some enc -> blen enc <= MAX_BYTES ->
    nth_error ts i = Some t -> nth_error vs i = Some v -> pyteal_elem t = true ->
    exists p sv, index_tuple ts i = Some p /\ stored t v = Some sv /\ exec_plan ver p enc idx = Some sv.
Proof.
  intros ver nm ts vs enc i t v idx Hver Henc Hlen Ht Hv Hpy.
  destruct (tuple_encode_inv _ _ _ _ Henc) as (es & Hes & Hasm & F).
  destruct (Forall2_split _ _ _ _ _ F Ht) as (e & He & Hrel & Ets & Ees & F2 & Li).
  set (fs := map (fun x => enc_elem (is_bool x) (is_dynamic x) (arc4_encode x)) ts) in *.
  assert (Hf : nth_error fs i = Some (enc_elem (is_bool t) (is_dynamic t) (arc4_encode t)))
    by (unfold fs; exact (map_nth_error (fun x => enc_elem (is_bool x) (is_dynamic x) (arc4_encode x)) i ts Ht)).
  destruct (enc_seq_nth _ _ _ _ _ _ Hes Hf Hv) as (e' & He' & Hev).
  rewrite He in He'. injection He' as <-.
  pose proof (walk_before_at ts es i t F Ht) as [Wb Wn]. cbv zeta in Wb, Wn.
  set (w := walk_before ts i (mkW 0 0 0 0)) in *.
  set (l1 := firstn i es) in *. set (l2 := skipn (S i) es) in *.
  set (P := fst (spos l1 0 0)) in *. set (np := snd (spos l1 0 0)) in *.
  (* constants below the length of the encoding evaluate to themselves *)
  assert (Hint : forall n, n <= blen enc -> push_int n = Some n)
    by (intros n Hn; apply push_int_ok, MAXB_U64; lia).
  unfold index_tuple. rewrite Ht. fold w.
  destruct (is_bool t) eqn:Hb.
  - (* bool *)
    destruct (elem_rel_bool _ _ Hrel Hb) as [b ->].
    apply enc_elem_bool_inv in Hev as (b' & -> & [= <-]).
    pose proof (access_bool _ _ _ _ _ Hasm Ees) as G. fold l1 P np in G.
    rewrite (Wb eq_refl).
    assert (Ht' : t = TBool) by (apply is_bool_true; exact Hb). subst t.
    exists (PGetbit (IInt (8 * P + np))), (VI (b2N b)). split; [reflexivity|]. split; [reflexivity|].
    cbn [exec_plan]. pose proof (get_bit_bytes_bound _ _ _ G) as Bd.
    rewrite eval_int by (unfold MAX_BYTES in Hlen; unfold U64; lia). cbn [obind].
    rewrite getbit_bytes_eq, G. reflexivity.
  - pose proof (Wn eq_refl) as Hoff. clear Wb Wn.
    destruct (is_dynamic t) eqn:Hd.
    + (* dynamic: from the offset in its head cell to the offset in the next dynamic member's, or to the end *)
      destruct (elem_rel_dyn _ _ Hrel Hb Hd) as [bs ->].
      apply enc_elem_nonbool_inv in Hev as (bs' & Hbs & [= <-]).
      pose proof (access_dyn _ _ _ _ _ Hasm Ees) as (Ho & Hsl & a & Ea & Hla). fold l1 l2 P np in Hsl, Ea, Hla, Ho.
      set (o := head_len es 0 + blen (tails_of l1)) in *.
      rewrite <- Hoff in Hsl.
      assert (Hu : eval_iexpr enc idx (IU16 (IInt (w_off w))) = Some o).
      { cbn [eval_iexpr]. rewrite (Hint (w_off w)) by (apply slice_bound in Hsl; lia). apply u16_at_ok; assumption. }
      destruct (dyn_not_scalar t (@None iexpr) (@None iexpr) (@None iexpr) Hd) as [_ Hst].
      rewrite Hst, Hbs. cbn [option_map].
      destruct (dyn_split l2) as [Hnd|(m & bs' & l3 & El2 & Hm)].
      * rewrite <- (app_nil_r l2) in F2.
        rewrite (walk_after_spec l2 (skipn (S i) ts) [] 0 (w_off w + 2) (w_off w + 2) 0 F2); [| |exact Hnd|auto].
        2:{ apply ainv_init. }
        cbn [fst].
        destruct (dyn_not_scalar t (Some (IU16 (IInt (w_off w)))) None None Hd) as [-> _].
        eexists; exists (VB bs). split; [reflexivity|]. split; [reflexivity|].
        rewrite (exec_suffix _ _ _ _ _ Hver Hu), <- Hla, Ea, (tails_of_no_dyn _ Hnd), app_nil_r, bsub_suffix.
        reflexivity.
      * assert (F2' : Forall2 elem_rel (skipn (S i) ts) (m ++ ED bs' :: l3)) by (rewrite <- El2; exact F2).
        rewrite (walk_after_spec m (skipn (S i) ts) _ 0 (w_off w + 2) (w_off w + 2) 0 F2'); [| |exact Hm|eauto].
        2:{ apply ainv_init. }
        cbn [fst snd]. set (q := fst (spos m 0 (w_off w + 2)) + bool_seq_len (snd (spos m 0 (w_off w + 2)))).
        destruct (dyn_not_scalar t (Some (IU16 (IInt (w_off w)))) (Some (IU16 (IInt q))) None Hd) as [-> _].
        eexists; exists (VB bs). split; [reflexivity|]. split; [reflexivity|].
        assert (Ees2 : es = l1 ++ ED bs :: m ++ ED bs' :: l3) by (rewrite Ees; fold l1 l2; rewrite El2; reflexivity).
        destruct (access_dyn_next _ _ _ _ _ _ _ Hasm Ees2 Hm) as [Ho2 Hsl2]. fold P np o in Ho2, Hsl2.
        rewrite <- Hoff in Hsl2. fold q in Hsl2.
        assert (Hq : eval_iexpr enc idx (IU16 (IInt q)) = Some (o + blen bs)).
        { cbn [eval_iexpr]. rewrite (Hint q) by (apply slice_bound in Hsl2; lia). apply u16_at_ok; assumption. }
        rewrite (exec_substring _ _ _ _ _ _ _ Hver Hu Hq), <- Hla, Ea, bsub_mid. reflexivity.
    + (* static, not bool: enc = a ++ bs ++ c with a as long as the offset *)
      destruct (elem_rel_static _ _ Hrel Hb Hd) as [bs [-> Hsl]].
      apply enc_elem_nonbool_inv in Hev as (bs' & Hbs & [= <-]).
      rewrite <- Hsl.
      assert (Hparts : forall a c : bytes, enc = a ++ bs ++ c ->
                eval_iexpr enc idx (IInt (blen a)) = Some (blen a) /\
                eval_iexpr enc idx (IInt (blen bs)) = Some (blen bs)).
      { intros a c E. split; apply Hint; rewrite E, !blen_app; lia. }
      destruct (Nat.eqb_spec (S i) (List.length ts)) as [HS|HS]; cbn [andb].
      * (* the last member is followed by the tails only *)
        assert (Hl2 : l2 = []).
        { apply skipn_S_nil. destruct (enc_seq_length _ _ _ Hes) as [L1 _]. unfold fs in L1. rewrite map_length in L1. lia. }
        fold l1 l2 in Ees. rewrite Hl2 in Ees.
        destruct (access_static_last _ _ _ _ Hasm Ees) as (a & Ea & Hla). fold P np in Hla.
        rewrite <- Hoff in Hla. rewrite <- Hla. destruct (Hparts _ _ Ea) as [Hea Hel].
        destruct (N.eqb_spec (blen a) 0) as [Hz|Hz].
        -- eapply decode_static; eauto; cbv iota.
           ++ apply blen_zero_nil, Hz.
           ++ apply tails_of_no_dyn, (spos_zero_no_dyn l1 0). fold P np. lia.
        -- destruct (all_static ts) eqn:Hall; eapply decode_static; eauto. cbv iota.
           assert (Hnd : no_dyn es = true) by (eapply no_dyn_static_tuple; eauto).
           apply tails_of_no_dyn in Hnd. rewrite Ees, tails_of_app in Hnd.
           apply app_eq_nil in Hnd as [Hnd _]. exact Hnd.
      * destruct (access_static _ _ _ _ _ Hasm Ees) as (a & c & Ea & Hla). fold l1 P np in Hla.
        rewrite <- Hoff in Hla. rewrite <- Hla. destruct (Hparts _ _ Ea) as [Hea Hel].
        destruct (N.eqb_spec (blen a) 0) as [Hz|Hz]; eapply decode_static; eauto.
        cbv iota. apply blen_zero_nil, Hz.
Qed.
