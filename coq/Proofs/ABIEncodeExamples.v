(* Proofs/ABIEncodeExamples.v — non-vacuity: the hypotheses of the C06 theorems are satisfiable on nested
   shapes, and every outcome (bytes / rejected at construction / fails at run time) occurs. *)
From Coq Require Import List Arith NArith ZArith Ascii String Bool Lia.
From PV Require Import Base.Bytes Base.Sexp ABI.Types ABI.Spec ABI.Encode
  Proofs.ABISpecProof Proofs.ABIEncodeTuple Proofs.ABIEncodeSet.
Import ListNotations.
Local Open Scope N_scope.

Definition hex (s : string) : bytes := match bytes_of_hex s with Some b => b | None => [] end.
Definition txt (s : string) : bytes := bytes_of_string s.

(* (bool,uint16,string,bool,bool): a bool, then a static member, a dynamic one, then a run of two bools *)
Definition T1 : ty := TTuple None [TBool; TUint 16; TString; TBool; TBool].
Definition S1 : src := SMembers [SBoolLit true; SIntExpr 5; SBytesExpr (txt "hello"); SIntExpr 7; SBoolLit false].

Example ex1_hyps : pyteal_ty T1 = true /\ src_wf S1 = true /\
                   denote T1 S1 = Some (VList [VBool true; VUint 5; VBytes (txt "hello"); VBool true; VBool false]).
Proof. vm_compute. repeat split. Qed.

Example ex1_bytes : set_outcome None T1 S1 = OBytes (hex "800005000680000568656c6c6f")
                    /\ set_outcome (Some 4096) T1 S1 = OBytes (hex "800005000680000568656c6c6f").
Proof. vm_compute. split; reflexivity. Qed.

(* bool[]: eleven bools, two bytes, preceded by the element count *)
Definition T2 : ty := TDynArray TBool.
Definition S2 : src := SMembers (repeat (SBoolLit true) 9 ++ [SIntExpr 0; SCopy (SIntExpr 7)]).

Example ex2_hyps : pyteal_ty T2 = true /\ src_wf S2 = true /\
                   denote T2 S2 = Some (VList (repeat (VBool true) 9 ++ [VBool false; VBool true])).
Proof. vm_compute. repeat split. Qed.

Example ex2_bytes : set_outcome None T2 S2 = OBytes (hex "000bffa0").
Proof. vm_compute. reflexivity. Qed.

(* (string,uint8[2])[]: dynamic elements inside a dynamic array: two levels of offsets *)
Definition T3 : ty := TDynArray (TTuple None [TString; TStaticArray (TUint 8) 2]).
Definition S3 : src :=
  SMembers [SMembers [SBytesLit (txt "ab"); SMembers [SInt 1; SIntExpr 2]];
            SMembers [SBytesExpr (txt "cde"); SMembers [SInt 255; SIntExpr 0]]].

Example ex3_hyps : pyteal_ty T3 = true /\ src_wf S3 = true /\
                   match denote T3 S3 with Some v => val_has_type T3 v | None => false end = true.
Proof. vm_compute. repeat split. Qed.

Example ex3_bytes : set_outcome None T3 S3 = OBytes (hex "00020004000c00040102000261620004ff000003636465").
Proof. vm_compute. reflexivity. Qed.

(* the three ways of not getting bytes *)
(* a Python int that does not fit: rejected at construction *)
Example ex_reject_int : set_outcome None (TUint 8) (SInt 256) = OReject
                        /\ set_outcome None (TUint 8) (SInt (-1)) = OReject
                        /\ set_outcome None (TUint 64) (SInt 18446744073709551616) = OReject
                        /\ set_outcome None (TUint 64) (SInt 18446744073709551615) = OBytes (hex "ffffffffffffffff").
Proof. repeat match goal with |- _ /\ _ => split end; vm_compute; reflexivity. Qed.

(* an expression that does not fit: the program fails; uint64 has no check and needs none *)
Example ex_fail_expr : set_outcome None (TUint 8) (SIntExpr 256) = OFail
                       /\ set_outcome None (TUint 16) (SIntExpr 65536) = OFail
                       /\ set_outcome None (TUint 32) (SIntExpr 4294967296) = OFail
                       /\ set_outcome None (TUint 16) (SIntExpr 65535) = OBytes (hex "ffff")
                       /\ set_outcome None (TUint 64) (SIntExpr 18446744073709551615) = OBytes (hex "ffffffffffffffff").
Proof. repeat match goal with |- _ /\ _ => split end; vm_compute; reflexivity. Qed.

(* boolean observers, so that the 64 KiB values below never appear in a goal *)
Definition is_reject (o : outcome) : bool := match o with OReject => true | _ => false end.
Definition is_fail (o : outcome) : bool := match o with OFail => true | _ => false end.
Definition spec_has_no_encoding (t : ty) (s : src) : bool :=
  match denote t s with
  | Some v => match arc4_encode t v with None => true | Some _ => false end
  | None => false
  end.
Definition bytes_start_with (o : outcome) (p : bytes) : bool :=
  match o with OBytes b => bytes_eqb (firstn (List.length p) b) p | _ => false end.

(* the first tail offset (= the head length, a Python int put into a Uint16) does not fit: rejected *)
Definition T4 : ty := TTuple None [TStaticBytes 65534; TString].
Definition S4 : src := SMembers [SBytesLit (repeat zero (N.to_nat 65534)); SBytesLit []].

(* the check looks at the member types only (65534 + 2 = 65536), so the content of the first member is
   irrelevant; that the spec has no encoding either then follows from [set_encodes_per_arc4] *)
Lemma reject_head : forall z, let s := SMembers [SBytesLit z; SBytesLit []] in
    is_reject (set_outcome None T4 s) && spec_has_no_encoding T4 s && pyteal_ty T4 && src_wf s = true.
Proof.
  intros z s.
  assert (Hok : set_ok T4 s = false) by (apply set_ok_tuple_types; reflexivity).
  pose proof (set_encodes_per_arc4 T4 s (VList [VBytes z; VBytes []]) eq_refl eq_refl eq_refl) as H.
  unfold set_outcome in H. unfold set_outcome, spec_has_no_encoding. rewrite Hok in *.
  change (denote T4 s) with (Some (VList [VBytes z; VBytes []])). cbv beta iota.
  destruct (arc4_encode T4 (VList [VBytes z; VBytes []])); [discriminate H | reflexivity].
Qed.

Example ex_reject_head :
  is_reject (set_outcome None T4 S4) && spec_has_no_encoding T4 S4 && pyteal_ty T4 && src_wf S4 = true.
Proof. exact (reject_head (repeat zero (N.to_nat 65534))). Qed.

(* a later tail offset does not fit: the range assert on tail_offset_accumulator fails at run time
   (idealised machine; on the AVM the 4096-byte cap of concat strikes long before) *)
Definition T5 : ty := TTuple None [TString; TString].
Definition S5 : src := SMembers [SBytesLit (repeat zero (N.to_nat 65530)); SBytesLit []].

(* two dynamic members: offsets 4 and 4 + the length of the first tail *)
Lemma assemble_dyn_pair : forall a b,
    assemble [ED a; ED b] = obind (u16 (4 + blen a)) (fun o => Some ((be_encode 2 4 ++ o) ++ a ++ b)).
Proof.
  intros a b. unfold assemble. change (head_len [ED a; ED b] 0) with 4. cbn [asm obind u16 N.ltb N.compare Pos.compare Pos.compare_cont].
  destruct (u16 (4 + blen a)) as [o|]; [|reflexivity]. cbn [obind fst snd pack_bools rev' rev_append pack_bits Nat.eqb app].
  rewrite !app_nil_r. reflexivity.
Qed.

(* (z, "") at (string,string) for a literal z that fits a string: accepted, and the spec's encoding exists iff
   the second offset 4 + (2 + |z|) fits a uint16 *)
Lemma string_pair : forall z, blen z < 65536 ->
    set_ok T5 (SMembers [SBytesLit z; SBytesLit []]) = true /\
    arc4_encode T5 (VList [VBytes z; VBytes []]) =
    obind (u16 (4 + (2 + blen z))) (fun o => Some ((be_encode 2 4 ++ o) ++ (be_encode 2 (blen z) ++ z) ++ be_encode 2 0 ++ [])).
Proof.
  intros z Hz. apply N.ltb_lt in Hz. split.
  - cbn [T5 set_ok is_copy uncopy negb orb andb map zip_forall]. unfold encoded_byte_string. rewrite Hz. reflexivity.
  - cbn [T5 arc4_encode map tuple_enc enc_seq is_bool is_dynamic enc_elem]. rewrite !dyn_bytes_enc_spec, Hz.
    change (blen [] <? 65536) with true. cbn [option_map obind].
    rewrite assemble_dyn_pair, blen_app, be_encode_len. reflexivity.
Qed.

Lemma fail_offset : forall z, blen z = 65530 -> let s := SMembers [SBytesLit z; SBytesLit []] in
    is_fail (set_outcome None T5 s) && set_ok T5 s && spec_has_no_encoding T5 s && src_wf s = true.
Proof.
  intros z Hz s. destruct (string_pair z ltac:(rewrite Hz; reflexivity)) as [Hok He]. fold s in Hok.
  rewrite Hz in He. change (u16 (4 + (2 + 65530))) with (@None bytes) in He.
  rewrite (set_encodes_per_arc4 T5 s (VList [VBytes z; VBytes []]) eq_refl eq_refl eq_refl). unfold spec_has_no_encoding.
  change (denote T5 s) with (Some (VList [VBytes z; VBytes []])). cbv beta iota. rewrite He, Hok. reflexivity.
Qed.

Example ex_fail_offset :
  is_fail (set_outcome None T5 S5) && set_ok T5 S5 && spec_has_no_encoding T5 S5 && src_wf S5 = true.
Proof. exact (fail_offset _ (blen_repeat zero 65530)). Qed.

(* ... and one byte less fits: offsets 4 and 65535 *)
Definition S5' : src := SMembers [SBytesLit (repeat zero (N.to_nat 65529)); SBytesLit []].

Lemma ok_offset : forall z, blen z = 65529 ->
    bytes_start_with (set_outcome None T5 (SMembers [SBytesLit z; SBytesLit []])) (hex "0004ffff") = true.
Proof.
  intros z Hz. destruct (string_pair z ltac:(rewrite Hz; reflexivity)) as [_ He].
  rewrite Hz in He. change (u16 (4 + (2 + 65529))) with (Some (be_encode 2 65535)) in He.
  rewrite (set_encodes_per_arc4 T5 (SMembers [SBytesLit z; SBytesLit []]) (VList [VBytes z; VBytes []]) eq_refl eq_refl eq_refl), He.
  reflexivity.
Qed.

Example ex_ok_offset : bytes_start_with (set_outcome None T5 S5') (hex "0004ffff") = true.
Proof. exact (ok_offset _ (blen_repeat zero 65529)). Qed.

(* encode_tuple_correct's hypothesis [Forall2 rep] on a concrete member list *)
Example ex_rep : Forall2 rep [(TBool, sb true); (TUint 16, SI 5); (TString, SB (hex "000568656c6c6f"))]
                             [EB true; ES (hex "0005"); ED (hex "000568656c6c6f")].
Proof.
  repeat constructor.
Qed.
