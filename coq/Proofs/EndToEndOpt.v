(* Proofs/EndToEndOpt.v — the end-to-end theorem with the scratch-slot optimiser switched ON, as far as
   C03's theorem about the optimiser goes (Proofs/OptimizeCorrect.v, [optimize_routine_sound_partial]):
   the optimiser only deletes load/store operations, so it keeps the shape facts the sort and flatten
   stages need (well-formedness, the single exit); its behavioural theorem is conditional and relates
   the final states only up to the scratch cells of the removed slots, and so is this composition. *)
From Coq Require Import List Arith NArith String Bool Lia.
From PV Require Import Base.Bytes AVM.Syntax AVM.Machine Src.Expr Src.Denote
  Comp.Blocks Comp.Lower Comp.Passes Comp.GraphSem Comp.LinearSem Comp.SimCheck Comp.Compile
  Proofs.LowerFrame Proofs.LowerCorrect Proofs.LowerShape Proofs.NormalizeSem
  Proofs.NormalizeLowered Proofs.FlattenCorrect Proofs.SortCorrect
  Proofs.OptimizeSem Proofs.OptimizeCorrect
  Proofs.EndToEndExits Proofs.EndToEndGlue Proofs.EndToEnd.
Import ListNotations.

Lemma term_kept l i : is_term_op i = true -> keep_op l i = true.
Proof.
  unfold is_term_op, keep_op, is_op. destruct (i_op i); intros H; try discriminate H; reflexivity.
Qed.

Lemma existsb_filter_term l ops :
  existsb is_term_op (filter (keep_op l) ops) = existsb is_term_op ops.
Proof.
  induction ops as [|a t IH]; [reflexivity|]. cbn [filter existsb].
  destruct (keep_op l a) eqn:K; cbn [existsb]; rewrite IH; [reflexivity|].
  destruct (is_term_op a) eqn:T; [|reflexivity]. rewrite (term_kept l a T) in K. discriminate K.
Qed.

Lemma filter_block_bpres l b : bpres b (filter_block l b).
Proof.
  unfold filter_block. split.
  - intros [T O]. rewrite b_ops_set_ops, existsb_filter_term in T. rewrite outgoing_set_ops in O.
    split; assumption.
  - intros o E. subst b. cbn. eauto.
Qed.

Lemma rsa_gpres g start l : gpres g (remove_slot_access g start l).
Proof.
  intros i. rewrite rsa_blk. destruct (mem_id i (iterate g start)); destruct (g_blk g i) as [b|]; cbn [option_map];
    try reflexivity; eexists; (split; [reflexivity|]); [apply filter_block_bpres|apply bpres_refl].
Qed.

Lemma rsteps_keeps start g g' Ls en :
  rsteps start g g' Ls -> wf g -> exits_at g en -> wf g' /\ exits_at g' en.
Proof.
  induction 1 as [g|g g' cur L Ls Hc Hok S IH]; intros W X; [auto|].
  apply IH.
  - intros i Li. rewrite rsa_next in Li. rewrite rsa_blk, (W i Li). destruct (mem_id i (iterate g start)); reflexivity.
  - exact (exits_gpres _ _ _ (rsa_gpres g start L) X).
Qed.

Theorem optimize_keeps_shape g start skip g' en :
  optimize_routine g start skip = Some g' -> wf g -> exits_at g en -> wf g' /\ exits_at g' en.
Proof.
  intros H. destruct (optimize_routine_steps _ _ _ _ H) as [Ls S]. exact (rsteps_keeps _ _ _ _ _ S).
Qed.

Lemma conf_eqx_final C c c' :
  conf_eqx C c c' -> gfinal c = true -> ok_out c -> gfinal c' = true /\ ok_out c'.
Proof.
  destruct c, c'; cbn; intros E F O; try contradiction; try discriminate F; auto.
  subst. auto.
Qed.

(* PARTIAL: the hypotheses ids_bounded / slot_ops_wf / no_orphan_store / inj_on / safe_from are those of
   C03's optimiser theorem; no_orphan_store is not established by the code (C03_optimizer_refuted), and
   the conclusion is "same outcome up to the scratch cells of the removed slots". *)
Theorem routine_end_to_end_optimized_partial o sub ast0 cr skip g' order code :
  (match sub with Some r => r_deferred r | None => None end) = None ->
  compile_one o sub ast0 = COk cr ->
  head_loop (root_ast ast0) = false ->
  optimize_routine (cr_graph cr) (cr_start cr) skip = Some g' ->
  sort_blocks g' (cr_start cr) (cr_end cr) = Some order ->
  flatten_blocks g' order = Some code ->
  ids_bounded (cr_graph cr) (cr_start cr) ->
  slot_ops_wf (cr_graph cr) (iterate (cr_graph cr) (cr_start cr)) ->
  no_orphan_store (cr_graph cr) g' (cr_start cr) ->
  pos_of g' order (cr_start cr) = 0 /\
  forall env, consistent env (routine_ctx o sub) ->
  inj_on env (removed_slot (cr_graph cr) g' (cr_start cr)) ->
  forall fuel stk st gh, ghalt_of (denote env fuel (root_ast ast0) stk st) = Some gh ->
    safe_from (PL env (removed_slot (cr_graph cr) g' (cr_start cr))) env (g_blk (cr_graph cr)) (GAt (cr_start cr) stk st) ->
    exists gh',
      conf_eqx (cellsL env (removed_slot (cr_graph cr) g' (cr_start cr))) gh gh' /\
      lstar env code (LAt 0 stk st) (img (pos_of g' order) gh') /\
      forall c2, lstar env code (LAt 0 stk st) c2 -> lfinal c2 = true -> c2 = img (pos_of g' order) gh'.
Proof.
  intros D E HL HO HS HF Hb Hw Hno.
  destruct (compiled_routine_facts o sub ast0 cr D E) as (s & g0 & EL & W0 & EQ & W3 & X3).
  destruct (optimize_keeps_shape _ _ _ _ _ HO W3 X3) as [W4 X4].
  pose proof (exits_single_exit _ (cr_start cr) _ X4) as SE.
  pose proof (exits_start_first _ (cr_start cr) _ X4) as H1.
  split.
  - destruct (sort_start_first _ _ _ _ W4 HS H1) as (t & Eo). rewrite Eo. apply pos_of_head.
  - intros env Hc Hinj fuel stk st gh Eg Hs.
    pose proof (routine_graph_correct o sub ast0 cr D E HL env Hc fuel stk st gh Eg) as S3.
    destruct (ghalt_props _ _ Eg) as (Hal & Fin & Ok).
    destruct (optimize_routine_sound_partial env _ _ _ _ HO Hb Hw Hno Hinj stk st Hs gh Hal) as [Fw _].
    destruct (Fw S3) as (gh' & S4 & Q).
    destruct (conf_eqx_final _ _ _ Q Fin Ok) as [Fin' Ok'].
    exists gh'. split; [exact Q|]. split.
    + exact (flatten_sort_correct env _ _ _ _ _ W4 HS HF SE H1 stk st gh' S4 Ok').
    + exact (proj2 (flatten_sort_correct_final env _ _ _ _ _ W4 HS HF SE H1 stk st gh' S4 Fin' Ok')).
Qed.

(* when the optimiser removes no slot, the behavioural side conditions hold trivially *)
Lemma ops_safe_all (P : instr -> list value -> Prop) env :
  (forall i stk, P i stk) -> forall ops stk st, ops_safe P env ops stk st.
Proof.
  intros HP. induction ops as [|i t IH]; intros stk st; cbn [ops_safe]; [exact Logic.I|].
  destruct (is_return (i_op i)); [exact Logic.I|]. destruct (is_retsub (i_op i)); [exact Logic.I|].
  split; [apply HP|]. destruct (do_op env (i_op i) (i_args i) stk st); try exact Logic.I. apply IH.
Qed.

Lemma safe_from_none env (L : N -> Prop) G c : (forall u, ~ L u) -> safe_from (PL env L) env G c.
Proof.
  intros HL b stk st blk _ _. apply ops_safe_all. intros i s. split.
  - intros u Hu. destruct (HL u Hu).
  - intros cell _ [u [Hu _]]. destruct (HL u Hu).
Qed.

Lemma inj_on_none env (L : N -> Prop) : (forall u, ~ L u) -> inj_on env L.
Proof. intros HL u v Hu. destruct (HL u Hu). Qed.

Lemma no_removed_of_loaded g g' start :
  incl (loaded_slots g (iterate g start)) (loaded_slots g' (iterate g start)) ->
  forall u, ~ removed_slot g g' start u.
Proof.
  intros H u [H1 H2]. apply H2. apply has_load_iff. apply H. apply has_load_iff. exact H1.
Qed.
