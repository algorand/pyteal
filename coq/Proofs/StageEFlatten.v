(* Proofs/StageEFlatten.v — stage E: the code flattenBlocks emits is label-closed (every branch it adds targets
   a label it emits), provided no block BODY contains a branch instruction; prefixing and the pragma keep that. *)
From Coq Require Import List Arith NArith Ascii String Bool Lia.
From PV Require Import Base.Bytes Base.Sexp AVM.Syntax AVM.Machine Src.Expr Src.Denote
  Comp.Blocks Comp.Passes Comp.GraphSem Comp.LinearSem Comp.Compile
  Proofs.FlattenCorrect Proofs.StageELink Proofs.StageECompose.
Import ListNotations.

(* after the operations of a block flattenBlocks puts jumps only, to labels of listed blocks it records *)
Definition jump_to (r : list nat) (n : nat) (j : instr) : Prop :=
  exists o ni, j = mkI o [ALbl (label_of ni)] /\ In ni r /\ ni < n.

Lemma flatten_one_inv g blocks i b code r : flatten_one g blocks i b = Some (code, r) ->
  exists extra, code = get_ops g b ++ extra /\ Forall (jump_to r (List.length blocks)) extra.
Proof.
  unfold flatten_one, get_ops. destruct (g_blk g b) as [bb|]; [|discriminate].
  assert (J : forall o x n rr, index_of x blocks 0 = Some n -> In n rr ->
                jump_to rr (List.length blocks) (mkI o [ALbl (label_of n)])).
  { intros o x n rr Hx Hn. exists o, n. split; [reflexivity|]. split; [exact Hn|].
    exact (nth_error_Some_lt _ _ _ (index_of_nth _ _ _ Hx)). }
  assert (Z : exists extra, b_ops bb = b_ops bb ++ extra /\ Forall (jump_to [] (List.length blocks)) extra).
  { exists []. rewrite app_nil_r. split; [reflexivity|constructor]. }
  destruct (is_terminal bb); [intros H; injection H as <- <-; exact Z|].
  destruct bb as [ops [nx|]|ops [t|] [f|]]; cbn [b_ops] in *; try discriminate.
  - destruct (index_of nx blocks 0) as [ni|] eqn:En; [|discriminate].
    destruct (Nat.eqb ni (S i)); intros H; injection H as <- <-; [exact Z|].
    eexists. split; [reflexivity|]. constructor; [eapply J; [exact En|left; reflexivity]|constructor].
  - intros H; injection H as <- <-; exact Z.
  - destruct (index_of t blocks 0) as [ti|] eqn:Et; [|discriminate].
    destruct (index_of f blocks 0) as [fi|] eqn:Ef; [|discriminate].
    destruct (Nat.eqb fi (S i)); [|destruct (Nat.eqb ti (S i))]; intros H; injection H as <- <-;
      (eexists; split; [reflexivity|]).
    + constructor; [eapply J; [exact Et|left; reflexivity]|constructor].
    + constructor; [eapply J; [exact Ef|left; reflexivity]|constructor].
    + constructor; [eapply J; [exact Et|left; reflexivity]|].
      constructor; [eapply J; [exact Ef|right; left; reflexivity]|constructor].
Qed.

(* an instruction of the flattened code: an operation of a listed block, or a jump to an emitted label *)
Theorem flatten_blocks_inv g blocks code ins :
  flatten_blocks g blocks = Some code -> In (COp ins) code ->
  (exists b, In b blocks /\ In ins (get_ops g b)) \/
  (exists o ni pos, ins = mkI o [ALbl (label_of ni)] /\ find_label (label_of ni) code = Some pos).
Proof.
  unfold flatten_blocks. destruct (flatten_collect g blocks 0 blocks) as [[codes refs]|] eqn:C; [|discriminate].
  intros E Hc. injection E as <-.
  destruct (collect_spec g blocks blocks 0 codes refs C) as (L & Sp).
  assert (X : forall cs i, In (COp ins) (flatten_emit cs refs i) -> exists cd, In cd cs /\ In ins cd).
  { induction cs as [|cd t IH]; intros i H; [destruct H|]. rewrite emit_cons in H.
    apply in_app_or in H as [H|H]; [apply in_app_or in H as [H|H]|].
    - unfold lab in H. destruct (mem_nat i refs); [destruct H as [H|[]]; discriminate H|destruct H].
    - apply in_map_iff in H as (x & Ex & Hx). injection Ex as ->. exists cd. split; [left; reflexivity|exact Hx].
    - destruct (IH _ H) as (cd' & H1 & H2). exists cd'. split; [right; exact H1|exact H2]. }
  destruct (X codes 0 Hc) as (cd & Hcd & Hin). destruct (In_nth_error _ _ Hcd) as (j & N).
  assert (Hj : j < List.length blocks) by (rewrite <- L; exact (nth_error_Some_lt _ _ _ N)).
  destruct (nth_error blocks j) as [b|] eqn:Nb; [|apply nth_error_None in Nb; lia].
  destruct (Sp j b Nb) as (code' & r & F & N' & R). rewrite N in N'. injection N' as <-.
  destruct (flatten_one_inv g blocks _ b cd r F) as (extra & -> & Fx).
  apply in_app_or in Hin as [Hin|Hin]; [left; exists b; split; [exact (nth_error_In _ _ Nb)|exact Hin]|right].
  rewrite Forall_forall in Fx. destruct (Fx ins Hin) as (o & ni & -> & Hr & Hlt).
  rewrite <- L in Hlt. destruct (nth_error codes ni) as [cn|] eqn:Nn; [|apply nth_error_None in Nn; lia].
  exists o, ni, (epos codes refs ni). split; [reflexivity|].
  apply (find_label_emit codes refs ni cn Nn). apply mem_nat_In. apply R. exact Hr.
Qed.

Theorem flatten_targets_ok g blocks code :
  flatten_blocks g blocks = Some code ->
  (forall b ins, In b blocks -> In ins (get_ops g b) -> jump_of ins = None) ->
  targets_ok code = true.
Proof.
  intros HF NJ. unfold targets_ok. apply forallb_forall. intros c Hc.
  destruct c as [ins|l cm|v]; try reflexivity. cbn [target_ok].
  destruct (jump_of ins) as [[k l]|] eqn:Ej; [|reflexivity].
  destruct (flatten_blocks_inv g blocks code ins HF Hc) as [(b & Hb & Hi)|(o & ni & pos & -> & FL)].
  - rewrite (NJ b ins Hb Hi) in Ej. discriminate Ej.
  - destruct (jump_of_inv _ _ _ Ej) as [_ Ea]. cbn [i_args] in Ea. injection Ea as <-. rewrite FL. reflexivity.
Qed.

(* the prefix and the pragma keep label-closedness *)
Lemma main_comps_targets version code : targets_ok code = true -> targets_ok (main_comps version code) = true.
Proof.
  unfold targets_ok, main_comps. intros H. cbn [forallb target_ok]. rewrite forallb_forall in H.
  apply forallb_forall. intros c Hc. apply in_map_iff in Hc as (c0 & <- & Hc0). specialize (H c0 Hc0).
  destruct c0 as [ins|l cm|v]; try reflexivity.
  rewrite prefix_labels_op. cbn [target_ok] in *. rewrite jump_of_rw.
  destruct (jump_of ins) as [[k l]|]; [|reflexivity].
  rewrite find_label_pragma, find_label_prefix. destruct (find_label l code); [reflexivity|discriminate H].
Qed.
